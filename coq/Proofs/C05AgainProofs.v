(* C05, safety, second half: no ServiceResolved after a ServiceRemoved of the same instance on the
   same channel unless a record of the instance (or of its host) was delivered in between -
   the checker's F05_again never fires on the model's trace, outside the classes of safe_class
   and for histories whose browse calls use increasing channel numbers.  Here one iteration; over
   histories: C05HistoryProofs.no_resolved_again.

   The invariant (DI) ties the checker's "dead" list to the model state: for every dead entry
   (channel, instance, iteration j) and the type browsed on that channel, either a relevant
   delivery with index >= j is in the log, or the instance is not strongly alive in the cache.
   Liveness only decreases without a relevant delivery (alive_shrinks, alive_later, aou_frame);
   what the daemon reports resolved is strongly alive (valid_alive). *)
From Coq Require Import List NArith Bool Lia.
From Mdns Require Import Bytes ListFacts Rec Cache Browser C03Spec BrowserSpec BrowserKnown CacheProofs CacheInvProofs
  BrowserProofs BrowserLoopProofs C05SafetyProofs AouCasesProofs C04OrderProofs.
Import ListNotations.
Open Scope N_scope.

Lemma alive_elim c now ty inst :
  alive_strong c now ty inst = true ->
  exists pb p sb e ab a,
    bm_get ty (c_ptr c) = Some pb /\ In p pb /\ alias_of (e_rr p) = inst /\ expires_soon p now = false
    /\ bm_get inst (c_srv c) = Some sb /\ In e sb /\ expires_soon e now = false /\ srv_host e <> []
    /\ bm_get (lower (srv_host e)) (c_addr c) = Some ab /\ In a ab /\ expires_soon a now = false.
Proof.
  unfold alive_strong. intros H. apply andb_true_iff in H as [Hp Hs].
  apply existsb_exists in Hp as [p [Hp Hps]]. apply negb_true_iff in Hps.
  unfold ptr_entries in Hp. destruct (bm_get ty (c_ptr c)) as [pb|] eqn:Epb; [|destruct Hp].
  apply filter_In in Hp as [Hp Hal]. apply beq_eq in Hal.
  apply existsb_exists in Hs as [e [He Hc]].
  apply andb_true_iff in Hc as [Hc Ha]. apply andb_true_iff in Hc as [Hes Hh].
  apply negb_true_iff in Hes. apply negb_true_iff in Hh.
  unfold srv_entries in He. destruct (bm_get inst (c_srv c)) as [sb|] eqn:Esb; [|destruct He].
  apply existsb_exists in Ha as [a [Ha Has]]. apply negb_true_iff in Has.
  unfold addr_entries, get_addr in Ha. destruct (bm_get (lower (srv_host e)) (c_addr c)) as [ab|] eqn:Eab; [|destruct Ha].
  exists pb, p, sb, e, ab, a. repeat split; auto.
  intros E. rewrite E in Hh. discriminate.
Qed.

Lemma alive_intro c now ty inst pb p sb e ab a :
  bm_get ty (c_ptr c) = Some pb -> In p pb -> alias_of (e_rr p) = inst -> expires_soon p now = false ->
  bm_get inst (c_srv c) = Some sb -> In e sb -> expires_soon e now = false -> srv_host e <> [] ->
  bm_get (lower (srv_host e)) (c_addr c) = Some ab -> In a ab -> expires_soon a now = false ->
  alive_strong c now ty inst = true.
Proof.
  intros Epb Hp Hal Hps Esb He Hes Hh Eab Ha Has. unfold alive_strong. apply andb_true_iff. split.
  - apply existsb_exists. exists p. split; [|now rewrite Hps].
    unfold ptr_entries. rewrite Epb. apply filter_In. split; [exact Hp|]. rewrite Hal. apply beq_refl.
  - apply existsb_exists. exists e. split; [unfold srv_entries; now rewrite Esb|].
    rewrite Hes. simpl.
    assert (Hn : negb (is_nil (srv_host e)) = true) by (destruct (srv_host e); [congruence|reflexivity]).
    rewrite Hn. simpl.
    apply existsb_exists. exists a. split; [unfold addr_entries, get_addr; now rewrite Eab|now rewrite Has].
Qed.

Lemma eshr_soon e e' now : eshr e e' -> expires_soon e' now = false -> expires_soon e now = false.
Proof. intros (_ & _ & _ & H) Hs. apply expires_soon_false in Hs. apply expires_soon_false. lia. Qed.

Lemma soon_later e now now' : now <= now' -> expires_soon e now' = false -> expires_soon e now = false.
Proof. intros H Hs. apply expires_soon_false in Hs. apply expires_soon_false. lia. Qed.

(* a chain PTR -> SRV -> address is alive in c as soon as c holds, under the same keys, entries that
   share the records of the chain and expire no earlier *)
Lemma alive_shared L c now ty inst p e a :
  Inv L c ->
  (exists b x, In (ty, b) (get_map c KPtr) /\ In x b /\ eshr x p) ->
  (exists b x, In (inst, b) (get_map c KSrv) /\ In x b /\ eshr x e) ->
  (exists b x, In (lower (srv_host e), b) (get_map c KAddr) /\ In x b /\ eshr x a) ->
  alias_of (e_rr p) = inst -> expires_soon p now = false -> expires_soon e now = false -> srv_host e <> [] ->
  expires_soon a now = false ->
  alive_strong c now ty inst = true.
Proof.
  intros HI (pb0 & p0 & A1 & A2 & A3) (sb0 & e0 & B1 & B2 & B3) (ab0 & a0 & C1 & C2 & C3) Hal Hps Hes Hh Has.
  assert (Ee : e_rr e = e_rr e0) by apply B3.
  assert (Ep : e_rr p = e_rr p0) by apply A3.
  apply (alive_intro c now ty inst pb0 p0 sb0 e0 ab0 a0).
  - apply In_bm_get; [apply (Inv_nodup L c KPtr HI)|exact A1].
  - exact A2.
  - now rewrite <- Ep.
  - eapply eshr_soon; eauto.
  - apply In_bm_get; [apply (Inv_nodup L c KSrv HI)|exact B1].
  - exact B2.
  - eapply eshr_soon; eauto.
  - unfold srv_host in *. now rewrite <- Ee.
  - unfold srv_host in *. rewrite <- Ee. apply In_bm_get; [apply (Inv_nodup L c KAddr HI)|exact C1].
  - exact C2.
  - eapply eshr_soon; eauto.
Qed.

Lemma alive_shrinks L c c' now ty inst :
  Inv L c -> shrinks_to c c' -> alive_strong c' now ty inst = true -> alive_strong c now ty inst = true.
Proof.
  intros HI Hs Ha. apply alive_elim in Ha as (pb & p & sb & e & ab & a & Epb & Hp & Hal & Hps & Esb & He & Hes & Hh & Eab & Hin & Has).
  apply (alive_shared L c now ty inst p e a HI); auto.
  - exact (Hs KPtr ty pb p (bm_get_In _ _ _ Epb) Hp).
  - exact (Hs KSrv inst sb e (bm_get_In _ _ _ Esb) He).
  - exact (Hs KAddr _ ab a (bm_get_In _ _ _ Eab) Hin).
Qed.

Lemma alive_later c now now' ty inst :
  now <= now' -> alive_strong c now' ty inst = true -> alive_strong c now ty inst = true.
Proof.
  intros Hle Ha. apply alive_elim in Ha as (pb & p & sb & e & ab & a & Epb & Hp & Hal & Hps & Esb & He & Hes & Hh & Eab & Hin & Has).
  apply (alive_intro c now ty inst pb p sb e ab a); eauto using soon_later.
Qed.

Lemma dedup_pairs_nil l : forall seen, dedup_pairs l seen <> [] -> l <> [].
Proof. destruct l; intros seen H; [simpl in H; congruence|discriminate]. Qed.

(* what resolve_service_from_cache finds valid is strongly alive, and its host is an SRV target *)
Lemma valid_alive c now ty inst pb p :
  bm_get ty (c_ptr c) = Some pb -> In p pb -> alias_of (e_rr p) = inst -> expires_soon p now = false ->
  is_valid (resolve_from_cache c now ty inst) = true ->
  alive_strong c now ty inst = true
  /\ exists sb e, bm_get inst (c_srv c) = Some sb /\ In e sb
                  /\ srv_host e = rs_host (resolve_from_cache c now ty inst)
                  /\ rs_host (resolve_from_cache c now ty inst) <> [].
Proof.
  intros Epb Hp Hal Hps Hv. unfold is_valid in Hv. apply negb_true_iff in Hv.
  apply orb_false_iff in Hv as [Hv Haddrs]. apply orb_false_iff in Hv as [_ Hhost].
  unfold resolve_from_cache in *. cbn [rs_host rs_addrs] in *.
  destruct (bm_get inst (c_srv c)) as [sb|] eqn:Esb; [|discriminate].
  destruct (find (fun e => negb (expires_soon e now)) sb) as [e|] eqn:Ef; [|discriminate].
  apply find_some in Ef as [He Hes]. apply negb_true_iff in Hes.
  assert (Hh : srv_host e <> []) by (intros E; rewrite E in Hhost; discriminate).
  destruct (get_addr c (srv_host e)) as [ab|] eqn:Eab; [|discriminate].
  assert (Hne : filter (fun e0 => negb (expires_soon e0 now)) ab <> []).
  { intros E. rewrite E in Haddrs. discriminate. }
  destruct (filter (fun e0 => negb (expires_soon e0 now)) ab) as [|a rest] eqn:Efl; [congruence|].
  assert (Ha : In a (filter (fun e0 => negb (expires_soon e0 now)) ab)) by (rewrite Efl; now left).
  apply filter_In in Ha as [Ha Has]. apply negb_true_iff in Has.
  split.
  - apply (alive_intro c now ty inst pb p sb e ab a); auto.
  - exists sb, e. auto.
Qed.

(* in cases (B) and (C) of aou_cases the new entry carries the incoming record *)
Lemma aou_new_rr c now ifx r fu k key b' e' :
  In (key, b') (get_map (fst (add_or_update c now ifx r fu)) k) -> In e' b' ->
  (exists b e, In (key, b) (get_map c k) /\ In e b /\ eshr e e')
  \/ (kind_of_type (r_type r) = Some k /\ key = key_of k (r_name r)
      /\ r_name (e_rr e') = r_name r /\ r_type (e_rr e') = r_type r /\ r_data (e_rr e') = r_data r).
Proof.
  intros Hb He. destruct (aou_cases c now ifx r fu k key b' e' Hb He) as [H|(Hk & Hkey & [[-> _]|H])]; [now left| |].
  - right. repeat split; auto.
  - right. destruct H as (b & e & _ & _ & Hm & -> & _). split; [exact Hk|]. split; [exact Hkey|].
    unfold entry_matches in Hm. apply rr_matches_spec in Hm as (M1 & M2 & _ & _ & M5 & _).
    destruct (fl_eshr r ifx now e) as (S1 & _). unfold reset_ttl, set_ttl. simpl. rewrite S1. auto.
Qed.

Section Again.
  Variable Lf : list dlv.
  Hypothesis Hvar : known_ptr_variant Lf = false.
  Hypothesis Htgt : known_srv_targets Lf = false.
  Hypothesis Hnames : ptr_names_ok Lf = true.

  (* relevance without knowing the host: an address record counts when some SRV record of the
     instance in the whole history names its owner *)
  Definition relevantL (inst : bytes) (d : dlv) : bool :=
    relevant inst [] d
    || (is_addr_type (r_type (dl_rr d))
        && existsb (fun d' => (r_type (dl_rr d') =? TY_SRV) && beq (r_name (dl_rr d')) inst
                              && beq (lower (r_name (dl_rr d))) (lower (rr_host (dl_rr d')))) Lf).

  Lemma aou_frame L c now ifx r fu now' ty inst :
    Inv L c -> incl L Lf -> relevantL inst (mkDlv now ifx r) = false ->
    alive_strong (fst (add_or_update c now ifx r fu)) now' ty inst = true ->
    alive_strong c now' ty inst = true.
  Proof.
    intros HI Hsub Hrel Ha.
    apply orb_false_iff in Hrel as [Hr1 Hr2]. unfold relevant in Hr1. cbn [dl_rr] in *.
    apply orb_false_iff in Hr1 as [Hr1 _]. apply orb_false_iff in Hr1 as [Hrp Hrs].
    apply alive_elim in Ha as (pb & p & sb & e & ab & a & Epb & Hp & Hal & Hps & Esb & He & Hes & Hh & Eab & Hin & Has).
    set (c' := fst (add_or_update c now ifx r fu)) in *.
    destruct (aou_new_rr c now ifx r fu KPtr ty pb p (bm_get_In _ _ _ Epb) Hp) as [(pb0 & p0 & A1 & A2 & A3)|(Hk & _ & _ & _ & Hd)].
    2:{ exfalso. apply kind_of_type_ptr in Hk. rewrite Hk, N.eqb_refl in Hrp. simpl in Hrp.
        unfold alias_of in Hal, Hrp. rewrite Hd in Hal. rewrite Hal, beq_refl in Hrp. discriminate. }
    destruct (aou_new_rr c now ifx r fu KSrv inst sb e (bm_get_In _ _ _ Esb) He) as [(sb0 & e0 & B1 & B2 & B3)|(Hk & Hkey & _)].
    2:{ exfalso. apply kind_of_type_srv in Hk. simpl in Hkey. rewrite Hk, <- Hkey, beq_refl in Hrs.
        rewrite N.eqb_refl in Hrs. simpl in Hrs. discriminate. }
    assert (Ee : e_rr e = e_rr e0) by apply B3.
    destruct (aou_new_rr c now ifx r fu KAddr _ ab a (bm_get_In _ _ _ Eab) Hin) as [(ab0 & a0 & C1 & C2 & C3)|(Hk & Hkey & _)].
    2:{ exfalso. apply kind_of_type_addr in Hk. rewrite Hk in Hr2. simpl in Hr2, Hkey.
        destruct (entry_delivery Lf L c HI Hsub KSrv inst sb0 e0 B1 B2) as (d0 & Hd0 & Hrr & Hk0 & Hkey0).
        apply kind_of_type_srv in Hk0.
        pose proof (existsb_false_forall _ _ Hr2 d0 Hd0) as Hx. cbv beta in Hx.
        unfold e_type, e_name in *. simpl in Hkey0.
        rewrite Hrr, Hk0, N.eqb_refl, <- Hkey0, beq_refl in Hx. simpl in Hx.
        unfold srv_host in Hkey. rewrite Ee in Hkey. rewrite <- Hkey, beq_refl in Hx. discriminate. }
    apply (alive_shared L c now' ty inst p e a HI); eauto.
  Qed.

  Variable k : N.                       (* index of the iteration *)
  Variable log : list (N * dlv).        (* the checker's log, including all deliveries of iteration k *)

  Definition dlist := list (N * (bytes * N)).

  Definition dead_step (D : dlist) (x : out) : dlist :=
    match x with
    | OEvt ch (ERemoved _ i) => D ++ [(ch, (i, k))]
    | OEvt ch (EResolved r) => filter (fun y => negb (dead_is ch (rs_name r) y)) D
    | _ => D
    end.

  Definition deads (D : dlist) (o : list out) : dlist := fold_left dead_step o D.

  Definition res_ok (D : dlist) (ch : N) (r : resolved) : Prop :=
    forall y, In y D -> dead_is ch (rs_name r) y = true ->
      exists jd, In jd log /\ snd (snd y) <= fst jd /\ relevant (rs_name r) (rs_host r) (snd jd) = true.

  Fixpoint again_ok (D : dlist) (o : list out) : Prop :=
    match o with
    | [] => True
    | x :: t => match x with OEvt ch (EResolved r) => res_ok D ch r | _ => True end /\ again_ok (dead_step D x) t
    end.

  Lemma deads_app D a b : deads D (a ++ b) = deads (deads D a) b.
  Proof. unfold deads. apply fold_left_app. Qed.

  Lemma again_ok_app : forall a D b, again_ok D a -> again_ok (deads D a) b -> again_ok D (a ++ b).
  Proof. induction a as [|x t IH]; intros D b Ha Hb; simpl in *; [exact Hb|]. destruct Ha as [H1 H2]. split; auto. Qed.
  Definition DI (c : cache) (q : list (bytes * N)) (now : N) (D : dlist) : Prop :=
    forall ch inst j ty, In (ch, (inst, j)) D -> q_get ty q = Some ch ->
      alive_strong c now ty inst = false
      \/ exists jd, In jd log /\ j <= fst jd /\ relevantL inst (snd jd) = true.

  (* m bounds every channel number in use (a browse call takes a larger one: fresh_channels), so a dead entry never
     sits on the channel of a later browse; channels are not shared between types *)
  Definition side (q : list (bytes * N)) (D : dlist) (m : N) : Prop :=
    NoDup (map snd q) /\ (forall tc, In tc q -> snd tc <= m)
    /\ (forall y, In y D -> fst y <= m /\ snd (snd y) <= k).

  Lemma DI_incl c q now D D' : incl D' D -> DI c q now D -> DI c q now D'.
  Proof. intros Hi H ch inst j ty Hin Hq. apply (H ch inst j ty (Hi _ Hin) Hq). Qed.

  Lemma side_incl q D D' m : incl D' D -> side q D m -> side q D' m.
  Proof. intros Hi (A & B & C). split; [exact A|]. split; [exact B|]. intros y Hy. apply C, Hi, Hy. Qed.

  Lemma DI_shrink L c c' q now D : Inv L c -> shrinks_to c c' -> DI c q now D -> DI c' q now D.
  Proof.
    intros HI Hs H ch inst j ty Hin Hq. destruct (H ch inst j ty Hin Hq) as [Hb|Ha]; [left|now right].
    destruct (alive_strong c' now ty inst) eqn:E; [|reflexivity].
    rewrite (alive_shrinks L c c' now ty inst HI Hs E) in Hb. discriminate.
  Qed.

  Lemma DI_aou L c now ifx r fu q D m :
    Inv L c -> incl L Lf -> In (k, mkDlv now ifx r) log -> side q D m ->
    DI c q now D -> DI (fst (add_or_update c now ifx r fu)) q now D.
  Proof.
    intros HI Hsub Hlog (_ & _ & HD) H ch inst j ty Hin Hq.
    destruct (relevantL inst (mkDlv now ifx r)) eqn:Er.
    - right. exists (k, mkDlv now ifx r). split; [exact Hlog|]. split; [|exact Er]. apply (HD _ Hin).
    - destruct (H ch inst j ty Hin Hq) as [Hb|Ha]; [left|now right].
      destruct (alive_strong (fst (add_or_update c now ifx r fu)) now ty inst) eqn:E; [|reflexivity].
      rewrite (aou_frame L c now ifx r fu now ty inst HI Hsub Er E) in Hb. discriminate.
  Qed.

  Definition evt_ok (c : cache) (q : list (bytes * N)) (now : N) (x : out) : Prop :=
    match x with
    | OEvt ch (EResolved r) =>
      exists ty, q_get ty q = Some ch /\ alive_strong c now ty (rs_name r) = true
                 /\ exists sb e, bm_get (rs_name r) (c_srv c) = Some sb /\ In e sb
                                 /\ srv_host e = rs_host r /\ rs_host r <> []
    | OEvt ch (ERemoved ty i) => In (ty, ch) q /\ alive_strong c now ty i = false
    | _ => True
    end.

  Lemma nodup_snd_inj (q : list (bytes * N)) a b ch : NoDup (map snd q) -> In (a, ch) q -> In (b, ch) q -> a = b.
  Proof.
    induction q as [|[t c0] rest IH]; simpl; [tauto|]. intros ND. inversion ND as [|x l Hn ND']; subst.
    intros [H1|H1] [H2|H2].
    - congruence.
    - inversion H1; subst. exfalso. apply Hn. apply in_map_iff. exists (b, ch). auto.
    - inversion H2; subst. exfalso. apply Hn. apply in_map_iff. exists (a, ch). auto.
    - auto.
  Qed.

  Lemma relevantL_host L c inst sb e d :
    Inv L c -> incl L Lf -> bm_get inst (c_srv c) = Some sb -> In e sb -> srv_host e <> [] ->
    relevantL inst d = true -> relevant inst (srv_host e) d = true.
  Proof.
    intros HI Hsub Esb He Hh Hr. unfold relevantL in Hr. apply orb_true_iff in Hr as [Hr|Hr].
    - unfold relevant in *. apply orb_true_iff in Hr as [Hr|Hr]; [now rewrite Hr|].
      simpl in Hr. rewrite andb_false_r in Hr. discriminate.
    - apply andb_true_iff in Hr as [Hat Hex]. apply existsb_exists in Hex as [d' [Hd' Hc]].
      apply andb_true_iff in Hc as [Hc Hlow]. apply andb_true_iff in Hc as [Hty Hname].
      apply N.eqb_eq in Hty. apply beq_eq in Hname. apply beq_eq in Hlow.
      destruct (entry_delivery Lf L c HI Hsub KSrv inst sb e (bm_get_In _ _ _ Esb) He) as (d0 & Hd0 & Hrr & Hk0 & Hkey0).
      apply kind_of_type_srv in Hk0. unfold e_type, e_name in *. simpl in Hkey0.
      pose proof (existsb_false_forall _ _ (existsb_false_forall _ _ Htgt d0 Hd0) d' Hd') as Hv.
      unfold srv_tgt in Hv. rewrite Hrr, Hk0, Hty, <- Hkey0, Hname in Hv.
      rewrite !N.eqb_refl, !beq_refl in Hv. simpl in Hv. apply negb_false_iff in Hv. apply beq_eq in Hv.
      unfold relevant. rewrite Hat. apply orb_true_iff. right.
      assert (Hn : negb (is_nil (srv_host e)) = true) by (destruct (srv_host e); [congruence|reflexivity]).
      rewrite Hn. simpl. unfold srv_host. rewrite Hlow, <- Hv. apply beq_refl.
  Qed.

  Lemma dead_is_true ch inst y : dead_is ch inst y = true -> y = (ch, (inst, snd (snd y))).
  Proof.
    destruct y as [c0 [i j]]. unfold dead_is. simpl. intros H. apply andb_true_iff in H as [A B].
    apply N.eqb_eq in A. apply beq_eq in B. now subst.
  Qed.

  Lemma events_step L c q now m : forall o D,
    Inv L c -> incl L Lf -> side q D m -> DI c q now D -> Forall (evt_ok c q now) o ->
    again_ok D o /\ DI c q now (deads D o) /\ side q (deads D o) m.
  Proof.
    induction o as [|x t IH]; intros D HI Hsub Hside HD Ho; simpl; [auto|].
    inversion Ho as [|x0 t0 Hx Ht]; subst.
    assert (Hstep : match x with OEvt ch (EResolved r) => res_ok D ch r | _ => True end
                    /\ DI c q now (dead_step D x) /\ side q (dead_step D x) m).
    { destruct x as [ch [ty i|r|ty i]|qs|ch l]; simpl; auto.
      - destruct Hx as (ty & Hq & Hal & sb & e & Esb & He & Hhost & Hne).
        split.
        + intros y Hy Hdi. apply dead_is_true in Hdi. rewrite Hdi in Hy.
          destruct (HD ch (rs_name r) (snd (snd y)) ty Hy Hq) as [Hb|(jd & A & B & C)]; [congruence|].
          exists jd. split; [exact A|]. split; [exact B|]. rewrite <- Hhost.
          apply (relevantL_host L c (rs_name r) sb e (snd jd) HI Hsub Esb He); [now rewrite Hhost|exact C].
        + assert (Hi : incl (filter (fun y => negb (dead_is ch (rs_name r) y)) D) D)
            by (intros y Hy; apply filter_In in Hy; tauto).
          split; [eapply DI_incl; eauto|eapply side_incl; eauto].
      - destruct Hx as [Hin Hal]. destruct Hside as (S1 & S2 & S3). split; [exact I|]. split.
        + intros ch' inst j ty' Hy Hq. apply in_app_iff in Hy as [Hy|[Hy|[]]]; [now apply (HD ch' inst j ty')|].
          inversion Hy; subst. left. apply q_get_In in Hq.
          now rewrite (nodup_snd_inj q ty' ty ch' S1 Hq Hin).
        + split; [exact S1|]. split; [exact S2|]. intros y Hy. apply in_app_iff in Hy as [Hy|[<-|[]]]; [now apply S3|].
          simpl. split; [apply (S2 _ Hin)|lia]. }
    destruct Hstep as (A & B & C). destruct (IH (dead_step D x) HI Hsub C B Ht) as (A2 & B2 & C2).
    split; [split; assumption|]. split; assumption.
  Qed.

  (* neither ServiceResolved nor ServiceRemoved: leaves the dead list and the up list alone *)
  Definition silent5 (x : out) : Prop :=
    match x with OEvt _ (EResolved _) => False | OEvt _ (ERemoved _ _) => False | _ => True end.

  Lemma silent_deads : forall o D, Forall silent5 o -> again_ok D o /\ deads D o = D.
  Proof.
    induction o as [|x t IH]; intros D H; simpl; [auto|]. inversion H as [|x0 t0 Hx Ht]; subst.
    assert (E : dead_step D x = D) by (destruct x as [ch [ty i|r|ty i]|qs|ch l]; simpl in *; tauto).
    unfold deads in *. simpl. rewrite E. destruct (IH D Ht) as [A B]. split; [|exact B].
    split; [destruct x as [ch [ty i|r|ty i]|qs|ch l]; simpl in *; tauto|exact A].
  Qed.

  Lemma notify_removal_shape q ex x :
    In x (notify_removal q ex) -> exists ch t i, x = OEvt ch (ERemoved t i) /\ In (t, ch) q /\ In (t, i) ex.
  Proof. intros H. apply notify_removal_iff in H as (t & ch & i & A & B & C). exists ch, t, i. auto. Qed.

  Variable now : N.
  Variable cur : list dlv.              (* the deliveries of this iteration *)
  Hypothesis Hcur_log : forall x, In x cur -> In (k, x) log.

  (* the invariant for a state s, its log L, the dead list D and the channel bound m; step5: what one phase gives *)
  Definition good5 (L : list dlv) (s : st) (D : dlist) (m : N) : Prop :=
    Inv L (s_cache s) /\ times_le L now /\ incl L Lf /\ DI (s_cache s) (s_q s) now D /\ side (s_q s) D m.

  Definition step5 (D : dlist) (o : list out) (L' : list dlv) (s' : st) (m' : N) : Prop :=
    again_ok D o /\ good5 L' s' (deads D o) m'.

  Lemma step5_nil L s D m : good5 L s D m -> step5 D [] L s m.
  Proof. intros H. split; [exact I|exact H]. Qed.

  Lemma step5_app D o1 L1 s1 m1 o2 L2 s2 m2 :
    step5 D o1 L1 s1 m1 -> step5 (deads D o1) o2 L2 s2 m2 -> step5 D (o1 ++ o2) L2 s2 m2.
  Proof. intros [A B] [C E]. split; [now apply again_ok_app|]. now rewrite deads_app. Qed.

  Lemma still_step L s D m s' o :
    good5 L s D m -> s_cache s' = s_cache s -> s_q s' = s_q s ->
    Forall (evt_ok (s_cache s) (s_q s) now) o -> step5 D o L s' m.
  Proof.
    intros (HI & Ht & Hsub & HD & Hs) Ec Eq Ho.
    destruct (events_step L (s_cache s) (s_q s) now m o D HI Hsub Hs HD Ho) as (A & B & C).
    split; [exact A|]. unfold good5. rewrite Ec, Eq. auto.
  Qed.

  Lemma silent_shrink_step L s D m s' o :
    good5 L s D m -> Inv L (s_cache s') -> shrinks_to (s_cache s) (s_cache s') -> s_q s' = s_q s ->
    Forall silent5 o -> step5 D o L s' m.
  Proof.
    intros (HI & Ht & Hsub & HD & Hs) HI' Hsh Eq Ho. destruct (silent_deads o D Ho) as [A B].
    split; [exact A|]. rewrite B. unfold good5. rewrite Eq. split; [exact HI'|]. split; [exact Ht|]. split; [exact Hsub|].
    split; [|exact Hs]. apply (DI_shrink L (s_cache s) (s_cache s')); assumption.
  Qed.

  Lemma no_event_silent o : Forall no_event o -> Forall silent5 o.
  Proof. apply Forall_impl. intros [ch e| |]; simpl; tauto. Qed.

  Lemma quiet_step5 L s D m o s' : good5 L s D m -> quiet s o s' -> step5 D o L s' m.
  Proof.
    intros Hg (Hc & Hq & _ & Ho). destruct (csteps_shr L _ _ Hc (proj1 Hg)) as [HI' Hs].
    apply (silent_shrink_step L s D m); auto using cshr_shrinks, no_event_silent.
  Qed.

  Lemma resolve_updated_evts L s updated :
    Inv L (s_cache s) -> incl L Lf ->
    Forall (evt_ok (s_cache s) (s_q s) now) (snd (resolve_updated s now updated)).
  Proof.
    intros HI Hsub. apply Forall_forall. intros x Hx.
    apply resolve_updated_out in Hx as [(ty & ch & p & (ptrs & Hb & Hp & Hq & Hs & _) & Hv & ->)|(ty & ch & i & Hq & (c0 & p & (ptrs & Hb & Hp & _) & Hv & _ & <-) & ->)].
    - assert (Epb : bm_get ty (c_ptr (s_cache s)) = Some ptrs)
        by (apply In_bm_get; [apply (Inv_nodup L _ KPtr HI)|exact Hb]).
      destruct (valid_alive (s_cache s) now ty (alias_of (e_rr p)) ptrs p Epb Hp eq_refl Hs Hv) as [V1 V2].
      simpl. exists ty. split; [exact Hq|]. split; [exact V1|exact V2].
    - simpl. split; [exact Hq|]. apply (invalid_not_alive Lf Htgt Hnames L (s_cache s) HI Hsub now ty ptrs p Hb Hp Hv).
  Qed.

  Lemma resolve_updated_step5 L s D m updated :
    good5 L s D m -> step5 D (snd (resolve_updated s now updated)) L (fst (resolve_updated s now updated)) m.
  Proof.
    intros Hg. pose proof Hg as (HI & Ht & Hsub & HD & Hs).
    destruct (resolve_updated_state s now updated) as [E1 E2].
    apply (still_step L s D m); auto. now apply (resolve_updated_evts L).
  Qed.

  Lemma hr_records_DI ifx q fu D m : forall rs L c,
    Inv L c -> incl L Lf -> (forall r, In r rs -> In (k, mkDlv now ifx r) log /\ In (mkDlv now ifx r) Lf) ->
    side q D m -> DI c q now D -> DI (fst (fst (hr_records c now ifx q fu rs))) q now D.
  Proof.
    induction rs as [|r rest IH]; intros L c HI Hsub Hlog Hs HD; [exact HD|].
    rewrite (proj1 (hr_records_cons c now ifx q fu r rest)).
    apply (IH (L ++ [mkDlv now ifx r])); [apply add_or_update_inv, HI| |intros r0 H0; apply Hlog; now right|exact Hs|].
    - intros x Hx. apply in_app_iff in Hx as [Hx|[<-|[]]]; [now apply Hsub|]. apply (Hlog r). now left.
    - apply (DI_aou L c now ifx r fu q D m HI Hsub (proj1 (Hlog r (or_introl eq_refl))) Hs HD).
  Qed.

  Lemma only_found_silent o : Forall is_found o -> Forall silent5 o.
  Proof.
    intros H. apply Forall_forall. intros x Hx. rewrite Forall_forall in H. specialize (H x Hx).
    destruct x as [ch [ty i|r|ty i]|qs|ch l]; simpl in *; tauto.
  Qed.

  Lemma handle_read_step5 ifs prev cp s d D m :
    good5 (prev ++ cp) s D m -> times_le prev now -> incl (dgram_dlvs ifs now d) cur -> incl cur Lf ->
    step5 D (snd (handle_read ifs s now d)) (prev ++ cp ++ dgram_dlvs ifs now d) (fst (handle_read ifs s now d)) m.
  Proof.
    intros (HI & Ht & Hsub & HD & Hs) Htp Hcur HcurLf.
    unfold handle_read, dgram_dlvs in *. destruct (accepted_msg ifs d) as [msg|].
    2:{ simpl. rewrite !app_nil_r. apply step5_nil. unfold good5. auto. }
    unfold handle_response. fold (msg_records msg).
    destruct (hr_records_ok now (d_if d) (s_q s) (for_us (s_q s) (m_answers msg)) (msg_records msg) _ _ HI) as [HI1 _].
    pose proof (hr_records_found now (d_if d) (s_q s) (for_us (s_q s) (m_answers msg)) (msg_records msg) (s_cache s)) as Ho1.
    assert (Hl : forall r, In r (msg_records msg) ->
                 In (k, mkDlv now (d_if d) r) log /\ In (mkDlv now (d_if d) r) Lf).
    { intros r Hr. assert (In (mkDlv now (d_if d) r) cur) by (apply Hcur, in_map, Hr). auto. }
    pose proof (hr_records_DI (d_if d) (s_q s) (for_us (s_q s) (m_answers msg)) D m (msg_records msg) _ _ HI Hsub Hl Hs HD) as HD1.
    destruct (hr_records (s_cache s) now (d_if d) (s_q s) (for_us (s_q s) (m_answers msg)) (msg_records msg))
      as [[c1 o1] changes]. cbn [fst snd] in *.
    assert (Ht1 : times_le ((prev ++ cp) ++ map (mkDlv now (d_if d)) (msg_records msg)) now).
    { intros x Hx. apply in_app_iff in Hx as [Hx|Hx]; [now apply Ht|].
      apply in_map_iff in Hx as [r [<- _]]. simpl. lia. }
    assert (Hsub1 : incl ((prev ++ cp) ++ map (mkDlv now (d_if d)) (msg_records msg)) Lf).
    { intros x Hx. apply in_app_iff in Hx as [Hx|Hx]; [now apply Hsub|]. apply HcurLf, Hcur, Hx. }
    destruct (silent_deads o1 D (only_found_silent _ Ho1)) as [Q1 Q2].
    assert (Hg1 : good5 ((prev ++ cp) ++ map (mkDlv now (d_if d)) (msg_records msg)) (with_cache s c1) (deads D o1) m).
    { rewrite Q2. unfold good5. simpl. auto. }
    pose proof (resolve_updated_step5 _ (with_cache s c1) _ m (updated_of c1 changes) Hg1) as Hst.
    destruct (resolve_updated (with_cache s c1) now (updated_of c1 changes)) as [s2 o2]. cbn [fst snd] in *.
    rewrite <- app_assoc in Hst.
    apply (step5_app D o1 ((prev ++ cp) ++ map (mkDlv now (d_if d)) (msg_records msg)) (with_cache s c1) m); [|exact Hst].
    split; [exact Q1|exact Hg1].
  Qed.

  Lemma reads_step5 ifs prev ds : forall cp s D m,
    good5 (prev ++ cp) s D m -> times_le prev now -> incl (flat_map (dgram_dlvs ifs now) ds) cur -> incl cur Lf ->
    step5 D (snd (run_cmds (handle_read ifs) s now ds)) (prev ++ cp ++ flat_map (dgram_dlvs ifs now) ds)
          (fst (run_cmds (handle_read ifs) s now ds)) m.
  Proof.
    induction ds as [|d rest IH]; intros cp s D m Hg Htp Hcur HcurLf; simpl.
    - rewrite !app_nil_r. now apply step5_nil.
    - simpl in Hcur.
      assert (Hc1 : incl (dgram_dlvs ifs now d) cur) by (intros x Hx; apply Hcur, in_app_iff; now left).
      assert (Hc2 : incl (flat_map (dgram_dlvs ifs now) rest) cur) by (intros x Hx; apply Hcur, in_app_iff; now right).
      pose proof (handle_read_step5 ifs prev cp s d D m Hg Htp Hc1 HcurLf) as H1.
      destruct (handle_read ifs s now d) as [s1 o1]. cbn [fst snd] in *.
      pose proof (IH (cp ++ dgram_dlvs ifs now d) s1 _ m (proj2 H1) Htp Hc2 HcurLf) as H2.
      destruct (run_cmds (handle_read ifs) s1 now rest) as [s2 o2]. cbn [fst snd] in *.
      rewrite <- app_assoc in H2. eapply step5_app; eauto.
  Qed.

  Lemma silent_queries (o : list out) : (forall x, In x o -> exists qs, x = OQuery qs) -> Forall silent5 o.
  Proof. intros H. apply Forall_forall. intros x Hx. destruct (H x Hx) as [qs ->]. exact I. Qed.

  Lemma exec_call_step5 L s D m cl m' :
    good5 L s D m -> call_fresh m cl = Some m' ->
    step5 D (snd (exec_call s now cl)) L (fst (exec_call s now cl)) m'.
  Proof.
    intros Hg Hfr. pose proof Hg as (HI & Ht & Hsub & HD & (S1 & S2 & S3)).
    destruct cl as [ty ch|ty|inst timeout|ch]; simpl in *.
    - (* browse: a fresh channel *)
      destruct (m <? ch) eqn:Em; [|discriminate]. inversion Hfr; subst m'. apply N.ltb_lt in Em.
      destruct (exec_browse_fields s now ty ch) as (Ec & Eq & _). cbv zeta in Ec, Eq. set (q' := q_set ty ch (s_q s)) in *.
      assert (HD' : DI (s_cache s) q' now D).
      { intros ch0 inst j ty' Hin Hq. destruct (S3 _ Hin) as [Hle _]. simpl in Hle.
        apply q_get_q_set_old in Hq; [now apply (HD ch0 inst j ty')|lia]. }
      assert (Hs' : side q' D ch).
      { split; [now apply (q_set_nodup ty ch (s_q s) m)|]. split; [intros tc; now apply (q_set_bound ty ch (s_q s) m)|].
        intros y Hy. destruct (S3 _ Hy). split; lia. }
      assert (Ho : Forall (evt_ok (s_cache s) q' now) (snd (exec_browse s now ty ch))).
      { apply Forall_forall. intros x Hx. apply exec_browse_out in Hx as (ptrs & p & Eb & A & B & [->|[V ->]]); [exact I|].
        destruct (valid_alive (s_cache s) now ty (alias_of (e_rr p)) ptrs p Eb A eq_refl B V) as [V1 V2].
        simpl. exists ty. split; [|split; [exact V1|exact V2]]. unfold q'. now rewrite q_get_q_set, beq_refl. }
      destruct (events_step L (s_cache s) q' now ch _ D HI Hsub Hs' HD' Ho) as (A & B & C).
      split; [exact A|]. unfold good5. rewrite Ec, Eq. auto.
    - inversion Hfr; subst m'. unfold exec_stop. destruct (q_get ty (s_q s)) eqn:Eq; [|now apply step5_nil].
      apply step5_nil.
      pose proof (cshr_remove_service_type L (s_cache s) ty HI) as Hs.
      unfold good5. cbn [s_cache s_q]. split; [eapply Inv_shr; eauto|]. split; [exact Ht|]. split; [exact Hsub|]. split.
      + apply (DI_shrink L (s_cache s)); [exact HI|now apply cshr_shrinks|].
        intros ch0 inst j ty' Hin Hq. apply q_get_q_remove in Hq as [Hq _]. now apply (HD ch0 inst j ty').
      + split.
        * now apply NoDup_map_filter.
        * split; [|exact S3]. intros tc Hin. apply filter_In in Hin as [Hin _]. now apply S2.
    - inversion Hfr; subst m'. apply (quiet_step5 L s D m); [exact Hg|]. apply (exec_call_quiet s now (CVerify inst timeout)).
    - inversion Hfr; subst m'. apply (quiet_step5 L s D m); [exact Hg|]. apply (exec_call_quiet s now (CMetrics ch)).
  Qed.

  Lemma calls_step5 L : forall cls s D m m',
    good5 L s D m -> calls_fresh m cls = Some m' ->
    step5 D (snd (run_cmds exec_call s now cls)) L (fst (run_cmds exec_call s now cls)) m'.
  Proof.
    induction cls as [|cl rest IH]; intros s D m m' Hg Hfr; simpl in *.
    - inversion Hfr; subst. now apply step5_nil.
    - destruct (call_fresh m cl) as [m1|] eqn:E1; [|discriminate].
      pose proof (exec_call_step5 L s D m cl m1 Hg E1) as H1.
      destruct (exec_call s now cl) as [s1 o1]. cbn [fst snd] in *.
      pose proof (IH s1 _ m1 m' (proj2 H1) Hfr) as H2.
      destruct (run_cmds exec_call s1 now rest) as [s2 o2]. cbn [fst snd] in *.
      eapply step5_app; eauto.
  Qed.

  Lemma resolve_hosts_step5 L names : forall s D m,
    good5 L s D m -> step5 D (snd (resolve_hosts s now names)) L (fst (resolve_hosts s now names)) m.
  Proof.
    induction names as [|h t IH]; intros s D m Hg; simpl.
    - now apply step5_nil.
    - pose proof (resolve_updated_step5 L s D m (dedup (get_instances_on_host (s_cache s) h)) Hg) as H1.
      destruct (resolve_updated s now (dedup (get_instances_on_host (s_cache s) h))) as [s1 o1]. cbn [fst snd] in *.
      pose proof (IH s1 _ m (proj2 H1)) as H2. destruct (resolve_hosts s1 now t) as [s2 o2]. cbn [fst snd] in *.
      eapply step5_app; eauto.
  Qed.

  Lemma evict_step5 L s D m : good5 L s D m -> step5 D (snd (evict s now)) L (fst (evict s now)) m.
  Proof.
    intros (HI & Ht & Hsub & HD & Hs). unfold evict.
    pose proof (cshr_evict_services L (s_cache s) now HI) as Hs1.
    pose proof (evicted_not_alive Lf L (s_cache s) now) as Hev.
    destruct (evict_services (s_cache s) now) as [c1 expired]. cbn [fst snd] in *.
    assert (H1 : Inv L c1) by (eapply Inv_shr; eauto).
    pose proof (cshr_evict_addr L c1 now H1) as Hs2.
    destruct (evict_addr c1 now) as [c2 names]. cbn [fst] in *.
    assert (H2 : Inv L c2) by (eapply Inv_shr; eauto).
    assert (Hg2 : good5 L (with_cache s c2) D m).
    { unfold good5. cbn [s_cache s_q with_cache]. split; [exact H2|]. split; [exact Ht|]. split; [exact Hsub|]. split; [|exact Hs].
      apply (DI_shrink L (s_cache s)); [exact HI| |exact HD].
      eapply shrinks_trans; apply cshr_shrinks; eassumption. }
    assert (Ho1 : Forall (evt_ok c2 (s_q s) now) (notify_removal (s_q s) expired)).
    { apply Forall_forall. intros x Hx. apply notify_removal_shape in Hx as (ch & t & i & -> & Hq & Hin).
      simpl. split; [exact Hq|]. apply (Hev t i Hvar HI Hsub Hin). }
    pose proof (still_step L (with_cache s c2) D m (with_cache s c2) _ Hg2 eq_refl eq_refl Ho1) as St1.
    pose proof (resolve_hosts_step5 L (dedup names) (with_cache s c2) _ m (proj2 St1)) as St2.
    destruct (resolve_hosts (with_cache s c2) now (dedup names)) as [s2 o2]. cbn [fst snd] in *.
    eapply step5_app; eauto.
  Qed.

  Theorem iterate_again ifs prev s it D m m' :
    i_now it = now -> iter_dlvs ifs it = cur -> incl cur Lf ->
    good5 prev s D m -> calls_fresh m (i_calls it) = Some m' ->
    step5 D (snd (iterate ifs s it)) (prev ++ cur) (fst (iterate ifs s it)) m'.
  Proof.
    intros Enow Ecur HcurLf Hg Hfr. rewrite iterate_eq. cbv zeta. cbn [fst snd]. unfold iter_dlvs in Ecur. rewrite Enow in *.
    set (dgs := deliveries_in_order (i_dgrams it)) in *.
    assert (Ht : times_le prev now) by apply Hg.
    assert (Hg0 : good5 (prev ++ []) s D m) by (now rewrite app_nil_r).
    assert (Hc : incl (flat_map (dgram_dlvs ifs now) dgs) cur) by (rewrite Ecur; apply incl_refl).
    pose proof (reads_step5 ifs prev dgs [] s D m Hg0 Ht Hc HcurLf) as St1. simpl in St1. rewrite Ecur in St1.
    set (r1 := run_cmds (handle_read ifs) s now dgs) in *.
    pose proof (calls_step5 _ (i_calls it) (fst r1) _ m m' (proj2 St1) Hfr) as St2.
    set (r2 := run_cmds exec_call (fst r1) now (i_calls it)) in *.
    pose proof (retrans_refresh_quiet (fst r2) now) as Q3. cbv zeta in Q3.
    pose proof (quiet_step5 _ _ _ _ _ _ (proj2 St2) Q3) as St3.
    pose proof (evict_step5 _ _ _ m' (proj2 St3)) as St5.
    rewrite (app_assoc (snd (run_retrans (fst r2) now))).
    eapply step5_app; [exact St1|]. eapply step5_app; [exact St2|]. eapply step5_app; [exact St3|exact St5].
  Qed.
End Again.

Lemma DI_mono Lf log log' c q now now' D :
  incl log log' -> now <= now' -> DI Lf log c q now D -> DI Lf log' c q now' D.
Proof.
  intros Hi Hle H ch inst j ty Hin Hq. destruct (H ch inst j ty Hin Hq) as [Hb|(jd & A & B)].
  - left. destruct (alive_strong c now' ty inst) eqn:E; [|reflexivity].
    rewrite (alive_later c now now' ty inst Hle E) in Hb. discriminate.
  - right. exists jd. split; [apply Hi, A|exact B].
Qed.

Lemma side_mono k k' q D m : k <= k' -> side k q D m -> side k' q D m.
Proof. intros Hle (A & B & C). split; [exact A|]. split; [exact B|]. intros y Hy. destruct (C y Hy). split; lia. Qed.
