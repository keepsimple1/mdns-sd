(* C17: the reference machine (Model/HostresSpec.v) taken apart: what each of its tables is after
   one iteration, in terms of the phases.  The search table and the cache evolve independently
   of each other except that refresh and eviction read the search table; the history theorems
   (schedule, AddressesFound, refresh) are invariants of one of the two.  No axioms. *)
From Coq Require Import List NArith.
From Mdns Require Import Bytes ListFacts ParamsHostres HostresModel HostresSpec.
Import ListNotations.
Open Scope N_scope.

Lemma find_res_view k l : find_res k (map res_of l) = option_map res_of (find_search k l).
Proof. induction l as [|x t IH]; simpl; [reflexivity|]. destruct (beq k (sk_key x)); [reflexivity|exact IH]. Qed.

Lemma find_search_some a l k : find_search a l = Some k -> In k l /\ sk_key k = a.
Proof.
  induction l as [|y t IH]; simpl; [discriminate|].
  destruct (beq a (sk_key y)) eqn:E.
  - intros H. inversion H; subst. apply beq_eq in E. auto.
  - intros H. destruct (IH H). auto.
Qed.

Lemma sk_fire_cases now k :
  sk_fire now k = k
  \/ exists t d, sk_next k = Some (t, d) /\ hp_rerun_due now t = true
                 /\ sk_fire now k = mkSearch (sk_key k) (sk_host k) (sk_chan k) (sk_deadline k)
                                             (next_after now d (sk_deadline k))
                                             (sk_start k) (sk_timeout k) (S (sk_sent k)) now.
Proof.
  unfold sk_fire. destruct (sk_next k) as [[t d]|]; [|left; reflexivity].
  destruct (hp_rerun_due now t) eqn:E; [right; exists t, d; auto|left; reflexivity].
Qed.

Lemma sk_fire_fields now k :
  sk_key (sk_fire now k) = sk_key k /\ sk_host (sk_fire now k) = sk_host k
  /\ sk_chan (sk_fire now k) = sk_chan k /\ sk_deadline (sk_fire now k) = sk_deadline k.
Proof. destruct (sk_fire_cases now k) as [->|[t [d [_ [_ ->]]]]]; auto. Qed.

Lemma res_view_fire now l : map res_of (map (sk_fire now) l) = map res_of l.
Proof.
  rewrite map_map. apply map_ext. intros k. destruct (sk_fire_fields now k) as [H1 [_ [H3 H4]]].
  unfold res_of. rewrite H1, H3, H4. reflexivity.
Qed.

Lemma sp_calls_inv (P : sst -> Prop) now cs p :
  (forall p0 c, In c cs -> P p0 -> P (fst (fst (sp_call now p0 c)))) -> P p -> P (fst (fst (sp_calls now p cs))).
Proof.
  intros H Hp. unfold sp_calls. apply (fold_left_inv (fun a => P (fst (fst a)))); [|exact Hp].
  intros [[p0 e0] q0] c Hc Hp0. cbn [fst] in Hp0. specialize (H p0 c Hc Hp0).
  destruct (sp_call now p0 c) as [[p1 e1] q1]. exact H.
Qed.

Lemma sp_call_cache now p c : ss_cache (fst (fst (sp_call now p c))) = ss_cache p.
Proof. destruct c; simpl; [reflexivity|]. destruct (find_search _ _); reflexivity. Qed.

Lemma sp_calls_cache now cs p : ss_cache (fst (fst (sp_calls now p cs))) = ss_cache p.
Proof.
  apply (sp_calls_inv (fun p' => ss_cache p' = ss_cache p)); [|reflexivity].
  intros p0 c _ H. rewrite sp_call_cache. exact H.
Qed.

Lemma sp_calls_events now cs p ce :
  In ce (snd (fst (sp_calls now p cs))) ->
  exists c p0, In c cs /\ ss_cache p0 = ss_cache p /\ In ce (snd (fst (sp_call now p0 c))).
Proof.
  unfold sp_calls. revert ce.
  refine (proj2 (fold_left_inv (fun a => ss_cache (fst (fst a)) = ss_cache p
             /\ forall ce, In ce (snd (fst a)) ->
                  exists c p0, In c cs /\ ss_cache p0 = ss_cache p /\ In ce (snd (fst (sp_call now p0 c))))
           _ cs _ (p, [], []) _)).
  - intros [[p0 e0] q0] c Hc [Hp He]. cbn [fst snd] in Hp, He.
    pose proof (sp_call_cache now p0 c) as Hcc.
    destruct (sp_call now p0 c) as [[p1 e1] q1] eqn:E. cbn [fst snd] in *. split; [congruence|].
    intros ce Hin. apply in_app_or in Hin as [Hin|Hin]; [apply He; exact Hin|].
    exists c, p0. rewrite E. auto.
  - split; [reflexivity|intros ce []].
Qed.

(* the intermediate results of sp_step p i, each with the outputs of its phase *)
Definition after_resp (p : sst) (i : iter) : cache * list (N * ev) :=
  respond_all (it_now i) (res_view p) (ss_cache p) (it_msgs i).
Definition after_calls (p : sst) (i : iter) : sst * list (N * ev) * list query :=
  sp_calls (it_now i)
           (mkSst (fst (after_resp p i)) (filter (fun k => negb (sk_timed_out (it_now i) k)) (ss_searches p)) (ss_open p))
           (it_calls i).
Definition after_sends (p : sst) (i : iter) : list search :=
  map (sk_fire (it_now i)) (ss_searches (fst (fst (after_calls p i)))).
Definition after_refresh (p : sst) (i : iter) : cache * list query :=
  refresh_all (it_now i) (map res_of (after_sends p i)) (ss_cache (fst (fst (after_calls p i)))).

Lemma after_calls_cache p i : ss_cache (fst (fst (after_calls p i))) = fst (after_resp p i).
Proof. unfold after_calls. rewrite sp_calls_cache. reflexivity. Qed.

Lemma sp_step_eq p i :
  sp_step p i
  = (let now := it_now i in
     let p3 := fst (fst (after_calls p i)) in
     let p6 := mkSst (evict_cache now (fst (after_refresh p i))) (after_sends p i) (ss_open p3) in
     (fst (sp_closed p6),
      mkOut now
        (snd (after_resp p i)
         ++ flat_map (fun k => [(sk_chan k, ETimeout (sk_key k)); (sk_chan k, EStopped (sk_key k))])
                     (filter (sk_timed_out now) (ss_searches p))
         ++ snd (fst (after_calls p i))
         ++ map (fun k => (sk_chan k, EStarted (sk_host k))) (filter (sk_due now) (ss_searches p3))
         ++ snd (evict_all now (map res_of (after_sends p i)) (fst (after_refresh p i)))
         ++ snd (sp_closed p6))
        (snd (after_calls p i)
         ++ map (fun k => host_query (sk_host k)) (filter (sk_due now) (ss_searches p3))
         ++ snd (after_refresh p i)))).
Proof.
  unfold sp_step, after_refresh, after_sends, after_calls, after_resp, sp_responses.
  destruct (respond_all (it_now i) (res_view p) (ss_cache p) (it_msgs i)) as [c1 e1].
  unfold sp_timeouts. cbn [fst snd].
  destruct (sp_calls (it_now i) _ (it_calls i)) as [[p3 e3] q3].
  unfold sp_sends, sp_refresh, res_view. cbn [fst snd ss_cache ss_searches ss_open].
  destruct (refresh_all (it_now i) _ (ss_cache p3)) as [c5 q5]. reflexivity.
Qed.

Lemma sp_step_searches p i : ss_searches (fst (sp_step p i)) = after_sends p i.
Proof. rewrite sp_step_eq. reflexivity. Qed.

Lemma sp_step_cache p i : ss_cache (fst (sp_step p i)) = evict_cache (it_now i) (fst (after_refresh p i)).
Proof. rewrite sp_step_eq. reflexivity. Qed.
