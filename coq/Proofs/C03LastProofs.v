(* C03, the clause "as the network LAST advertised it" (chk_C03_last, Model/C03Spec.v): where
   add_or_update puts a record - one that is new for the cache in FRONT of the (cache-flushed)
   Vec, one that is announced again where it stood. *)
From Coq Require Import List.
From Mdns Require Import Rec Cache CacheProofs AouCasesProofs.
Import ListNotations.
Open Scope N_scope.

Theorem new_record_in_front c now ifx r fu k e0 t0 :
  kind_of_type (r_type r) = Some k ->
  bm_get (key_of k (r_name r)) (get_map c k) = Some (e0 :: t0) ->
  update_first (map (fl r ifx now) (e0 :: t0)) r ifx now = None ->
  bm_get (key_of k (r_name r)) (get_map (fst (add_or_update c now ifx r fu)) k)
  = Some (new_entry r now ifx :: map (fl r ifx now) (e0 :: t0))
  /\ snd (add_or_update c now ifx r fu) = Some (new_entry r now ifx, true).
Proof.
  intros Hk Hb Hu. destruct (aou_shape c now ifx r fu) as [E _ _|k0 B E HB Hk0 _]; [congruence|].
  assert (k0 = k) by congruence. subst k0. rewrite Hb in HB. rewrite Hk0, bm_set_get_same.
  pose proof (update_first_spec r ifx now (map (fl r ifx now) (e0 :: t0))) as HU. rewrite Hu in HU.
  inversion HB as [Hnil _| _ _ |l1 x l2 Hl _ Hm]; [discriminate Hnil|subst; split; reflexivity|].
  (* a match in the bucket would have been found by update_first *)
  exfalso. rewrite <- (flushed_matches r ifx now) in Hm. rewrite (HU (flushed r ifx now x)) in Hm; [discriminate|].
  apply (in_map (fl r ifx now)). rewrite Hl. apply in_app_iff. right. now left.
Qed.

Theorem reannounced_keeps_position r ifx now : forall b b2 z,
  update_first b r ifx now = Some (b2, z) ->
  length b2 = length b
  /\ forall n e, nth_error b n = Some e ->
       nth_error b2 n = Some e \/ (entry_matches e r ifx = true /\ nth_error b2 n = Some (reset_ttl e r now)).
Proof.
  induction b as [|e t IH]; intros b2 z; simpl; [discriminate|].
  destruct (entry_matches e r ifx) eqn:Em.
  - intros H. inversion H; subst. split; [reflexivity|]. intros [|n] x Hx; simpl in *.
    + inversion Hx; subst. right. auto.
    + left. exact Hx.
  - destruct (update_first t r ifx now) as [[t' y]|] eqn:E; [|discriminate].
    intros H. inversion H; subst. destruct (IH t' z eq_refl) as [A B]. split; [simpl; now rewrite A|].
    intros [|n] x Hx; simpl in *; [left; exact Hx|apply B; exact Hx].
Qed.
