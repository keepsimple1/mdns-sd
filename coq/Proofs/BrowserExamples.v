(* Concrete histories: non-vacuity examples for C03-C05 and the refutation witnesses of the
   history-level statements chk_C03_last / chk_C04 / chk_C05 for the faithful model (known findings).
   Datagrams are real mDNS response packets (built by tools/dnsgen.py); the comment of each says what it carries. *)
From Coq Require Import List NArith.
From Mdns Require Import Bytes Rec WireOut C02Spec Browser C03Spec BrowserSpec BrowserKnown.
Import ListNotations.
Open Scope N_scope.

(* full announcement *)
Definition w_full : bytes := [0;0;132;0;0;0;0;1;0;0;0;3;5;95;104;116;116;112;4;95;116;99;112;5;108;111;99;97;108;0;0;12;0;1;0;0;17;148;0;6;3;119;101;98;192;12;192;40;0;33;128;1;0;0;0;120;0;14;0;0;0;0;31;144;5;104;111;115;116;49;192;23;192;40;0;16;128;1;0;0;17;148;0;4;3;97;61;49;192;64;0;1;128;1;0;0;0;120;0;4;192;168;1;50] .
(* goodbye *)
Definition w_bye : bytes := [0;0;132;0;0;0;0;1;0;0;0;3;5;95;104;116;116;112;4;95;116;99;112;5;108;111;99;97;108;0;0;12;0;1;0;0;0;0;0;6;3;119;101;98;192;12;192;40;0;33;128;1;0;0;0;0;0;14;0;0;0;0;31;144;5;104;111;115;116;49;192;23;192;40;0;16;128;1;0;0;0;0;0;4;3;97;61;49;192;64;0;1;128;1;0;0;0;0;0;4;192;168;1;50] .
(* SRV alone: port 9090, TTL 120, cache-flush *)
Definition w_newport : bytes := [0;0;132;0;0;0;0;0;0;0;0;1;3;119;101;98;5;95;104;116;116;112;4;95;116;99;112;5;108;111;99;97;108;0;0;33;128;1;0;0;0;120;0;14;0;0;0;0;35;130;5;104;111;115;116;49;192;27] .
(* PTR under the type and under a subtype, SRV (TTL 3), TXT, A (TTL 120) *)
Definition w_twonames : bytes := [0;0;132;0;0;0;0;2;0;0;0;3;5;95;104;116;116;112;4;95;116;99;112;5;108;111;99;97;108;0;0;12;0;1;0;0;17;148;0;6;3;119;101;98;192;12;8;95;112;114;105;110;116;101;114;4;95;115;117;98;192;12;0;12;0;1;0;0;17;148;0;2;192;40;192;40;0;33;128;1;0;0;0;3;0;14;0;0;0;0;31;144;5;104;111;115;116;49;192;23;192;40;0;16;128;1;0;0;17;148;0;4;3;97;61;49;192;92;0;1;128;1;0;0;0;120;0;4;192;168;1;50] .
(* "_http._tcp.local.", "_printer._sub._http._tcp.local.", "web._http._tcp.local.", "host1.local." *)
Definition n_ty : bytes := [95;104;116;116;112;46;95;116;99;112;46;108;111;99;97;108;46] .
Definition n_sub : bytes := [95;112;114;105;110;116;101;114;46;95;115;117;98;46;95;104;116;116;112;46;95;116;99;112;46;108;111;99;97;108;46] .
Definition n_inst : bytes := [119;101;98;46;95;104;116;116;112;46;95;116;99;112;46;108;111;99;97;108;46] .
Definition n_host : bytes := [104;111;115;116;49;46;108;111;99;97;108;46] .
(* the PTR alone (TTL 4500) *)
Definition w_ptr : bytes := [0;0;132;0;0;0;0;1;0;0;0;0;5;95;104;116;116;112;4;95;116;99;112;5;108;111;99;97;108;0;0;12;0;1;0;0;17;148;0;6;3;119;101;98;192;12] .
(* a PTR to an instance whose first label is "a.b" *)
Definition w_ptr_dotted : bytes := [0;0;132;0;0;0;0;1;0;0;0;0;5;95;104;116;116;112;4;95;116;99;112;5;108;111;99;97;108;0;0;12;0;1;0;0;17;148;0;6;3;97;46;98;192;12] .
(* the PTR with the cache-flush bit and TTL 2 *)
Definition w_ptr_flush2 : bytes := [0;0;132;0;0;0;0;1;0;0;0;0;5;95;104;116;116;112;4;95;116;99;112;5;108;111;99;97;108;0;0;12;128;1;0;0;0;2;0;6;3;119;101;98;192;12] .
(* PTR, SRV -> "Host1.local.", TXT; no address *)
Definition w_mixed_nohost : bytes := [0;0;132;0;0;0;0;1;0;0;0;2;5;95;104;116;116;112;4;95;116;99;112;5;108;111;99;97;108;0;0;12;0;1;0;0;17;148;0;6;3;119;101;98;192;12;192;40;0;33;128;1;0;0;0;120;0;14;0;0;0;0;31;144;5;72;111;115;116;49;192;23;192;40;0;16;128;1;0;0;17;148;0;4;3;97;61;49] .
(* A of "host1.local.", TTL 3 *)
Definition w_addr_lower3 : bytes := [0;0;132;0;0;0;0;0;0;0;0;1;5;104;111;115;116;49;5;108;111;99;97;108;0;0;1;128;1;0;0;0;3;0;4;192;168;1;50] .

(* as w_twonames, SRV TTL 120, A TTL 3 *)
Definition w_twonames_addr3 : bytes := [0;0;132;0;0;0;0;2;0;0;0;3;5;95;104;116;116;112;4;95;116;99;112;5;108;111;99;97;108;0;0;12;0;1;0;0;17;148;0;6;3;119;101;98;192;12;8;95;112;114;105;110;116;101;114;4;95;115;117;98;192;12;0;12;0;1;0;0;17;148;0;2;192;40;192;40;0;33;128;1;0;0;0;120;0;14;0;0;0;0;31;144;5;104;111;115;116;49;192;23;192;40;0;16;128;1;0;0;17;148;0;4;3;97;61;49;192;92;0;1;128;1;0;0;0;3;0;4;192;168;1;50] .

(* full announcement, SRV without the cache-flush bit *)
Definition w_full_noflush : bytes := [0;0;132;0;0;0;0;1;0;0;0;3;5;95;104;116;116;112;4;95;116;99;112;5;108;111;99;97;108;0;0;12;0;1;0;0;17;148;0;6;3;119;101;98;192;12;192;40;0;33;0;1;0;0;0;120;0;14;0;0;0;0;31;144;5;104;111;115;116;49;192;23;192;40;0;16;128;1;0;0;17;148;0;4;3;97;61;49;192;64;0;1;128;1;0;0;0;120;0;4;192;168;1;50] .
(* SRV -> "host2.local.", port 9090, no cache-flush bit *)
Definition w_srv_host2 : bytes := [0;0;132;0;0;0;0;0;0;0;0;1;3;119;101;98;5;95;104;116;116;112;4;95;116;99;112;5;108;111;99;97;108;0;0;33;0;1;0;0;0;120;0;14;0;0;0;0;35;130;5;104;111;115;116;50;192;27] .
(* PTR (TTL 120), SRV (TTL 3), TXT, A (TTL 5) *)
Definition w_short : bytes := [0;0;132;0;0;0;0;1;0;0;0;3;5;95;104;116;116;112;4;95;116;99;112;5;108;111;99;97;108;0;0;12;0;1;0;0;0;120;0;6;3;119;101;98;192;12;192;40;0;33;128;1;0;0;0;3;0;14;0;0;0;0;31;144;5;104;111;115;116;49;192;23;192;40;0;16;128;1;0;0;17;148;0;4;3;97;61;49;192;64;0;1;128;1;0;0;0;5;0;4;192;168;1;50] .
(* PTR (TTL 120), SRV (TTL 3) *)
Definition w_ptr_srv3 : bytes := [0;0;132;0;0;0;0;1;0;0;0;1;5;95;104;116;116;112;4;95;116;99;112;5;108;111;99;97;108;0;0;12;0;1;0;0;0;120;0;6;3;119;101;98;192;12;192;40;0;33;128;1;0;0;0;3;0;14;0;0;0;0;31;144;5;104;111;115;116;49;192;23] .
(* A of host1, TTL 5 *)
Definition w_addr5 : bytes := [0;0;132;0;0;0;0;0;0;0;0;1;5;104;111;115;116;49;5;108;111;99;97;108;0;0;1;128;1;0;0;0;5;0;4;192;168;1;50] .
(* full announcement with A TTL 3 *)
Definition w_addr3 : bytes := [0;0;132;0;0;0;0;1;0;0;0;3;5;95;104;116;116;112;4;95;116;99;112;5;108;111;99;97;108;0;0;12;0;1;0;0;17;148;0;6;3;119;101;98;192;12;192;40;0;33;128;1;0;0;0;120;0;14;0;0;0;0;31;144;5;104;111;115;116;49;192;23;192;40;0;16;128;1;0;0;17;148;0;4;3;97;61;49;192;64;0;1;128;1;0;0;0;3;0;4;192;168;1;50] .
(* goodbye of the PTR alone *)
Definition w_ptr_bye : bytes := [0;0;132;0;0;0;0;1;0;0;0;0;5;95;104;116;116;112;4;95;116;99;112;5;108;111;99;97;108;0;0;12;0;1;0;0;0;0;0;6;3;119;101;98;192;12] .

(* TXT answer + PTR (TTL 3 s) in the additional section; PTR alone TTL 120; SRV + address *)
Definition w_txt_addl_ptr3 : bytes := [0;0;132;0;0;0;0;1;0;0;0;1;3;119;101;98;5;95;104;116;116;112;4;95;116;99;112;5;108;111;99;97;108;0;0;16;128;1;0;0;17;148;0;4;3;97;61;49;192;16;0;12;0;1;0;0;0;3;0;2;192;12] .
Definition w_ptr120 : bytes := [0;0;132;0;0;0;0;1;0;0;0;0;5;95;104;116;116;112;4;95;116;99;112;5;108;111;99;97;108;0;0;12;0;1;0;0;0;120;0;6;3;119;101;98;192;12] .
Definition w_srv_addr : bytes := [0;0;132;0;0;0;0;0;0;0;0;2;3;119;101;98;5;95;104;116;116;112;4;95;116;99;112;5;108;111;99;97;108;0;0;33;128;1;0;0;0;120;0;14;0;0;0;0;31;144;5;104;111;115;116;49;192;27;192;50;0;1;128;1;0;0;0;120;0;4;192;168;1;50] .

(* SRV -> host2 (TTL 8, no cache-flush) + A host2 (TTL 3); a second A of host2 *)
Definition w_srv_h2_addr3 : bytes := [0;0;132;0;0;0;0;0;0;0;0;2;3;119;101;98;5;95;104;116;116;112;4;95;116;99;112;5;108;111;99;97;108;0;0;33;0;1;0;0;0;8;0;14;0;0;0;0;35;130;5;104;111;115;116;50;192;27;192;50;0;1;128;1;0;0;0;3;0;4;192;168;1;60] .
Definition w_addr_h2 : bytes := [0;0;132;0;0;0;0;0;0;0;0;1;5;104;111;115;116;50;5;108;111;99;97;108;0;0;1;128;1;0;0;0;120;0;4;192;168;1;61] .

(* a second address of host1 *)
Definition w_addr_h1_new : bytes := [0;0;132;0;0;0;0;0;0;0;0;1;5;104;111;115;116;49;5;108;111;99;97;108;0;0;1;128;1;0;0;0;120;0;4;192;168;1;51] .

(* PTR (TTL 120) and its goodbye in one packet *)
Definition w_ptr_and_bye : bytes := [0;0;132;0;0;0;0;2;0;0;0;0;5;95;104;116;116;112;4;95;116;99;112;5;108;111;99;97;108;0;0;12;0;1;0;0;0;120;0;6;3;119;101;98;192;12;192;12;0;12;0;1;0;0;0;0;0;2;192;40] .

(* A + PTR; TXT + SRV (TTL 10); a second A (TTL 10, cache-flush); a second TXT *)
Definition w_ov_a_ptr : bytes := [0;0;132;0;0;0;0;0;0;0;0;2;5;104;111;115;116;49;5;108;111;99;97;108;0;0;1;128;1;0;0;0;120;0;4;192;168;1;85;5;95;104;116;116;112;4;95;116;99;112;192;18;0;12;0;1;0;0;17;148;0;6;3;119;101;98;192;39].
Definition w_ov_txt_srv10 : bytes := [0;0;132;0;0;0;0;0;0;1;0;1;3;119;101;98;5;95;104;116;116;112;4;95;116;99;112;5;108;111;99;97;108;0;0;16;128;1;0;0;17;148;0;4;3;97;61;49;192;12;0;33;128;1;0;0;0;10;0;14;0;0;0;0;19;136;5;104;111;115;116;49;192;27].
Definition w_ov_a2 : bytes := [0;0;132;0;0;0;0;0;0;0;0;1;5;104;111;115;116;49;5;108;111;99;97;108;0;0;1;128;1;0;0;0;10;0;4;192;168;1;25].
Definition w_ov_txt2 : bytes := [0;0;132;0;0;0;0;0;0;0;0;1;3;119;101;98;5;95;104;116;116;112;4;95;116;99;112;5;108;111;99;97;108;0;0;16;0;1;0;0;17;148;0;6;5;107;61;100;117;112].

Definition ex_ifs : iftab := [(2, (true, true)); (3, (true, false))].
(* an arbitrary start time, in virtual milliseconds *)
Definition T0 : N := 1000000.

(* browse, full announcement, update of the port, goodbye, removal one second later *)
Definition ex_hist : list iter :=
  [ mkIter T0 [] [CBrowse n_ty 1];
    mkIter (T0 + 100) [mkDgram 2 true w_full] [];
    mkIter (T0 + 2000) [mkDgram 2 true w_newport] [];
    mkIter (T0 + 5000) [mkDgram 2 true w_bye] [];
    mkIter (T0 + 6000) [] [];
    mkIter (T0 + 7000) [] [] ].

Definition ex_hist_trace := Eval vm_compute in run_history ex_ifs ex_hist.
Lemma ex_hist_run : run_history ex_ifs ex_hist = ex_hist_trace.
Proof. vm_compute. reflexivity. Qed.

Definition is_resolved_evt (x : out) : bool := match x with OEvt _ (EResolved _) => true | _ => false end.
Definition is_found_evt (x : out) : bool := match x with OEvt _ (EFound _ _) => true | _ => false end.
Definition is_removed_evt (x : out) : bool := match x with OEvt _ (ERemoved _ _) => true | _ => false end.

Lemma ex_hist_safe : safe_class ex_ifs ex_hist = true.
Proof. vm_compute. reflexivity. Qed.

(* requested wake-ups of a timer-exact schedule: every iteration asks for the time of the next *)
Definition ex_wakes (h : list iter) : list (option N) :=
  match h with [] => [] | _ :: t => map (fun it => Some (i_now it)) t ++ [Some (T0 + 100000)] end.

Lemma ex_hist_chk45 :
  chk_C04 ex_ifs ex_hist (ex_wakes ex_hist) (map obs_of (run_history ex_ifs ex_hist)) = true
  /\ chk_C05 ex_ifs ex_hist (ex_wakes ex_hist) (map obs_of (run_history ex_ifs ex_hist)) = true.
Proof. rewrite ex_hist_run. split; vm_compute; reflexivity. Qed.

(* only the PTR arrives; follow-up questions at +500, +1000, +1500 and no more *)
Definition ex_follow : list iter :=
  [ mkIter T0 [] [CBrowse n_ty 1];
    mkIter (T0 + 100) [mkDgram 2 true w_ptr] [];
    mkIter (T0 + 600) [] []; mkIter (T0 + 1100) [] []; mkIter (T0 + 1600) [] []; mkIter (T0 + 2100) [] [];
    mkIter (T0 + 5000) [] [] ].

Definition ex_follow_trace := Eval vm_compute in run_history ex_ifs ex_follow.
Lemma ex_follow_run : run_history ex_ifs ex_follow = ex_follow_trace.
Proof. vm_compute. reflexivity. Qed.

Lemma ex_follow_facts :
  map questions_of (run_history ex_ifs ex_follow)
  = [[]; []; [(n_inst, TY_ANY)]; [(n_inst, TY_ANY)]; [(n_inst, TY_ANY)]; []; []]
  /\ chk_C04 ex_ifs ex_follow (ex_wakes ex_follow) (map obs_of (run_history ex_ifs ex_follow)) = true.
Proof. rewrite ex_follow_run. split; vm_compute; reflexivity. Qed.

(* a service restarts - goodbye, then a full announcement 700 ms later - while a browser is
   running that does not have it resolved: ServiceFound and ServiceResolved in that iteration *)
Definition restart_hist : list iter :=
  [ mkIter T0 [] [CBrowse n_ty 1];
    mkIter (T0 + 1000) [mkDgram 2 true w_bye] [];
    mkIter (T0 + 1700) [mkDgram 2 true w_full] [];
    mkIter (T0 + 2000) [] [] ].

Definition restart_hist_trace := Eval vm_compute in run_history ex_ifs restart_hist.
Lemma restart_hist_run : run_history ex_ifs restart_hist = restart_hist_trace.
Proof. vm_compute. reflexivity. Qed.

Lemma restart_facts :
  wf_history restart_hist = true
  /\ map (fun o => (existsb is_found_evt o, existsb is_resolved_evt o)) (run_history ex_ifs restart_hist)
     = [(false, false); (false, false); (true, true); (false, false)]
  /\ chk_C04 ex_ifs restart_hist (ex_wakes restart_hist) (map obs_of (run_history ex_ifs restart_hist)) = true.
Proof. rewrite restart_hist_run. vm_compute. repeat split. Qed.

(* the instance is advertised under its type and a subtype, both are browsed, the SRV (TTL 3 s)
   runs out: BOTH channels get ServiceRemoved in the iteration at +3 s *)
Definition twonames_hist : list iter :=
  [ mkIter T0 [] [CBrowse n_ty 1; CBrowse n_sub 2];
    mkIter (T0 + 100) [mkDgram 2 true w_twonames] [];
    mkIter (T0 + 3100) [] [];
    mkIter (T0 + 4000) [] [] ].

Definition twonames_hist_trace := Eval vm_compute in run_history ex_ifs twonames_hist.
Lemma twonames_hist_run : run_history ex_ifs twonames_hist = twonames_hist_trace.
Proof. vm_compute. reflexivity. Qed.

Lemma twonames_facts :
  wf_history twonames_hist = true
  /\ map (fun o => length (filter is_removed_evt o)) (run_history ex_ifs twonames_hist) = [0; 0; 2; 0]%nat
  /\ chk_C05 ex_ifs twonames_hist (ex_wakes twonames_hist) (map obs_of (run_history ex_ifs twonames_hist)) = true.
Proof. rewrite twonames_hist_run. vm_compute. repeat split. Qed.

(* same instance, the ADDRESS (TTL 3 s) runs out while PTRs and SRV stay: both channels get
   ServiceRemoved *)
Definition twonames_addr_hist : list iter :=
  [ mkIter T0 [] [CBrowse n_ty 1; CBrowse n_sub 2];
    mkIter (T0 + 100) [mkDgram 2 true w_twonames_addr3] [];
    mkIter (T0 + 3100) [] [];
    mkIter (T0 + 3600) [] [] ].

Definition twonames_addr_hist_trace := Eval vm_compute in run_history ex_ifs twonames_addr_hist.
Lemma twonames_addr_hist_run : run_history ex_ifs twonames_addr_hist = twonames_addr_hist_trace.
Proof. vm_compute. reflexivity. Qed.

Lemma twonames_addr_facts :
  map (fun o => length (filter is_removed_evt o)) (run_history ex_ifs twonames_addr_hist) = [0; 0; 2; 0]%nat
  /\ chk_C05 ex_ifs twonames_addr_hist (ex_wakes twonames_addr_hist)
             (map obs_of (run_history ex_ifs twonames_addr_hist)) = true.
Proof. rewrite twonames_addr_hist_run. split; vm_compute; reflexivity. Qed.

(* SRV target "Host1.local.", the address arrives later, alone, for "host1.local." (TTL 3 s):
   ServiceResolved when it arrives, ServiceRemoved when it runs out *)
Definition mixedcase_hist : list iter :=
  [ mkIter T0 [] [CBrowse n_ty 1];
    mkIter (T0 + 100) [mkDgram 2 true w_mixed_nohost] [];
    mkIter (T0 + 300) [mkDgram 2 true w_addr_lower3] [];
    mkIter (T0 + 600) [] [];
    mkIter (T0 + 3300) [] [];
    mkIter (T0 + 4000) [] [] ].

Definition mixedcase_hist_trace := Eval vm_compute in run_history ex_ifs mixedcase_hist.
Lemma mixedcase_hist_run : run_history ex_ifs mixedcase_hist = mixedcase_hist_trace.
Proof. vm_compute. reflexivity. Qed.

Lemma mixedcase_facts :
  map (fun o => (existsb is_resolved_evt o, existsb is_removed_evt o)) (run_history ex_ifs mixedcase_hist)
  = [(false, false); (false, false); (true, false); (false, false); (false, true); (false, false)]
  /\ chk_C04 ex_ifs mixedcase_hist (ex_wakes mixedcase_hist) (map obs_of (run_history ex_ifs mixedcase_hist)) = true
  /\ chk_C05 ex_ifs mixedcase_hist (ex_wakes mixedcase_hist) (map obs_of (run_history ex_ifs mixedcase_hist)) = true.
Proof. rewrite mixedcase_hist_run. vm_compute. repeat split. Qed.

(* refutation of chk_C04 (finding C04-D20-dotted-label-followup): the PTR points to an
   instance whose first label is "a.b"; the follow-up questions ask for the labels a, b, ... *)
Definition ref4_hist : list iter :=
  [ mkIter T0 [] [CBrowse n_ty 1];
    mkIter (T0 + 100) [mkDgram 2 true w_ptr_dotted] [];
    mkIter (T0 + 600) [] [];
    mkIter (T0 + 1100) [] [] ].

Lemma ref4_facts :
  wf_history ref4_hist = true
  /\ chk_C04 ex_ifs ref4_hist (ex_wakes ref4_hist) (map obs_of (run_history ex_ifs ref4_hist)) = false.
Proof. split; vm_compute; reflexivity. Qed.

(* refutation of chk_C05 (finding C05-ptr-variant-expiry): the PTR is delivered again with
   the cache-flush bit and TTL 2 s: ServiceRemoved at +2 s although the first PTR (TTL 4500),
   the SRV and the address are live *)
Definition ref5_hist : list iter :=
  [ mkIter T0 [] [CBrowse n_ty 1];
    mkIter (T0 + 100) [mkDgram 2 true w_full] [];
    mkIter (T0 + 600) [mkDgram 2 true w_ptr_flush2] [];
    mkIter (T0 + 2600) [] [];
    mkIter (T0 + 4000) [] [] ].

Definition ref5_hist_trace := Eval vm_compute in run_history ex_ifs ref5_hist.
Lemma ref5_hist_run : run_history ex_ifs ref5_hist = ref5_hist_trace.
Proof. vm_compute. reflexivity. Qed.

Lemma ref5_viol05 :
  viol_C05 ex_ifs ref5_hist (ex_wakes ref5_hist) (map obs_of (run_history ex_ifs ref5_hist)) = [F05_alive 3 1 n_ty n_inst].
Proof. rewrite ref5_hist_run. vm_compute. reflexivity. Qed.

Lemma ref5_facts :
  wf_history ref5_hist = true
  /\ map (fun o => existsb is_removed_evt o) (run_history ex_ifs ref5_hist) = [false; false; false; true; false]
  /\ chk_C05 ex_ifs ref5_hist (ex_wakes ref5_hist) (map obs_of (run_history ex_ifs ref5_hist)) = false.
Proof. unfold chk_C05. rewrite ref5_viol05, ref5_hist_run. vm_compute. repeat split. Qed.

(* the history-level statements, universally quantified, are false of the faithful model *)
Lemma chk_C04_refuted :
  exists ifs h wakes, wf_history h = true /\ chk_C04 ifs h wakes (map obs_of (run_history ifs h)) = false.
Proof. exists ex_ifs, ref4_hist, (ex_wakes ref4_hist). destruct ref4_facts as (A & B). auto. Qed.

Lemma chk_C05_refuted :
  exists ifs h wakes, wf_history h = true /\ chk_C05 ifs h wakes (map obs_of (run_history ifs h)) = false.
Proof. exists ex_ifs, ref5_hist, (ex_wakes ref5_hist). destruct ref5_facts as (A & _ & B). auto. Qed.

(* C05-ptr-variant-expiry: ref5_hist is in the class known_ptr_variant *)
Lemma ptr_variant_witness :
  known_ptr_variant (log_of_history ex_ifs ref5_hist) = true
  /\ existsb is_alive_fail (viol_C05 ex_ifs ref5_hist (ex_wakes ref5_hist) (map obs_of (run_history ex_ifs ref5_hist))) = true.
Proof. rewrite ref5_viol05. vm_compute. repeat split. Qed.

(* C05-second-srv-target: a second SRV record (no cache-flush bit) names a host
   without addresses: ServiceRemoved although the first SRV and its address are live, and the
   instance is never reported again *)
Definition srvtgt_hist : list iter :=
  [ mkIter T0 [] [CBrowse n_ty 1];
    mkIter (T0 + 100) [mkDgram 2 true w_full_noflush] [];
    mkIter (T0 + 2000) [mkDgram 2 true w_srv_host2] [];
    mkIter (T0 + 2500) [] [] ].

Definition srvtgt_hist_trace := Eval vm_compute in run_history ex_ifs srvtgt_hist.
Lemma srvtgt_hist_run : run_history ex_ifs srvtgt_hist = srvtgt_hist_trace.
Proof. vm_compute. reflexivity. Qed.

Lemma srvtgt_safe : safe_class ex_ifs srvtgt_hist = false.
Proof. vm_compute. reflexivity. Qed.

Lemma srv_targets_witness :
  wf_history srvtgt_hist = true
  /\ known_srv_targets (log_of_history ex_ifs srvtgt_hist) = true
  /\ known_ptr_variant (log_of_history ex_ifs srvtgt_hist) = false
  /\ existsb is_alive_fail (viol_C05 ex_ifs srvtgt_hist (ex_wakes srvtgt_hist) (map obs_of (run_history ex_ifs srvtgt_hist))) = true
  /\ chk_C04 ex_ifs srvtgt_hist (ex_wakes srvtgt_hist) (map obs_of (run_history ex_ifs srvtgt_hist)) = false.
Proof. rewrite srvtgt_hist_run. vm_compute. repeat split. Qed.

(* C05-expiry-hidden-by-expiring-ptr: PTR goodbye at +2600, the only address (TTL 3 s) runs out
   at +3100, ServiceRemoved comes at +3600 only *)
Definition ptrlast_hist : list iter :=
  [ mkIter T0 [] [CBrowse n_ty 1];
    mkIter (T0 + 100) [mkDgram 2 true w_addr3] [];
    mkIter (T0 + 2600) [mkDgram 2 true w_ptr_bye] [];
    mkIter (T0 + 3100) [] [];
    mkIter (T0 + 3600) [] [] ].

Definition ptrlast_hist_trace := Eval vm_compute in run_history ex_ifs ptrlast_hist.
Lemma ptrlast_hist_run : run_history ex_ifs ptrlast_hist = ptrlast_hist_trace.
Proof. vm_compute. reflexivity. Qed.

Definition is_dead_last_second (f : fail) : bool := match f with F05_dead _ _ _ _ true _ => true | _ => false end.

Lemma ptrlast_safe : safe_class ex_ifs ptrlast_hist = true.
Proof. vm_compute. reflexivity. Qed.

Lemma ptrlast_viol05 :
  viol_C05 ex_ifs ptrlast_hist (ex_wakes ptrlast_hist) (map obs_of (run_history ex_ifs ptrlast_hist)) = [F05_dead 3 1 n_ty n_inst true true].
Proof. rewrite ptrlast_hist_run. vm_compute. reflexivity. Qed.

Lemma ptr_last_second_witness :
  wf_history ptrlast_hist = true
  /\ safe_class ex_ifs ptrlast_hist = true
  /\ map (fun o => existsb is_removed_evt o) (run_history ex_ifs ptrlast_hist) = [false; false; false; false; true]
  /\ existsb is_dead_last_second (viol_C05 ex_ifs ptrlast_hist (ex_wakes ptrlast_hist) (map obs_of (run_history ex_ifs ptrlast_hist))) = true.
Proof. rewrite ptrlast_safe, ptrlast_viol05, ptrlast_hist_run. vm_compute. repeat split. Qed.

(* C04-last-second-refresh-not-new: SRV (TTL 3) expires: removed; at +4200 packet 1 = PTR + SRV
   (new, but the address has < 1 s left), packet 2 = the address again (only refreshed): complete,
   not reported *)
Definition lastsec_hist : list iter :=
  [ mkIter T0 [] [CBrowse n_ty 1];
    mkIter (T0 + 100) [mkDgram 2 true w_short] [];
    mkIter (T0 + 3100) [] [];
    mkIter (T0 + 4200) [mkDgram 2 true w_ptr_srv3; mkDgram 2 true w_addr5] [];
    mkIter (T0 + 4700) [] [] ].

Definition lastsec_hist_trace := Eval vm_compute in run_history ex_ifs lastsec_hist.
Lemma lastsec_hist_run : run_history ex_ifs lastsec_hist = lastsec_hist_trace.
Proof. vm_compute. reflexivity. Qed.

Definition is_refresh_only (f : fail) : bool := match f with F04_complete _ _ _ _ false => true | _ => false end.

Lemma lastsec_safe : safe_class ex_ifs lastsec_hist = true.
Proof. vm_compute. reflexivity. Qed.

Lemma lastsec_viol04 :
  viol_C04 ex_ifs lastsec_hist (ex_wakes lastsec_hist) (map obs_of (run_history ex_ifs lastsec_hist)) = [F04_complete 3 1 n_ty n_inst false].
Proof. rewrite lastsec_hist_run. vm_compute. reflexivity. Qed.

(* lastsec_hist is in the class of C04-last-second-refresh-not-new (known_refresh_completes: a
   delivery that is not reported as new turns a browsed instance strongly alive) *)
Lemma lastsec_refresh_completes : known_refresh_completes ex_ifs lastsec_hist = true.
Proof. vm_compute. reflexivity. Qed.

Lemma last_second_refresh_witness :
  wf_history lastsec_hist = true
  /\ safe_class ex_ifs lastsec_hist = true
  /\ existsb is_refresh_only (viol_C04 ex_ifs lastsec_hist (ex_wakes lastsec_hist) (map obs_of (run_history ex_ifs lastsec_hist))) = true.
Proof. rewrite lastsec_safe, lastsec_viol04. vm_compute. repeat split. Qed.

(* C04-D20: the PTR target of ref4_hist has a label that does not survive the dotted presentation *)
Definition known_dotted (h : list iter) : bool :=
  existsb (fun t => negb (labels_beq (name_labels (C02Spec.dotted t)) t))
          (flat_map (fun it => flat_map (fun d => ptr_targets_of (d_data d)) (i_dgrams it)) h).

Lemma dotted_witness :
  known_dotted ref4_hist = true /\ known_dotted ex_hist = false
  /\ chk_C04 ex_ifs ref4_hist (ex_wakes ref4_hist) (map obs_of (run_history ex_ifs ref4_hist)) = false.
Proof. rewrite (proj2 ref4_facts). vm_compute. repeat split. Qed.

(* non-vacuity of removed_only_when_true (C05): ex_hist is in the safe class, is well-formed, and its
   trace contains a ServiceRemoved (goodbye) *)
Lemma safe_example :
  wf_history ex_hist = true /\ safe_class ex_ifs ex_hist = true
  /\ existsb (existsb is_removed_evt) (run_history ex_ifs ex_hist) = true.
Proof. rewrite ex_hist_run. rewrite ex_hist_safe. vm_compute. repeat split. Qed.

(* C04-browse-over-expiring-ptr: the PTR record (TTL 3 s) is cached while the type is not browsed
   (additional section of a packet whose answer concerns a cached-for-us TXT); browse at +2500 (the
   PTR has 500 ms left: not reported); the PTR is refreshed at +2700 (not new: no ServiceFound);
   SRV and address at +2900: ServiceResolved without any ServiceFound on that channel *)
Definition brexp_hist : list iter :=
  [ mkIter T0 [mkDgram 2 true w_txt_addl_ptr3] [];
    mkIter (T0 + 2500) [] [CBrowse n_ty 1];
    mkIter (T0 + 2700) [mkDgram 2 true w_ptr120] [];
    mkIter (T0 + 2900) [mkDgram 2 true w_srv_addr] [];
    mkIter (T0 + 3400) [] [] ].

Definition brexp_hist_trace := Eval vm_compute in run_history ex_ifs brexp_hist.
Lemma brexp_hist_run : run_history ex_ifs brexp_hist = brexp_hist_trace.
Proof. vm_compute. reflexivity. Qed.

Lemma brexp_safe : safe_class ex_ifs brexp_hist = true.
Proof. vm_compute. reflexivity. Qed.

Lemma browse_expiring_witness :
  wf_history brexp_hist = true
  /\ known_browse_expiring ex_ifs brexp_hist = true
  /\ safe_class ex_ifs brexp_hist = true
  /\ existsb (existsb is_found_evt) (run_history ex_ifs brexp_hist) = false
  /\ map (fun o => existsb is_resolved_evt o) (run_history ex_ifs brexp_hist) = [false; false; false; true; false]
  /\ existsb is_order_fail (viol_C04 ex_ifs brexp_hist (ex_wakes brexp_hist) (map obs_of (run_history ex_ifs brexp_hist))) = true.
Proof. rewrite brexp_hist_run. rewrite brexp_safe. vm_compute. repeat split. Qed.

(* non-vacuity of clause F over histories: ex_hist is outside the class and its trace has a
   ServiceResolved; so have the histories of the other known classes *)
Lemma order_example :
  wf_history ex_hist = true /\ known_browse_expiring ex_ifs ex_hist = false
  /\ existsb (existsb is_resolved_evt) (run_history ex_ifs ex_hist) = true
  /\ known_browse_expiring ex_ifs lastsec_hist = false
  /\ known_browse_expiring ex_ifs srvtgt_hist = false
  /\ known_browse_expiring ex_ifs restart_hist = false.
Proof. rewrite ex_hist_run. vm_compute. repeat split. Qed.

(* non-vacuity of "no ServiceResolved after ServiceRemoved without new records": full
   announcement at +100, goodbye at +1000 (ServiceRemoved at +2000, when the goodbye records have
   run out), full announcement again at +2500: ServiceResolved again on the same channel; then
   stop and browse again on a new channel *)
Definition again_hist : list iter :=
  [ mkIter T0 [] [CBrowse n_ty 1];
    mkIter (T0 + 100) [mkDgram 2 true w_full] [];
    mkIter (T0 + 1000) [mkDgram 2 true w_bye] [];
    mkIter (T0 + 2000) [] [];
    mkIter (T0 + 2500) [mkDgram 2 true w_full] [];
    mkIter (T0 + 3000) [] [CStop n_ty; CBrowse n_ty 2];
    mkIter (T0 + 3500) [] [] ].

Definition again_hist_trace := Eval vm_compute in run_history ex_ifs again_hist.
Lemma again_hist_run : run_history ex_ifs again_hist = again_hist_trace.
Proof. vm_compute. reflexivity. Qed.

Lemma again_safe : safe_class ex_ifs again_hist = true.
Proof. vm_compute. reflexivity. Qed.

Lemma again_one_name : known_stop_second_name ex_ifs again_hist = false.
Proof. vm_compute. reflexivity. Qed.

Lemma again_example :
  wf_history again_hist = true /\ safe_class ex_ifs again_hist = true /\ fresh_channels again_hist = true
  /\ map (fun o => (existsb is_resolved_evt o, existsb is_removed_evt o)) (run_history ex_ifs again_hist)
     = [(false, false); (true, false); (false, false); (false, true); (true, false); (false, false); (false, false)]
  /\ chk_C05 ex_ifs again_hist (ex_wakes again_hist) (map obs_of (run_history ex_ifs again_hist)) = true
  /\ fresh_channels ex_hist = true /\ fresh_channels brexp_hist = true /\ fresh_channels ptrlast_hist = true.
Proof. rewrite again_hist_run. rewrite again_safe. vm_compute. repeat split. Qed.

(* C05-stop-browse-drops-shared-records: the instance is browsed under its type (channel 1) and a
   subtype (channel 2); stop_browse of the subtype at +1000 drops its SRV / TXT / address records;
   channel 1 never gets a ServiceRemoved although nothing of the instance but the PTR is left *)
Definition stopname_hist : list iter :=
  [ mkIter T0 [] [CBrowse n_ty 1; CBrowse n_sub 2];
    mkIter (T0 + 100) [mkDgram 2 true w_twonames_addr3] [];
    mkIter (T0 + 1000) [] [CStop n_sub];
    mkIter (T0 + 2000) [] [];
    mkIter (T0 + 4000) [] [] ].

Definition stopname_hist_trace := Eval vm_compute in run_history ex_ifs stopname_hist.
Lemma stopname_hist_run : run_history ex_ifs stopname_hist = stopname_hist_trace.
Proof. vm_compute. reflexivity. Qed.

Definition is_dead_no_srv (f : fail) : bool := match f with F05_dead _ _ _ _ _ false => true | _ => false end.

Lemma stopname_safe : safe_class ex_ifs stopname_hist = true.
Proof. vm_compute. reflexivity. Qed.

Lemma stopname_second_name : known_stop_second_name ex_ifs stopname_hist = true.
Proof. vm_compute. reflexivity. Qed.

Lemma stop_second_name_witness :
  wf_history stopname_hist = true /\ safe_class ex_ifs stopname_hist = true /\ fresh_channels stopname_hist = true
  /\ known_stop_second_name ex_ifs stopname_hist = true
  /\ existsb (existsb is_removed_evt) (run_history ex_ifs stopname_hist) = false
  /\ existsb is_dead_no_srv (viol_C05 ex_ifs stopname_hist (ex_wakes stopname_hist)
                                      (map obs_of (run_history ex_ifs stopname_hist))) = true
  /\ known_stop_second_name ex_ifs twonames_hist = false /\ known_stop_second_name ex_ifs again_hist = false.
Proof. rewrite stopname_hist_run. rewrite stopname_safe, stopname_second_name, again_one_name. vm_compute. repeat split. Qed.

(* ptrlast_hist is in the class of C05-expiry-hidden-by-expiring-ptr (known_removal_hidden: a
   removal is skipped because the PTR is in its last second) *)
Lemma ptrlast_hidden : known_removal_hidden ex_ifs ptrlast_hist = true.
Proof. vm_compute. reflexivity. Qed.

Lemma removal_hidden_witness :
  wf_history ptrlast_hist = true /\ safe_class ex_ifs ptrlast_hist = true /\ fresh_channels ptrlast_hist = true
  /\ known_stop_second_name ex_ifs ptrlast_hist = false
  /\ known_removal_hidden ex_ifs ptrlast_hist = true
  /\ existsb is_dead_fail (viol_C05 ex_ifs ptrlast_hist (ex_wakes ptrlast_hist) (map obs_of (run_history ex_ifs ptrlast_hist))) = true.
Proof. rewrite ptrlast_safe, ptrlast_hidden, ptrlast_viol05. vm_compute. repeat split. Qed.

Lemma mixedcase_safe : safe_class ex_ifs mixedcase_hist = true.
Proof. vm_compute. reflexivity. Qed.

Lemma timely_example :
  map (timely_class ex_ifs) [ex_hist; twonames_hist; twonames_addr_hist; mixedcase_hist; again_hist; lastsec_hist]
  = [true; true; true; true; true; true]
  /\ map (fun h => existsb (existsb is_removed_evt) (run_history ex_ifs h))
         [ex_hist; twonames_hist; twonames_addr_hist; mixedcase_hist; again_hist; lastsec_hist]
     = [true; true; true; true; true; true]
  /\ map (timely_class ex_ifs) [ptrlast_hist; stopname_hist; ref5_hist; srvtgt_hist] = [false; false; false; false].
Proof.
  cbn [map]. rewrite ex_hist_run, twonames_hist_run, twonames_addr_hist_run, mixedcase_hist_run, lastsec_hist_run, again_hist_run. unfold timely_class.
  rewrite ex_hist_safe, mixedcase_safe, again_safe, again_one_name, lastsec_safe, ptrlast_safe, ptrlast_hidden,
    stopname_safe, stopname_second_name, srvtgt_safe.
  vm_compute. repeat split.
Qed.

(* F05_again is FALSE inside the class known_srv_targets (the daemon agrees): the instance
   is resolved through SRV -> host1; a second SRV -> host2 (TTL 8) with an address (TTL 3) takes
   over; the address runs out at +3200: ServiceRemoved (finding C05-second-srv-target); at +7500,
   when the SRV -> host2 is in its last second, a new address record of host2 arrives:
   ServiceResolved through SRV -> host1 again - no record of the instance or of host1 since the
   removal *)
Definition again_tgt_hist : list iter :=
  [ mkIter T0 [] [CBrowse n_ty 1];
    mkIter (T0 + 100) [mkDgram 2 true w_full] [];
    mkIter (T0 + 200) [mkDgram 2 true w_srv_h2_addr3] [];
    mkIter (T0 + 3200) [] [];
    mkIter (T0 + 7500) [mkDgram 2 true w_addr_h2] [];
    mkIter (T0 + 8000) [] [] ].

Definition again_tgt_hist_trace := Eval vm_compute in run_history ex_ifs again_tgt_hist.
Lemma again_tgt_hist_run : run_history ex_ifs again_tgt_hist = again_tgt_hist_trace.
Proof. vm_compute. reflexivity. Qed.

Lemma again_srv_targets_witness :
  wf_history again_tgt_hist = true /\ fresh_channels again_tgt_hist = true
  /\ known_srv_targets (log_of_history ex_ifs again_tgt_hist) = true
  /\ map (fun o => (existsb is_resolved_evt o, existsb is_removed_evt o)) (run_history ex_ifs again_tgt_hist)
     = [(false, false); (true, false); (true, false); (false, true); (true, false); (false, false)]
  /\ existsb is_again_fail (viol_C05 ex_ifs again_tgt_hist (ex_wakes again_tgt_hist)
                                     (map obs_of (run_history ex_ifs again_tgt_hist))) = true.
Proof. rewrite again_tgt_hist_run. vm_compute. repeat split. Qed.

(* C03, clause "last advertised".  Passing: the announce / update / goodbye history (the
   update arrives 1.9 s after the announcement and flushes its predecessor), and an update 200 ms
   after the announcement (two live SRV records coexist; the newer one is in front).
   Failing (finding C03-reannounced-record-keeps-position, the daemon agrees): the older SRV is
   announced again after the update; the next ServiceResolved still carries the port of the update *)
Definition quick_hist : list iter :=
  [ mkIter T0 [] [CBrowse n_ty 1];
    mkIter (T0 + 100) [mkDgram 2 true w_full] [];
    mkIter (T0 + 300) [mkDgram 2 true w_newport] [];
    mkIter (T0 + 800) [mkDgram 2 true w_addr_h1_new] [];
    mkIter (T0 + 2000) [] [] ].

Definition quick_hist_trace := Eval vm_compute in run_history ex_ifs quick_hist.
Lemma quick_hist_run : run_history ex_ifs quick_hist = quick_hist_trace.
Proof. vm_compute. reflexivity. Qed.

(* the announcement arrives again after the update, in the same iteration *)
Definition reann_hist : list iter :=
  [ mkIter T0 [] [CBrowse n_ty 1];
    mkIter (T0 + 100) [mkDgram 2 true w_full] [];
    mkIter (T0 + 300) [mkDgram 2 true w_newport; mkDgram 2 true w_full] [];
    mkIter (T0 + 800) [mkDgram 2 true w_addr_h1_new] [];
    mkIter (T0 + 2000) [] [] ].

Lemma refresh_completes_witness :
  wf_history lastsec_hist = true /\ safe_class ex_ifs lastsec_hist = true /\ fresh_channels lastsec_hist = true
  /\ known_refresh_completes ex_ifs lastsec_hist = true
  /\ existsb is_complete_fail (viol_C04 ex_ifs lastsec_hist (ex_wakes lastsec_hist) (map obs_of (run_history ex_ifs lastsec_hist))) = true.
Proof. rewrite lastsec_safe, lastsec_refresh_completes, lastsec_viol04. vm_compute. repeat split. Qed.

Lemma complete_example :
  map (complete_class ex_ifs) [ex_hist; restart_hist; mixedcase_hist; quick_hist; brexp_hist; again_hist]
  = [true; true; true; true; true; true]
  /\ map (fun h => existsb (existsb is_resolved_evt) (run_history ex_ifs h))
         [ex_hist; restart_hist; mixedcase_hist; quick_hist; brexp_hist; again_hist]
     = [true; true; true; true; true; true]
  /\ map (complete_class ex_ifs) [lastsec_hist; srvtgt_hist] = [false; false].
Proof.
  cbn [map]. rewrite ex_hist_run, restart_hist_run, mixedcase_hist_run, brexp_hist_run, again_hist_run, quick_hist_run. unfold complete_class.
  rewrite ex_hist_safe, mixedcase_safe, brexp_safe, again_safe, lastsec_safe, lastsec_refresh_completes, srvtgt_safe.
  vm_compute. repeat split.
Qed.

(* C04-found-withdrawn-in-same-message (the daemon agrees): the PTR record and its goodbye
   arrive in one packet: ServiceFound, no follow-up question at +500 although the (expiring) PTR is
   still cached; ServiceRemoved at +1000 *)
Definition withdrawn_hist : list iter :=
  [ mkIter T0 [] [CBrowse n_ty 1];
    mkIter (T0 + 100) [mkDgram 2 true w_ptr_and_bye] [];
    mkIter (T0 + 600) [] [];
    mkIter (T0 + 1100) [] [];
    mkIter (T0 + 2000) [] [] ].

Definition withdrawn_hist_trace := Eval vm_compute in run_history ex_ifs withdrawn_hist.
Lemma withdrawn_hist_run : run_history ex_ifs withdrawn_hist = withdrawn_hist_trace.
Proof. vm_compute. reflexivity. Qed.

Lemma found_withdrawn_witness :
  wf_history withdrawn_hist = true /\ known_found_withdrawn ex_ifs withdrawn_hist = true
  /\ map (fun o => (existsb is_found_evt o, questions_of o)) (run_history ex_ifs withdrawn_hist)
     = [(false, []); (true, []); (false, []); (false, []); (false, [])]
  /\ existsb is_followup_fail (viol_C04 ex_ifs withdrawn_hist (ex_wakes withdrawn_hist) (map obs_of (run_history ex_ifs withdrawn_hist))) = true
  /\ known_found_withdrawn ex_ifs ex_follow = false /\ known_found_withdrawn ex_ifs ex_hist = false
  /\ known_found_withdrawn ex_ifs lastsec_hist = false.
Proof. rewrite withdrawn_hist_run. vm_compute. repeat split. Qed.

(* C04-stale-resolve-overlaps-series (the daemon agrees): the PTR
   arrives one datagram before SRV / TXT in the iteration at +12201: a follow-up is queued for +12701
   and the instance is resolved; NO iteration until +22201 (late schedule), when the SRV (TTL 10) runs
   out and a new address record arrives: ServiceRemoved, a new series is queued for +22701 - and the
   leftover try of +12701 runs, finds nothing to ask and takes the instance out of pending_resolves;
   the new TXT record at +23202 therefore starts another series: questions at +23202, +23702,
   +24202, +24702 *)
Definition overlap_hist : list iter :=
  [ mkIter T0 [] [CBrowse n_ty 1];
    mkIter (T0 + 12201) [mkDgram 2 true w_ov_a_ptr; mkDgram 2 true w_ov_txt_srv10] [];
    mkIter (T0 + 22201) [mkDgram 2 true w_ov_a2] [];
    mkIter (T0 + 23202) [mkDgram 2 true w_ov_txt2] [];
    mkIter (T0 + 23702) [] [];
    mkIter (T0 + 24202) [] [];
    mkIter (T0 + 24702) [] [];
    mkIter (T0 + 25202) [] [] ].

Definition overlap_hist_trace := Eval vm_compute in run_history ex_ifs overlap_hist.
Lemma overlap_hist_run : run_history ex_ifs overlap_hist = overlap_hist_trace.
Proof. vm_compute. reflexivity. Qed.

Lemma overlapping_series_witness :
  wf_history overlap_hist = true /\ known_overlapping_series ex_ifs overlap_hist = true
  /\ map (fun o => length (questions_of o)) (run_history ex_ifs overlap_hist) = [0; 0; 0; 1; 2; 2; 1; 0]%nat
  /\ existsb is_many_fail (viol_C04 ex_ifs overlap_hist (ex_wakes overlap_hist) (map obs_of (run_history ex_ifs overlap_hist))) = true
  /\ known_overlapping_series ex_ifs ex_follow = false /\ known_overlapping_series ex_ifs ex_hist = false
  /\ known_overlapping_series ex_ifs restart_hist = false.
Proof. rewrite overlap_hist_run. vm_compute. repeat split. Qed.
