(* C04 over histories: what step04 does with one iteration's outputs, and the two clauses proved
   for the checker on the model's own trace (ServiceResolved only after ServiceFound; strongly
   alive under a browsed name means up), by the scheme of C05HistoryProofs. *)
From Coq Require Import List NArith Bool.
From Mdns Require Import Bytes Browser C03Spec BrowserSpec BrowserKnown BrowserLoopProofs C05SafetyProofs C04OrderProofs C05AgainProofs C05TimelyProofs C05HistoryProofs C04CompleteProofs.
Import ListNotations.
Open Scope N_scope.

Lemma fold_ev04_spec k p : forall o ups found nf rn rm fs,
  (forall j ch i, p (F04_order j ch i) = false) \/ order_ok found o -> none_of p fs ->
  let r := fold_left (ev04 k) (evs o) (ups, found, nf, rn, rm, fs) in
  fst (fst (fst (fst (fst r)))) = upsf ups o /\ snd (fst (fst (fst (fst r)))) = found ++ founds o
  /\ none_of p (snd r).
Proof.
  induction o as [|x t IH]; intros ups found nf rn rm fs Ho Hfs; [simpl; rewrite app_nil_r; auto|].
  assert (Ho' : (forall j ch i, p (F04_order j ch i) = false) \/ order_ok (found ++ founds [x]) t)
    by (destruct Ho as [Ho|Ho]; [now left|right; apply Ho]).
  rewrite evs_cons, fold_left_app. change (x :: t) with ([x] ++ t). rewrite founds_app, app_assoc.
  destruct x as [c [ty i|r|ty i]|qs|c l]; cbn [fold_left ev04 fst snd app founds flat_map] in *;
    rewrite ?app_nil_r in *.
  - apply (IH _ _ _ _ _ _ Ho' Hfs).
  - apply (IH _ _ _ _ _ _ Ho'). match goal with |- none_of p (if ?b then _ else _) => destruct b eqn:E end; [exact Hfs|].
    apply none_of_app; [exact Hfs|]. apply none_of_one. destruct Ho as [Ho|[Hx _]]; [apply Ho|]. exfalso.
    assert (existsb (fun y : N * bytes => (fst y =? c) && beq (snd y) (rs_name r)) found = true); [|congruence].
    apply existsb_exists. exists (c, rs_name r). split; [exact Hx|]. simpl. now rewrite N.eqb_refl, beq_refl.
  - apply (IH _ _ _ _ _ _ Ho' Hfs).
  - apply (IH _ _ _ _ _ _ Ho' Hfs).
  - apply (IH _ _ _ _ _ _ Ho' Hfs).
Qed.

Lemma step04_spec ifs k t it w o p :
  (forall j i b, p (F04_followup j i b) = false) -> (forall j i b, p (F04_wake j i b) = false) ->
  (forall j i, p (F04_many j i) = false) -> (forall j ls, p (F04_labels j ls) = false) ->
  (forall j ch i, p (F04_order j ch i) = false) \/ order_ok (t4_found t) o ->
  (forall j ch ty i b, p (F04_complete j ch ty i b) = false)
  \/ (forall tc inst, In tc (sp_q (snd (iter_snaps ifs (t4_sp t) it))) ->
        alive_strong (sp_c (snd (iter_snaps ifs (t4_sp t) it))) (i_now it) (fst tc) inst = true ->
        existsb (up_is (snd tc) inst)
                (ups_current (sp_q (snd (iter_snaps ifs (t4_sp t) it))) (upsf (t4_ups t) o)) = true) ->
  let r := step04 ifs k t it w (obs_of o) in
  none_of p (snd r)
  /\ t4_sp (fst r) = snd (iter_snaps ifs (t4_sp t) it)
  /\ t4_ups (fst r) = ups_current (sp_q (snd (iter_snaps ifs (t4_sp t) it))) (upsf (t4_ups t) o)
  /\ t4_found (fst r) = filter (fun x => existsb (fun tc => snd tc =? fst x) (sp_q (snd (iter_snaps ifs (t4_sp t) it))))
                               (t4_found t ++ founds o).
Proof.
  intros Hfu Hwk Hmany Hlab Ho Hc. unfold step04. cbv zeta.
  destruct (iter_snaps ifs (t4_sp t) it) as [[ds sp2] sp3]. cbn [snd] in *.
  pose proof (fold_ev04_spec k p o (t4_ups t) (t4_found t) [] [] [] [] Ho (none_of_nil p)) as Hf. cbv zeta in Hf.
  fold (evs o). revert Hf.
  destruct (fold_left (ev04 k) (evs o) (t4_ups t, t4_found t, [], [], [], []))
    as [[[[[ups1 found1] newfound] rnow] rmnow] fsE]. cbn [fst snd]. intros (-> & -> & HfE).
  (* the fold over the newly found instances that opens follow-up obligations (oblig2, open2) ... *)
  match goal with |- context [fold_left ?f ?l (?a, ?b)] =>
    match type of a with list (bytes * (N * (bool * N))) => destruct (fold_left f l (a, b)) as [oblig2 open2] end end.
  (* ... and the fold that counts the iterations with an (instance, ANY) question (any2, fsQ2: F04_many) *)
  match goal with |- context [fold_left ?f ?l (?a, @nil fail)] =>
    assert (HQ2 : none_of p (snd (fold_left f l (a, @nil fail)))); [|destruct (fold_left f l (a, @nil fail)) as [any2 fsQ2]] end.
  { apply none_of_fold; [|apply none_of_nil]. intros acc i H.
    match goal with |- context [if ?b then _ else _] => destruct b end; [|exact H]. cbn [fst snd].
    match goal with |- context [if ?b then _ else _] => destruct b end; [|exact H].
    apply none_of_app; [exact H|apply none_of_one, Hmany]. }
  cbn [fst snd t4_sp t4_ups t4_found] in *. split; [|repeat split].
  apply none_of_app.
  { apply none_of_flat_map. intros a _. destruct (expected_followup (sp_c sp2) (fst a)); [|apply none_of_nil].
    destruct (q_mem _ _); [apply none_of_nil|apply none_of_one, Hfu]. }
  apply none_of_app; [exact HfE|]. apply none_of_app.
  { apply none_of_flat_map. intros tc Htc. apply none_of_flat_map. intros inst _.
    match goal with |- none_of p (if ?a && ?b && negb ?c then _ else _) => destruct a eqn:Ea; [|apply none_of_nil];
      destruct b; [|apply none_of_nil]; destruct c eqn:Eu; [apply none_of_nil|] end.
    apply none_of_one. destruct Hc as [Hc|Hc]; [apply Hc|]. rewrite (Hc tc inst Htc Ea) in Eu. discriminate. }
  apply none_of_app.
  { apply none_of_flat_map. intros a _. destruct (fst (snd (snd a))); [apply none_of_nil|].
    destruct w as [w0|]; [destruct (w0 <=? fst (snd a)); [apply none_of_nil|]|]; apply none_of_one, Hwk. }
  apply none_of_app; [|exact HQ2].
  apply none_of_flat_map. intros a _. destruct (labels_mem a _); [apply none_of_nil|apply none_of_one, Hlab].
Qed.

(* C04, clause F over histories: outside the class "browse started while a cached PTR record of
   the type is in its last second" the checker never reports "ServiceResolved on a channel on
   which the instance was not found before" on the model's trace - whatever the wake-ups, for
   every history in which time does not run backwards. *)
Theorem resolved_only_after_found ifs h wakes :
  wf_history h = true -> known_browse_expiring ifs h = false ->
  forall f, In f (viol_C04 ifs h wakes (map obs_of (run_history ifs h))) -> is_order_fail f = false.
Proof.
  intros Hwf Hk. unfold viol_C04, run_history. rewrite viol04_gen.
  apply (viol_sim (step04 ifs) ifs is_order_fail
           (fun _ t s (g : ghost) h0 =>
              Base (log_of_history ifs h) ifs (t4_sp t) s (g_log g) (g_now g) h0
              /\ FI (s_cache s) (s_q s) (t4_found t) /\ known_browse_expiring_from ifs (t4_sp t) h0 = false))
    with (g := ([], 0, 0)); [reflexivity| |].
  2:{ split; [apply (Base_init _ ifs h Hwf), incl_refl|]. split; [intros ty ch b p Hq; discriminate|exact Hk]. }
  intros k t s [[prev t0] m] it h0 w (HB & HF & Hke). cbn [g_log g_now fst snd] in *.
  destruct (Base_step _ _ _ _ _ _ _ _ HB) as (_ & Ht' & _ & _ & HB'). destruct HB as (HI & _ & _ & Htr & _).
  simpl in Hke. unfold iter_snaps in Hke. cbv zeta in Hke. apply orb_false_iff in Hke as [Hk1 Hk2].
  destruct (iterate_order ifs prev s (t4_sp t) it (t4_found t) HI Ht' HF Htr Hk1) as [Ho HF1].
  destruct (step04_spec ifs k t it w (snd (iterate ifs s it)) is_order_fail) as (Hfs & Hsp & _ & Hfound);
    [reflexivity..|now right|now left|].
  split; [exact Hfs|]. exists (prev ++ iter_dlvs ifs it, i_now it, m). cbn [g_log g_now fst snd]. rewrite Hsp, Hfound.
  split; [exact HB'|]. split; [|exact Hk2]. destruct HB' as (_ & _ & _ & [_ Hq] & _). rewrite <- Hq.
  apply FI_filter, HF1.
Qed.

(* C04, completeness over histories: outside the classes of safe_class, with fresh channel numbers, and
   outside the class "a delivery that is not reported as a new record turns an instance of a browsed
   name strongly alive", the checker never reports F04_complete on the model's trace: at the end of
   every iteration every instance with PTR, SRV and address live (more than a second left) under a
   browsed name has been reported resolved on that name's channel and not removed since. *)
Theorem complete_is_up ifs h wakes :
  wf_history h = true -> complete_class ifs h = true ->
  forall f, In f (viol_C04 ifs h wakes (map obs_of (run_history ifs h))) -> is_complete_fail f = false.
Proof.
  intros Hwf Hcls. unfold complete_class in Hcls.
  apply andb_true_iff in Hcls as [Hcls Hrf]. apply andb_true_iff in Hcls as [Hsafe Hfr]. apply negb_true_iff in Hrf.
  destruct (safe_class_elim ifs h Hsafe) as (Hv & Ht & Hn). set (Lf := log_of_history ifs h) in *.
  unfold viol_C04, run_history. rewrite viol04_gen.
  apply (viol_sim (step04 ifs) ifs is_complete_fail
           (fun _ t s (g : ghost) h0 =>
              Base Lf ifs (t4_sp t) s (g_log g) (g_now g) h0 /\ NoDup (map fst (sp_q (t4_sp t)))
              /\ AU (g_now g) (s_cache s) (s_q s) (t4_ups t) /\ BI (s_q s) (t4_ups t)
              /\ sideC (s_q s) (t4_ups t) (g_chan g) /\ fresh_channels_from (g_chan g) h0 = true
              /\ known_refresh_from ifs s h0 = false))
    with (g := ([], 0, 0)); [reflexivity| |].
  2:{ split; [apply (Base_init _ ifs h Hwf), incl_refl|]. split; [constructor|].
      split; [intros ty ch inst Hq; discriminate|]. split; [intros u ty []|].
      split; [split; [constructor|split; [intros tc []|intros u []]]|]. auto. }
  intros k t s [[prev t0] m] it h0 w (HB & HND & HA & HBI & HS & Hf & Hc). cbn [g_log g_now g_chan fst snd] in *.
  destruct (Base_step _ _ _ _ _ _ _ _ HB) as (Hm1 & _ & Hsub0 & Hsub1 & HB'). destruct HB as (HI & _).
  simpl in Hf, Hc. destruct (calls_fresh m (i_calls it)) as [m'|] eqn:Ecf; [|discriminate].
  apply orb_false_iff in Hc as [Hc1 Hc2].
  assert (Hg : goodC Lf (i_now it) prev s (t4_ups t) m).
  { split; [exact HI|]. split; [exact Hsub0|]. split; [|split; assumption].
    intros ty ch inst Hq Ha. apply (HA ty ch inst Hq). now apply (alive_later _ t0 (i_now it)). }
  destruct (iterate_complete Lf Hv Ht Hn (i_now it) ifs prev s it (t4_ups t) m m' eq_refl Hg Hsub1 Ecf Hc1)
    as (_ & _ & HA1 & HB1 & (S1 & S2 & S3)).
  pose proof (iter_snaps_nodup ifs (t4_sp t) it HND) as HND1. pose proof HB' as (_ & _ & _ & [Hceq Hq] & _).
  assert (Hinc : incl (ups_current (sp_q (snd (iter_snaps ifs (t4_sp t) it))) (upsf (t4_ups t) (snd (iterate ifs s it))))
                      (upsf (t4_ups t) (snd (iterate ifs s it))))
    by (intros y Hy; apply filter_In in Hy; tauto).
  assert (Hup : forall ty ch inst, q_get ty (s_q (fst (iterate ifs s it))) = Some ch ->
            alive_strong (s_cache (fst (iterate ifs s it))) (i_now it) ty inst = true ->
            upb ch inst (ups_current (sp_q (snd (iter_snaps ifs (t4_sp t) it))) (upsf (t4_ups t) (snd (iterate ifs s it)))) = true).
  { intros ty ch inst Hqg Ha. rewrite <- Hq. apply (upb_current _ _ ch ty inst HB1 Hqg). now apply (HA1 ty ch inst). }
  destruct (step04_spec ifs k t it w (snd (iterate ifs s it)) is_complete_fail) as (Hfs & Hsp & Hups & _);
    [reflexivity..|now left| |].
  - right. intros [ty ch] inst Htc Ea. cbn [fst snd] in *.
    rewrite <- (alive_strong_ceqr _ _ (i_now it) ty inst Hceq) in Ea. rewrite <- Hq in Htc.
    apply (Hup ty ch inst); [|exact Ea]. apply In_q_get; [rewrite Hq; exact HND1|exact Htc].
  - split; [exact Hfs|]. exists (prev ++ iter_dlvs ifs it, i_now it, m'). cbn [g_log g_now g_chan fst snd]. rewrite Hsp, Hups.
    split; [exact HB'|]. split; [exact HND1|]. split; [exact Hup|].
    split; [intros u ty Hu; apply (HB1 u ty (Hinc _ Hu))|].
    split; [split; [exact S1|split; [exact S2|intros u Hu; apply S3, Hinc, Hu]]|]. auto.
Qed.
