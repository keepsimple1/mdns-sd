(* Proofs about the TXT codec model (Model/Txt.v): decode_txt is total and reads inside its
   input, encode_txt followed by decode_txt is the identity on accepted property lists, and
   refusal at creation is characterised. *)
From Coq Require Import List NArith Bool Lia Arith.
From Mdns Require Import Res Bytes Utf8 ParamsPinned Txt ListFacts.
Import ListNotations.
Open Scope N_scope.

Lemma take_app_exact (a b : bytes) : take (length a) (a ++ b) = Ok a.
Proof.
  unfold take. rewrite app_length.
  replace (Nat.leb (length a) (length a + length b)) with true
    by (symmetry; apply Nat.leb_le; lia).
  f_equal. apply firstn_exact.
Qed.

Lemma drop_app_exact (a b : bytes) : drop (length a) (a ++ b) = Ok b.
Proof.
  unfold drop. rewrite app_length.
  replace (Nat.leb (length a) (length a + length b)) with true
    by (symmetry; apply Nat.leb_le; lia).
  f_equal. apply skipn_exact.
Qed.

Lemma take_total n l : (n <= length l)%nat -> exists r, take n l = Ok r.
Proof.
  intros H. unfold take. replace (Nat.leb n (length l)) with true
    by (symmetry; apply Nat.leb_le; lia).
  eexists; reflexivity.
Qed.

Lemma drop_total n l : (n <= length l)%nat -> exists r, drop n l = Ok r /\ length r = (length l - n)%nat.
Proof.
  intros H. unfold drop. replace (Nat.leb n (length l)) with true
    by (symmetry; apply Nat.leb_le; lia).
  eexists; split; [reflexivity|]. apply skipn_length.
Qed.

Lemma index_of_lt x l i : index_of x l = Some i -> (i < length l)%nat.
Proof.
  revert i; induction l as [|y t IH]; simpl; intros i H; [discriminate|].
  destruct (y =? x).
  - inversion H; lia.
  - destruct (index_of x t) as [j|]; simpl in H; [|discriminate].
    inversion H; subst. specialize (IH j eq_refl). lia.
Qed.

Lemma split_kv_total kv : exists p, split_kv kv = Ok p.
Proof.
  unfold split_kv. destruct (index_of eq_sign kv) as [i|] eqn:E; [|eauto].
  apply index_of_lt in E.
  destruct (take_total i kv) as [k Hk]; [lia|].
  destruct (drop_total (S i) kv) as [v [Hv _]]; [lia|].
  rewrite Hk, Hv. simpl. eauto.
Qed.

Lemma split_kv_prop_bytes p :
  contains eq_sign (fst p) = false -> split_kv (prop_bytes p) = Ok p.
Proof.
  destruct p as [k [v|]]; unfold prop_bytes, split_kv; simpl; intros H.
  - rewrite (index_of_app_not_in _ _ _ H).
    rewrite take_app_exact. simpl.
    change (k ++ eq_sign :: v) with (k ++ [eq_sign] ++ v).
    rewrite app_assoc.
    replace (S (length k)) with (length (k ++ [eq_sign])) by (rewrite app_length; simpl; lia).
    rewrite drop_app_exact. reflexivity.
  - rewrite (index_of_none_not_in _ _ H). reflexivity.
Qed.

Lemma decode_txt_fuel_total fuel : forall txt,
  (length txt < fuel)%nat -> exists r, decode_txt_fuel fuel txt = Ok r.
Proof.
  induction fuel as [|f IH]; intros txt Hf; [lia|].
  destruct txt as [|len rest]; simpl; [eauto|].
  destruct (len =? 0); [eauto|].
  destruct (Nat.ltb (length rest) (N.to_nat len)) eqn:E; [eauto|].
  apply Nat.ltb_ge in E.
  destruct (take_total _ _ E) as [kv Hkv]. rewrite Hkv. simpl.
  destruct (split_kv_total kv) as [p Hp]. rewrite Hp. simpl.
  destruct (drop_total _ _ E) as [rest' [Hr Hl]]. rewrite Hr. simpl.
  destruct (IH rest') as [tl Htl]; [simpl in Hf; lia|].
  rewrite Htl. simpl. eauto.
Qed.

Lemma decode_txt_total txt : exists r, decode_txt txt = Ok r.
Proof. apply decode_txt_fuel_total. lia. Qed.

(* every decoded property was cut out of the input: key and value are contiguous sub-lists *)
Definition sublist_of (s l : bytes) : Prop := exists a b, l = a ++ s ++ b.

Lemma sublist_of_cons s x l : sublist_of s l -> sublist_of s (x :: l).
Proof. intros [a [b H]]. exists (x :: a), b. simpl. congruence. Qed.

Lemma sublist_of_trans s m l : sublist_of s m -> sublist_of m l -> sublist_of s l.
Proof.
  intros [a [b H1]] [c [d H2]]. exists (c ++ a), (b ++ d). subst.
  repeat rewrite <- app_assoc. reflexivity.
Qed.

Lemma take_sublist n l r : take n l = Ok r -> sublist_of r l.
Proof.
  unfold take. destruct (Nat.leb n (length l)); [|discriminate].
  intros H; inversion H; subst. exists [], (skipn n l). simpl. symmetry. apply firstn_skipn.
Qed.

Lemma drop_sublist n l r : drop n l = Ok r -> sublist_of r l.
Proof.
  unfold drop. destruct (Nat.leb n (length l)); [|discriminate].
  intros H; inversion H; subst. exists (firstn n l), []. rewrite app_nil_r. symmetry.
  apply firstn_skipn.
Qed.

Definition prop_inside (txt : bytes) (p : prop) : Prop :=
  sublist_of (fst p) txt /\ match snd p with None => True | Some v => sublist_of v txt end.

Lemma split_kv_inside kv p : split_kv kv = Ok p -> prop_inside kv p.
Proof.
  unfold split_kv. destruct (index_of eq_sign kv) as [i|].
  - destruct (take i kv) as [k| | |] eqn:Ek; simpl; try discriminate.
    destruct (drop (S i) kv) as [v| | |] eqn:Ev; simpl; try discriminate.
    intros H; inversion H; subst. split; simpl.
    + eapply take_sublist; eauto.
    + eapply drop_sublist; eauto.
  - intros H; inversion H; subst. split; simpl; [|exact I]. exists [], []. simpl.
    symmetry; apply app_nil_r.
Qed.

Lemma prop_inside_mono a b p : sublist_of a b -> prop_inside a p -> prop_inside b p.
Proof.
  intros Hab [H1 H2]. split.
  - eapply sublist_of_trans; eauto.
  - destruct (snd p); [|exact I]. eapply sublist_of_trans; eauto.
Qed.

Lemma decode_txt_fuel_inside fuel : forall txt r,
  decode_txt_fuel fuel txt = Ok r -> Forall (prop_inside txt) r.
Proof.
  induction fuel as [|f IH]; intros txt r; simpl; [discriminate|].
  destruct txt as [|len rest]; [intros H; inversion H; constructor|].
  destruct (len =? 0); [intros H; inversion H; constructor|].
  destruct (Nat.ltb (length rest) (N.to_nat len)); [intros H; inversion H; constructor|].
  destruct (take (N.to_nat len) rest) as [kv| | |] eqn:Ekv; simpl; try discriminate.
  destruct (split_kv kv) as [p| | |] eqn:Ep; simpl; try discriminate.
  destruct (drop (N.to_nat len) rest) as [rest'| | |] eqn:Er; simpl; try discriminate.
  destruct (decode_txt_fuel f rest') as [tl| | |] eqn:Et; simpl; try discriminate.
  intros H. inversion H; subst; clear H.
  assert (Htl : Forall (prop_inside (len :: rest)) tl).
  { apply IH in Et. eapply Forall_impl; [|exact Et]. intros q Hq.
    eapply prop_inside_mono; [|exact Hq]. apply sublist_of_cons. eapply drop_sublist; eauto. }
  assert (Hp : prop_inside (len :: rest) p).
  { eapply prop_inside_mono; [|eapply split_kv_inside; eauto].
    apply sublist_of_cons. eapply take_sublist; eauto. }
  destruct (utf8_valid (fst p)); [constructor|]; assumption.
Qed.

Lemma accepted_prop_inv p : accepted_prop p = true ->
  is_ascii (fst p) = true /\ contains eq_sign (fst p) = false /\
  prop_bytes p <> [] /\ (length (prop_bytes p) <= 255)%nat.
Proof.
  unfold accepted_prop. intros H.
  apply andb_true_iff in H as [H H4]. apply andb_true_iff in H as [H H3].
  apply andb_true_iff in H as [H1 H2].
  apply negb_true_iff in H2. apply negb_true_iff in H3. apply negb_true_iff in H4.
  rewrite txt_prop_refused_len_pinned in H4. apply N.ltb_ge in H4.
  assert (H4' : (prop_len p <= 255)%nat) by lia. clear H4. rename H4' into H4.
  repeat split; auto.
  - destruct p as [k [v|]]; unfold prop_bytes; simpl in *.
    + destruct k; discriminate.
    + destruct k; [discriminate|]. discriminate.
  - destruct p as [k [v|]]; unfold prop_bytes, prop_len in *; simpl in *.
    + rewrite app_length. simpl. lia.
    + lia.
Qed.

Lemma refused_prop p : accepted_prop p = false <->
  is_ascii (fst p) = false \/ contains eq_sign (fst p) = true \/
  (fst p = [] /\ snd p = None) \/ (255 < prop_len p)%nat.
Proof.
  unfold accepted_prop. rewrite txt_prop_refused_len_pinned. split.
  - intros H. apply andb_false_iff in H as [H|H].
    2:{ apply negb_false_iff, N.ltb_lt in H. right; right; right. lia. }
    apply andb_false_iff in H as [H|H].
    + apply andb_false_iff in H as [H|H]; [left; exact H|right; left; apply negb_false_iff, H].
    + right; right; left. apply negb_false_iff in H.
      destruct p as [[|k0 k] [v|]]; try discriminate H. split; reflexivity.
  - intros [H|[H|[[H1 H2]|H]]].
    + rewrite H. reflexivity.
    + rewrite H. cbn [negb]. rewrite andb_false_r. reflexivity.
    + rewrite H1, H2. cbn [negb]. rewrite andb_false_r. reflexivity.
    + replace (255 <? N.of_nat (prop_len p)) with true by (symmetry; apply N.ltb_lt; lia).
      apply andb_false_r.
Qed.

Lemma encode_txt_body_accepted ps :
  accepted ps = true -> encode_txt_body ps = Ok (concat (map encode_one ps)).
Proof.
  induction ps as [|p t IH]; simpl; [reflexivity|].
  intros H. apply andb_true_iff in H as [Hp Ht].
  apply accepted_prop_inv in Hp as (_ & _ & _ & Hlen).
  replace (Nat.ltb 255 (length (prop_bytes p))) with false
    by (symmetry; apply Nat.ltb_ge; lia).
  rewrite (IH Ht). reflexivity.
Qed.

Lemma encode_txt_body_shape ps : forall r, encode_txt_body ps = Ok r ->
  Forall (fun p => (length (prop_bytes p) <= 255)%nat) ps /\ r = concat (map encode_one ps).
Proof.
  induction ps as [|p t IH]; cbn [encode_txt_body]; intros r Hr.
  - injection Hr as <-. split; [constructor|reflexivity].
  - destruct (Nat.ltb 255 (length (prop_bytes p))) eqn:E; [discriminate|].
    apply Nat.ltb_ge in E. apply bind_ok_inv in Hr as (r' & Hr' & Hr). injection Hr as <-.
    destruct (IH r' Hr') as [H1 ->]. split; [constructor; assumption|reflexivity].
Qed.

Lemma encode_txt_shape ps b :
  encode_txt ps = Ok b ->
  Forall (fun p => (length (prop_bytes p) <= 255)%nat) ps /\
  b = match concat (map encode_one ps) with [] => [0] | x => x end.
Proof.
  unfold encode_txt. intros H. apply bind_ok_inv in H as (r & Hr & H). injection H as <-.
  destruct (encode_txt_body_shape ps r Hr) as [H1 ->]. split; [exact H1|].
  destruct (concat (map encode_one ps)); reflexivity.
Qed.

Lemma decode_encode_one fuel p r :
  accepted_prop p = true ->
  decode_txt_fuel (S fuel) (encode_one p ++ r) =
    let? tl := decode_txt_fuel fuel r in Ok (p :: tl).
Proof.
  intros Hp. apply accepted_prop_inv in Hp as (Hasc & Hno & Hne & Hlen).
  unfold encode_one. cbn [app decode_txt_fuel].
  assert (Hn : N.to_nat (N.of_nat (length (prop_bytes p))) = length (prop_bytes p))
    by apply Nat2N.id.
  destruct (N.of_nat (length (prop_bytes p)) =? 0) eqn:E0.
  { apply N.eqb_eq in E0. destruct (prop_bytes p); [congruence|]. simpl in E0. lia. }
  rewrite Hn.
  replace (Nat.ltb (length (prop_bytes p ++ r)) (length (prop_bytes p))) with false
    by (symmetry; apply Nat.ltb_ge; rewrite app_length; lia).
  rewrite take_app_exact. cbn [bind].
  rewrite (split_kv_prop_bytes p Hno). cbn [bind].
  rewrite drop_app_exact. cbn [bind].
  rewrite (ascii_utf8_valid _ Hasc). reflexivity.
Qed.

Lemma decode_encode_body ps : forall fuel,
  accepted ps = true -> (length ps < fuel)%nat ->
  decode_txt_fuel fuel (concat (map encode_one ps)) = Ok ps.
Proof.
  induction ps as [|p t IH]; intros fuel Ha Hf.
  - destruct fuel; [lia|]. reflexivity.
  - destruct fuel as [|f]; [simpl in Hf; lia|].
    simpl in Ha. apply andb_true_iff in Ha as [Hp Ht].
    cbn [map concat]. rewrite (decode_encode_one f p _ Hp).
    rewrite (IH f Ht); [reflexivity|]. simpl in Hf. lia.
Qed.

Lemma length_concat_encode ps : (length ps <= length (concat (map encode_one ps)))%nat.
Proof.
  induction ps as [|p t IH]; simpl; [lia|]. rewrite app_length. lia.
Qed.

Lemma txt_roundtrip_decode ps :
  accepted ps = true ->
  exists b, encode_txt ps = Ok b /\ decode_txt b = Ok ps.
Proof.
  intros Ha. unfold encode_txt. rewrite (encode_txt_body_accepted _ Ha). cbn [bind].
  destruct ps as [|p t].
  - exists [0]. split; reflexivity.
  - eexists. split; [reflexivity|].
    assert (Hne : concat (map encode_one (p :: t)) <> []) by (simpl; discriminate).
    destruct (concat (map encode_one (p :: t))) as [|x l] eqn:E; [congruence|].
    rewrite <- E. unfold decode_txt. apply decode_encode_body; [exact Ha|].
    pose proof (length_concat_encode (p :: t)). lia.
Qed.

Lemma find_dedup_aux key : forall ps seen,
  mem (lower key) seen = false ->
  find (fun p => beq (lower (fst p)) (lower key)) (dedup_ci_aux seen ps) =
  find (fun p => beq (lower (fst p)) (lower key)) ps.
Proof.
  induction ps as [|p t IH]; intros seen Hs; simpl; [reflexivity|].
  destruct (mem (lower (fst p)) seen) eqn:Em.
  - destruct (beq (lower (fst p)) (lower key)) eqn:Eb.
    + apply beq_eq in Eb. rewrite Eb in Em. congruence.
    + apply IH. exact Hs.
  - simpl. destruct (beq (lower (fst p)) (lower key)) eqn:Eb; [reflexivity|].
    apply IH. simpl. rewrite Hs.
    destruct (beq (lower key) (lower (fst p))) eqn:Eb2; [|reflexivity].
    apply beq_eq in Eb2. rewrite Eb2, beq_refl in Eb. discriminate.
Qed.

(* what dedup keeps has keys outside `seen`; dedup is idempotent on its own output *)
Lemma dedup_ci_aux_keys_notin ps : forall seen p,
  In p (dedup_ci_aux seen ps) -> mem (lower (fst p)) seen = false.
Proof.
  induction ps as [|q t IH]; intros seen p; simpl; [tauto|].
  destruct (mem (lower (fst q)) seen) eqn:E.
  - apply IH.
  - intros [H|H]; [subst; exact E|].
    apply IH in H. simpl in H. apply orb_false_iff in H. tauto.
Qed.

Lemma dedup_ci_aux_idem ps : forall seen seen',
  (forall k, mem k seen' = true -> mem k seen = true) ->
  dedup_ci_aux seen' (dedup_ci_aux seen ps) = dedup_ci_aux seen ps.
Proof.
  induction ps as [|q t IH]; intros seen seen' Hs; simpl; [reflexivity|].
  destruct (mem (lower (fst q)) seen) eqn:E.
  - apply IH. exact Hs.
  - simpl. destruct (mem (lower (fst q)) seen') eqn:E'.
    + apply Hs in E'. congruence.
    + f_equal. apply IH. intros k. simpl. rewrite !orb_true_iff. intros [H|H]; auto.
Qed.

Lemma dedup_ci_idem ps : dedup_ci (dedup_ci ps) = dedup_ci ps.
Proof. unfold dedup_ci. apply dedup_ci_aux_idem. auto. Qed.

Lemma refused_iff ps :
  accepted ps = false <->
  exists p, In p ps /\
    (is_ascii (fst p) = false \/ contains eq_sign (fst p) = true \/
     (fst p = [] /\ snd p = None) \/ (255 < prop_len p)%nat).
Proof.
  unfold accepted. induction ps as [|p t IH]; cbn [forallb].
  - split; [discriminate|]. intros [p [[] _]].
  - split.
    + intros H. apply andb_false_iff in H as [H|H].
      * exists p. split; [left; reflexivity|apply refused_prop, H].
      * apply IH in H as [q [Hq H]]. exists q. split; [right; exact Hq|exact H].
    + intros [q [[<-|Hq] H]]; apply andb_false_iff.
      * left. apply refused_prop, H.
      * right. apply IH. exists q. split; assumption.
Qed.
