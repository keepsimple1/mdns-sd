(* C04, follow-up chains at history level: an instance that is in pending_resolves always has a
   follow-up (Resolve) retransmission queued - after every iteration of every history.  With the
   schedule invariant (C04ScheduleProofs.v): that retransmission is try 1..3 and due within the
   next 500 ms.  This is the bookkeeping the follow-up clause of C04 rests on: add_pending_resolve
   starts a chain only for an instance that is not pending, so "pending without a queued Resolve"
   would mean no follow-up question ever again (the seeded change C04-m6 produces exactly that). *)
From Coq Require Import List NArith Bool.
From Mdns Require Import Bytes Rec ParamsBrowser Cache Browser C03Spec SpecTrackProofs BrowserLoopProofs
  C04ScheduleProofs.
Import ListNotations.
Open Scope N_scope.

(* some follow-up try of i stands in the retransmission list r *)
Definition queued (i : bytes) (r : list (N * rcmd)) : Prop := exists t n, In (t, RResolve i n) r.

(* during the retransmission pass the commands still to run count as queued *)
Definition PQr (s : st) (rest : list rcmd) : Prop :=
  forall i, mem i (s_pending s) = true -> queued i (s_retrans s) \/ exists n, In (RResolve i n) rest.

(* the invariant: who is pending has a try queued *)
Definition PQ (s : st) : Prop := forall i, mem i (s_pending s) = true -> queued i (s_retrans s).

Lemma PQ_PQr s : PQ s <-> PQr s [].
Proof.
  split; intros H i Hi; [left; now apply H|]. destruct (H i Hi) as [A|[n []]]. exact A.
Qed.

Lemma queued_app i r l : queued i r -> queued i (r ++ l).
Proof. intros (t & n & H). exists t, n. apply in_app_iff. now left. Qed.

Lemma mem_set_remove_inv i x l : mem i (set_remove x l) = true -> mem i l = true.
Proof.
  unfold set_remove. intros H. apply mem_In in H. apply filter_In in H as [H _]. now apply mem_In.
Qed.

Lemma first_tries_PQr s s' now new rest (P : bytes -> Prop) :
  (forall i, In i (s_pending s') <-> (In i (s_pending s) /\ P i) \/ In i new) ->
  s_retrans s' = s_retrans s ++ map (fun i => (now + pending_wait, RResolve i pending_first_try)) new ->
  PQr s rest -> PQr s' rest.
Proof.
  intros Hp Hr H i Hi. apply mem_In, Hp in Hi as [[Hi _]|Hi]; rewrite Hr.
  - apply mem_In in Hi. destruct (H i Hi) as [A|A]; [left; now apply queued_app|now right].
  - left. exists (now + pending_wait), pending_first_try. apply in_app_iff. right. apply in_map_iff. eauto.
Qed.

Lemma resolve_updated_PQr s now u rest : PQr s rest -> PQr (fst (resolve_updated s now u)) rest.
Proof. destruct (resolve_updated_fields s now u) as (_ & _ & _ & new & P & R & _). exact (first_tries_PQr _ _ _ _ _ _ P R). Qed.

Lemma handle_read_PQ ifs s now d : PQ s -> PQ (fst (handle_read ifs s now d)).
Proof.
  intros H. unfold handle_read. destruct (accepted_msg ifs d) as [m|]; [|exact H].
  rewrite handle_response_eq. apply PQ_PQr, resolve_updated_PQr, PQ_PQr, H.
Qed.

Lemma exec_call_PQ s now cl : PQ s -> PQ (fst (exec_call s now cl)).
Proof.
  intros H. destruct cl as [ty ch|ty|inst timeout|ch]; simpl.
  - destruct (exec_browse_fields s now ty ch) as (_ & _ & _ & new & P & R & _).
    apply PQ_PQr, (first_tries_PQr _ _ _ _ _ _ P R), PQ_PQr, H.
  - unfold exec_stop. destruct (q_get ty (s_q s)); exact H.
  - unfold exec_verify. destruct (service_verify_queries (s_cache s) inst (Some (now + timeout))) as [c1 qs].
    destruct qs; cbn [fst]; [exact H|]. intros i Hi. cbn [s_pending s_retrans with_cache] in *.
    apply queued_app. now apply H.
  - exact H.
Qed.

Lemma exec_rcmd_PQr s now c rest : PQr s (c :: rest) -> PQr (fst (exec_rcmd s now c)) rest.
Proof.
  intros H. destruct c as [inst n|inst timeout]; simpl.
  - unfold exec_resolve.
    destruct (if has_ptr_to (s_cache s) inst then query_unresolved (s_cache s) inst else (false, [])) as [sent o].
    destruct (sent && retry_guard n max_try); cbn [fst]; intros j Hj; cbn [s_pending s_retrans] in *.
    + destruct (H j Hj) as [A|[m [E|A]]]; [left; now apply queued_app| |right; eauto].
      injection E as E1 E2. subst j. left. exists (now + resolve_wait), (retry_next n). apply in_app_iff. right. now left.
    + destruct (beq j inst) eqn:Ej.
      * apply beq_eq in Ej. subst j. rewrite mem_set_remove in Hj. discriminate.
      * apply mem_set_remove_inv in Hj. destruct (H j Hj) as [A|[m [E|A]]]; [now left| |right; eauto].
        injection E as E1 E2. subst j. rewrite beq_refl in Ej. discriminate.
  - unfold exec_verify. destruct (service_verify_queries (s_cache s) inst None) as [c1 qs].
    destruct qs; cbn [fst]; intros j Hj; cbn [s_pending s_retrans with_cache] in *;
      (destruct (H j Hj) as [A|[m [E|A]]]; [now left|discriminate|right; eauto]).
Qed.

Lemma run_rcmds_PQ now : forall l s, PQr s l -> PQ (fst (run_cmds exec_rcmd s now l)).
Proof.
  induction l as [|c t IH]; intros s H; simpl; [now apply PQ_PQr|].
  pose proof (exec_rcmd_PQr s now c t H) as H1. destruct (exec_rcmd s now c) as [s1 o1]. cbn [fst] in H1.
  specialize (IH s1 H1). destruct (run_cmds exec_rcmd s1 now t) as [s2 o2]. exact IH.
Qed.

Lemma run_retrans_PQ s now : PQ s -> PQ (fst (run_retrans s now)).
Proof.
  intros H. unfold run_retrans. apply run_rcmds_PQ. intros i Hi. cbn [s_pending s_retrans] in *.
  destruct (H i Hi) as (t & n & Hin). destruct (t <=? now) eqn:E.
  - right. exists n. apply in_map_iff. exists (t, RResolve i n). split; [reflexivity|]. apply filter_In. auto.
  - left. exists t, n. apply filter_In. split; [exact Hin|]. simpl. now rewrite E.
Qed.

Lemma resolve_hosts_PQ now names s : PQ s -> PQ (fst (resolve_hosts s now names)).
Proof.
  rewrite resolve_hosts_run. apply run_cmds_inv. intros s0 h H. apply PQ_PQr, resolve_updated_PQr, PQ_PQr, H.
Qed.

Theorem iterate_PQ ifs s it : PQ s -> PQ (fst (iterate ifs s it)).
Proof.
  intros H0. rewrite iterate_eq. cbv zeta. cbn [fst]. rewrite evict_eq. cbv zeta. cbn [fst].
  apply resolve_hosts_PQ. apply (run_retrans_PQ _ (i_now it)).
  apply run_cmds_inv; [intros s0 c; apply exec_call_PQ|]. apply run_cmds_inv; [intros s0 d; apply handle_read_PQ|exact H0].
Qed.

Theorem pending_has_followup_queued ifs h : PQ (model_after ifs init_st h).
Proof.
  assert (G : forall h s, PQ s -> PQ (model_after ifs s h)).
  { induction h0 as [|it t IH]; intros s H; simpl; [exact H|]. apply IH. now apply iterate_PQ. }
  apply G. intros i Hi. discriminate.
Qed.

(* with the schedule invariant: a pending instance has a try 1..3 due within the next 500 ms *)
Theorem pending_followup_within_500 ifs h i :
  wf_history h = true -> h <> [] -> mem i (s_pending (model_after ifs init_st h)) = true ->
  exists t n, In (t, RResolve i n) (s_retrans (model_after ifs init_st h))
              /\ last_now h < t /\ t <= last_now h + 500 /\ 1 <= n /\ n <= 3.
Proof.
  intros Hwf Hne Hi. destruct (pending_has_followup_queued ifs h i Hi) as (t & n & Hin).
  pose proof (followup_schedule_invariant ifs h Hwf Hne) as Hs. rewrite Forall_forall in Hs.
  specialize (Hs _ Hin). unfold sched_p in Hs. simpl in Hs. exists t, n. tauto.
Qed.

(* a try asks exactly the question the checker expects (BrowserSpec.expected_followup, judged on
   the same cache): (instance, ANY) while no SRV is cached, else (host, A) + (host, AAAA) for the
   first SRV target without address bucket, nothing when nothing is missing, when the name is not a
   valid instance name, or - fix 48ec5c0 - when no PTR record points to the instance *)
Theorem try_asks_expected s now inst n :
  snd (exec_resolve s now inst n)
  = match BrowserSpec.expected_followup (s_cache s) inst with
    | Some (nm, ty) => if ty =? TY_ANY then [OQuery [(nm, TY_ANY)]] else [OQuery [(nm, TY_A); (nm, TY_AAAA)]]
    | None => []
    end.
Proof.
  unfold exec_resolve, BrowserSpec.expected_followup, query_unresolved.
  destruct (negb (valid_instance_name inst)) eqn:Ev.
  - destruct (has_ptr_to (s_cache s) inst); reflexivity.
  - destruct (has_ptr_to (s_cache s) inst); simpl; [|reflexivity].
    destruct (bm_get inst (c_srv (s_cache s))) as [recs|].
    + destruct (find _ recs) as [e|]; simpl; [|reflexivity].
      destruct (retry_guard n max_try); reflexivity.
    + simpl. destruct (retry_guard n max_try); reflexivity.
Qed.
