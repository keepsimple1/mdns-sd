(* Single steps of the responder model (Model/RegistryDaemon.v): what prepare_announce needs
   before it announces and which names it uses, who gets an answer, what unregister and
   cleanup do. *)
From Coq Require Import List NArith Bool Lia.
From Mdns Require Import Bytes ListFacts Rec ParamsRegistry Registry RegistryDaemon RegistrySpec RegistryParamsPinned
     RegistryProofs.
Import ListNotations.
Open Scope N_scope.

Lemma is_probing_done_true rg r svc start rg' :
  is_probing_done rg r svc start = (rg', true) -> rg' = rg /\ in_active rg r = true.
Proof.
  unfold is_probing_done. destruct (in_active rg r); intros H; inversion H; auto.
Qed.

Lemma probe_records_true s create : forall recs rg rg',
  s_probe s = true -> probe_records rg s create recs = (rg', true) ->
  rg' = rg /\ Forall (fun r => in_active rg r = true) recs.
Proof.
  induction recs as [|r t IH]; intros rg rg' Hp H; simpl in H.
  - inversion H. auto.
  - rewrite Hp in H.
    destruct (is_probing_done rg r (s_full s) create) as [rg1 ok] eqn:E1.
    destruct (probe_records rg1 s create t) as [rg2 ok2] eqn:E2.
    inversion H; subst; clear H. apply andb_true_iff in H2 as [-> ->].
    apply is_probing_done_true in E1 as [-> A]. destruct (IH _ _ Hp E2) as [-> F]. auto.
Qed.

Lemma probe_records_ops s now j : forall recs rg,
  s_probe s = true ->
  fst (probe_records rg s (now + j) recs) = final_reg rg (map (fun r => (now, OJoin r (s_full s) j)) recs).
Proof.
  induction recs as [|r t IH]; intros rg Hp; simpl; [reflexivity|].
  rewrite Hp. destruct (is_probing_done rg r (s_full s) (now + j)) as [rg1 ok] eqn:E1.
  specialize (IH rg1 Hp). destruct (probe_records rg1 s (now + j) t) as [rg2 ok2]. simpl in *. exact IH.
Qed.

Lemma prepare_announce_some s i rg v4 now js rg' m js' :
  prepare_announce s i rg v4 now js = (rg', Some m, js') ->
  (s_probe s = false \/ Forall (fun r => in_active rg r = true) (announce_records rg s i v4)) /\
  addrs_on_intf s i v4 <> [] /\
  m = mkOut true [] (ptr_rrs s dns_other_ttl (resolve_name rg (s_full s))
                     ++ map wire_rr (announce_records rg s i v4)) [] [].
Proof.
  unfold prepare_announce. destruct (addrs_on_intf s i v4) as [|a0 at0] eqn:EA; [discriminate|].
  destruct (draw js) as [j js1].
  destruct (probe_records rg s (now + j) (announce_records rg s i v4)) as [rg1 ok] eqn:EP.
  destruct ok; intros H; inversion H; subst; clear H.
  split; [|split; [discriminate|reflexivity]].
  destruct (s_probe s) eqn:P; [right|left; reflexivity].
  apply (probe_records_true s (now + j) _ _ _ P EP).
Qed.

Lemma p_name_with_change rg key p :
  p_new p = None -> r_name (p_rr p) = key -> p_name (with_change rg key p) = resolve_name rg key.
Proof.
  intros Hn Hk. unfold with_change, resolve_name. destruct (aget key (rg_changes rg)) as [n|]; simpl.
  - unfold set_new_name, p_name. simpl. rewrite Hk. destruct (beq n key) eqn:E; simpl; [|reflexivity].
    apply beq_eq in E. congruence.
  - unfold p_name. rewrite Hn. assumption.
Qed.

Lemma announce_names_resolved rg s i v4 :
  Forall (fun r => p_name r = resolve_name rg (s_full s) \/ p_name r = resolve_name rg (s_host s))
         (announce_records rg s i v4).
Proof.
  unfold announce_records. constructor; [|constructor].
  - left. apply p_name_with_change; reflexivity.
  - left. apply p_name_with_change; reflexivity.
  - apply Forall_forall. intros r Hr. apply in_map_iff in Hr as (a & <- & _).
    right. apply p_name_with_change; reflexivity.
Qed.

Definition none_announced (st : dstate) (i : N) : Prop :=
  forall ks, In ks (d_svcs st) -> announced_on i (snd ks) = false.

Lemma answer_ptr_silent st g itf rg qn :
  none_announced st (g_if g) -> answer_ptr_question st g itf rg qn = ([], []).
Proof.
  intros H. unfold answer_ptr_question. rewrite fold_left_id; [reflexivity|].
  intros [acc seen] ks Hin. rewrite (H ks Hin). reflexivity.
Qed.

Lemma answer_addr_silent st g itf rg qn qt :
  none_announced st (g_if g) -> answer_addr_question st g itf rg qn qt = [].
Proof.
  intros H. unfold answer_addr_question. apply flat_map_nil.
  intros ks Hin. rewrite (H ks Hin). reflexivity.
Qed.

Lemma answer_instance_silent st g itf rg qn qt :
  none_announced st (g_if g) -> answer_instance_question st g itf rg qn qt = ([], []).
Proof.
  intros H. unfold answer_instance_question.
  destruct (find (fun ks => beq (lower (resolve_name rg (s_full (snd ks)))) (lower qn)) (d_svcs st)) as [[k s]|] eqn:F; [|reflexivity].
  apply find_some in F as [Hin _]. pose proof (H (k, s) Hin) as Hs. simpl in Hs. rewrite Hs. reflexivity.
Qed.

Lemma handle_questions_silent st g itf now : forall qs rg,
  none_announced st (g_if g) ->
  snd (fst (handle_questions st g itf rg qs now)) = [] /\ snd (handle_questions st g itf rg qs now) = [].
Proof.
  induction qs as [|[qn qt] t IH]; intros rg H; simpl; [auto|].
  destruct (qt =? TY_PTR).
  - rewrite answer_ptr_silent by assumption.
    destruct (handle_questions st g itf rg t now) as [[rg' an2] ar2] eqn:E. simpl.
    specialize (IH rg H). rewrite E in IH. simpl in IH. destruct IH as [-> ->]. auto.
  - rewrite answer_instance_silent by assumption. rewrite answer_addr_silent by assumption.
    destruct (handle_questions st g itf (tiebreak_question rg g qn qt now) t now) as [[rg' an2] ar2] eqn:E. simpl.
    specialize (IH (tiebreak_question rg g qn qt now) H). rewrite E in IH. simpl in IH. destruct IH as [-> ->].
    destruct ((qt =? TY_A) || (qt =? TY_AAAA) || (qt =? TY_ANY)); auto.
Qed.

Lemma handle_query_silent st g now :
  none_announced st (g_if g) -> snd (handle_query st g now) = [].
Proof.
  intros H. unfold handle_query.
  destruct (nget (g_if g) (d_regs st)) as [rg|]; [|reflexivity].
  destruct (find_intf st (g_if g)) as [itf|]; [|reflexivity].
  pose proof (handle_questions_silent st g itf now (g_q g) rg H) as [H1 H2].
  destruct (handle_questions st g itf rg (g_q g) now) as [[rg' an] ar]. simpl in *. subst. reflexivity.
Qed.

Lemma unregister_found st k ch now s :
  aget k (d_svcs st) = Some s ->
  unregister st k ch now =
  (mkD (d_intfs st) (forget_regs (s_full s) (d_regs st)) (adel k (d_svcs st))
       (d_retrans st ++ map (resend_of now) (goodbyes_of st s)) (d_mon st) (d_dead st) (d_os st) (d_sel st),
   map send_of (goodbyes_of st s) ++ [OReply ch true]).
Proof. intros H. unfold unregister. rewrite H. reflexivity. Qed.

Lemma unregister_not_found st k ch now :
  aget k (d_svcs st) = None -> unregister st k ch now = (st, [OReply ch false]).
Proof. intros H. unfold unregister. rewrite H. reflexivity. Qed.

Lemma unregister_status st k ch now :
  In (OReply ch true) (snd (unregister st k ch now)) <-> aget k (d_svcs st) <> None.
Proof.
  destruct (aget k (d_svcs st)) as [s|] eqn:G.
  - rewrite (unregister_found _ _ _ _ _ G). simpl. split; [discriminate|]. intros _.
    apply in_or_app. right. left. reflexivity.
  - rewrite (unregister_not_found _ _ _ _ G). simpl. split; [|congruence].
    intros [H|[]]. discriminate.
Qed.

Lemma unregister_reply_once st k ch now :
  replies_of (snd (unregister st k ch now)) = [(ch, match aget k (d_svcs st) with Some _ => true | None => false end)].
Proof.
  destruct (aget k (d_svcs st)) as [s|] eqn:G.
  - rewrite (unregister_found _ _ _ _ _ G). simpl. unfold replies_of. rewrite flat_map_app. simpl.
    assert (flat_map (fun o : out => match o with OReply c ok => [(c, ok)] | _ => [] end)
                     (map send_of (goodbyes_of st s)) = []) as ->; [|reflexivity].
    induction (goodbyes_of st s) as [|[[i v] m] t IH]; simpl; auto.
  - rewrite (unregister_not_found _ _ _ _ G). reflexivity.
Qed.

Lemma unregister_frame st k ch now :
  let st' := fst (unregister st k ch now) in
  (forall k', k' <> k -> aget k' (d_svcs st') = aget k' (d_svcs st)) /\
  d_regs st' = match aget k (d_svcs st) with Some s => forget_regs (s_full s) (d_regs st) | None => d_regs st end /\
  d_intfs st' = d_intfs st /\
  (NoDup (keys (d_svcs st)) -> aget k (d_svcs st') = None).
Proof.
  destruct (aget k (d_svcs st)) as [s|] eqn:G.
  - rewrite (unregister_found _ _ _ _ _ G). simpl. repeat split.
    + intros k' Hk. apply aget_adel_other. assumption.
    + intros Hnd. apply aget_adel_same. assumption.
  - rewrite (unregister_not_found _ _ _ _ G). simpl. repeat split. intros _. assumption.
Qed.

Lemma goodbye_all_ttl0 rg s addrs : is_goodbye (goodbye_msg rg s addrs) = true.
Proof.
  unfold is_goodbye, goodbye_msg. cbn [o_resp o_an o_ar]. rewrite app_nil_r, !forallb_app.
  assert (A : forallb (fun r => r_ttl r =? 0)
                (map (fun a => mkRR (resolve_name rg (s_host s)) (addr_type a) class_in true 0 (RAddr a)) addrs) = true)
    by (apply forallb_forall; intros r Hr; apply in_map_iff in Hr as (a & <- & _); reflexivity).
  rewrite A. unfold ptr_rrs. destruct (s_sub s); reflexivity.
Qed.

Lemma flat_map_ext_In {X Y} (f g : X -> list Y) (l : list X) :
  (forall x, In x l -> f x = g x) -> flat_map f l = flat_map g l.
Proof. apply flat_map_ext_in. Qed.

Lemma goodbyes_are_spec st s :
  map (fun g : N * bool * omsg => let '(i, v4, m) := g in (i, v4, Mcast, m)) (goodbyes_of st s)
  = spec_goodbyes st true true s.
Proof.
  unfold goodbyes_of, spec_goodbyes. induction (d_intfs st) as [|i t IH]; simpl; [reflexivity|].
  rewrite map_app, IH. f_equal. unfold goodbye_on.
  destruct (announced_on (if_index i) s); simpl; [|reflexivity].
  destruct (addrs_on_intf s i true) as [|a4 l4]; destruct (addrs_on_intf s i false) as [|a6 l6]; reflexivity.
Qed.

Lemma goodbye_only_where_announced st s i v4 m :
  In (i, v4, m) (goodbyes_of st s) -> announced_on i s = true /\ exists itf, In itf (d_intfs st) /\ if_index itf = i.
Proof.
  unfold goodbyes_of. intros H. apply in_flat_map in H as (itf & Hin & H).
  destruct (announced_on (if_index itf) s) eqn:A; [|contradiction].
  assert (i = if_index itf).
  { apply in_app_or in H as [H|H];
      [destruct (goodbye_on st s itf true)|destruct (goodbye_on st s itf false)]; simpl in H; try contradiction;
      destruct H as [H|[]]; inversion H; reflexivity. }
  subst. eauto.
Qed.

Lemma unregister_schedules_repeat st k ch now s :
  aget k (d_svcs st) = Some s ->
  d_retrans (fst (unregister st k ch now))
  = d_retrans st ++ map (fun g : N * bool * omsg => let '(i, v4, m) := g in (now + 120, UnregisterResend m i v4))
                        (goodbyes_of st s).
Proof.
  intros G. rewrite (unregister_found _ _ _ _ _ G). simpl. f_equal.
  apply map_ext. intros [[i v4] m]. unfold resend_of. destruct goodbye_repeat_pinned as [-> ->].
  destruct v4; reflexivity.
Qed.

(* the minimum over the queue is at most t once an entry due at t is in the list or the accumulator
   is already below t (the disjunction is what the induction carries) *)
Lemma fold_due_le (l : list (N * cmd)) : forall acc t c,
  (In (t, c) l \/ exists a, acc = Some a /\ a <= t) ->
  exists d, fold_left (fun acc e => opt_min acc (Some (fst e))) l acc = Some d /\ d <= t.
Proof.
  induction l as [|[t0 c0] l IH]; intros acc t c H; cbn [fold_left].
  - destruct H as [[]|(a & -> & Ha)]. exists a. split; [reflexivity|exact Ha].
  - apply (IH _ t c). destruct H as [[E|I]|(a & -> & Ha)].
    + inversion E; subst. right. cbn [fst]. destruct acc as [a|]; cbn [opt_min]; eexists; split; try reflexivity; lia.
    + left. exact I.
    + right. cbn [opt_min fst]. eexists. split; [reflexivity|]. lia.
Qed.

Lemma due_work_covers_retrans st t c :
  In (t, c) (d_retrans st) -> exists d, due_work st = Some d /\ d <= t.
Proof. intros H. unfold due_work. apply (fold_due_le _ _ t c). left. exact H. Qed.

Lemma instance_answer_current_name st g itf rg qn qt :
  answer_instance_question st g itf rg qn qt <> ([], []) ->
  exists ks, In ks (d_svcs st) /\ lower (resolve_name rg (s_full (snd ks))) = lower qn.
Proof.
  unfold answer_instance_question.
  destruct (find (fun ks => beq (lower (resolve_name rg (s_full (snd ks)))) (lower qn)) (d_svcs st)) as [ks|] eqn:F;
    [|congruence].
  intros _. apply find_some in F as [Hin E]. apply beq_eq in E. eauto.
Qed.

Lemma instance_answer_current_host st g itf rg qn qt an ar :
  answer_instance_question st g itf rg qn qt = (an, ar) ->
  exists host, (forall r, In r ar -> r_name r = host) /\
               (forall r p w o h, In r an -> r_data r = RSrv p w o h -> h = host) /\
               (an = [] /\ ar = [] \/ exists ks, In ks (d_svcs st) /\ host = resolve_name rg (s_host (snd ks))).
Proof.
  unfold answer_instance_question.
  destruct (find (fun ks => beq (lower (resolve_name rg (s_full (snd ks)))) (lower qn)) (d_svcs st)) as [[k s]|] eqn:F.
  2:{ intros H; inversion H. exists []. repeat split; try (intros; contradiction). left. auto. }
  apply find_some in F as [Hin _].
  destruct (negb (announced_on (g_if g) s)).
  { intros H; inversion H. exists []. repeat split; try (intros; contradiction). left. auto. }
  destruct (addrs_on_intf s itf (g_v4 g)) as [|a0 al].
  { intros H; inversion H. exists []. repeat split; try (intros; contradiction). left. auto. }
  intros H; inversion H; subst; clear H. exists (resolve_name rg (s_host s)). split; [|split].
  - intros r Hr. destruct ((qt =? TY_SRV) && _); [|contradiction].
    destruct Hr as [<-|Hr]; [reflexivity|]. apply in_map_iff in Hr as (a & <- & _). reflexivity.
  - intros r p w o h Hr Hd. apply in_app_or in Hr as [Hr|Hr].
    + destruct (_ && negb _); [|contradiction]. destruct Hr as [<-|[]]. simpl in Hd. inversion Hd. reflexivity.
    + destruct ((qt =? TY_TXT) || _); [|contradiction]. unfold add_all in Hr.
      apply in_map_iff in Hr as (x & <- & Hx). apply filter_In in Hx as [[<-|[]] _]. simpl in Hd. discriminate.
  - right. exists (k, s). auto.
Qed.
