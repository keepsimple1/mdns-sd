(* C04, follow-up schedule at history level: after every loop iteration of every history in which
   time does not run backwards, every follow-up (Resolve) retransmission the model holds is try
   number 1, 2 or 3 and is due strictly after, and at most 500 ms after, the time of that
   iteration.  Hence (with exec_resolve's step theorems) a chain asks at most three times, each
   try at most 500 ms after the iteration that scheduled it, and on a timer-exact schedule
   exactly at +500, +1000, +1500.  No known class is excluded. *)
From Coq Require Import List NArith Bool Lia.
From Mdns Require Import ParamsBrowser ParamsBrowserPinned Cache Browser C03Spec SpecTrackProofs BrowserLoopProofs.
Import ListNotations.
Open Scope N_scope.
(* what holds when an iteration at `now` begins: a try is number 1..3 and due at most 500 ms ahead (it may be due) *)
Definition sched_q (now : N) (x : N * rcmd) : Prop :=
  match snd x with
  | RResolve _ n => fst x <= now + 500 /\ 1 <= n /\ n <= 3
  | RVerify _ _ => True
  end.
(* what holds when it ends: moreover due strictly later than `now` *)
Definition sched_p (now : N) (x : N * rcmd) : Prop :=
  match snd x with
  | RResolve _ n => now < fst x /\ fst x <= now + 500 /\ 1 <= n /\ n <= 3
  | RVerify _ _ => True
  end.

Lemma sched_p_q now x : sched_p now x -> sched_q now x.
Proof. unfold sched_p, sched_q. destruct (snd x); tauto. Qed.

Lemma sched_q_mono now now' x : now <= now' -> sched_q now x -> sched_q now' x.
Proof. unfold sched_q. destruct (snd x); [|tauto]. intros H (A & B & C). repeat split; lia. Qed.

Lemma pinned_waits : pending_wait = 500 /\ resolve_wait = 500 /\ pending_first_try = 1.
Proof. destruct (followup_pinned 0) as (_ & A & B & C & _). auto. Qed.

(* every function only appends entries that satisfy sched_p now, or filters *)
Definition appends (now : N) (r r' : list (N * rcmd)) : Prop :=
  exists l, r' = r ++ l /\ Forall (sched_p now) l.

Lemma appends_refl now r : appends now r r.
Proof. exists []. split; [now rewrite app_nil_r|constructor]. Qed.

Lemma appends_trans now a b c : appends now a b -> appends now b c -> appends now a c.
Proof.
  intros [l1 [-> H1]] [l2 [-> H2]]. exists (l1 ++ l2). split; [now rewrite app_assoc|].
  apply Forall_app. auto.
Qed.

Lemma first_tries_appends now r new :
  appends now r (r ++ map (fun i => (now + pending_wait, RResolve i pending_first_try)) new).
Proof.
  exists (map (fun i => (now + pending_wait, RResolve i pending_first_try)) new). split; [reflexivity|].
  apply Forall_forall. intros x Hx. apply in_map_iff in Hx as [i [<- _]].
  destruct pinned_waits as (A & _ & C). rewrite A, C. unfold sched_p. simpl. lia.
Qed.

Lemma resolve_updated_appends s now u : appends now (s_retrans s) (s_retrans (fst (resolve_updated s now u))).
Proof. destruct (resolve_updated_fields s now u) as (_ & _ & _ & new & _ & -> & _). apply first_tries_appends. Qed.

Lemma handle_read_appends ifs s now d : appends now (s_retrans s) (s_retrans (fst (handle_read ifs s now d))).
Proof.
  unfold handle_read. destruct (accepted_msg ifs d) as [m|]; [|apply appends_refl].
  rewrite handle_response_eq. apply (resolve_updated_appends (with_cache s _)).
Qed.

Lemma run_cmds_appends {C} (f : st -> N -> C -> st * list out) now :
  (forall s c, appends now (s_retrans s) (s_retrans (fst (f s now c)))) ->
  forall l s, appends now (s_retrans s) (s_retrans (fst (run_cmds f s now l))).
Proof.
  intros Hf l s. apply (run_cmds_inv f now (fun s' => appends now (s_retrans s) (s_retrans s'))); [|apply appends_refl].
  intros s1 c H. eapply appends_trans; [exact H|apply Hf].
Qed.

Lemma exec_call_appends s now cl : appends now (s_retrans s) (s_retrans (fst (exec_call s now cl))).
Proof.
  destruct cl as [ty ch|ty|inst timeout|ch]; simpl.
  - destruct (exec_browse_fields s now ty ch) as (_ & _ & _ & new & _ & -> & _). apply first_tries_appends.
  - unfold exec_stop. destruct (q_get ty (s_q s)); apply appends_refl.
  - unfold exec_verify. destruct (service_verify_queries (s_cache s) inst (Some (now + timeout))) as [c1 qs].
    destruct qs; simpl; [apply appends_refl|].
    exists [(verify_resend_time now, RVerify inst timeout)]. split; [reflexivity|]. constructor; [exact I|constructor].
  - apply appends_refl.
Qed.

Lemma exec_rcmd_appends s now t c :
  sched_q now (t, c) -> appends now (s_retrans s) (s_retrans (fst (exec_rcmd s now c))).
Proof.
  intros Hq. destruct c as [inst n|inst timeout]; simpl.
  - unfold exec_resolve. destruct (if has_ptr_to (s_cache s) inst then query_unresolved (s_cache s) inst else (false, [])) as [sent o].
    destruct (followup_pinned n) as (_ & _ & Hw & _ & _ & Hg & Hn & _).
    destruct (sent && retry_guard n max_try) eqn:E; simpl; [|apply appends_refl].
    apply andb_true_iff in E as [_ E]. rewrite Hg in E. apply N.ltb_lt in E.
    exists [(now + resolve_wait, RResolve inst (retry_next n))]. split; [reflexivity|].
    constructor; [|constructor]. rewrite Hw, Hn. unfold sched_p. simpl. lia.
  - unfold exec_verify. destruct (service_verify_queries (s_cache s) inst None) as [c1 qs].
    destruct qs; apply appends_refl.
Qed.

Lemma run_rcmds_appends now : forall l s,
  Forall (sched_q now) l ->
  appends now (s_retrans s) (s_retrans (fst (run_cmds exec_rcmd s now (map snd l)))).
Proof.
  induction l as [|[t c] l IH]; intros s Hl; simpl; [apply appends_refl|].
  inversion Hl as [|? ? Hx Hrest]; subst.
  pose proof (exec_rcmd_appends s now t c Hx) as H1. destruct (exec_rcmd s now c) as [s1 o1].
  specialize (IH s1 Hrest). destruct (run_cmds exec_rcmd s1 now (map snd l)) as [s2 o2]. simpl in *.
  eapply appends_trans; eauto.
Qed.

Lemma resolve_hosts_appends now names s : appends now (s_retrans s) (s_retrans (fst (resolve_hosts s now names))).
Proof. rewrite resolve_hosts_run. apply run_cmds_appends. intros s0 h. apply resolve_updated_appends. Qed.

Lemma Forall_appends_q now r r' : Forall (sched_q now) r -> appends now r r' -> Forall (sched_q now) r'.
Proof.
  intros H [l [-> Hl]]. apply Forall_app. split; [assumption|].
  eapply Forall_impl; [|exact Hl]. intros x. apply sched_p_q.
Qed.

Lemma Forall_appends_p now r r' : Forall (sched_p now) r -> appends now r r' -> Forall (sched_p now) r'.
Proof. intros H [l [-> Hl]]. apply Forall_app. auto. Qed.

(* entries that were due are run, and what they and the others leave is due later *)
Lemma run_retrans_schedule s now :
  Forall (sched_q now) (s_retrans s) -> Forall (sched_p now) (s_retrans (fst (run_retrans s now))).
Proof.
  intros H2. unfold run_retrans. rewrite Forall_forall in H2.
  eapply Forall_appends_p; [|apply run_rcmds_appends].
  - apply Forall_forall. intros x Hx. apply filter_In in Hx as [Hx Hn]. cbn [s_retrans] in *.
    specialize (H2 x Hx). apply negb_true_iff in Hn. apply N.leb_gt in Hn.
    unfold sched_p, sched_q in *. destruct (snd x); [|exact I]. tauto.
  - apply Forall_forall. intros x Hx. apply filter_In in Hx as [Hx _]. auto.
Qed.

Theorem iterate_schedule ifs s it :
  Forall (sched_q (i_now it)) (s_retrans s) ->
  Forall (sched_p (i_now it)) (s_retrans (fst (iterate ifs s it))).
Proof.
  intros H0. rewrite iterate_eq. cbv zeta. cbn [fst]. rewrite evict_eq. cbv zeta. cbn [fst].
  eapply Forall_appends_p; [|apply resolve_hosts_appends]. cbn [with_cache s_retrans]. apply run_retrans_schedule.
  eapply Forall_appends_q; [|apply (run_cmds_appends exec_call); intros s0 c; apply exec_call_appends].
  eapply Forall_appends_q; [exact H0|apply (run_cmds_appends (handle_read ifs)); intros s0 d; apply handle_read_appends].
Qed.

Definition last_now (h : list iter) : N := match rev h with [] => 0 | it :: _ => i_now it end.

Theorem followup_schedule_invariant_aux ifs : forall h s t0,
  Forall (sched_q t0) (s_retrans s) -> times_mono t0 h = true -> h <> [] ->
  Forall (sched_p (last_now h)) (s_retrans (model_after ifs s h)).
Proof.
  induction h as [|it h IH]; intros s t0 H0 Hm Hne; [congruence|].
  simpl in Hm. apply andb_true_iff in Hm as [Hm1 Hm2]. apply N.leb_le in Hm1.
  pose proof (iterate_schedule ifs s it
                (Forall_impl _ (fun x => sched_q_mono t0 (i_now it) x Hm1) H0)) as H1.
  simpl. destruct h as [|it2 h2].
  - simpl. unfold last_now. simpl. exact H1.
  - assert (Hl : last_now (it :: it2 :: h2) = last_now (it2 :: h2)).
    { unfold last_now. simpl. destruct (rev h2 ++ [it2]) eqn:E; [destruct (rev h2); discriminate|]. reflexivity. }
    rewrite Hl. apply (IH (fst (iterate ifs s it)) (i_now it)); [|exact Hm2|discriminate].
    eapply Forall_impl; [|exact H1]. intros x. apply sched_p_q.
Qed.

Theorem followup_schedule_invariant ifs h :
  wf_history h = true -> h <> [] ->
  Forall (sched_p (last_now h)) (s_retrans (model_after ifs init_st h)).
Proof. intros Hwf Hne. apply (followup_schedule_invariant_aux ifs h init_st 0); [constructor|exact Hwf|exact Hne]. Qed.
