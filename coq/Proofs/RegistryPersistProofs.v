(* C07, after the announcing iteration: the service stays registered, its records stay active, no rename is
   recorded - through further calm iterations; the queued second announcement is SENT when due. *)
From Coq Require Import List NArith Lia.
From Mdns Require Import Bytes Registry RegistryDaemon RegistryProofs RegistryStepProofs RegistryHistoryProofs
     RegistryLivenessProofs RegistryTimingProofs.
Import ListNotations.
Open Scope N_scope.

(* the registry of the interface after the probes are done: no rename recorded, probing names pairwise
   different, every record of the service's announcement (family v4 on itf) active *)
Definition Qdone (s0 : svc) (itf : intf) (v4 : bool) (rg : registry) : Prop :=
  clean rg /\ NoDup (keys (rg_probing rg)) /\ Forall (fun r => in_active rg r = true) (ARI s0 ++ ARH s0 itf v4).

Lemma Qdone_ipd s0 itf v4 rg r svc start : p_new r = None -> Qdone s0 itf v4 rg -> Qdone s0 itf v4 (fst (is_probing_done rg r svc start)).
Proof.
  intros Hn (C & Hnd & A). split; [apply ipd_clean; assumption|]. split; [apply ipd_nodup; exact Hnd|].
  eapply Forall_impl; [|exact A]. intros x Hx. unfold in_active. rewrite ipd_active. exact Hx.
Qed.

Lemma Qdone_clean s0 itf v4 rg : Qdone s0 itf v4 rg -> rg_changes rg = [].
Proof. intros ((C & _) & _). exact C. Qed.

Lemma Qdone_step s0 itf v4 rg now : Qdone s0 itf v4 rg -> Qdone s0 itf v4 (fst (fst (fst (probe_step rg now)))).
Proof.
  intros (C & Hnd & A). destruct (probe_step_general rg now C Hnd) as (C1 & N1 & M1). split; [exact C1|]. split; [exact N1|].
  eapply Forall_impl; [|exact A]. exact M1.
Qed.

Section KeepAll.
  Variable Q : registry -> Prop.
  Hypothesis Q_ipd : forall rg r svc start, p_new r = None -> Q rg -> Q (fst (is_probing_done rg r svc start)).
  Hypothesis Q_clean : forall rg, Q rg -> rg_changes rg = [].
  (* the times at which a probing pass keeps Q *)
  Variable okt : N -> Prop.
  Hypothesis Q_step : forall rg now, okt now -> Q rg -> Q (fst (fst (fst (probe_step rg now)))).
  Variables (k : N) (key : bytes) (s0 : svc) (itf : intf).

  Lemma pass_Kept now (Hok : okt now) i0 st js : Kept Q k key s0 itf st -> Kept Q k key s0 itf (fst (fst (pass i0 st now js))).
  Proof.
    intros H. destruct (N.eq_dec (if_index i0) k) as [E|Hne]; [|exact (proj1 (pass_other Q k key s0 itf now i0 st js Hne) H)].
    unfold pass. destruct (nget (if_index i0) (d_regs st)) as [rg|] eqn:G; [|exact H].
    pose proof (Q_step rg now Hok) as HS. destruct (probe_step rg now) as [[[rg1 qs] evs] waiting]. cbn [fst] in HS.
    pose proof (announce_waiting_svcs i0 now (d_mon st) (svc_at key s0) (fun svcs k0 s1 H0 G0 => svc_at_sput key s0 svcs k0 s1 _ _ H0 G0) waiting rg1 (d_svcs st) js) as SA.
    pose proof (announce_waiting_Q Q Q_ipd Q_clean i0 now (d_mon st) waiting rg1 (d_svcs st) js) as HQ.
    destruct (announce_waiting waiting i0 rg1 (d_svcs st) now js (d_mon st)) as [[[[rg2 svcs2] os2] rt2] js2]. cbn [fst snd] in SA, HQ.
    destruct H as (D & F & R & S). split; [exact D|]. split; [exact F|]. split; [|apply SA; exact S]. cbn [d_regs].
    apply (RK_nset Q k _ _ rg); [exact R|left; exact G|]. intros H0. apply HQ, HS, H0.
  Qed.

  Lemma probing_intfs_Kept now (Hok : okt now) ifs st js : Kept Q k key s0 itf st -> Kept Q k key s0 itf (fst (fst (probing_intfs ifs st now js))).
  Proof.
    apply (probing_intfs_phase (keeps (Kept Q k key s0 itf)) (keeps_nil _) (keeps_app _)). intros st0 i0 js0 _. exact (pass_Kept now Hok i0 st0 js0).
  Qed.

  (* one calm iteration at a time that okt admits keeps it *)
  Lemma calm_iteration_Kept st it st' os js :
    okt (it_now it) -> calm_iter key it -> iterate st it = (st', os, Running, js) -> Kept Q k key s0 itf st -> Kept Q k key s0 itf st'.
  Proof.
    intros Hok Hc Hit HK.
    destruct (calm_prefix Q Q_ipd Q_clean k key s0 itf st it st' os js Hc Hit HK)
      as (st1 & os1 & js1 & st2 & os2 & js2 & st3 & os3 & js3 & os4 & _ & _ & _ & E4 & _ & _ & _ & K3 & _).
    pose proof (probing_intfs_Kept (it_now it) Hok (d_intfs st3) st3 js3 K3) as K4. rewrite E4 in K4. exact K4.
  Qed.
End KeepAll.

Lemma pass_k_finish s0 itf v4 T key now st js :
  key = lower (s_full s0) -> addrs_on_intf s0 itf v4 <> [] -> now = T + 750 ->
  Kept (Qj s0 itf v4 T 3) (if_index itf) key s0 itf st ->
  Kept (Qdone s0 itf v4) (if_index itf) key s0 itf (fst (fst (pass itf st now js))).
Proof.
  intros Hkey Ha Hnow HK. apply (pass_k_state _ _ (Qdone_ipd s0 itf v4) (Qdone_clean s0 itf v4) key s0 itf now st js HK).
  intros rg HQ. destruct (probe_step rg now) as [[[rg1 qs] evs] waiting] eqn:PS.
  exact (proj2 (Qj_finish s0 itf v4 T rg now rg1 qs evs waiting HQ Ha Hnow PS)).
Qed.

(* the announcing iteration (now = T + 750, phase 3) ends in Kept Qdone *)
Lemma calm_iteration_finish s0 itf v4 T key st it st' os js :
  let k := if_index itf in
  key = lower (s_full s0) -> addrs_on_intf s0 itf v4 <> [] ->
  NoDup (map if_index (d_intfs st)) -> calm_iter key it -> iterate st it = (st', os, Running, js) ->
  Kept (Qj s0 itf v4 T 3) k key s0 itf st -> it_now it = T + 750 ->
  Kept (Qdone s0 itf v4) k key s0 itf st'.
Proof.
  intros k Hkey Ha Hnd Hc Hit HK Hnow.
  destruct (calm_prefix _ (Qj_ipd s0 itf v4 T 3) (Qj_clean s0 itf v4 T 3) k key s0 itf st it st' os js Hc Hit HK)
    as (st1 & os1 & js1 & st2 & os2 & js2 & st3 & os3 & js3 & os4 & _ & _ & _ & E4 & _ & _ & _ & K3 & F3).
  assert (Hnd3 : NoDup (map if_index (d_intfs st3))) by (rewrite F3; exact Hnd).
  pose proof (probing_once _ _ (it_now it) k itf
                (fun i0 st0 js0 E => proj1 (pass_other (Qj s0 itf v4 T 3) k key s0 itf (it_now it) i0 st0 js0 E))
                (fun i0 st0 js0 E => proj1 (pass_other (Qdone s0 itf v4) k key s0 itf (it_now it) i0 st0 js0 E))
                (fun st0 js0 H0 => pass_k_finish s0 itf v4 T key (it_now it) st0 js0 Hkey Ha Hnow H0)
                (d_intfs st3) st3 js3 Hnd3 (proj1 (proj2 K3)) K3) as PA.
  rewrite E4 in PA. exact PA.
Qed.

Lemma announcement_of_clean s0 s itf rg v4 :
  rg_changes rg = [] -> svc_eqv s0 s -> announcement_of s itf rg v4 = announcement_of s0 itf reg_new v4.
Proof.
  intros C Q. rewrite (announcement_of_eqv s0 s itf rg v4 Q). unfold announcement_of, resolve_name.
  rewrite (announce_records_stable reg_new rg s0 itf v4 C), C. reflexivity.
Qed.

(* one calm iteration at or after the entry's time: the announcement goes out in it *)
Lemma iteration_sends_second s0 itf v4 key st it st' os js t full :
  let k := if_index itf in
  key = lower (s_full s0) -> lower full = key -> addrs_on_intf s0 itf v4 <> [] ->
  calm_iter key it -> iterate st it = (st', os, Running, js) ->
  Kept (Qdone s0 itf v4) k key s0 itf st -> In (t, RegisterResend full k) (d_retrans st) -> t <= it_now it ->
  In (OSend k v4 Mcast (announcement_of s0 itf reg_new v4)) os.
Proof.
  intros k Hkey Hfull Ha Hc Hit HK Hin Ht.
  destruct (calm_prefix _ (Qdone_ipd s0 itf v4) (Qdone_clean s0 itf v4) k key s0 itf st it st' os js Hc Hit HK)
    as (st1 & os1 & js1 & st2 & os2 & js2 & st3 & os3 & js3 & os4 & E1 & E2 & E3 & _ & -> & _ & K2 & _).
  pose proof (handle_dgrams_retrans (it_now it) (it_gs it) st (it_jitter it)) as R1. rewrite E1 in R1. cbn [fst] in R1.
  assert (Hin1 : In (t, RegisterResend full k) (d_retrans st1)) by (rewrite R1; exact Hin).
  pose proof (exec_calls_keeps (it_now it) (it_calls it) st1 js1 _ Hin1) as R2. rewrite E2 in R2. cbn [fst] in R2.
  destruct R2 as [R2|R2]; [|rewrite (proj1 K2) in R2; discriminate].
  destruct K2 as (D2 & F2 & (rg & G2 & (C2 & N2 & A2)) & (s & GS & QS)).
  assert (RD : resend_ready st2 full k s itf rg) by (split; [rewrite Hfull; exact GS|split; assumption]).
  pose proof (due_second_announcement_sent st2 (it_now it) js2 t full k s itf rg v4 R2 Ht RD (announceable_clean rg s0 s itf v4 (proj1 C2) QS Ha A2)) as S3.
  rewrite (announcement_of_clean s0 s itf rg v4 (proj1 C2) QS), E3 in S3. cbn [fst snd] in S3.
  apply in_or_app. right. apply in_or_app. right. apply in_or_app. left. exact S3.
Qed.

(* The second announcement is sent over calm histories: from a state in which the service's records are
   active on the interface (Kept Qdone - what the announcing iteration leaves) and RegisterResend for the
   service is queued for time t: through any calm history in which the daemon keeps running, the first
   iteration at or after t sends the announcement on that interface (family v4) *)
Theorem second_announcement_sent_calm s0 itf v4 key t full :
  key = lower (s_full s0) -> lower full = key -> addrs_on_intf s0 itf v4 <> [] ->
  forall its st, Kept (Qdone s0 itf v4) (if_index itf) key s0 itf st -> In (t, RegisterResend full (if_index itf)) (d_retrans st) ->
  Forall (calm_iter key) its -> all_running st its -> (exists it, In it its /\ t <= it_now it) ->
  exists pre it post, its = pre ++ it :: post /\ Forall (fun x => it_now x < t) pre /\ t <= it_now it /\
    In (OSend (if_index itf) v4 Mcast (announcement_of s0 itf reg_new v4)) (snd (fst (fst (iterate (run_state st pre) it)))).
Proof.
  intros Hkey Hfull Ha. induction its as [|it rest IH]; intros st HK Hin Hc Hr (it0 & Hi0 & Ht0); [contradiction|].
  apply Forall_cons_iff in Hc as [Hci Hcr]. cbn [all_running] in Hr. destruct Hr as [Hr1 Hr2].
  destruct (iterate st it) as [[[st1 os1] e1] js1] eqn:Hit. cbn [fst snd] in *. subst e1.
  destruct (N.le_gt_cases t (it_now it)) as [Hle|Hgt].
  - exists [], it, rest. split; [reflexivity|]. split; [constructor|]. split; [exact Hle|]. cbn [run_state]. rewrite Hit. cbn [fst snd].
    exact (iteration_sends_second s0 itf v4 key st it st1 os1 js1 t full Hkey Hfull Ha Hci Hit HK Hin Hle).
  - pose proof (calm_iteration_Kept _ (Qdone_ipd s0 itf v4) (Qdone_clean s0 itf v4) (fun _ => True) (fun rg now _ H => Qdone_step s0 itf v4 rg now H) _ key s0 itf st it st1 os1 js1 I Hci Hit HK) as HK1.
    pose proof (queue_entry_persists st it st1 os1 js1 _ Hit Hin Hgt) as Hin1.
    assert (Hex : exists x, In x rest /\ t <= it_now x).
    { destruct Hi0 as [<-|Hi0]; [lia|exists it0; split; assumption]. }
    destruct (IH st1 HK1 Hin1 Hcr Hr2 Hex) as (pre & it' & post & E & Fp & Ht' & Hs).
    exists (it :: pre), it', post. split; [rewrite E; reflexivity|]. split; [constructor; assumption|]. split; [exact Ht'|].
    cbn [run_state]. rewrite Hit. exact Hs.
Qed.

(* the announcing iteration of a never-late calm history leaves Kept Qdone and Done behind *)
Theorem reaches_Qdone_gen s0 itf v4 T key :
  key = lower (s_full s0) -> s_probe s0 = true -> addrs_on_intf s0 itf v4 <> [] ->
  forall its st j, (j <= 3)%nat ->
  NoDup (map if_index (d_intfs st)) -> Kept (Qj s0 itf v4 T j) (if_index itf) key s0 itf st ->
  Forall (calm_iter key) its -> all_running st its -> never_late st its ->
  (exists it, In it its /\ T + 750 <= it_now it) ->
  exists pre it post, its = pre ++ it :: post /\ it_now it = T + 750 /\
    Done (if_index itf) key (d_svcs (run_state st (pre ++ [it]))) /\
    Kept (Qdone s0 itf v4) (if_index itf) key s0 itf (run_state st (pre ++ [it])) /\
    NoDup (map if_index (d_intfs (run_state st (pre ++ [it])))).
Proof.
  intros Hkey Hp Ha its st j Hj Hnd HK Hc Hr Hl Hex.
  destruct (reaches_gen (fun st1 => Kept (Qdone s0 itf v4) (if_index itf) key s0 itf st1 /\ NoDup (map if_index (d_intfs st1)))
              s0 itf v4 T key Hkey Hp Ha) with (its := its) (st := st) (j := j) as [(pre & it & post & E & Et & HD & HQ & HN)|(j' & Hj' & _ & HF)];
    try assumption.
  - intros st0 it0 st1 os js Hnd0 Hc0 Hit0 HK0 Hnow. split.
    + exact (calm_iteration_finish s0 itf v4 T key st0 it0 st1 os js Hkey Ha Hnd0 Hc0 Hit0 HK0 Hnow).
    + destruct (calm_iteration s0 itf v4 T 3 key st0 it0 st1 os js Hkey Hp Ha Hnd0 Hc0 Hit0 HK0) as (EI & _). rewrite EI. exact Hnd0.
  - exists pre, it, post. auto.
  - destruct (not_still_probing T j' its ltac:(lia) HF Hex).
Qed.
