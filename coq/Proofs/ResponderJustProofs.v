(* The one walk over handle_query, for every input of the responder model (no hypothesis on
   services, renames or the query).  Its invariant says that the question loop leaves the header of
   the outgoing message alone and that every record it appends is a record of a listed service that
   is Announced on the receiving interface (its type / subtype / meta PTR, its SRV or TXT under a
   name that is case-insensitively its current instance name, or one of its addresses on the link
   under its current host name).  The first half gives handle_query in closed form
   (handle_query_closed), the second C06's "nothing else" (response_records_justified). *)
From Coq Require Import List NArith Bool.
From Mdns Require Import Bytes Rec Intf Responder ResponderSpec ListFacts ResponderReply.
Import ListNotations.
Open Scope N_scope.

(* r is one of the records of service s on this link (the cache-flush bit aside: legacy unicast
   responses clear it) *)
Definition svc_rec (nc : list (bytes * bytes)) (intf : myintf) (s : service) (r : rr) : Prop :=
  let ci := resolve_name nc (s_fullname s) in
  let ch := resolve_name nc (s_host s) in
  clear_flush r = clear_flush (ptr_record (s_ty s) (s_other_ttl s) ci)
  \/ (exists sub, s_sub s = Some sub /\ clear_flush r = clear_flush (ptr_record sub (s_other_ttl s) ci))
  \/ clear_flush r = clear_flush (ptr_record META_QUERY (s_other_ttl s) (s_ty s))
  \/ (exists name, lower name = lower ci /\ clear_flush r = clear_flush (srv_record name s ch))
  \/ (exists name, lower name = lower ci /\ clear_flush r = clear_flush (txt_record name s))
  \/ (exists a, In a (s_addrs s) /\ addr_on_intf intf a = true /\ clear_flush r = clear_flush (addr_record ch s a)).

Definition just_rec (entries : list entry) (nc : list (bytes * bytes)) (intf : myintf) (r : rr) : Prop :=
  exists e, In e entries /\ is_announced (e_status e) = true /\ svc_rec nc intf (e_svc e) r.

(* svc_rec clause by clause: one rule per kind of record the responder builds, and what an address
   record that satisfies svc_rec must be *)
Lemma svc_rec_ptr nc intf s :
  svc_rec nc intf s (ptr_record (s_ty s) (s_other_ttl s) (resolve_name nc (s_fullname s))).
Proof. left. reflexivity. Qed.

Lemma svc_rec_sub nc intf s sub : s_sub s = Some sub ->
  svc_rec nc intf s (ptr_record sub (s_other_ttl s) (resolve_name nc (s_fullname s))).
Proof. intros H. right. left. exists sub. auto. Qed.

Lemma svc_rec_meta nc intf s : svc_rec nc intf s (ptr_record META_QUERY (s_other_ttl s) (s_ty s)).
Proof. right. right. left. reflexivity. Qed.

Lemma svc_rec_srv nc intf s name : lower name = lower (resolve_name nc (s_fullname s)) ->
  svc_rec nc intf s (srv_record name s (resolve_name nc (s_host s))).
Proof. intros H. do 3 right. left. exists name. auto. Qed.

Lemma svc_rec_txt nc intf s name : lower name = lower (resolve_name nc (s_fullname s)) ->
  svc_rec nc intf s (txt_record name s).
Proof. intros H. do 4 right. left. exists name. auto. Qed.

Lemma svc_rec_addr nc intf s a : In a (s_addrs s) -> addr_on_intf intf a = true ->
  svc_rec nc intf s (addr_record (resolve_name nc (s_host s)) s a).
Proof. intros H1 H2. do 5 right. exists a. auto. Qed.

Lemma svc_rec_addr_inv nc intf s r o : svc_rec nc intf s r -> r_data r = RAddr o ->
  exists a, In a (s_addrs s) /\ addr_on_intf intf a = true /\ o = ip_octets a.
Proof.
  assert (D : forall x, clear_flush r = clear_flush x -> r_data r = r_data x)
    by (intros x E; exact (f_equal r_data E)).
  intros [H|[(sub & _ & H)|[H|[(n & _ & H)|[(n & _ & H)|(a & Ha & Hon & H)]]]]] Hr;
    rewrite (D _ H) in Hr; try discriminate Hr.
  exists a. injection Hr as <-. auto.
Qed.

Lemma in_intf_addrs v4 s intf a : In a (intf_addrs_of v4 s intf) -> In a (s_addrs s) /\ addr_on_intf intf a = true.
Proof.
  unfold intf_addrs_of, addrs_on_intf_v4, addrs_on_intf_v6. destruct v4; intros H;
    apply filter_In in H as [H1 H2]; apply andb_true_iff in H2 as [_ H2]; split; assumption.
Qed.

Section Walk.
Variable inp : hq_input.

(* The invariant: og has the header the question loop started with, and every record of its two
   sections is justified.  The first clause gives the closed form, the other two the theorem on
   the records. *)
Definition ok (og : outgoing) : Prop :=
  og_head og = og_head hq_og0 /\
  Forall (just_rec (h_services inp) (h_name_changes inp) (h_intf inp)) (og_answers og) /\
  Forall (just_rec (h_services inp) (h_name_changes inp) (h_intf inp)) (og_additionals og).

Lemma just_of e r : In e (h_services inp) -> is_announced (e_status e) = true ->
  svc_rec (h_name_changes inp) (h_intf inp) (e_svc e) r ->
  just_rec (h_services inp) (h_name_changes inp) (h_intf inp) r.
Proof. intros H1 H2 H3. exists e. auto. Qed.

Lemma ok_add_answer og m r :
  ok og -> just_rec (h_services inp) (h_name_changes inp) (h_intf inp) r -> ok (fst (add_answer og m r)).
Proof.
  intros (H0 & H1 & H2) Hr. unfold add_answer.
  destruct (suppressed_by r m); repeat split; try assumption. apply Forall_snoc; assumption.
Qed.

Lemma ok_add_additional og r :
  ok og -> just_rec (h_services inp) (h_name_changes inp) (h_intf inp) r -> ok (add_additional og r).
Proof. intros (H0 & H1 & H2) Hr. repeat split; try assumption. apply Forall_snoc; assumption. Qed.

Lemma ok_add_answer_with_additionals og e v4 : In e (h_services inp) -> is_announced (e_status e) = true ->
  ok og -> ok (add_answer_with_additionals og (h_msg inp) (e_svc e) (h_intf inp) (h_name_changes inp) v4).
Proof.
  intros He Ha Hok. unfold add_answer_with_additionals.
  destruct (is_nil (intf_addrs_of v4 (e_svc e) (h_intf inp))); [exact Hok|].
  pose proof (ok_add_answer og (h_msg inp) _ Hok (just_of e _ He Ha (svc_rec_ptr _ _ _))) as H1.
  destruct (add_answer og (h_msg inp) _) as [og1 added]. simpl in H1.
  destruct added; simpl; [|exact H1].
  apply fold_left_inv.
  - intros og' a Hin Hok'. apply in_intf_addrs in Hin as [Hi1 Hi2].
    apply ok_add_additional; [exact Hok'|]. apply (just_of e); auto. apply svc_rec_addr; assumption.
  - apply ok_add_additional; [|apply (just_of e); auto; apply svc_rec_txt; reflexivity].
    apply ok_add_additional; [|apply (just_of e); auto; apply svc_rec_srv; reflexivity].
    destruct (s_sub (e_svc e)) as [sub|] eqn:Es; [|exact H1].
    apply ok_add_additional; [exact H1|]. apply (just_of e); auto. apply svc_rec_sub. exact Es.
Qed.

Lemma ok_add_answer_of_service_as og e name qtype ia : In e (h_services inp) -> is_announced (e_status e) = true ->
  lower name = lower (resolve_name (h_name_changes inp) (s_fullname (e_svc e))) ->
  (forall a, In a ia -> In a (s_addrs (e_svc e)) /\ addr_on_intf (h_intf inp) a = true) ->
  ok og ->
  ok (add_answer_of_service_as og (h_msg inp) name (e_svc e) (resolve_name (h_name_changes inp) (s_host (e_svc e))) qtype ia).
Proof.
  intros He Ha Hn Hia Hok. unfold add_answer_of_service_as.
  set (pr := if (qtype =? TY_SRV) || (qtype =? TY_ANY) then add_answer og (h_msg inp) _ else (og, false)).
  assert (H1 : ok (fst pr)).
  { subst pr. destruct ((qtype =? TY_SRV) || (qtype =? TY_ANY)); [|exact Hok].
    apply ok_add_answer; [exact Hok|]. apply (just_of e); auto. apply svc_rec_srv. exact Hn. }
  destruct pr as [og1 added]. simpl in H1.
  set (og2 := if (qtype =? TY_TXT) || (qtype =? TY_ANY) then _ else og1).
  assert (H2 : ok og2).
  { subst og2. destruct ((qtype =? TY_TXT) || (qtype =? TY_ANY)); [|exact H1].
    apply ok_add_answer; [exact H1|]. apply (just_of e); auto. apply svc_rec_txt. exact Hn. }
  destruct ((qtype =? TY_SRV) && added); [|exact H2].
  apply fold_left_inv; [|exact H2]. intros og' a Hin Hok'. destruct (Hia a Hin).
  apply ok_add_additional; [exact Hok'|]. apply (just_of e); auto. apply svc_rec_addr; assumption.
Qed.

Lemma ok_ptr_step v4 q st e : In e (h_services inp) -> ok (fst st) -> ok (fst (ptr_step inp q v4 st e)).
Proof.
  destruct st as [og seen]. intros He Hok. unfold ptr_step.
  destruct (is_announced (e_status e)) eqn:Ea; simpl; [|exact Hok].
  destruct (matches_type_or_subtype (e_svc e) (q_name q)); simpl.
  - apply ok_add_answer_with_additionals; assumption.
  - destruct (beq (q_name q) META_QUERY) eqn:Eq; [|exact Hok].
    destruct (mem (s_ty (e_svc e)) seen); [exact Hok|]. simpl.
    apply ok_add_answer; [exact Hok|]. apply (just_of e); auto.
    apply beq_eq in Eq. rewrite Eq. apply svc_rec_meta.
Qed.

Lemma ok_addr_step q og e : In e (h_services inp) -> ok og -> ok (addr_step inp q og e).
Proof.
  intros He Hok. unfold addr_step.
  destruct (is_announced (e_status e)) eqn:Ea; simpl; [|exact Hok].
  destruct (beq _ _); [|exact Hok].
  apply fold_left_inv; [|exact Hok]. intros og' a Hin Hok'. apply ok_add_answer; [exact Hok'|].
  apply (just_of e); auto.
  apply in_app_or in Hin as [Hin|Hin]; (destruct (_ || _); [|destruct Hin]);
    apply filter_In in Hin as [H1 H2]; apply andb_true_iff in H2 as [_ H2]; apply svc_rec_addr; assumption.
Qed.

Lemma ok_question_step v4 og q : ok og -> ok (question_step inp v4 og q).
Proof.
  intros Hok. unfold question_step.
  destruct (q_type q =? TY_PTR).
  - apply (fold_left_inv (fun st => ok (fst st)) (ptr_step inp q v4)); [|exact Hok].
    intros st e He. apply ok_ptr_step. exact He.
  - set (og1 := if (q_type q =? TY_A) || (q_type q =? TY_AAAA) || (q_type q =? TY_ANY)
                then fold_left (addr_step inp q) (h_services inp) og else og).
    assert (H1 : ok og1).
    { subst og1. destruct ((q_type q =? TY_A) || (q_type q =? TY_AAAA) || (q_type q =? TY_ANY)); [|exact Hok].
      apply fold_left_inv; [|exact Hok]. intros og' e He. apply ok_addr_step. exact He. }
    destruct (find _ (h_services inp)) as [e|] eqn:Ef; [|exact H1].
    apply find_some in Ef as [He Hk]. apply beq_eq in Hk.
    destruct (is_announced (e_status e)) eqn:Ea; simpl; [|exact H1].
    destruct (is_nil (intf_addrs_of v4 (e_svc e) (h_intf inp))); [exact H1|].
    apply ok_add_answer_of_service_as; auto. intros a Hin. eapply in_intf_addrs. exact Hin.
Qed.

Lemma hq_out_ok : ok (hq_out inp).
Proof.
  unfold hq_out. apply fold_left_inv.
  - intros og q _. apply ok_question_step.
  - split; [reflexivity|split; constructor].
Qed.
End Walk.

Lemma handle_query_closed inp :
  handle_query inp = reply inp (og_answers (hq_out inp)) (og_additionals (hq_out inp)).
Proof. apply handle_query_reply. exact (proj1 (hq_out_ok inp)). Qed.

Lemma just_clear_flush entries nc intf r : just_rec entries nc intf r -> just_rec entries nc intf (clear_flush r).
Proof. intros (e & H1 & H2 & H3). exists e. auto. Qed.

Theorem response_records_justified inp p : handle_query inp = Some p ->
  Forall (just_rec (h_services inp) (h_name_changes inp) (h_intf inp)) (p_answers p ++ p_additionals p).
Proof.
  rewrite handle_query_closed. intros H. apply reply_some in H as [_ ->].
  destruct (hq_out_ok inp) as (_ & Ha & Hd). cbn [reply_packet p_answers p_additionals].
  apply Forall_app. destruct (legacy inp); [|split; assumption].
  split; apply Forall_map; eapply Forall_impl; try eassumption; apply just_clear_flush.
Qed.
