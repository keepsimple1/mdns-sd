(* Lifting the registry theorems to the daemon model: in every plain loop iteration the registry of each
   interface changes only through the operations OJoin / OTiebreak (any number, at the iteration's
   time; OConflict comes with response datagrams, which a plain iteration has none of) and at most one probing pass OTick, whose probed names are the question
   names of the probe query the iteration sends on that interface.  This holds for plain iterations
   (plain_iter below: no response datagrams, no enable/disable_interface calls, no unregister calls);
   for histories made of them the spacing theorem of Proofs/RegistryProofs.v holds for the probe
   queries on the wire. *)
From Coq Require Import List NArith Bool Lia.
From Mdns Require Import Bytes ListFacts Registry RegistryDaemon RegistrySpec RegistryProofs RegistryDaemonProofs
     RegistryStepProofs RegistryHistoryProofs.
Import ListNotations.
Open Scope N_scope.

Lemma run_ops_app ops1 : forall rg ops2,
  run_ops rg (ops1 ++ ops2) = run_ops rg ops1 ++ run_ops (final_reg rg ops1) ops2.
Proof.
  induction ops1 as [|[t o] r IH]; intros rg ops2; simpl; [reflexivity|].
  destruct (apply_op rg t o) as [[rg' qs] ex]. simpl. rewrite IH. reflexivity.
Qed.

Definition is_tick (o : rop) : bool := match o with OTick => true | _ => false end.

(* operations at time `now`, none of them a probing pass or the handling of a conflicting response *)
Definition quiet_ops (now : N) (ops : list (N * rop)) : Prop :=
  Forall (fun o => fst o = now /\ is_tick (snd o) = false /\ is_conflict (snd o) = false) ops.

Definition QReach (now : N) (rg rg' : registry) : Prop :=
  exists ops, quiet_ops now ops /\ rg' = final_reg rg ops.

Definition quiet (o : rop) : Prop := is_tick o = false /\ is_conflict o = false.

Lemma QReach_of_Ops (A : rop -> Prop) now rg rg' : (forall o, A o -> quiet o) -> Ops A now rg rg' -> QReach now rg rg'.
Proof. exact (Ops_mono A quiet now rg rg'). Qed.

Lemma joins_quiet R o : joins R o -> quiet o.
Proof. intros (r & svc & j & -> & _). split; reflexivity. Qed.

Lemma tiebreaks_quiet o : tiebreaks o -> quiet o.
Proof. intros (qn & inc & ->). split; reflexivity. Qed.

Lemma QReach_refl now rg : QReach now rg rg.
Proof. exact (Ops_refl quiet now rg). Qed.

Lemma QReach_trans now a b c : QReach now a b -> QReach now b c -> QReach now a c.
Proof. exact (Ops_trans quiet now a b c). Qed.

Lemma quiet_run now ops : forall rg, quiet_ops now ops -> Forall (fun e => e = (now, [], [])) (run_ops rg ops).
Proof.
  induction ops as [|[t o] r IH]; intros rg H; simpl; [constructor|].
  inversion H as [|x l Hx Hr]; subst. destruct Hx as (Ht & Ho & Hc). simpl in Ht, Ho, Hc. subst t.
  destruct o; try discriminate; simpl; constructor; auto.
Qed.

Definition reg_of (regs : list (N * registry)) (i : N) : registry :=
  match nget i regs with Some r => r | None => reg_new end.

Lemma get_reg_reg_of st i : get_reg st i = reg_of (d_regs st) i.
Proof. reflexivity. Qed.

Lemma reg_of_nset_same k v regs : reg_of (nset k v regs) k = v.
Proof. unfold reg_of. rewrite nget_nset_same. reflexivity. Qed.

Lemma reg_of_nset_other k k1 v regs : k1 <> k -> reg_of (nset k v regs) k1 = reg_of regs k1.
Proof. intros H. unfold reg_of. rewrite nget_nset_other by assumption. reflexivity. Qed.

Lemma QReach_nset now regs k rg' i :
  QReach now (reg_of regs k) rg' -> QReach now (reg_of regs i) (reg_of (nset k rg' regs) i).
Proof.
  intros H. destruct (N.eq_dec i k) as [->|Hne].
  - rewrite reg_of_nset_same. assumption.
  - rewrite reg_of_nset_other by assumption. apply QReach_refl.
Qed.

Definition all_queries (gs : list dgram) : Prop := Forall (fun g => g_resp g = false) gs.

(* calls that leave every registry to its own operations: enable/disable_interface drops and creates
   registries, a successful unregister makes them forget the service's names *)
Definition no_ifsel (c : call) : Prop := match c with CIfSel _ _ | CUnregister _ _ => False | _ => True end.

(* no probe query among these outputs: every send is a response *)
Definition all_resp (os : list out) : Prop :=
  forall o, In o os -> match o with
                       | OSend _ _ _ m => o_resp m = true
                       | _ => True end.

Lemma all_resp_app a b : all_resp a -> all_resp b -> all_resp (a ++ b).
Proof. intros Ha Hb o Ho. apply in_app_or in Ho as [H|H]; [apply Ha|apply Hb]; assumption. Qed.

Lemma all_resp_nil : all_resp [].
Proof. intros o []. Qed.

Lemma all_resp_no_probes os k : all_resp os -> probe_names_on os k = [].
Proof.
  intros H. unfold probe_names_on. apply flat_map_nil. intros o Ho. specialize (H o Ho).
  destruct o; try reflexivity. rewrite H. rewrite andb_false_r. reflexivity.
Qed.

Lemma probe_names_app a b k : probe_names_on (a ++ b) k = probe_names_on a k ++ probe_names_on b k.
Proof. unfold probe_names_on. apply flat_map_app. Qed.

Lemma mon_all_resp m os : (forall o, In o os -> match o with OSend _ _ _ _ => False | _ => True end) -> all_resp (mon m os).
Proof.
  intros H. unfold mon. destruct m; [|apply all_resp_nil]. intros o Ho. specialize (H o Ho). destruct o; tauto.
Qed.

Lemma ev_all_resp (m : bool) o : match o with OSend _ _ _ _ => False | _ => True end -> all_resp (mon m [o]).
Proof. intros H. apply mon_all_resp. intros x [<-|[]]. exact H. Qed.

Lemma announce_both_resp s i rg now js : all_resp (snd (fst (fst (announce_both s i rg now js)))).
Proof.
  unfold announce_both.
  destruct (prepare_announce s i rg true now js) as [[rg1 m4] js1] eqn:E4.
  destruct (prepare_announce s i rg1 false now js1) as [[rg2 m6] js2] eqn:E6. cbn [fst snd].
  apply all_resp_app; [destruct m4 as [m|]|destruct m6 as [m|]]; try apply all_resp_nil; intros o [<-|[]];
    [apply prepare_announce_some in E4 as (_ & _ & ->)|apply prepare_announce_some in E6 as (_ & _ & ->)]; reflexivity.
Qed.

(* pending goodbye repeats hold responses *)
Definition retrans_ok (st : dstate) : Prop :=
  forall t m i v4, In (t, UnregisterResend m i v4) (d_retrans st) -> o_resp m = true.

Lemma gb_entry_resp t m i v4 : gb_entry (t, UnregisterResend m i v4) -> o_resp m = true.
Proof. exact (goodbye_is_response m). Qed.

Lemma saved_goodbyes_ok st : saved_goodbyes st -> retrans_ok st.
Proof. intros H t m i v4 Hin. exact (gb_entry_resp _ _ _ _ (proj1 (Forall_forall _ _) H _ Hin)). Qed.

Lemma retrans_ok_adds now a b : adds_or_new now a b -> retrans_ok a -> retrans_ok b.
Proof.
  assert (K : forall l, Forall (new_entry now) l -> forall t m i v4, In (t, UnregisterResend m i v4) l -> o_resp m = true)
    by (intros l N t m i v4 Hin; exact (gb_entry_resp _ _ _ _ (new_entry_gb now _ (proj1 (Forall_forall _ _) N _ Hin)))).
  intros [(l & E & N)|N] R t m i v4 Hin; [|exact (K _ N _ _ _ _ Hin)].
  rewrite E in Hin. apply in_app_or in Hin as [Hin|Hin]; [exact (R _ _ _ _ Hin)|exact (K _ N _ _ _ _ Hin)].
Qed.

Lemma goodbye_sends_resp st s : all_resp (map send_of (goodbyes_of st s)).
Proof.
  intros o Ho. apply in_map_iff in Ho as ([[i v4] m] & <- & Hin). exact (goodbye_is_response m (goodbyes_are_goodbyes st s i v4 m Hin)).
Qed.

Lemma unregister_resp st k ch now :
  all_resp (snd (unregister st k ch now)) /\ (retrans_ok st -> retrans_ok (fst (unregister st k ch now))).
Proof.
  split; [|apply (retrans_ok_adds now); left; apply unregister_adds].
  unfold unregister. destruct (aget k (d_svcs st)) as [s|]; cbn [snd]; [|intros o [<-|[]]; exact I].
  apply all_resp_app; [apply goodbye_sends_resp|]. intros o [<-|[]]. exact I.
Qed.

Lemma cleanup_resp st : all_resp (snd (cleanup st)).
Proof.
  unfold cleanup. cbn [snd]. apply all_resp_app; [|intros o [<-|[]]; exact I].
  intros o Ho. apply in_flat_map in Ho as (ks & _ & Ho). eapply goodbye_sends_resp. eassumption.
Qed.

Lemma announce_waiting_resp itf now m waiting rg svcs js :
  all_resp (snd (fst (fst (announce_waiting waiting itf rg svcs now js m)))).
Proof.
  destruct (announce_waiting waiting itf rg svcs now js m) as [[[[rg2 svcs2] os] rt] js2] eqn:E.
  refine (announce_waiting_loop (fun _ _ os _ => all_resp os) (fun _ => all_resp_nil) (fun _ _ _ _ _ _ _ => all_resp_app _ _) itf now m waiting _ rg svcs js rg2 svcs2 os rt js2 E).
  intros w s rg0 svcs0 js0 rg1 os1 ann js1 _ _ _ EB. pose proof (announce_both_resp s itf rg0 now js0) as H2. rewrite EB in H2.
  destruct ann; [|exact H2]. apply all_resp_app; [exact H2|]. apply ev_all_resp. exact I.
Qed.

(* one interface's registry during the probing handler: quiet operations only, or one probing
   pass followed by quiet operations *)
Definition tick_step (now : N) (rg rg' : registry) (qs : list bytes) : Prop :=
  (QReach now rg rg' /\ qs = []) \/
  (exists rg1 ex, tick_names rg now = (rg1, qs, ex) /\ QReach now rg1 rg').

Lemma probe_query_names qs : map fst (o_q (probe_query qs)) = map fst qs.
Proof. unfold probe_query. simpl. rewrite map_map. reflexivity. Qed.

Lemma probe_sends_names itf (qs : list (bytes * list prec)) k n :
  In n (probe_names_on (match qs with
                        | [] => []
                        | _ => (if intf_has_family itf true then [OSend (if_index itf) true Mcast (probe_query qs)] else [])
                               ++ (if intf_has_family itf false then [OSend (if_index itf) false Mcast (probe_query qs)] else [])
                        end) k) ->
  if_index itf = k /\ In n (map fst qs).
Proof.
  destruct qs as [|q0 qs0]; [intros []|]. unfold probe_names_on. intros Hn. apply in_flat_map in Hn as (o & Ho & Hn).
  apply in_app_or in Ho as [Ho|Ho];
    [destruct (intf_has_family itf true)|destruct (intf_has_family itf false)]; try contradiction;
    destruct Ho as [<-|[]]; destruct (if_index itf =? k) eqn:E; try contradiction;
    (split; [apply N.eqb_eq; exact E|rewrite <- probe_query_names; exact Hn]).
Qed.

Lemma pass_step now itf st js k :
  (k <> if_index itf ->
     reg_of (d_regs (fst (fst (pass itf st now js)))) k = reg_of (d_regs st) k /\
     probe_names_on (snd (fst (pass itf st now js))) k = []) /\
  (k = if_index itf ->
     exists qs, tick_step now (reg_of (d_regs st) k) (reg_of (d_regs (fst (fst (pass itf st now js)))) k) qs /\
                forall n, In n (probe_names_on (snd (fst (pass itf st now js))) k) -> In n qs).
Proof.
  unfold pass. destruct (nget (if_index itf) (d_regs st)) as [rg|] eqn:G.
  - pose proof (probe_step_tick rg now) as T1. pose proof (probe_step_names rg now) as T2.
    destruct (probe_step rg now) as [[[rg1 qs] evs] waiting]. cbn [fst snd] in T1, T2.
    pose proof (QReach_of_Ops _ _ _ _ (joins_quiet _) (announce_waiting_Ops itf now (d_mon st) waiting rg1 (d_svcs st) js)) as A1.
    pose proof (announce_waiting_resp itf now (d_mon st) waiting rg1 (d_svcs st) js) as A2.
    destruct (announce_waiting waiting itf rg1 (d_svcs st) now js (d_mon st)) as [[[[rg2 svcs2] os2] rt2] js2]. cbn [fst snd d_regs] in *.
    match goal with |- context [mon (d_mon st) ?l] => set (nev := mon (d_mon st) l) end.
    assert (Hnev : all_resp nev) by (apply mon_all_resp; intros o Ho; apply in_map_iff in Ho as ([[o1 n1] ty1] & <- & _); exact I).
    rewrite !probe_names_app, (all_resp_no_probes _ k Hnev), (all_resp_no_probes _ k A2), !app_nil_r. split.
    + intros Hk. split; [apply reg_of_nset_other; exact Hk|].
      destruct (probe_names_on _ k) as [|n l] eqn:E; [reflexivity|]. destruct Hk. symmetry.
      apply (probe_sends_names itf qs k n). rewrite E. left. reflexivity.
    + intros ->. exists (map fst qs). split; [|intros n Hn; exact (proj2 (probe_sends_names itf qs _ n Hn))].
      right. exists rg1, (snd (tick_names rg now)). rewrite reg_of_nset_same. split; [|exact A1].
      unfold reg_of. rewrite G. destruct (tick_names rg now) as [[a b] c]. cbn [fst snd] in *. subst. reflexivity.
  - cbn [fst snd]. split; [intros _; split; reflexivity|]. intros ->. exists []. split; [left; split; [apply QReach_refl|reflexivity]|intros n []].
Qed.

Lemma probing_intfs_step now : forall ifs st js,
  NoDup (map if_index ifs) ->
  let r := probing_intfs ifs st now js in
  (forall k, ~ In k (map if_index ifs) ->
     reg_of (d_regs (fst (fst r))) k = reg_of (d_regs st) k /\ probe_names_on (snd (fst r)) k = []) /\
  (forall k, In k (map if_index ifs) ->
     exists qs, tick_step now (reg_of (d_regs st) k) (reg_of (d_regs (fst (fst r))) k) qs /\
                (forall n, In n (probe_names_on (snd (fst r)) k) -> In n qs)).
Proof.
  induction ifs as [|itf t IH]; intros st js Hnd; [split; [intros k _; split; reflexivity|intros k []]|].
  cbn [map] in Hnd. apply NoDup_cons_iff in Hnd as [Hnotin Hnd']. cbv zeta. rewrite probing_intfs_cons.
  pose proof (pass_step now itf st js) as P. destruct (pass itf st now js) as [[st1 os1] js1]. cbn [fst snd] in P.
  specialize (IH st1 js1 Hnd'). destruct (probing_intfs t st1 now js1) as [[st2 os2] js2]. cbv zeta in IH. cbn [fst snd] in *.
  destruct IH as [I1 I2]. split.
  - intros k Hk. destruct (proj1 (P k) (fun E => Hk (or_introl (eq_sym E)))) as [R1 N1].
    destruct (I1 k (fun H => Hk (or_intror H))) as [R2 N2]. rewrite probe_names_app, N1, N2, R2, R1. split; reflexivity.
  - intros k [Hk|Hk].
    + subst k. destruct (proj2 (P _) eq_refl) as (qs & T & Sub). destruct (I1 _ Hnotin) as [R2 N2].
      exists qs. rewrite R2, probe_names_app, N2, app_nil_r. split; assumption.
    + assert (Hne : k <> if_index itf) by (intros ->; contradiction).
      destruct (proj1 (P k) Hne) as [R1 N1]. destruct (I2 k Hk) as (qs & T & Sub).
      exists qs. rewrite <- R1, probe_names_app, N1. split; assumption.
Qed.

Lemma cut_names os k n : In n (probe_names_on (fst (cut_at_panic os)) k) -> In n (probe_names_on os k).
Proof.
  unfold probe_names_on. intros H. apply in_flat_map in H as (o & Ho & Hn). apply in_flat_map. exists o. split; [apply cut_in; exact Ho|exact Hn].
Qed.

Lemma Inv_ext ps f f' t : (forall x, f x = f' x) -> Inv ps f t -> Inv ps f' t.
Proof.
  intros E [H1 H2 H3 H4]. constructor; [assumption| | |]; intros; rewrite <- E in *; eauto.
Qed.

Lemma QReach_inv now rg rg' f t :
  QReach now rg rg' -> Inv (rg_probing rg) f t -> t <= now -> Inv (rg_probing rg') f now.
Proof.
  intros Q HI Hle. apply (Ops_keeps quiet now (fun r => Inv (rg_probing r) f now)) with (2 := Q); [|eapply Inv_later; eassumption].
  intros rg0 o [Ho Hc] H0. destruct (apply_op rg0 now o) as [[rg1 qs] ex] eqn:Hop. cbn [fst].
  destruct (apply_op_inv _ _ _ _ _ _ _ _ H0 (N.le_refl now) Hop) as [HI' _].
  assert (qs = []) by (destruct o; try discriminate; cbn in Hop; inversion Hop; reflexivity). subst qs.
  eapply Inv_ext; [|exact HI']. intros x. unfold ghost_after. rewrite Hc. reflexivity.
Qed.

Lemma tick_step_inv now rg rg' qs f t :
  tick_step now rg rg' qs -> Inv (rg_probing rg) f t -> t <= now ->
  Inv (rg_probing rg') (upd_all f qs now) now /\
  (forall n, In n qs -> match f n with Some L => L + 250 <= now | None => True end).
Proof.
  intros [[Q ->]|(rg1 & ex & Ht & Q)] HI Hle.
  - split; [|intros n []]. eapply Inv_ext; [|eapply QReach_inv; eassumption]. intros x. reflexivity.
  - destruct (tick_names_inv _ _ _ _ _ _ _ HI Hle Ht) as (H1 & H2 & _). split.
    + eapply QReach_inv; [exact Q|exact H1|lia].
    + intros n Hn. apply H2. left. assumption.
Qed.

(* an iteration without response datagrams, without enable/disable_interface calls and without
   unregister calls *)
Definition plain_iter (it : iter) : Prop := all_queries (it_dgrams it) /\ Forall no_ifsel (it_calls it).

Lemma all_queries_split gs :
  all_queries gs -> all_queries (filter (fun g : dgram => g_v4 g) gs ++ filter (fun g : dgram => negb (g_v4 g)) gs).
Proof.
  intros H. unfold all_queries in *. rewrite Forall_forall in H.
  apply Forall_app. split; apply Forall_forall; intros g Hg; apply filter_In in Hg as [Hg _]; auto.
Qed.

(* A stretch of the loop without a probing pass, seen from interface k: the registry moves by quiet
   operations, nothing but responses is sent, the interface table stays. *)
Definition quiet_phase (now k : N) (a b : dstate) (os : list out) : Prop :=
  QReach now (reg_of (d_regs a) k) (reg_of (d_regs b) k) /\ all_resp os /\ d_intfs b = d_intfs a.

Lemma quiet_phase_nil now k st : quiet_phase now k st st [].
Proof. split; [apply QReach_refl|]. split; [apply all_resp_nil|reflexivity]. Qed.

Lemma quiet_phase_app now k a b c o1 o2 :
  quiet_phase now k a b o1 -> quiet_phase now k b c o2 -> quiet_phase now k a c (o1 ++ o2).
Proof.
  intros (Q1 & P1 & F1) (Q2 & P2 & F2).
  split; [exact (QReach_trans _ _ _ _ Q1 Q2)|]. split; [exact (all_resp_app _ _ P1 P2)|congruence].
Qed.

Lemma handle_dgram_quiet now k st g js :
  g_resp g = false -> quiet_phase now k st (fst (fst (handle_dgram st g now js))) (snd (fst (handle_dgram st g now js))).
Proof.
  intros Hq. unfold handle_dgram. destruct (find_intf st (g_if g)); [|apply quiet_phase_nil].
  destruct (negb (intf_has_family i (g_v4 g))); [apply quiet_phase_nil|]. rewrite Hq. unfold handle_query.
  destruct (nget (g_if g) (d_regs st)) as [rg|] eqn:G; [|apply quiet_phase_nil].
  destruct (find_intf st (g_if g)) as [itf|]; [|apply quiet_phase_nil].
  pose proof (QReach_of_Ops _ _ _ _ tiebreaks_quiet (handle_questions_Ops st g itf now (g_q g) rg)) as H.
  destruct (handle_questions st g itf rg (g_q g) now) as [[rg' an] ar]. cbn [fst] in H.
  assert (A : QReach now (reg_of (d_regs st) k) (reg_of (nset (g_if g) rg' (d_regs st)) k)) by (apply QReach_nset; unfold reg_of; rewrite G; exact H).
  destruct an; cbn [fst snd]; (split; [exact A|split; [|reflexivity]]); [apply all_resp_nil|].
  intros o [<-|Ho]; [destruct (g_port g =? MDNS_PORT); reflexivity|].
  exact (ev_all_resp (d_mon st) (ORespond (if_name itf)) I o Ho).
Qed.

Lemma handle_dgrams_quiet now k gs st js :
  all_queries gs -> quiet_phase now k st (fst (fst (handle_dgrams st gs now js))) (snd (fst (handle_dgrams st gs now js))).
Proof.
  intros Hq. apply (handle_dgrams_phase (quiet_phase now k) (quiet_phase_nil now k) (quiet_phase_app now k)).
  intros st0 g js0 I. apply handle_dgram_quiet. exact (proj1 (Forall_forall _ _) Hq g I).
Qed.

Lemma register_intfs_quiet now k ifs s regs js :
  QReach now (reg_of regs k) (reg_of (snd (fst (fst (fst (register_intfs ifs s regs now js))))) k) /\
  all_resp (snd (fst (fst (register_intfs ifs s regs now js)))).
Proof.
  destruct (register_intfs ifs s regs now js) as [[[[s' regs'] os] anns] js'] eqn:E.
  refine (register_intfs_loop (fun x y os _ => QReach now (reg_of (snd x) k) (reg_of (snd y) k) /\ all_resp os) _ _
            now ifs _ s regs js s' regs' os anns js' E).
  - intros x. split; [apply QReach_refl|apply all_resp_nil].
  - intros x y z o1 o2 _ _ [Q1 P1] [Q2 P2]. split; [exact (QReach_trans _ _ _ _ Q1 Q2)|exact (all_resp_app _ _ P1 P2)].
  - intros i s0 regs0 js0 rg' os1 ann js1 _ EB.
    pose proof (QReach_of_Ops _ _ _ _ (joins_quiet _) (announce_both_Ops s0 i (reg_of regs0 (if_index i)) now js0)) as H1.
    pose proof (announce_both_resp s0 i (reg_of regs0 (if_index i)) now js0) as H2.
    unfold reg_of in H1 at 2. unfold reg_of in H2. rewrite EB in H1, H2. split; [exact (QReach_nset now regs0 _ rg' k H1)|exact H2].
Qed.

Lemma register_service_quiet now k st s js :
  quiet_phase now k st (fst (fst (register_service st s now js))) (snd (fst (register_service st s now js))).
Proof.
  unfold register_service.
  pose proof (register_intfs_quiet now k (d_intfs st) (auto_addrs st s) (d_regs st) js) as [Q P].
  destruct (register_intfs (d_intfs st) (auto_addrs st s) (d_regs st) now js) as [[[[s' regs] os] anns] js']. cbn [fst snd] in *.
  split; [exact Q|]. split; [|reflexivity].
  apply all_resp_app; [exact P|]. destruct anns; [apply all_resp_nil|]. apply ev_all_resp. exact I.
Qed.

Lemma exec_call_quiet now k st c js :
  no_ifsel c -> quiet_phase now k st (fst (fst (fst (exec_call st c now js)))) (snd (fst (fst (exec_call st c now js)))).
Proof.
  intros Hc. destruct c as [s| | | | |]; cbn [exec_call]; try contradiction.
  - pose proof (register_service_quiet now k st s js) as H. destruct (register_service st s now js) as [[st1 os1] js1]. exact H.
  - split; [apply QReach_refl|]. split; [apply all_resp_nil|reflexivity].
  - pose proof (cleanup_resp st) as P. unfold cleanup in *. split; [apply QReach_refl|]. split; [exact P|reflexivity].
  - apply quiet_phase_nil.
Qed.

Lemma exec_calls_quiet now k cs st js :
  Forall no_ifsel cs -> quiet_phase now k st (fst (fst (exec_calls st cs now js))) (snd (fst (exec_calls st cs now js))).
Proof.
  intros Hc. apply (exec_calls_phase (quiet_phase now k) (quiet_phase_nil now k) (quiet_phase_app now k)).
  intros st0 c js0 I. apply exec_call_quiet. exact (proj1 (Forall_forall _ _) Hc c I).
Qed.

Lemma register_resend_quiet now k st full i js :
  quiet_phase now k st (fst (fst (register_resend st full i now js))) (snd (fst (register_resend st full i now js))).
Proof.
  unfold register_resend.
  destruct (aget (lower full) (d_svcs st)) as [s|]; [|apply quiet_phase_nil].
  destruct (nget i (d_regs st)) as [rg|] eqn:G; [|apply quiet_phase_nil].
  destruct (find_intf st i) as [itf|]; [|apply quiet_phase_nil].
  pose proof (QReach_of_Ops _ _ _ _ (joins_quiet _) (announce_both_Ops s itf rg now js)) as H.
  pose proof (announce_both_resp s itf rg now js) as P.
  destruct (announce_both s itf rg now js) as [[[rg' os] ann] js']. cbn [fst snd] in H, P.
  assert (A : QReach now (reg_of (d_regs st) k) (reg_of (nset i rg' (d_regs st)) k)) by (apply QReach_nset; unfold reg_of; rewrite G; exact H).
  destruct ann; (split; [exact A|split; [|reflexivity]]); [|exact P].
  apply all_resp_app; [exact P|]. apply ev_all_resp. exact I.
Qed.

(* the entries that are due are run from the old queue, after the state has been given the rest of it *)
Lemma retransmit_quiet now k st js :
  retrans_ok st -> quiet_phase now k st (fst (fst (retransmit st now js))) (snd (fst (retransmit st now js))).
Proof.
  intros R. unfold retransmit.
  match goal with |- context [run_due ?s ?d now js] =>
    apply (run_due_phase (quiet_phase now k) (quiet_phase_nil now k) (quiet_phase_app now k) now d) with (st := s) end.
  intros st0 [t c] js0 Hin. apply filter_In in Hin as [Hin _]. destruct c as [full i|m i v4]; cbn [snd due_step]; [apply register_resend_quiet|].
  unfold unregister_resend. destruct (find_intf st0 i) as [itf|]; [|apply quiet_phase_nil].
  destruct (intf_has_family itf v4); [|apply quiet_phase_nil].
  split; [apply QReach_refl|]. split; [|reflexivity]. intros o [<-|[]]. exact (R t m i v4 Hin).
Qed.

Lemma probing_intfs_tick now k st js :
  NoDup (map if_index (d_intfs st)) ->
  let r := probing_intfs (d_intfs st) st now js in
  exists qs, tick_step now (reg_of (d_regs st) k) (reg_of (d_regs (fst (fst r))) k) qs /\
             (forall n, In n (probe_names_on (snd (fst r)) k) -> In n qs).
Proof.
  intros Hnd. destruct (probing_intfs_step now (d_intfs st) st js Hnd) as (S1 & S2).
  destruct (in_dec N.eq_dec k (map if_index (d_intfs st))) as [Hin|Hnin]; [exact (S2 k Hin)|].
  destruct (S1 k Hnin) as [X1 X2]. exists []. cbv zeta. rewrite X1, X2.
  split; [left; split; [apply QReach_refl|reflexivity]|intros n []].
Qed.

Lemma iterate_retrans_ok st it : retrans_ok st -> retrans_ok (fst (fst (fst (iterate st it)))).
Proof.
  intros R t m i v4 Hin. destruct (proj1 (Forall_forall _ _) (iterate_retrans st it) _ Hin) as [I|N];
    [exact (R _ _ _ _ I)|exact (gb_entry_resp _ _ _ _ (new_entry_gb _ _ N))].
Qed.

(* quiet operations, then at most one probing pass followed by quiet operations; the probe queries
   the iteration sends on interface k are for names of that pass *)
Lemma plain_iterate_shape k st it st' outs e js' :
  NoDup (map if_index (d_intfs st)) -> retrans_ok st -> plain_iter it ->
  iterate st it = (st', outs, e, js') ->
  exists rgA qs,
    QReach (it_now it) (reg_of (d_regs st) k) rgA /\
    tick_step (it_now it) rgA (reg_of (d_regs st') k) qs /\
    (forall n, In n (probe_names_on outs k) -> In n qs) /\
    retrans_ok st' /\ d_intfs st' = d_intfs st.
Proof.
  intros Hnd Hret [Hq Hc] Hit.
  destruct (d_dead st) eqn:Halive.
  { (* a daemon that has exited does nothing *)
    unfold iterate in Hit. rewrite Halive in Hit. inversion Hit; subst st' outs e js'.
    exists (reg_of (d_regs st) k), []. split; [apply QReach_refl|]. split; [left; split; [apply QReach_refl|reflexivity]|].
    split; [intros n []|split; [exact Hret|reflexivity]]. }
  pose proof (iterate_retrans_ok st it Hret) as Hret'. rewrite Hit in Hret'. cbn [fst] in Hret'.
  destruct (iterate_cases st it Halive) as (st1 & os1 & js1 & st2 & os2 & js2 & E1 & E2 & C). set (now := it_now it) in *.
  pose proof (handle_dgrams_quiet now k (it_gs it) st (it_jitter it) (all_queries_split _ Hq)) as H1. rewrite E1 in H1.
  pose proof (exec_calls_quiet now k (it_calls it) st1 js1 Hc) as H2. rewrite E2 in H2.
  destruct (quiet_phase_app _ _ _ _ _ _ _ H1 H2) as (Q & P & F). cbn [fst snd] in Q, P, F.
  destruct C as [(_ & p & E)|(_ & st3 & os3 & js3 & st4 & os4 & js4 & os & p & E3 & E4 & EC & E)]; rewrite E in Hit; inversion Hit; subst st' outs e js'; clear Hit.
  - (* the daemon exited while executing the calls *)
    exists (reg_of (d_regs st2) k), [].
    split; [exact Q|]. split; [left; split; [apply QReach_refl|reflexivity]|]. split; [|split; [exact Hret'|exact F]].
    intros n Hn. apply cut_names in Hn. rewrite (all_resp_no_probes _ k P) in Hn. contradiction.
  - assert (Hret2 : retrans_ok st2).
    { pose proof (retrans_ok_adds now st1 _ (exec_calls_retrans now (it_calls it) st1 js1)) as R2. rewrite E2 in R2. cbn [fst] in R2. apply R2.
      destruct (handle_dgrams_frame now (it_gs it) st (it_jitter it)) as (_ & _ & R1 & _). rewrite E1 in R1. cbn [fst] in R1. unfold retrans_ok. rewrite R1. exact Hret. }
    pose proof (retransmit_quiet now k st2 js2 Hret2) as H3. rewrite E3 in H3.
    destruct (quiet_phase_app _ _ _ _ _ _ _ (quiet_phase_app _ _ _ _ _ _ _ H1 H2) H3) as (Q3 & P3 & F3). cbn [fst snd] in Q3, P3, F3.
    assert (Hnd3 : NoDup (map if_index (d_intfs st3))) by (rewrite F3; exact Hnd).
    destruct (probing_intfs_tick now k st3 js3 Hnd3) as (qs & T & Sub).
    destruct (probing_intfs_grows now (d_intfs st3) st3 js3) as (F4 & _). rewrite E4 in T, Sub, F4. cbn [fst snd] in T, Sub, F4.
    exists (reg_of (d_regs st3) k), qs. split; [exact Q3|]. split; [destruct p; exact T|].
    split; [|split; [exact Hret'|destruct p; cbn; congruence]].
    intros n Hn. apply Sub. replace os with (fst (cut_at_panic (os1 ++ os2 ++ os3 ++ os4))) in Hn by (rewrite EC; reflexivity).
    apply cut_names in Hn. rewrite !app_assoc, probe_names_app, (all_resp_no_probes _ k P3) in Hn. exact Hn.
Qed.

Lemma iterate_step k st it st' outs e js' f t :
  NoDup (map if_index (d_intfs st)) -> retrans_ok st -> plain_iter it ->
  iterate st it = (st', outs, e, js') ->
  Inv (rg_probing (get_reg st k)) f t -> t <= it_now it ->
  exists qs,
    Inv (rg_probing (get_reg st' k)) (upd_all f qs (it_now it)) (it_now it) /\
    (forall n, In n qs -> match f n with Some L => L + 250 <= it_now it | None => True end) /\
    (forall n, In n (probe_names_on outs k) -> In n qs) /\
    retrans_ok st' /\ d_intfs st' = d_intfs st.
Proof.
  intros Hnd Hret Hp Hit HI Hle.
  destruct (plain_iterate_shape k st it st' outs e js' Hnd Hret Hp Hit) as (rgA & qs & QA & T & Sub & R & F).
  destruct (tick_step_inv _ _ _ _ _ _ T (QReach_inv _ _ _ _ _ QA HI Hle) (N.le_refl _)) as [HI' Hsp].
  exists qs. auto.
Qed.

(* consecutive times of l are 250 apart, and the first is 250 after lo if there is one *)
Definition lb_gaps (lo : option N) (l : list N) : Prop :=
  match lo, l with Some L, a :: _ => L + 250 <= a | _, _ => True end /\ gaps_250 l.

Lemma wire_dead k n : forall its st, d_dead st = true -> wire_probe_times k n st its = [].
Proof.
  induction its as [|it t IH]; intros st Hd; simpl; [reflexivity|].
  unfold iterate. rewrite Hd. simpl. apply IH. assumption.
Qed.

Lemma wire_spacing_gen k n : forall its st f t,
  Inv (rg_probing (get_reg st k)) f t -> retrans_ok st -> NoDup (map if_index (d_intfs st)) ->
  Forall plain_iter its -> iter_times_from t its -> lb_gaps (f n) (wire_probe_times k n st its).
Proof.
  induction its as [|it rest IH]; intros st f t HI Hret Hnd Hpl Hts; simpl.
  - split; [destruct (f n); exact I|exact I].
  - destruct Hts as [Hle Hrest]. inversion Hpl as [|x l Hp Hpr]; subst.
    destruct (iterate st it) as [[[st' outs] e] js'] eqn:Hit.
    destruct (iterate_step k st it st' outs e js' f t Hnd Hret Hp Hit HI Hle) as (qs & HI' & Hsp & Hsub & Hret' & Hif).
    assert (Hnd' : NoDup (map if_index (d_intfs st'))) by (rewrite Hif; exact Hnd).
    specialize (IH st' (upd_all f qs (it_now it)) (it_now it) HI' Hret' Hnd' Hpr Hrest).
    destruct IH as [B G]. unfold upd_all in B.
    destruct (mem n (probe_names_on outs k)) eqn:M.
    + apply mem_In in M. apply Hsub in M. assert (M' := M). apply mem_In in M'. rewrite M' in B.
      simpl. split; [specialize (Hsp n M); destruct (f n); [exact Hsp|exact I]|].
      destruct (wire_probe_times k n st' rest) eqn:W; [exact I|]. split; [exact B|exact G].
    + simpl. split; [|exact G].
      destruct (wire_probe_times k n st' rest) as [|a l] eqn:W; [destruct (f n); exact I|].
      destruct (mem n qs) eqn:Mq; simpl in B.
      * apply mem_In in Mq. specialize (Hsp n Mq). destruct (f n) as [L|]; [|exact I]. lia.
      * destruct (f n); exact B.
Qed.

(* In every history of the daemon model made of plain iterations - no response datagrams, no
   enable/disable_interface and no unregister calls; any interface table without repeated indexes, any
   query datagrams (competing probes included), register / monitor / shutdown calls, jitter values, at
   any nondecreasing iteration times - the iterations that put a probe query for a name on an
   interface are at least 250 ms apart.  (A conflicting response restarts probes at now + 0..250, a
   removed interface takes its registry with it, an unregister makes the registries forget the
   service's names: across those events the count starts afresh, see spaced_250.) *)
Theorem wire_probe_spacing ifs its t0 k n :
  NoDup (map if_index ifs) -> Forall plain_iter its -> iter_times_from t0 its ->
  gaps_250 (wire_probe_times k n (d_init ifs) its).
Proof.
  intros Hnd Hpl Hts.
  apply (wire_spacing_gen k n its (d_init ifs) (fun _ => None) t0).
  - unfold get_reg. simpl. apply Inv_init.
  - intros t m i v4 [].
  - exact Hnd.
  - exact Hpl.
  - exact Hts.
Qed.
