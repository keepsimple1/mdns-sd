(* C02: the wire encoder model (Model/WireOut.v) round-trips through the independent
   reference parser (Model/Rfc1035.v).

   The ideas that carry the proof:
   - The reference reader is stable under appended bytes, so what parses in a prefix of the
     packet keeps parsing as the packet grows.
   - write_labels is re-expressed through `enc`, a writer consulting a FIXED table: entries
     created while writing a name have strictly longer keys than the remaining labels, so the
     same name can never hit them.
   - The table invariant `tbl_ok t d`: every entry lies inside d and reads back, by the
     reference reader, to its key.
   - A packet under construction is `h ++ body` for an ARBITRARY 12-byte h (TINV/PINV/RUN),
     because the header is patched in last; finish_parse instantiates h with the real header.
   - RUN does not say which section a record belongs to, so one lemma (RUN_put) serves the
     three record loops; finish_parse splits the run by the header counts (OPEN).
   - `GOOD` is the packet-list form of chk_C02 that the induction over the additionals with
     the TC continuation produces. *)
From Coq Require Import List NArith Bool Lia Arith.
From Mdns Require Import Res Bytes Rec WireOut Rfc1035 C02Spec ListFacts.
Import ListNotations.
Open Scope N_scope.


Lemma blen_app a b : blen (a ++ b) = blen a + blen b.
Proof. unfold blen. rewrite app_length. lia. Qed.

Lemma blen_cons x a : blen (x :: a) = 1 + blen a.
Proof. unfold blen. cbn [length]. lia. Qed.

Lemma blen_nil : blen [] = 0.
Proof. reflexivity. Qed.

Lemma blen_u16 v : blen (u16_bytes v) = 2.
Proof. reflexivity. Qed.

Lemma blen_u32 v : blen (u32_bytes v) = 4.
Proof. reflexivity. Qed.

Lemma to_nat_blen a : N.to_nat (blen a) = length a.
Proof. unfold blen. apply Nat2N.id. Qed.

Local Hint Rewrite blen_app blen_cons blen_nil blen_u16 blen_u32 : blen.

Ltac blen_norm := autorewrite with blen in *.

Lemma run_stable fuel : forall rest off x fuel',
  run fuel rest off <> RunBad -> (fuel <= fuel')%nat ->
  run fuel' (rest ++ x) off = run fuel rest off.
Proof.
  induction fuel as [|f IH]; intros rest off x fuel' Hnb Hle; [cbn in Hnb; congruence|].
  destruct fuel' as [|f']; [lia|].
  destruct rest as [|l tl]; [cbn in Hnb; congruence|].
  cbn [run app] in *.
  destruct (l =? 0); [reflexivity|].
  destruct (l <? 64).
  - destruct (Nat.ltb (length tl) (N.to_nat l)) eqn:E; [congruence|].
    apply Nat.ltb_ge in E.
    assert (E' : Nat.ltb (length (tl ++ x)) (N.to_nat l) = false).
    { apply Nat.ltb_ge. rewrite app_length. lia. }
    rewrite E'.
    rewrite skipn_app, firstn_app.
    replace (N.to_nat l - length tl)%nat with O by lia.
    cbn [skipn firstn]. rewrite app_nil_r.
    rewrite (IH (skipn (N.to_nat l) tl) (off + 1 + l) x f'); [reflexivity| |lia].
    destruct (run f (skipn (N.to_nat l) tl) (off + 1 + l)); congruence.
  - destruct (192 <=? l); [|congruence].
    destruct tl as [|b1 tl']; [congruence|]. reflexivity.
Qed.

Lemma run_fuel fuel fuel' rest off :
  run fuel rest off <> RunBad -> (fuel <= fuel')%nat ->
  run fuel' rest off = run fuel rest off.
Proof.
  intros H1 H2. rewrite <- (app_nil_r rest) at 1. apply run_stable; assumption.
Qed.

Lemma ref_name_from_stable j : forall d off lim r x j',
  ref_name_from j d off lim = Some r -> (j <= j')%nat ->
  ref_name_from j' (d ++ x) off lim = Some r.
Proof.
  induction j as [|j IH]; intros d off lim r x j' H Hle; [discriminate|].
  destruct j' as [|j']; [lia|].
  cbn [ref_name_from] in *.
  destruct (Nat.le_gt_cases (N.to_nat off) (length d)) as [Hin|Hout].
  2:{ rewrite skipn_all2 in H by lia. cbn in H. discriminate. }
  rewrite (skipn_app_le _ _ _ Hin).
  set (rest := skipn (N.to_nat off) d) in *.
  assert (Hrun : run (S (length (rest ++ x))) (rest ++ x) off = run (S (length rest)) rest off).
  { apply run_stable.
    - destruct (run (S (length rest)) rest off); congruence.
    - rewrite app_length. lia. }
  rewrite Hrun.
  destruct (run (S (length rest)) rest off) as [ls n|ls n t|]; [exact H| |discriminate].
  destruct (lim <=? t); [discriminate|].
  destruct (ref_name_from j d t t) as [[ls' n']|] eqn:E; [|discriminate].
  rewrite (IH d t t (ls', n') x j' E) by lia. exact H.
Qed.

Lemma ref_name_stable d x off r : ref_name d off = Some r -> ref_name (d ++ x) off = Some r.
Proof.
  unfold ref_name. intros H. apply ref_name_from_stable with (j := S (length d)); [exact H|].
  rewrite app_length. lia.
Qed.

Lemma nth_byte_stable d x off v : nth_byte d off = Some v -> nth_byte (d ++ x) off = Some v.
Proof.
  unfold nth_byte. intros H. rewrite nth_error_app1; [exact H|].
  apply nth_error_Some. congruence.
Qed.

Lemma ref_u16_stable d x off v : ref_u16 d off = Some v -> ref_u16 (d ++ x) off = Some v.
Proof.
  unfold ref_u16. intros H.
  destruct (nth_byte d off) as [a|] eqn:Ea; [|discriminate].
  destruct (nth_byte d (off + 1)) as [b|] eqn:Eb; [|discriminate].
  rewrite (nth_byte_stable _ x _ _ Ea), (nth_byte_stable _ x _ _ Eb). exact H.
Qed.

Lemma ref_u32_stable d x off v : ref_u32 d off = Some v -> ref_u32 (d ++ x) off = Some v.
Proof.
  unfold ref_u32. intros H.
  destruct (ref_u16 d off) as [a|] eqn:Ea; [|discriminate].
  destruct (ref_u16 d (off + 2)) as [b|] eqn:Eb; [|discriminate].
  rewrite (ref_u16_stable _ x _ _ Ea), (ref_u16_stable _ x _ _ Eb). exact H.
Qed.

Lemma ref_bytes_stable d x off n v :
  ref_bytes d off n = Some v -> ref_bytes (d ++ x) off n = Some v.
Proof.
  unfold ref_bytes. intros H.
  destruct (off + n <=? N.of_nat (length d)) eqn:E; [|discriminate].
  apply N.leb_le in E.
  assert (E' : off + n <=? N.of_nat (length (d ++ x)) = true).
  { apply N.leb_le. rewrite app_length. lia. }
  rewrite E'. rewrite skipn_app_le by lia.
  rewrite firstn_app.
  replace (N.to_nat n - length (skipn (N.to_nat off) d))%nat with O
    by (rewrite skipn_length; lia).
  cbn [firstn]. rewrite app_nil_r. exact H.
Qed.

Lemma ref_rdata_at_stable d x ty off n v :
  ref_rdata_at d ty off n = Some v -> ref_rdata_at (d ++ x) ty off n = Some v.
Proof.
  unfold ref_rdata_at. intros H.
  destruct ((ty =? 12) || (ty =? 5)).
  - destruct (ref_name d off) as [[ls o]|] eqn:E; [|discriminate].
    rewrite (ref_name_stable _ x _ _ E). exact H.
  - destruct (ty =? 33).
    + destruct (ref_u16 d off) as [p|] eqn:E1; [|discriminate].
      destruct (ref_u16 d (off + 2)) as [w|] eqn:E2; [|discriminate].
      destruct (ref_u16 d (off + 4)) as [po|] eqn:E3; [|discriminate].
      destruct (ref_name d (off + 6)) as [[ls o]|] eqn:E4; [|discriminate].
      rewrite (ref_u16_stable _ x _ _ E1), (ref_u16_stable _ x _ _ E2),
        (ref_u16_stable _ x _ _ E3), (ref_name_stable _ x _ _ E4). exact H.
    + destruct (ref_bytes d off n) as [b|] eqn:E; [|discriminate].
      rewrite (ref_bytes_stable _ x _ _ _ E). exact H.
Qed.

Lemma ref_record_stable d x off v :
  ref_record d off = Some v -> ref_record (d ++ x) off = Some v.
Proof.
  unfold ref_record. intros H.
  destruct (ref_name d off) as [[ls o]|] eqn:E; [|discriminate].
  rewrite (ref_name_stable _ x _ _ E).
  destruct (ref_u16 d o) as [ty|] eqn:E1; [|discriminate].
  destruct (ref_u16 d (o + 2)) as [cl|] eqn:E2; [|discriminate].
  destruct (ref_u32 d (o + 4)) as [ttl|] eqn:E3; [|discriminate].
  destruct (ref_u16 d (o + 8)) as [rdl|] eqn:E4; [|discriminate].
  rewrite (ref_u16_stable _ x _ _ E1), (ref_u16_stable _ x _ _ E2),
    (ref_u32_stable _ x _ _ E3), (ref_u16_stable _ x _ _ E4).
  destruct (ref_rdata_at d ty (o + 10) rdl) as [rd|] eqn:E5; [|discriminate].
  rewrite (ref_rdata_at_stable _ x _ _ _ _ E5). exact H.
Qed.

Lemma ref_question_stable d x off v :
  ref_question d off = Some v -> ref_question (d ++ x) off = Some v.
Proof.
  unfold ref_question. intros H.
  destruct (ref_name d off) as [[ls o]|] eqn:E; [|discriminate].
  rewrite (ref_name_stable _ x _ _ E).
  destruct (ref_u16 d o) as [ty|] eqn:E1; [|discriminate].
  destruct (ref_u16 d (o + 2)) as [cl|] eqn:E2; [|discriminate].
  rewrite (ref_u16_stable _ x _ _ E1), (ref_u16_stable _ x _ _ E2). exact H.
Qed.

(* ref_records and ref_questions are one counted loop over two entry readers *)
Fixpoint ref_many {A} (item : bytes -> N -> option (A * N)) (n : nat) (d : bytes) (off : N)
    : option (list A * N) :=
  match n with
  | O => Some ([], off)
  | S k =>
    match item d off with
    | Some (q, o) =>
      match ref_many item k d o with Some (qs, o') => Some (q :: qs, o') | None => None end
    | None => None
    end
  end.

Lemma ref_records_many n d : forall off, ref_records n d off = ref_many ref_record n d off.
Proof.
  induction n as [|n IH]; intros off; [reflexivity|]. cbn [ref_records ref_many].
  destruct (ref_record d off) as [[r o]|]; [rewrite IH|]; reflexivity.
Qed.

Lemma ref_questions_many n d : forall off, ref_questions n d off = ref_many ref_question n d off.
Proof.
  induction n as [|n IH]; intros off; [reflexivity|]. cbn [ref_questions ref_many].
  destruct (ref_question d off) as [[r o]|]; [rewrite IH|]; reflexivity.
Qed.

Lemma ref_many_stable {A} (item : bytes -> N -> option (A * N)) :
  (forall d x off v, item d off = Some v -> item (d ++ x) off = Some v) ->
  forall n d x off v, ref_many item n d off = Some v -> ref_many item n (d ++ x) off = Some v.
Proof.
  intros Hitem. induction n as [|n IH]; intros d x off v H; [exact H|].
  cbn [ref_many] in *.
  destruct (item d off) as [[r o]|] eqn:E; [|discriminate].
  rewrite (Hitem _ x _ _ E).
  destruct (ref_many item n d o) as [[rs o']|] eqn:E2; [|discriminate].
  rewrite (IH _ x _ _ E2). exact H.
Qed.

Lemma ref_many_snoc {A} (item : bytes -> N -> option (A * N)) n : forall d off l o r o',
  ref_many item n d off = Some (l, o) -> item d o = Some (r, o') ->
  ref_many item (S n) d off = Some (l ++ [r], o').
Proof.
  induction n as [|n IH]; intros d off l o r o' H1 H2.
  - injection H1 as <- <-. cbn [ref_many]. rewrite H2. reflexivity.
  - cbn [ref_many] in H1.
    destruct (item d off) as [[r1 o1]|] eqn:E; [|discriminate].
    destruct (ref_many item n d o1) as [[rs o2]|] eqn:E2; [|discriminate].
    injection H1 as <- <-. specialize (IH _ _ _ _ _ _ E2 H2).
    change (ref_many item (S (S n)) d off) with
      (match item d off with
       | Some (r, o) =>
         match ref_many item (S n) d o with Some (rs, o') => Some (r :: rs, o') | None => None end
       | None => None end).
    rewrite E, IH. reflexivity.
Qed.

Lemma ref_many_next {A} (item : bytes -> N -> option (A * N)) k :
  (forall d off r o, item d off = Some (r, o) -> off + k <= o) ->
  forall n d off l o, ref_many item n d off = Some (l, o) ->
  off + k * N.of_nat n <= o /\ length l = n.
Proof.
  intros Hitem. induction n as [|n IH]; intros d off l o H.
  - injection H as <- <-. split; [lia|reflexivity].
  - cbn [ref_many] in H.
    destruct (item d off) as [[r o1]|] eqn:E; [|discriminate].
    destruct (ref_many item n d o1) as [[rs o2]|] eqn:E2; [|discriminate].
    injection H as <- <-. apply Hitem in E. apply IH in E2. cbn [length]. lia.
Qed.

Lemma ref_records_stable n d x off v :
  ref_records n d off = Some v -> ref_records n (d ++ x) off = Some v.
Proof. rewrite !ref_records_many. apply ref_many_stable, ref_record_stable. Qed.

Lemma ref_questions_stable n d x off v :
  ref_questions n d off = Some v -> ref_questions n (d ++ x) off = Some v.
Proof. rewrite !ref_questions_many. apply ref_many_stable, ref_question_stable. Qed.

Lemma ref_records_snoc n d off l o r o' :
  ref_records n d off = Some (l, o) -> ref_record d o = Some (r, o') ->
  ref_records (S n) d off = Some (l ++ [r], o').
Proof. rewrite !ref_records_many. apply ref_many_snoc. Qed.

Lemma ref_questions_snoc n d off l o r o' :
  ref_questions n d off = Some (l, o) -> ref_question d o = Some (r, o') ->
  ref_questions (S n) d off = Some (l ++ [r], o').
Proof. rewrite !ref_questions_many. apply ref_many_snoc. Qed.

(* a run of n + m entries is a run of n followed by a run of m *)
Lemma ref_many_app {A} (item : bytes -> N -> option (A * N)) m : forall n d off l1 l2 o,
  length l1 = n -> ref_many item (n + m) d off = Some (l1 ++ l2, o) ->
  exists o', ref_many item n d off = Some (l1, o') /\ ref_many item m d o' = Some (l2, o).
Proof.
  induction n as [|n IH]; intros d off l1 l2 o Hl H.
  - destruct l1; [|discriminate]. exists off. split; [reflexivity|exact H].
  - destruct l1 as [|x l1]; [discriminate|]. injection Hl as Hl.
    cbn [Nat.add ref_many app] in *.
    destruct (item d off) as [[r o1]|]; [|discriminate].
    destruct (ref_many item (n + m) d o1) as [[rs o2]|] eqn:E; [|discriminate].
    injection H as -> -> ->.
    destruct (IH d o1 l1 l2 o Hl E) as (o' & H1 & H2). exists o'. rewrite H1.
    split; [reflexivity|exact H2].
Qed.

Lemma ref_records_app n m d off l1 l2 o :
  length l1 = n -> ref_records (n + m) d off = Some (l1 ++ l2, o) ->
  exists o', ref_records n d off = Some (l1, o') /\ ref_records m d o' = Some (l2, o).
Proof.
  rewrite ref_records_many. intros Hl H.
  destruct (ref_many_app _ m n d off l1 l2 o Hl H) as (o' & H1 & H2).
  exists o'. rewrite !ref_records_many. split; assumption.
Qed.

Lemma run_next fuel : forall rest off,
  match run fuel rest off with
  | RunEnd _ n | RunPtr _ n _ => off + 1 <= n
  | RunBad => True
  end.
Proof.
  induction fuel as [|f IH]; intros rest off; [exact I|].
  destruct rest as [|l tl]; [exact I|]. cbn [run].
  destruct (l =? 0); [lia|].
  destruct (l <? 64).
  - destruct (Nat.ltb (length tl) (N.to_nat l)); [exact I|].
    specialize (IH (skipn (N.to_nat l) tl) (off + 1 + l)).
    destruct (run f (skipn (N.to_nat l) tl) (off + 1 + l)); [lia|lia|exact I].
  - destruct (192 <=? l); [|exact I]. destruct tl; [exact I|lia].
Qed.

Lemma ref_name_next d off ls o : ref_name d off = Some (ls, o) -> off + 1 <= o.
Proof.
  unfold ref_name. cbn [ref_name_from].
  pose proof (run_next (S (length (skipn (N.to_nat off) d))) (skipn (N.to_nat off) d) off) as Hn.
  destruct (run _ _ off) as [ls' n|ls' n t|]; [| |discriminate].
  - intros H; injection H as _ <-. exact Hn.
  - destruct (off <=? t); [discriminate|].
    destruct (ref_name_from _ d t t) as [[ls2 n2]|]; [|discriminate].
    intros H; injection H as _ <-. exact Hn.
Qed.

Lemma ref_record_next d off r o : ref_record d off = Some (r, o) -> off + 11 <= o.
Proof.
  unfold ref_record.
  destruct (ref_name d off) as [[ls o1]|] eqn:E; [|discriminate].
  apply ref_name_next in E.
  destruct (ref_u16 d o1); [|discriminate].
  destruct (ref_u16 d (o1 + 2)); [|discriminate].
  destruct (ref_u32 d (o1 + 4)); [|discriminate].
  destruct (ref_u16 d (o1 + 8)); [|discriminate].
  destruct (ref_rdata_at _ _ _ _); [|discriminate].
  intros H; inversion H; lia.
Qed.

Lemma ref_question_next d off r o : ref_question d off = Some (r, o) -> off + 5 <= o.
Proof.
  unfold ref_question.
  destruct (ref_name d off) as [[ls o1]|] eqn:E; [|discriminate].
  apply ref_name_next in E.
  destruct (ref_u16 d o1); [|discriminate].
  destruct (ref_u16 d (o1 + 2)); [|discriminate].
  intros H; inversion H; lia.
Qed.

Lemma ref_records_next n d off l o :
  ref_records n d off = Some (l, o) -> off + 11 * N.of_nat n <= o /\ length l = n.
Proof. rewrite ref_records_many. apply ref_many_next, ref_record_next. Qed.

Lemma ref_questions_next n d off l o :
  ref_questions n d off = Some (l, o) -> off + 5 * N.of_nat n <= o /\ length l = n.
Proof. rewrite ref_questions_many. apply ref_many_next, ref_question_next. Qed.

Lemma labels_beq_eq a : forall b, labels_beq a b = true <-> a = b.
Proof.
  induction a as [|x a IH]; destruct b as [|y b]; cbn [labels_beq]; split; intros H;
    try reflexivity; try discriminate.
  - apply andb_true_iff in H as [H1 H2]. apply beq_eq in H1. apply IH in H2. congruence.
  - inversion H; subst. rewrite beq_refl. apply IH. reflexivity.
Qed.

Lemma labels_beq_refl a : labels_beq a a = true.
Proof. apply labels_beq_eq. reflexivity. Qed.

Lemma ref_rdata_beq_refl a : ref_rdata_beq a a = true.
Proof.
  destruct a; cbn [ref_rdata_beq]; rewrite ?beq_refl, ?labels_beq_refl, ?N.eqb_refl; reflexivity.
Qed.

Lemma ref_rr_beq_refl a : ref_rr_beq a a = true.
Proof.
  unfold ref_rr_beq. rewrite labels_beq_refl, !N.eqb_refl, ref_rdata_beq_refl. reflexivity.
Qed.

Lemma ref_q_beq_refl a : ref_q_beq a a = true.
Proof. unfold ref_q_beq. rewrite labels_beq_refl, !N.eqb_refl. reflexivity. Qed.

Lemma list_beq_refl {A} (eqb : A -> A -> bool) :
  (forall x, eqb x x = true) -> forall l, list_beq eqb l l = true.
Proof.
  intros Hr. induction l as [|x l IH]; cbn [list_beq]; [reflexivity|]. rewrite Hr, IH. reflexivity.
Qed.

Lemma is_subseq_tail {A} (eqb : A -> A -> bool) : forall b a x,
  is_subseq eqb (x :: a) b = true -> is_subseq eqb a b = true.
Proof.
  induction b as [|z b IH]; intros a x H; [discriminate|].
  cbn [is_subseq] in H.
  assert (Hab : is_subseq eqb a b = true).
  { destruct (eqb x z); [exact H|]. eapply IH; exact H. }
  destruct a as [|y a]; [reflexivity|].
  cbn [is_subseq]. destruct (eqb y z); [|exact Hab].
  eapply IH; exact Hab.
Qed.

Lemma is_subseq_cons_r {A} (eqb : A -> A -> bool) a b y :
  is_subseq eqb a b = true -> is_subseq eqb a (y :: b) = true.
Proof.
  intros H. destruct a as [|x a]; [reflexivity|].
  cbn [is_subseq]. destruct (eqb x y); [|exact H]. eapply is_subseq_tail; exact H.
Qed.

Lemma is_subseq_cons_both {A} (eqb : A -> A -> bool) a b x :
  eqb x x = true -> is_subseq eqb a b = true -> is_subseq eqb (x :: a) (x :: b) = true.
Proof. intros Hr H. cbn [is_subseq]. rewrite Hr. exact H. Qed.

Lemma is_subseq_nil {A} (eqb : A -> A -> bool) b : is_subseq eqb [] b = true.
Proof. destruct b; reflexivity. Qed.

Lemma lor_lt_pow2 a b n : a < 2 ^ n -> b < 2 ^ n -> N.lor a b < 2 ^ n.
Proof.
  intros Ha Hb.
  destruct (N.eq_dec (N.lor a b) 0) as [E|E].
  - rewrite E. destruct (2 ^ n) eqn:E2; [|lia]. apply N.pow_nonzero in E2; [contradiction|lia].
  - apply N.log2_lt_pow2; [lia|].
    rewrite N.log2_lor.
    destruct (N.eq_dec a 0) as [Ea|Ea]; destruct (N.eq_dec b 0) as [Eb|Eb]; subst.
    + exfalso. apply E. reflexivity.
    + rewrite N.max_r by (cbn; lia). apply N.log2_lt_pow2; lia.
    + rewrite N.max_l by (cbn; lia). apply N.log2_lt_pow2; lia.
    + apply N.max_lub_lt; apply N.log2_lt_pow2; lia.
Qed.

Lemma lor_lt_65536 a b : a < 65536 -> b < 65536 -> N.lor a b < 65536.
Proof. change 65536 with (2 ^ 16). apply lor_lt_pow2. Qed.

Lemma lor_ptr off : off < 16384 -> N.lor off 49152 = off + 49152.
Proof.
  intros H.
  assert (Hl : N.land off 49152 = 0).
  { apply N.bits_inj_0. intros n. rewrite N.land_spec.
    destruct (N.lt_ge_cases n 14) as [Hn|Hn].
    - change 49152 with (N.shiftl 3 14). rewrite N.shiftl_spec_low by exact Hn.
      apply andb_false_r.
    - destruct (N.eq_dec off 0) as [E|E]; [subst; rewrite N.bits_0; reflexivity|].
      rewrite (N.bits_above_log2 off n); [reflexivity|].
      assert (N.log2 off < 14) by (apply N.log2_lt_pow2; [lia|exact H]). lia. }
  rewrite <- N.lxor_lor by exact Hl. symmetry. apply N.add_nocarry_lxor. exact Hl.
Qed.

Lemma run_ptr f off x pos : off < 16384 ->
  run (S f) (u16_bytes (N.lor off 49152) ++ x) pos = RunPtr [] (pos + 2) off.
Proof.
  intros H. rewrite lor_ptr by exact H. unfold u16_bytes. cbn [app run].
  change 49152 with (192 * 256). rewrite N.div_add, N.mod_add by discriminate.
  pose proof (N.div_mod off 256 ltac:(discriminate)) as Hoff.
  pose proof (N.mod_lt off 256 ltac:(discriminate)) as Hr.
  revert Hoff Hr. generalize (off / 256) (off mod 256). intros q r Hoff Hr.
  rewrite (N.mod_small (q + 192)) by lia.
  replace (q + 192 =? 0) with false by (symmetry; apply N.eqb_neq; lia).
  replace (q + 192 <? 64) with false by (symmetry; apply N.ltb_ge; lia).
  replace (192 <=? q + 192) with true by (symmetry; apply N.leb_le; lia).
  f_equal. lia.
Qed.


Lemma u16_join v : v < 65536 -> (v / 256) mod 256 * 256 + v mod 256 = v.
Proof.
  intros H. rewrite N.mod_small by (apply N.div_lt_upper_bound; [discriminate|exact H]).
  rewrite N.mul_comm. symmetry. apply N.div_mod. discriminate.
Qed.

Lemma u32_join v : v < 4294967296 ->
  ((v / 16777216) mod 256 * 256 + (v / 65536) mod 256) * 65536
  + ((v / 256) mod 256 * 256 + v mod 256) = v.
Proof.
  intros H. change 16777216 with (65536 * 256). rewrite <- N.div_div by discriminate.
  rewrite (u16_join (v / 65536)) by (apply N.div_lt_upper_bound; [discriminate|exact H]).
  replace ((v / 256) mod 256 * 256 + v mod 256) with (v mod 65536).
  - rewrite N.mul_comm. symmetry. apply N.div_mod. discriminate.
  - change 65536 with (256 * 256). rewrite N.mod_mul_r by discriminate.
    rewrite N.mul_comm. apply N.add_comm.
Qed.

Lemma nth_byte_shift a b k : nth_byte (a ++ b) (blen a + k) = nth_byte b k.
Proof.
  unfold nth_byte, blen. rewrite nth_error_app2 by lia. f_equal. lia.
Qed.

Lemma ref_u16_shift a b k : ref_u16 (a ++ b) (blen a + k) = ref_u16 b k.
Proof.
  unfold ref_u16. rewrite <- N.add_assoc, !nth_byte_shift. reflexivity.
Qed.

Lemma ref_u32_shift a b k : ref_u32 (a ++ b) (blen a + k) = ref_u32 b k.
Proof.
  unfold ref_u32. rewrite <- N.add_assoc, !ref_u16_shift. reflexivity.
Qed.

Lemma ref_u16_shift0 a b : ref_u16 (a ++ b) (blen a) = ref_u16 b 0.
Proof. rewrite <- (N.add_0_r (blen a)) at 1. apply ref_u16_shift. Qed.

Lemma ref_u16_skip2 v b k : ref_u16 (u16_bytes v ++ b) (2 + k) = ref_u16 b k.
Proof. exact (ref_u16_shift (u16_bytes v) b k). Qed.

Lemma ref_u32_skip2 v b k : ref_u32 (u16_bytes v ++ b) (2 + k) = ref_u32 b k.
Proof. exact (ref_u32_shift (u16_bytes v) b k). Qed.

Lemma ref_u16_skip4 v b k : ref_u16 (u32_bytes v ++ b) (4 + k) = ref_u16 b k.
Proof. exact (ref_u16_shift (u32_bytes v) b k). Qed.

Lemma ref_u16_head v b : v < 65536 -> ref_u16 (u16_bytes v ++ b) 0 = Some v.
Proof.
  intros H. change (Some ((v / 256) mod 256 * 256 + v mod 256) = Some v).
  rewrite u16_join by exact H. reflexivity.
Qed.

Lemma ref_u32_head v b : v < 4294967296 -> ref_u32 (u32_bytes v ++ b) 0 = Some v.
Proof.
  intros H.
  change (Some (((v / 16777216) mod 256 * 256 + (v / 65536) mod 256) * 65536
                + ((v / 256) mod 256 * 256 + v mod 256)) = Some v).
  rewrite u32_join by exact H. reflexivity.
Qed.

Lemma ref_bytes_end pre b : ref_bytes (pre ++ b) (blen pre) (blen b) = Some b.
Proof.
  unfold ref_bytes.
  assert (E : blen pre + blen b <=? N.of_nat (length (pre ++ b)) = true).
  { apply N.leb_le. rewrite app_length. unfold blen. lia. }
  rewrite E. rewrite !to_nat_blen.
  rewrite skipn_app, skipn_all, Nat.sub_diag. cbn [skipn app].
  rewrite firstn_all. reflexivity.
Qed.

(* `d` is everything up to and including the owner name, which starts at `o` *)
Lemma ref_record_parts d o ls ty cl ttl rdb rdv :
  ty < 65536 -> cl < 65536 -> ttl < 4294967296 -> blen rdb < 65536 ->
  let D := d ++ u16_bytes ty ++ u16_bytes cl ++ u32_bytes ttl ++ u16_bytes (blen rdb) ++ rdb in
  ref_name D o = Some (ls, blen d) ->
  ref_rdata_at D ty (blen d + 10) (blen rdb) = Some rdv ->
  ref_record D o = Some (mkRefRR ls ty cl ttl rdv, blen d + 10 + blen rdb).
Proof.
  intros Hty Hcl Httl Hrdl D Hname Hrd. unfold ref_record. rewrite Hname. subst D.
  rewrite ref_u16_shift0, ref_u16_head by exact Hty.
  rewrite ref_u16_shift. change 2 with (2 + 0). rewrite ref_u16_skip2, ref_u16_head by exact Hcl.
  rewrite ref_u32_shift. change 4 with (2 + (2 + 0)).
  rewrite !ref_u32_skip2, ref_u32_head by exact Httl.
  rewrite ref_u16_shift. change 8 with (2 + (2 + (4 + 0))).
  rewrite !ref_u16_skip2, ref_u16_skip4, ref_u16_head by exact Hrdl.
  rewrite Hrd. reflexivity.
Qed.

Lemma ref_question_parts d o ls ty cl :
  ty < 65536 -> cl < 65536 ->
  let D := d ++ u16_bytes ty ++ u16_bytes cl in
  ref_name D o = Some (ls, blen d) ->
  ref_question D o = Some (mkRefQ ls ty cl, blen d + 4).
Proof.
  intros Hty Hcl D Hname. unfold ref_question. rewrite Hname. subst D.
  rewrite ref_u16_shift0, ref_u16_head by exact Hty.
  rewrite ref_u16_shift. change 2 with (2 + 0).
  rewrite <- (app_nil_r (u16_bytes cl)), ref_u16_skip2, ref_u16_head by exact Hcl.
  reflexivity.
Qed.

(* bytes written and table entries created (newest first) *)
Fixpoint enc (t : table) (pos : N) (ls : labels) : bytes * table :=
  match ls with
  | [] => ([0], [])
  | l :: rest =>
    match lookup ls t with
    | Some off => (u16_bytes (N.lor off 49152), [])
    | None =>
      let r := enc t (pos + 1 + blen l) rest in
      (blen l :: l ++ fst r, snd r ++ [(ls, pos mod 65536)])
    end
  end.

Lemma labels_beq_length a : forall b, labels_beq a b = true -> length a = length b.
Proof. intros b H. apply labels_beq_eq in H. congruence. Qed.

Lemma lookup_skip k pend t :
  (forall k' v, In (k', v) pend -> length k <> length k') ->
  lookup k (pend ++ t) = lookup k t.
Proof.
  induction pend as [|[k' v] pend IH]; intros H; [reflexivity|].
  cbn [app lookup].
  destruct (labels_beq k k') eqn:E.
  - apply labels_beq_length in E. exfalso. apply (H k' v); [left; reflexivity|exact E].
  - apply IH. intros k2 v2 Hin. apply (H k2 v2). right. exact Hin.
Qed.

Lemma lookup_In k t v : lookup k t = Some v -> In (k, v) t.
Proof.
  induction t as [|[k' v'] t IH]; cbn [lookup]; intros H; [discriminate|].
  destruct (labels_beq k k') eqn:E.
  - apply labels_beq_eq in E. inversion H; subst. left. reflexivity.
  - right. apply IH. exact H.
Qed.

Lemma label_ok_inv l : label_ok l = true -> 1 <= blen l /\ blen l <= 63.
Proof.
  unfold label_ok. intros H. apply andb_true_iff in H as [H _].
  apply andb_true_iff in H as [H1 H2]. apply N.leb_le in H1, H2. split; assumption.
Qed.

Lemma write_labels_enc : forall ls pend t pos,
  forallb label_ok ls = true ->
  (forall k v, In (k, v) pend -> (length ls < length k)%nat) ->
  write_labels (pend ++ t) pos ls
  = Ok (fst (enc t pos ls), snd (enc t pos ls) ++ pend ++ t).
Proof.
  induction ls as [|l rest IH]; intros pend t pos Hok Hpend; [reflexivity|].
  cbn [forallb] in Hok. apply andb_true_iff in Hok as [Hl Hrest].
  apply label_ok_inv in Hl.
  cbn [write_labels enc].
  rewrite lookup_skip.
  2:{ intros k' v Hin. apply Hpend in Hin. lia. }
  destruct (lookup (l :: rest) t) as [off|]; [reflexivity|].
  replace (64 <=? blen l) with false by (symmetry; apply N.leb_gt; lia).
  change (((l :: rest, pos mod 65536) :: pend ++ t)) with
    (((l :: rest, pos mod 65536) :: pend) ++ t).
  rewrite IH; [|exact Hrest|].
  - cbn [bind fst snd]. rewrite <- app_assoc. reflexivity.
  - intros k v [Hin|Hin].
    + inversion Hin; subst. cbn [length]. lia.
    + apply Hpend in Hin. cbn [length] in Hin. lia.
Qed.

Lemma write_labels_enc0 ls t pos :
  forallb label_ok ls = true ->
  write_labels t pos ls = Ok (fst (enc t pos ls), snd (enc t pos ls) ++ t).
Proof.
  intros H. apply (write_labels_enc ls [] t pos H). intros k v [].
Qed.

Lemma wire_len_nil : wire_len [] = 1.
Proof. reflexivity. Qed.

Lemma wire_len_cons l rest : wire_len (l :: rest) = 1 + blen l + wire_len rest.
Proof. reflexivity. Qed.

Lemma wire_len_pos ls : 1 <= wire_len ls.
Proof. destruct ls; [rewrite wire_len_nil|rewrite wire_len_cons]; lia. Qed.

Lemma enc_len : forall ls t pos,
  1 <= blen (fst (enc t pos ls)) /\ blen (fst (enc t pos ls)) <= wire_len ls.
Proof.
  induction ls as [|l rest IH]; intros t pos.
  - cbn [enc fst]. rewrite wire_len_nil. blen_norm. lia.
  - cbn [enc]. rewrite wire_len_cons. pose proof (wire_len_pos rest).
    destruct (lookup (l :: rest) t).
    + cbn [fst]. rewrite blen_u16. lia.
    + cbn [fst]. specialize (IH t (pos + 1 + blen l)). blen_norm. lia.
Qed.

(* The written name ends with the zero byte, or with a pointer to a table entry whose key is
   the unwritten suffix.  16384 = 2^14 is the range of a pointer's offset field: the table
   invariant keeps every entry below the buffer length, so names are proved correct for
   buffers up to that length (a packet is at most MAX_MSG = 8972). *)
Lemma enc_run : forall ls t pos x fuel,
  forallb label_ok ls = true ->
  (forall k off, lookup k t = Some off -> off < 16384) ->
  (length (fst (enc t pos ls) ++ x) < fuel)%nat ->
  run fuel (fst (enc t pos ls) ++ x) pos = RunEnd ls (pos + blen (fst (enc t pos ls)))
  \/ exists ls1 ls2 off, ls = ls1 ++ ls2 /\ lookup ls2 t = Some off /\
       run fuel (fst (enc t pos ls) ++ x) pos
       = RunPtr ls1 (pos + blen (fst (enc t pos ls))) off.
Proof.
  induction ls as [|l rest IH]; intros t pos x fuel Hok Hlt Hfuel.
  - cbn [enc fst app] in *. destruct fuel as [|f]; [lia|]. cbn [run].
    rewrite N.eqb_refl. left. blen_norm. f_equal.
  - cbn [forallb] in Hok. apply andb_true_iff in Hok as [Hl Hrest].
    apply label_ok_inv in Hl.
    cbn [enc] in *. destruct (lookup (l :: rest) t) as [off|] eqn:E.
    + cbn [fst] in *. right. exists [], (l :: rest), off.
      split; [reflexivity|]. split; [exact E|].
      destruct fuel as [|f]; [lia|].
      rewrite (run_ptr f off x pos (Hlt _ _ E)). blen_norm. reflexivity.
    + cbn [fst] in *. cbn [app] in *.
      destruct fuel as [|f]; [lia|]. cbn [run].
      replace (blen l =? 0) with false by (symmetry; apply N.eqb_neq; lia).
      replace (blen l <? 64) with true by (symmetry; apply N.ltb_lt; lia).
      rewrite to_nat_blen. rewrite <- app_assoc.
      replace (Nat.ltb (length (l ++ fst (enc t (pos + 1 + blen l) rest) ++ x)) (length l))
        with false by (symmetry; apply Nat.ltb_ge; rewrite app_length; lia).
      rewrite skipn_exact, firstn_exact.
      cbn [length] in Hfuel. rewrite <- app_assoc, app_length in Hfuel.
      destruct (IH t (pos + 1 + blen l) x f Hrest Hlt) as [H|(ls1 & ls2 & off & H1 & H2 & H3)];
        [lia| |].
      * left. rewrite H. f_equal. blen_norm. lia.
      * right. exists (l :: ls1), ls2, off. split; [cbn [app]; congruence|].
        split; [exact H2|]. rewrite H3. f_equal. blen_norm. lia.
Qed.

(* the compression-table invariant, relative to the bytes `d` written so far *)
Definition tbl_ok (t : table) (d : bytes) : Prop :=
  forall k off, In (k, off) t -> off < blen d /\ exists n, ref_name d off = Some (k, n).

Lemma tbl_ok_nil d : tbl_ok [] d.
Proof. intros k off []. Qed.

Lemma tbl_ok_stable t d x : tbl_ok t d -> tbl_ok t (d ++ x).
Proof.
  intros H k off Hin. destruct (H k off Hin) as [H1 [n H2]]. split.
  - blen_norm. lia.
  - exists n. apply ref_name_stable. exact H2.
Qed.

Lemma tbl_ok_union a b d : tbl_ok a d -> tbl_ok b d -> tbl_ok (a ++ b) d.
Proof.
  intros Ha Hb k off Hin. apply in_app_or in Hin as [Hin|Hin]; [apply Ha|apply Hb]; exact Hin.
Qed.

Lemma tbl_ok_filter f t d : tbl_ok t d -> tbl_ok (filter f t) d.
Proof. intros H k off Hin. apply filter_In in Hin as [Hin _]. apply H. exact Hin. Qed.

Lemma skipn_blen d x : skipn (N.to_nat (blen d)) (d ++ x) = x.
Proof. rewrite to_nat_blen. apply skipn_exact. Qed.

Lemma enc_read t d ls x :
  tbl_ok t d -> blen d <= 16384 -> forallb label_ok ls = true ->
  ref_name (d ++ fst (enc t (blen d) ls) ++ x) (blen d)
  = Some (ls, blen d + blen (fst (enc t (blen d) ls))).
Proof.
  intros Ht Hd Hok.
  assert (Hlt : forall k off, lookup k t = Some off -> off < 16384).
  { intros k off H. apply lookup_In in H. apply Ht in H. lia. }
  set (bs := fst (enc t (blen d) ls)).
  unfold ref_name. cbn [ref_name_from]. rewrite skipn_blen.
  assert (Hr := enc_run ls t (blen d) x (S (length (bs ++ x))) Hok Hlt).
  fold bs in Hr.
  destruct Hr as [H|(ls1 & ls2 & off & H1 & H2 & H3)]; [lia| |].
  - rewrite H. reflexivity.
  - rewrite H3. apply lookup_In in H2. destruct (Ht _ _ H2) as [Ho [n Hn]].
    replace (blen d <=? off) with false by (symmetry; apply N.leb_gt; lia).
    unfold ref_name in Hn.
    pose proof (enc_len ls t (blen d)) as [Hb _]. fold bs in Hb.
    rewrite (ref_name_from_stable _ _ _ _ _ (bs ++ x) (length (d ++ bs ++ x)) Hn).
    + rewrite H1. reflexivity.
    + rewrite !app_length. unfold blen in Hb. lia.
Qed.

Lemma enc_entries : forall ls t d,
  tbl_ok t d -> forallb label_ok ls = true -> blen d + wire_len ls <= 16384 ->
  tbl_ok (snd (enc t (blen d) ls)) (d ++ fst (enc t (blen d) ls)).
Proof.
  induction ls as [|l rest IH]; intros t d Ht Hok Hsz.
  - cbn [enc snd]. apply tbl_ok_nil.
  - pose proof (wire_len_pos (l :: rest)) as Hwl.
    assert (Hread := enc_read t d (l :: rest) [] Ht ltac:(lia) Hok).
    rewrite app_nil_r in Hread.
    pose proof (enc_len (l :: rest) t (blen d)) as [Hb1 Hb2].
    rewrite wire_len_cons in Hsz.
    cbn [forallb] in Hok. apply andb_true_iff in Hok as [Hl Hrest].
    cbn [enc] in *. destruct (lookup (l :: rest) t) as [off|]; [apply tbl_ok_nil|].
    cbn [fst snd] in *.
    apply tbl_ok_union.
    + set (d1 := d ++ blen l :: l).
      assert (Hd1 : blen d1 = blen d + 1 + blen l) by (subst d1; blen_norm; lia).
      rewrite <- Hd1.
      replace (d ++ blen l :: l ++ fst (enc t (blen d1) rest))
        with (d1 ++ fst (enc t (blen d1) rest))
        by (subst d1; rewrite <- app_assoc; reflexivity).
      apply IH; [apply tbl_ok_stable; exact Ht|exact Hrest|lia].
    + intros k off [Hin|[]]. inversion Hin; subst.
      rewrite N.mod_small by lia. split.
      * blen_norm. lia.
      * eexists. exact Hread.
Qed.

(* The bytes and the new table depend on the buffer only through its length; what is said
   of them holds for every buffer of that length (a packet is built before its 12 header
   bytes are known). *)
Lemma write_labels_correct t pos ls :
  forallb label_ok ls = true ->
  exists bs t', write_labels t pos ls = Ok (bs, t')
    /\ 1 <= blen bs /\ blen bs <= wire_len ls
    /\ forall d, blen d = pos -> tbl_ok t d -> pos + wire_len ls <= 16384 ->
         tbl_ok t' (d ++ bs)
         /\ forall x, ref_name (d ++ bs ++ x) pos = Some (ls, pos + blen bs).
Proof.
  intros Hok. exists (fst (enc t pos ls)), (snd (enc t pos ls) ++ t).
  split; [apply write_labels_enc0; exact Hok|].
  split; [apply enc_len|]. split; [apply enc_len|].
  intros d <- Ht Hsz. pose proof (wire_len_pos ls) as Hwl. split.
  - apply tbl_ok_union; [apply enc_entries; assumption|apply tbl_ok_stable; exact Ht].
  - intros x. apply enc_read; [exact Ht|lia|exact Hok].
Qed.

Lemma write_labels_total t pos ls :
  forallb label_ok ls = true -> exists r, write_labels t pos ls = Ok r.
Proof. intros H. rewrite write_labels_enc0 by exact H. eauto. Qed.

Lemma wf_name_inv name :
  wf_name name = true ->
  forallb label_ok (name_labels name) = true /\ wire_len (name_labels name) <= 255.
Proof.
  unfold wf_name. intros H. apply andb_true_iff in H as [H1 H2]. apply N.leb_le in H2.
  split; assumption.
Qed.

(* 16000 and 15000 below are room for one name (at most 255 bytes) resp. one RDATA with a
   name in it under 16384; any bound between MAX_MSG + 265 and these would do. *)
Lemma write_name_correct t pos name :
  wf_name name = true ->
  exists bs t', write_name t pos name = Ok (bs, t')
    /\ 1 <= blen bs /\ blen bs <= 255
    /\ forall d, blen d = pos -> tbl_ok t d -> pos <= 16000 ->
         tbl_ok t' (d ++ bs)
         /\ forall x, ref_name (d ++ bs ++ x) pos = Some (name_labels name, pos + blen bs).
Proof.
  intros Hwf. apply wf_name_inv in Hwf as [H1 H2].
  destruct (write_labels_correct t pos _ H1) as (bs & t' & Hw & Hb1 & Hb2 & H).
  exists bs, t'. split; [exact Hw|]. split; [exact Hb1|]. split; [lia|].
  intros d Hd Ht Hsz. apply H; [exact Hd|exact Ht|lia].
Qed.

Lemma write_name_total t pos name :
  wf_name name = true -> exists r, write_name t pos name = Ok r.
Proof. intros H. apply wf_name_inv in H as [H _]. apply write_labels_total. exact H. Qed.

Lemma ref_rdata_at_raw d ty off n :
  ty <> 12 -> ty <> 5 -> ty <> 33 ->
  ref_rdata_at d ty off n = match ref_bytes d off n with Some b => Some (FRaw b) | None => None end.
Proof.
  intros H1 H2 H3. unfold ref_rdata_at.
  replace (ty =? 12) with false by (symmetry; apply N.eqb_neq; exact H1).
  replace (ty =? 5) with false by (symmetry; apply N.eqb_neq; exact H2).
  replace (ty =? 33) with false by (symmetry; apply N.eqb_neq; exact H3).
  reflexivity.
Qed.

Lemma write_rdata_correct t pos ty rd :
  wf_rdata ty rd = true ->
  exists rdb t', write_rdata t pos rd = Ok (rdb, t')
    /\ forall d, blen d = pos -> tbl_ok t d -> pos <= 15000 ->
         tbl_ok t' (d ++ rdb)
         /\ ref_rdata_at (d ++ rdb) ty pos (blen rdb) = Some (view_rdata rd).
Proof.
  destruct rd as [o|a|p w po h|x|c o|n b]; cbn [wf_rdata write_rdata view_rdata]; intros Hwf;
    try discriminate.
  - exists o, t. split; [reflexivity|]. intros d <- Ht _. split; [apply tbl_ok_stable; exact Ht|].
    apply andb_true_iff in Hwf as [_ Hwf].
    assert (Hty : ty = 1 \/ ty = 28).
    { apply orb_true_iff in Hwf as [H|H]; apply andb_true_iff in H as [H _];
        apply N.eqb_eq in H; auto. }
    rewrite ref_rdata_at_raw by lia. rewrite ref_bytes_end. reflexivity.
  - apply andb_true_iff in Hwf as [Hty Hwf].
    destruct (write_name_correct t pos a Hwf) as (bs & t' & Hw & _ & _ & H).
    exists bs, t'. split; [exact Hw|]. intros d Hd Ht Hsz.
    destruct (H d Hd Ht ltac:(lia)) as [Ht' Hr]. split; [exact Ht'|].
    unfold ref_rdata_at. rewrite Hty.
    specialize (Hr []). rewrite app_nil_r in Hr. rewrite Hr, N.eqb_refl. reflexivity.
  - apply andb_true_iff in Hwf as [Hwf Hh]. apply andb_true_iff in Hwf as [Hwf Hpo].
    apply andb_true_iff in Hwf as [Hwf Hw2]. apply andb_true_iff in Hwf as [Hty Hp].
    apply N.eqb_eq in Hty. apply N.ltb_lt in Hp, Hw2, Hpo. subst ty.
    destruct (write_name_correct t (pos + 6) h Hh) as (bs & t' & Hw & _ & _ & H).
    rewrite Hw. cbn [bind]. eexists _, t'. split; [reflexivity|]. intros d <- Ht Hsz.
    destruct (H (d ++ u16_bytes p ++ u16_bytes w ++ u16_bytes po)) as [Ht' Hr];
      [rewrite !blen_app, !blen_u16; lia|apply tbl_ok_stable; exact Ht|lia|].
    specialize (Hr []). rewrite app_nil_r in Hr. rewrite <- !app_assoc in Ht', Hr.
    split; [exact Ht'|].
    unfold ref_rdata_at.
    change ((33 =? 12) || (33 =? 5)) with false. change (33 =? 33) with true. cbv iota.
    rewrite ref_u16_shift0, ref_u16_head by exact Hp.
    rewrite ref_u16_shift. change 2 with (2 + 0). rewrite ref_u16_skip2, ref_u16_head by exact Hw2.
    rewrite ref_u16_shift. change 4 with (2 + (2 + 0)).
    rewrite !ref_u16_skip2, ref_u16_head by exact Hpo.
    rewrite Hr.
    replace (blen d + 6 + blen bs =? blen d + blen (u16_bytes p ++ u16_bytes w ++ u16_bytes po ++ bs))
      with true by (symmetry; apply N.eqb_eq; rewrite !blen_app, !blen_u16; lia).
    reflexivity.
  - exists x, t. split; [reflexivity|]. intros d <- Ht _. split; [apply tbl_ok_stable; exact Ht|].
    apply andb_true_iff in Hwf as [Hty _]. apply N.eqb_eq in Hty.
    rewrite ref_rdata_at_raw by lia. rewrite ref_bytes_end. reflexivity.
Qed.

Lemma class_bits_lt r : r_class r <? 32768 = true -> class_bits r < 65536.
Proof.
  intros H. apply N.ltb_lt in H. unfold class_bits. destruct (r_flush r); [|lia].
  apply lor_lt_65536; lia.
Qed.

Definition ttl_ok (r : orec) (now : N) : bool :=
  (now =? 0) || (now <=? or_created r + r_ttl (or_rr r) * 1000).

Lemma ttl_written r now :
  ttl_ok r now = true -> r_ttl (or_rr r) < 4294967296 ->
  (if now =? 0 then Ok (r_ttl (or_rr r))
   else remaining_ttl (or_created r) (r_ttl (or_rr r)) now) = Ok (written_ttl r now)
  /\ written_ttl r now < 4294967296.
Proof.
  unfold ttl_ok, written_ttl, remaining_ttl. intros H Httl.
  destruct (now =? 0) eqn:E; [split; [reflexivity|exact Httl]|].
  cbn [orb] in H. apply N.leb_le in H.
  replace (or_created r + r_ttl (or_rr r) * 1000 <? now) with false
    by (symmetry; apply N.ltb_ge; exact H).
  split; [reflexivity|]. apply N.mod_lt. discriminate.
Qed.

Lemma wf_orec_inv r :
  wf_orec r = true ->
  wf_name (or_name r) = true /\ r_type (or_rr r) < 65536 /\ class_bits (or_rr r) < 65536
  /\ r_ttl (or_rr r) < 4294967296 /\ wf_rdata (r_type (or_rr r)) (r_data (or_rr r)) = true.
Proof.
  unfold wf_orec. intros H.
  apply andb_true_iff in H as [H H5]. apply andb_true_iff in H as [H H4].
  apply andb_true_iff in H as [H H3]. apply andb_true_iff in H as [H1 H2].
  apply N.ltb_lt in H2, H4. apply class_bits_lt in H3. repeat split; assumption.
Qed.

Theorem write_record_correct t pos r now :
  wf_orec r = true -> ttl_ok r now = true ->
  exists w, write_record t pos r now = Ok w /\
    match w with
    | None => True
    | Some (bs, t') =>
      pos + blen bs <= MAX_MSG /\ 11 <= blen bs
      /\ forall d, blen d = pos -> tbl_ok t d ->
           tbl_ok t' (d ++ bs)
           /\ ref_record (d ++ bs) pos = Some (view_rr r (written_ttl r now), pos + blen bs)
    end.
Proof.
  intros Hwf Hnow.
  apply wf_orec_inv in Hwf as (Hname & Hty & Hcl & Httl & Hrd).
  destruct (ttl_written r now Hnow Httl) as [Hw_ttl Httl'].
  destruct (write_name_correct t pos (or_name r) Hname) as (nb & t1 & Hw1 & Hn1 & Hn2 & Hnm).
  destruct (write_rdata_correct t1 (pos + blen nb + 10) _ _ Hrd) as (rdb & t2 & Hw2 & Hrdc).
  unfold write_record. rewrite Hw1. cbn [bind]. rewrite Hw_ttl. cbn [bind]. rewrite Hw2. cbn [bind].
  set (ttl := written_ttl r now) in *.
  set (fields := u16_bytes (r_type (or_rr r)) ++ u16_bytes (class_bits (or_rr r)) ++ u32_bytes ttl).
  set (bs := nb ++ fields ++ u16_bytes (blen rdb mod 65536) ++ rdb).
  assert (Hbs : blen bs = blen nb + 10 + blen rdb).
  { subst bs fields. rewrite !blen_app, !blen_u16, blen_u32. lia. }
  destruct (MAX_MSG <? pos + blen bs) eqn:Efit; [exists None; split; [reflexivity|exact I]|].
  apply N.ltb_ge in Efit. unfold MAX_MSG in Efit.
  exists (Some (bs, t2)). split; [reflexivity|].
  assert (Hmod : blen rdb mod 65536 = blen rdb) by (apply N.mod_small; lia).
  subst bs. rewrite Hmod in *. clear Hmod.
  set (bs := nb ++ fields ++ u16_bytes (blen rdb) ++ rdb) in *.
  split; [exact Efit|]. split; [lia|].
  intros d Hd Ht.
  destruct (Hnm d Hd Ht ltac:(lia)) as [Ht1 Hr1].
  assert (Hd1 : blen (d ++ nb) = pos + blen nb) by (rewrite blen_app, Hd; reflexivity).
  destruct (Hrdc ((d ++ nb) ++ fields ++ u16_bytes (blen rdb))) as [Ht2 Hrdv].
  { subst fields. rewrite !blen_app, !blen_u16, blen_u32, <- blen_app, Hd1. lia. }
  { apply tbl_ok_stable. exact Ht1. }
  { lia. }
  assert (E : d ++ bs = (d ++ nb) ++ u16_bytes (r_type (or_rr r)) ++ u16_bytes (class_bits (or_rr r))
                          ++ u32_bytes ttl ++ u16_bytes (blen rdb) ++ rdb).
  { subst bs fields. rewrite <- !app_assoc. reflexivity. }
  replace (((d ++ nb) ++ fields ++ u16_bytes (blen rdb)) ++ rdb) with (d ++ bs) in Ht2, Hrdv
    by (rewrite E; subst fields; rewrite <- !app_assoc; reflexivity).
  split; [exact Ht2|].
  specialize (Hr1 (fields ++ u16_bytes (blen rdb) ++ rdb)). fold bs in Hr1.
  rewrite E in Hr1, Hrdv |- *. rewrite <- Hd1 in Hr1, Hrdv.
  rewrite (ref_record_parts (d ++ nb) pos _ _ _ ttl rdb _ Hty Hcl Httl' ltac:(lia) Hr1 Hrdv).
  unfold view_rr. rewrite Hd1, Hbs. f_equal. f_equal. lia.
Qed.

(* The table of a packet under construction is consistent whatever the 12 header bytes will
   be (they are patched in when the packet is finished). *)
Definition TINV (p : pkt) : Prop := forall h, blen h = 12 -> tbl_ok (p_table p) (h ++ p_body p).
Definition PINV (p : pkt) : Prop := p_size p <= MAX_MSG /\ TINV p.

Lemma blen_hb h b : blen h = 12 -> blen (h ++ b) = 12 + blen b.
Proof. intros H. rewrite blen_app, H. reflexivity. Qed.

Lemma TINV_empty : TINV empty_pkt.
Proof. intros h _. apply tbl_ok_nil. Qed.

Lemma PINV_empty : PINV empty_pkt.
Proof. split; [discriminate|exact TINV_empty]. Qed.

(* What has been written so far parses, behind any header, as the questions Q followed by
   the records RS, whichever sections they are going to be counted in. *)
Definition RUN (p : pkt) (Q : list ref_q) (RS : list ref_rr) : Prop :=
  PINV p /\ forall h, blen h = 12 -> exists o1,
    ref_questions (length Q) (h ++ p_body p) 12 = Some (Q, o1)
    /\ ref_records (length RS) (h ++ p_body p) o1 = Some (RS, p_size p).

Lemma RUN_empty : RUN empty_pkt [] [].
Proof. split; [exact PINV_empty|]. intros h _. exists 12. split; reflexivity. Qed.

Lemma RUN_put p Q RS r now :
  RUN p Q RS -> wf_orec r = true -> ttl_ok r now = true ->
  exists p' ok, put_record p r now = Ok (p', ok)
    /\ RUN p' Q (if ok then RS ++ [view_rr r (written_ttl r now)] else RS).
Proof.
  intros [[Hsz Ht] Hrun] Hwf Hnow.
  destruct (write_record_correct (p_table p) (p_size p) r now Hwf Hnow) as [w [Hw Hprops]].
  unfold put_record. rewrite Hw. cbn [bind].
  destruct w as [[bs t']|].
  - destruct Hprops as (Hfit & _ & Hall).
    exists (mkPkt (p_body p ++ bs) t'), true. split; [reflexivity|].
    assert (Hsz' : p_size (mkPkt (p_body p ++ bs) t') = p_size p + blen bs).
    { unfold p_size. cbn [p_body]. rewrite blen_app. lia. }
    split.
    + split; [rewrite Hsz'; exact Hfit|].
      intros h Hh. cbn [p_body p_table]. rewrite app_assoc.
      apply (Hall (h ++ p_body p) (blen_hb h _ Hh) (Ht h Hh)).
    + intros h Hh. destruct (Hrun h Hh) as (o1 & HQ & HR). exists o1.
      rewrite Hsz'. cbn [p_body]. rewrite app_assoc.
      split; [apply ref_questions_stable; exact HQ|].
      rewrite app_length, Nat.add_1_r. eapply ref_records_snoc.
      * apply ref_records_stable. exact HR.
      * apply (Hall (h ++ p_body p) (blen_hb h _ Hh) (Ht h Hh)).
  - exists (mkPkt (p_body p) (rollback_table (p_table p) (p_size p))), false.
    split; [reflexivity|]. split; [|exact Hrun].
    split; [exact Hsz|]. intros h Hh. cbn [p_body p_table]. unfold rollback_table.
    apply tbl_ok_filter. apply Ht. exact Hh.
Qed.

Lemma put_record_total p r now :
  wf_orec r = true -> ttl_ok r now = true -> exists x, put_record p r now = Ok x.
Proof.
  intros Hwf Hnow. unfold put_record.
  destruct (write_record_correct (p_table p) (p_size p) r now Hwf Hnow) as [w [Hw _]].
  rewrite Hw. cbn [bind]. destruct w as [[bs t]|]; eauto.
Qed.

Lemma wf_answer_inv r now : wf_answer (r, now) = true -> wf_orec r = true /\ ttl_ok r now = true.
Proof. unfold wf_answer, ttl_ok. cbn [fst snd]. intros H. apply andb_true_iff in H. exact H. Qed.

Lemma put_answers_run : forall rs p cnt Q RS,
  RUN p Q RS -> forallb wf_answer rs = true ->
  exists p' l, put_answers p rs cnt = Ok (p', cnt + N.of_nat (length l))
    /\ is_subseq ref_rr_beq l (map view_answer rs) = true /\ RUN p' Q (RS ++ l).
Proof.
  induction rs as [|[r now] rs IH]; intros p cnt Q RS Hp Hwf.
  - exists p, []. cbn [put_answers length]. rewrite N.add_0_r, app_nil_r. auto.
  - cbn [forallb] in Hwf. apply andb_true_iff in Hwf as [Hr Hrs].
    apply wf_answer_inv in Hr as [Hr Hnow].
    destruct (RUN_put p Q RS r now Hp Hr Hnow) as (p1 & ok & Hput & Hp1).
    cbn [put_answers]. rewrite Hput. cbn [bind].
    destruct (IH p1 (if ok then cnt + 1 else cnt) Q _ Hp1 Hrs) as (p' & l & Hrun & Hsub & Hp').
    rewrite Hrun. destruct ok.
    + exists p', (view_answer (r, now) :: l). cbn [length map].
      split; [f_equal; f_equal; lia|].
      split; [apply is_subseq_cons_both; [apply ref_rr_beq_refl|exact Hsub]|].
      rewrite <- app_assoc in Hp'. exact Hp'.
    + exists p', l. split; [reflexivity|].
      split; [apply is_subseq_cons_r; exact Hsub|exact Hp'].
Qed.

Lemma put_auths_eq : forall rs p cnt,
  put_auths p rs cnt = put_answers p (map (fun r => (r, 0)) rs) cnt.
Proof.
  induction rs as [|r rs IH]; intros p cnt; [reflexivity|].
  cbn [put_auths put_answers map].
  destruct (put_record p r 0) as [[p' ok]| | |]; cbn [bind]; [apply IH|reflexivity..].
Qed.

Lemma wf_other_answers rs :
  forallb wf_orec rs = true -> forallb wf_answer (map (fun r => (r, 0)) rs) = true.
Proof.
  induction rs as [|r rs IH]; cbn [forallb map]; intros H; [reflexivity|].
  apply andb_true_iff in H as [H1 H2]. rewrite (IH H2), andb_true_r.
  unfold wf_answer. cbn [fst snd]. rewrite H1. reflexivity.
Qed.

Lemma put_auths_run rs p cnt Q RS :
  RUN p Q RS -> forallb wf_orec rs = true ->
  exists p' l, put_auths p rs cnt = Ok (p', cnt + N.of_nat (length l))
    /\ is_subseq ref_rr_beq l (map view_other rs) = true /\ RUN p' Q (RS ++ l).
Proof.
  intros Hp Hwf. rewrite put_auths_eq.
  replace (map view_other rs) with (map view_answer (map (fun r => (r, 0)) rs))
    by (rewrite map_map; reflexivity).
  apply put_answers_run; [exact Hp|apply wf_other_answers; exact Hwf].
Qed.

Lemma put_answers_total : forall rs p cnt,
  forallb wf_answer rs = true -> exists x, put_answers p rs cnt = Ok x.
Proof.
  induction rs as [|[r now] rs IH]; intros p cnt Hwf; [cbn; eauto|].
  cbn [forallb] in Hwf. apply andb_true_iff in Hwf as [Hr Hrs].
  apply wf_answer_inv in Hr as [Hr Hnow].
  destruct (put_record_total p r now Hr Hnow) as [[p1 ok] Hput].
  cbn [put_answers]. rewrite Hput. cbn [bind]. apply IH. exact Hrs.
Qed.

Lemma put_auths_total rs p cnt :
  forallb wf_orec rs = true -> exists x, put_auths p rs cnt = Ok x.
Proof.
  intros H. rewrite put_auths_eq. apply put_answers_total. apply wf_other_answers. exact H.
Qed.

Lemma put_addls_total resp id fl : forall rs done p q a ns ar,
  forallb wf_orec rs = true -> exists x, put_addls resp id fl done p q a ns ar rs = Ok x.
Proof.
  induction rs as [|r rs IH]; intros done p q a ns ar Hwf; [cbn; eauto|].
  cbn [forallb] in Hwf. apply andb_true_iff in Hwf as [Hr Hrs].
  destruct (put_record_total p r 0 Hr eq_refl) as [[p1 ok] Hput].
  cbn [put_addls]. rewrite Hput. cbn [bind].
  destruct ok; [apply IH; exact Hrs|].
  destruct resp; [eauto|].
  destruct (put_record_total empty_pkt r 0 Hr eq_refl) as [[p2 ok2] Hput2].
  rewrite Hput2. cbn [bind]. apply IH. exact Hrs.
Qed.

Lemma write_questions_total : forall qs p,
  forallb (fun q => wf_name (fst q) && (snd q <? 65536)) qs = true ->
  exists p', write_questions p qs = Ok p'.
Proof.
  induction qs as [|q qs IH]; intros p Hwf; [cbn; eauto|].
  cbn [forallb] in Hwf. apply andb_true_iff in Hwf as [Hq Hqs].
  apply andb_true_iff in Hq as [Hq _].
  cbn [write_questions]. unfold write_question.
  destruct (write_name_total (p_table p) (p_size p) (fst q) Hq) as [[nb t] Hw].
  rewrite Hw. cbn [bind]. apply IH. exact Hqs.
Qed.

Lemma wf_out_inv m :
  wf_out m = true ->
  og_flags m < 65536 /\ og_id m < 65536
  /\ forallb (fun q => wf_name (fst q) && (snd q <? 65536)) (og_questions m) = true
  /\ forallb wf_answer (og_answers m) = true
  /\ forallb wf_orec (og_authorities m) = true /\ forallb wf_orec (og_additionals m) = true.
Proof.
  unfold wf_out. intros H.
  apply andb_true_iff in H as [H H6]. apply andb_true_iff in H as [H H5].
  apply andb_true_iff in H as [H H4]. apply andb_true_iff in H as [H H3].
  apply andb_true_iff in H as [H1 H2]. apply N.ltb_lt in H1, H2. repeat split; assumption.
Qed.

Theorem encode_total : forall m, wf_out m = true -> exists pkts, to_packets m = Ok pkts.
Proof.
  intros m Hwf. apply wf_out_inv in Hwf as (_ & _ & Hq & Ha & Hn & Hr).
  unfold to_packets, to_packets_tables.
  destruct (write_questions_total _ empty_pkt Hq) as [p0 H0]. rewrite H0. cbn [bind].
  destruct (put_answers_total _ p0 0 Ha) as [[p1 a] H1]. rewrite H1. cbn [bind].
  destruct (put_auths_total _ p1 0 Hn) as [[p2 ns] H2]. rewrite H2. cbn [bind].
  destruct (put_addls_total (N.land (og_flags m) 32768 =? 32768)
              (if og_multicast m then 0 else og_id m) (og_flags m) _ [] p2
              (N.of_nat (length (og_questions m)) mod 65536) a ns 0 Hr)
    as [[[done p3] [[[q' a'] ns'] ar']] H3].
  rewrite H3. cbn [bind]. eauto.
Qed.

Lemma write_question_body p q p1 :
  write_question p q = Ok p1 -> exists bs, p_body p1 = p_body p ++ bs.
Proof.
  unfold write_question.
  destruct (write_name (p_table p) (p_size p) (fst q)) as [[nb t]| | |]; cbn [bind]; try discriminate.
  intros H. inversion H. cbn [p_body]. eauto.
Qed.

Lemma write_questions_mono : forall qs p p',
  write_questions p qs = Ok p' -> p_size p <= p_size p'.
Proof.
  induction qs as [|q qs IH]; intros p p' H.
  - cbn in H. inversion H. lia.
  - cbn [write_questions] in H.
    destruct (write_question p q) as [p1| | |] eqn:E; cbn [bind] in H; try discriminate.
    apply IH in H. apply write_question_body in E as [bs E].
    unfold p_size in *. rewrite E in H. blen_norm. lia.
Qed.

Lemma write_question_correct p q :
  p_size p <= MAX_MSG -> TINV p -> wf_name (fst q) = true -> snd q < 65536 ->
  exists p1 bs, write_question p q = Ok p1 /\ p_body p1 = p_body p ++ bs /\ TINV p1
    /\ forall h, blen h = 12 ->
         ref_question (h ++ p_body p1) (p_size p) = Some (view_q q, p_size p1).
Proof.
  unfold MAX_MSG. intros Hsz Ht Hwf Hty.
  destruct (write_name_correct (p_table p) (p_size p) (fst q) Hwf) as (nb & t & Hw & _ & _ & Hall).
  set (tail := u16_bytes (snd q) ++ u16_bytes 1).
  exists (mkPkt (p_body p ++ nb ++ tail) t), (nb ++ tail).
  unfold write_question. rewrite Hw. cbn [bind].
  split; [reflexivity|]. split; [reflexivity|].
  assert (H : forall h, blen h = 12 ->
    h ++ p_body p ++ nb ++ tail = ((h ++ p_body p) ++ nb) ++ tail
    /\ blen ((h ++ p_body p) ++ nb) = p_size p + blen nb
    /\ tbl_ok t ((h ++ p_body p) ++ nb)
    /\ ref_name (((h ++ p_body p) ++ nb) ++ tail) (p_size p)
       = Some (name_labels (fst q), p_size p + blen nb)).
  { intros h Hh.
    destruct (Hall (h ++ p_body p) (blen_hb h _ Hh) (Ht h Hh) ltac:(lia)) as [Ht' Hr].
    split; [rewrite <- !app_assoc; reflexivity|].
    split; [rewrite blen_app, (blen_hb h _ Hh); reflexivity|].
    split; [exact Ht'|]. rewrite <- app_assoc. apply Hr. }
  split.
  - intros h Hh. destruct (H h Hh) as (E & _ & Ht' & _).
    cbn [p_body p_table]. rewrite E. apply tbl_ok_stable. exact Ht'.
  - intros h Hh. destruct (H h Hh) as (E & Hd & _ & Hr). subst tail.
    cbn [p_body]. rewrite E. rewrite <- Hd in Hr.
    rewrite (ref_question_parts _ _ _ _ 1 Hty ltac:(lia) Hr). unfold view_q. rewrite Hd.
    f_equal. f_equal. unfold p_size. cbn [p_body].
    rewrite !blen_app, !blen_u16. lia.
Qed.

Lemma write_questions_run : forall qs p p' Q,
  write_questions p qs = Ok p' -> p_size p' <= MAX_MSG -> TINV p ->
  (forall h, blen h = 12 ->
     ref_questions (length Q) (h ++ p_body p) 12 = Some (Q, p_size p)) ->
  forallb (fun q => wf_name (fst q) && (snd q <? 65536)) qs = true ->
  RUN p' (Q ++ map view_q qs) [].
Proof.
  induction qs as [|q qs IH]; intros p p' Q Hrun Hsz Ht HQ Hwf.
  - injection Hrun as <-. rewrite app_nil_r. split; [split; assumption|].
    intros h Hh. exists (p_size p). split; [apply HQ; exact Hh|reflexivity].
  - cbn [forallb] in Hwf. apply andb_true_iff in Hwf as [Hq Hqs].
    apply andb_true_iff in Hq as [Hq Hty]. apply N.ltb_lt in Hty.
    cbn [write_questions] in Hrun.
    destruct (write_question p q) as [p1| | |] eqn:E; cbn [bind] in Hrun; try discriminate.
    pose proof (write_questions_mono _ _ _ Hrun) as Hm1.
    pose proof (write_question_body _ _ _ E) as [bs0 Hb0].
    assert (Hp : p_size p <= MAX_MSG).
    { unfold p_size in *. rewrite Hb0 in Hm1. blen_norm. lia. }
    destruct (write_question_correct p q Hp Ht Hq Hty) as (p1' & bs1 & E' & Hb1 & Ht1 & Hrq).
    rewrite E in E'. injection E' as <-.
    cbn [map]. replace (Q ++ view_q q :: map view_q qs) with ((Q ++ [view_q q]) ++ map view_q qs)
      by (rewrite <- app_assoc; reflexivity).
    apply (IH p1 p' _ Hrun Hsz Ht1); [|exact Hqs].
    intros h Hh. rewrite app_length, Nat.add_1_r. eapply ref_questions_snoc.
    + rewrite Hb1, app_assoc. apply ref_questions_stable. apply HQ. exact Hh.
    + apply Hrq. exact Hh.
Qed.

(* RUN with the records split into the three sections and the four header counts *)
Definition OPEN (p : pkt) (q a ns ar : N) (Q : list ref_q) (A NS AR : list ref_rr) : Prop :=
  RUN p Q (A ++ NS ++ AR)
  /\ N.to_nat q = length Q /\ N.to_nat a = length A /\ N.to_nat ns = length NS
  /\ N.to_nat ar = length AR.

Lemma blen_header id fl q a ns ar : blen (header_bytes id fl q a ns ar) = 12.
Proof. reflexivity. Qed.

Lemma header_read id fl q a ns ar body :
  id < 65536 -> fl < 65536 -> q < 65536 -> a < 65536 -> ns < 65536 -> ar < 65536 ->
  let d := header_bytes id fl q a ns ar ++ body in
  ref_u16 d 0 = Some id /\ ref_u16 d 2 = Some fl /\ ref_u16 d 4 = Some q
  /\ ref_u16 d 6 = Some a /\ ref_u16 d 8 = Some ns /\ ref_u16 d 10 = Some ar.
Proof.
  intros H1 H2 H3 H4 H5 H6 d. subst d. unfold header_bytes. rewrite <- !app_assoc.
  repeat split.
  - apply ref_u16_head. exact H1.
  - change 2 with (2 + 0). rewrite ref_u16_skip2. apply ref_u16_head. exact H2.
  - change 4 with (2 + (2 + 0)). rewrite !ref_u16_skip2. apply ref_u16_head. exact H3.
  - change 6 with (2 + (2 + (2 + 0))). rewrite !ref_u16_skip2. apply ref_u16_head. exact H4.
  - change 8 with (2 + (2 + (2 + (2 + 0)))). rewrite !ref_u16_skip2. apply ref_u16_head. exact H5.
  - change 10 with (2 + (2 + (2 + (2 + (2 + 0))))). rewrite !ref_u16_skip2.
    apply ref_u16_head. exact H6.
Qed.

Lemma finish_parse p id fl q a ns ar Q A NS AR :
  OPEN p q a ns ar Q A NS AR -> id < 65536 -> fl < 65536 ->
  ref_parse (finish p id fl q a ns ar) = Some (mkRefMsg id fl Q A NS AR)
  /\ blen (finish p id fl q a ns ar) <= MAX_MSG.
Proof.
  intros ([[Hsz Ht] Hrun] & Cq & Ca & Cn & Cr) Hid Hfl.
  set (h := header_bytes id fl q a ns ar).
  assert (Hh : blen h = 12) by reflexivity.
  destruct (Hrun h Hh) as (o1 & HQ & HR). rewrite !app_length in HR.
  apply ref_records_app in HR as (o2 & HA & HR); [|reflexivity].
  apply ref_records_app in HR as (o3 & HNS & HAR); [|reflexivity].
  rewrite <- Cq in HQ. rewrite <- Ca in HA. rewrite <- Cn in HNS. rewrite <- Cr in HAR.
  pose proof (ref_questions_next _ _ _ _ _ HQ) as [B1 _].
  pose proof (ref_records_next _ _ _ _ _ HA) as [B2 _].
  pose proof (ref_records_next _ _ _ _ _ HNS) as [B3 _].
  pose proof (ref_records_next _ _ _ _ _ HAR) as [B4 _].
  rewrite !N2Nat.id in *. unfold MAX_MSG in *.
  destruct (header_read id fl q a ns ar (p_body p)) as (R1 & R2 & R3 & R4 & R5 & R6);
    try lia.
  unfold finish. fold h in R1, R2, R3, R4, R5, R6 |- *.
  split.
  - unfold ref_parse. rewrite R1, R2, R3, R4, R5, R6, HQ, HA, HNS, HAR.
    replace (p_size p =? N.of_nat (length (h ++ p_body p))) with true; [reflexivity|].
    symmetry. apply N.eqb_eq. unfold p_size. fold (blen (h ++ p_body p)). blen_norm. lia.
  - unfold p_size in Hsz. blen_norm. lia.
Qed.

Lemma OPEN_empty : OPEN empty_pkt 0 0 0 0 [] [] [] [].
Proof. split; [exact RUN_empty|]. repeat split; reflexivity. Qed.

Lemma OPEN_put p q a ns ar Q A NS AR r :
  OPEN p q a ns ar Q A NS AR -> wf_orec r = true ->
  exists p' ok, put_record p r 0 = Ok (p', ok)
    /\ OPEN p' q a ns (if ok then ar + 1 else ar) Q A NS (if ok then AR ++ [view_other r] else AR).
Proof.
  intros (Hrun & Cq & Ca & Cn & Cr) Hwf.
  destruct (RUN_put p Q _ r 0 Hrun Hwf eq_refl) as (p' & ok & Hput & Hrun').
  exists p', ok. split; [exact Hput|]. destruct ok.
  - rewrite <- !app_assoc in Hrun'. split; [exact Hrun'|].
    rewrite app_length, Nat.add_1_r. repeat split; try assumption. lia.
  - split; [exact Hrun'|]. repeat split; assumption.
Qed.

(* chk_C02 on a list of packets, with the parsed messages exposed: the first carries the
   questions, answers and authorities; the additionals are spread over all of them *)
Definition GOOD (id fl : N) (pkts : list bytes) (Q : list ref_q) (A NS ARall : list ref_rr) : Prop :=
  exists m0 ms, parse_all pkts = Some (m0 :: ms)
    /\ forallb (fun p => blen p <=? MAX_MSG) pkts = true
    /\ forallb (fun x => fm_id x =? id) (m0 :: ms) = true
    /\ flags_ok fl (m0 :: ms) = true
    /\ fm_questions m0 = Q /\ fm_answers m0 = A /\ fm_authorities m0 = NS
    /\ Forall (fun m => fm_questions m = [] /\ fm_answers m = [] /\ fm_authorities m = []) ms
    /\ concat (map fm_additionals (m0 :: ms)) = ARall.

Lemma GOOD_single p id fl q a ns ar Q A NS AR :
  OPEN p q a ns ar Q A NS AR -> id < 65536 -> fl < 65536 ->
  GOOD id fl [finish p id fl q a ns ar] Q A NS AR.
Proof.
  intros Ho Hid Hfl. destruct (finish_parse _ id fl _ _ _ _ _ _ _ _ Ho Hid Hfl) as [Hp Hs].
  exists (mkRefMsg id fl Q A NS AR), [].
  split; [unfold parse_all; cbn [fold_right]; rewrite Hp; reflexivity|].
  split; [cbn [forallb]; rewrite andb_true_r; apply N.leb_le; exact Hs|].
  split; [cbn [forallb fm_id]; rewrite N.eqb_refl; reflexivity|].
  split; [cbn [flags_ok fm_flags]; apply N.eqb_refl|].
  repeat (split; [reflexivity|]). split; [constructor|].
  cbn [map concat fm_additionals]. apply app_nil_r.
Qed.

Lemma GOOD_cons id fl fin rest Q A NS AR AR2 :
  ref_parse fin = Some (mkRefMsg id (N.lor fl 512) Q A NS AR) -> blen fin <= MAX_MSG ->
  GOOD id fl rest [] [] [] AR2 -> GOOD id fl (fin :: rest) Q A NS (AR ++ AR2).
Proof.
  intros Hp Hs (m0 & ms & G1 & G2 & G3 & G4 & G5 & G6 & G7 & G8 & G9).
  exists (mkRefMsg id (N.lor fl 512) Q A NS AR), (m0 :: ms).
  split; [unfold parse_all in *; cbn [fold_right]; rewrite Hp, G1; reflexivity|].
  apply N.leb_le in Hs.
  split; [exact (andb_true_intro (conj Hs G2))|].
  split; [exact (andb_true_intro (conj (N.eqb_refl id) G3))|].
  split; [exact (andb_true_intro (conj (N.eqb_refl (N.lor fl 512)) G4))|].
  repeat (split; [reflexivity|]).
  split; [constructor; [auto|exact G8]|]. exact (f_equal (app AR) G9).
Qed.

Lemma put_addls_correct resp id fl :
  id < 65536 -> fl < 65536 ->
  forall rs done p q a ns ar Q A NS AR,
  OPEN p q a ns ar Q A NS AR -> forallb wf_orec rs = true ->
  exists mids p' q' a' ns' ar' ARnew,
    put_addls resp id fl done p q a ns ar rs = Ok (done ++ mids, p', (q', a', ns', ar'))
    /\ is_subseq ref_rr_beq ARnew (map view_other rs) = true
    /\ GOOD id fl (map fst mids ++ [finish p' id fl q' a' ns' ar']) Q A NS (AR ++ ARnew).
Proof.
  intros Hid Hfl.
  induction rs as [|r rs IH]; intros done p q a ns ar Q A NS AR Ho Hwf.
  - exists [], p, q, a, ns, ar, []. split; [cbn [put_addls]; rewrite app_nil_r; reflexivity|].
    split; [reflexivity|]. rewrite app_nil_r. apply GOOD_single; assumption.
  - cbn [forallb] in Hwf. apply andb_true_iff in Hwf as [Hr Hrs].
    destruct (OPEN_put _ _ _ _ _ _ _ _ _ r Ho Hr) as (p1 & ok & Hput & Ho1).
    cbn [put_addls]. rewrite Hput. cbn [bind].
    destruct ok.
    + destruct (IH done p1 q a ns (ar + 1) Q A NS _ Ho1 Hrs)
        as (mids & p' & q' & a' & ns' & ar' & ARnew & Hrun & Hsub & Hgood).
      exists mids, p', q', a', ns', ar', (view_other r :: ARnew).
      split; [exact Hrun|].
      split; [cbn [map]; apply is_subseq_cons_both; [apply ref_rr_beq_refl|exact Hsub]|].
      rewrite <- app_assoc in Hgood. exact Hgood.
    + destruct resp.
      * exists [], p1, q, a, ns, ar, []. split; [rewrite app_nil_r; reflexivity|].
        split; [reflexivity|]. rewrite app_nil_r. apply GOOD_single; assumption.
      * assert (Hfl' : N.lor fl 512 < 65536) by (apply lor_lt_65536; [exact Hfl|lia]).
        destruct (finish_parse _ id (N.lor fl 512) _ _ _ _ _ _ _ _ Ho1 Hid Hfl') as [Hfp Hfs].
        destruct (OPEN_put _ _ _ _ _ _ _ _ _ r OPEN_empty Hr) as (p2 & ok2 & Hput2 & Ho2).
        rewrite Hput2. cbn [bind].
        change (0 + 1) with 1 in Ho2. cbn [app] in Ho2.
        destruct (IH (done ++ [(finish p1 id (N.lor fl 512) q a ns ar, p_table p1)])
                     p2 0 0 0 (if ok2 then 1 else 0) [] [] [] _ Ho2 Hrs)
          as (mids & p' & q' & a' & ns' & ar' & ARnew & Hrun & Hsub & Hgood).
        rewrite Hrun, <- app_assoc.
        eexists _, p', q', a', ns', ar', ((if ok2 then [view_other r] else []) ++ ARnew).
        split; [reflexivity|].
        split.
        { cbn [map]. destruct ok2.
          - apply is_subseq_cons_both; [apply ref_rr_beq_refl|exact Hsub].
          - apply is_subseq_cons_r. exact Hsub. }
        cbn [app map fst]. apply GOOD_cons; assumption.
Qed.

Lemma concat_nil_tail (ms : list ref_msg) :
  Forall (fun m => fm_questions m = [] /\ fm_answers m = [] /\ fm_authorities m = []) ms ->
  concat (map fm_questions ms) = [] /\ concat (map fm_answers ms) = []
  /\ concat (map fm_authorities ms) = [].
Proof.
  induction 1 as [|m ms (H1 & H2 & H3) _ (I1 & I2 & I3)]; [repeat split; reflexivity|].
  cbn [map concat]. rewrite H1, H2, H3, I1, I2, I3. repeat split; reflexivity.
Qed.

Lemma sections_open m p0 :
  wf_out m = true -> write_questions empty_pkt (og_questions m) = Ok p0 -> p_size p0 <= MAX_MSG ->
  exists p1 a p2 ns lA lN,
    put_answers p0 (og_answers m) 0 = Ok (p1, a)
    /\ put_auths p1 (og_authorities m) 0 = Ok (p2, ns)
    /\ is_subseq ref_rr_beq lA (map view_answer (og_answers m)) = true
    /\ is_subseq ref_rr_beq lN (map view_other (og_authorities m)) = true
    /\ OPEN p2 (N.of_nat (length (og_questions m)) mod 65536) a ns 0
            (map view_q (og_questions m)) lA lN [].
Proof.
  intros Hwf H0 Hsz. apply wf_out_inv in Hwf as (_ & _ & Hq & Ha & Hn & _).
  assert (R0 : RUN p0 (map view_q (og_questions m)) []).
  { apply (write_questions_run _ _ _ [] H0 Hsz TINV_empty); [|exact Hq]. reflexivity. }
  destruct (put_answers_run (og_answers m) p0 0 _ _ R0 Ha) as (p1 & lA & H1 & HsA & R1).
  destruct (put_auths_run (og_authorities m) p1 0 _ _ R1 Hn) as (p2 & lN & H2 & HsN & R2).
  exists p1, (0 + N.of_nat (length lA)), p2, (0 + N.of_nat (length lN)), lA, lN.
  split; [exact H1|]. split; [exact H2|]. split; [exact HsA|]. split; [exact HsN|].
  cbn [app] in R2. split; [rewrite app_nil_r; exact R2|].
  rewrite !N.add_0_l, !Nat2N.id, map_length. repeat split.
  (* the question count fits 16 bits: each question takes 5 bytes of a packet within MAX_MSG *)
  destruct R0 as [_ R0]. destruct (R0 (repeat 0 12) eq_refl) as (o1 & HQ & HR).
  injection HR as ->. apply ref_questions_next in HQ as [B _]. rewrite map_length in B.
  unfold MAX_MSG in Hsz. rewrite N.mod_small by lia. apply Nat2N.id.
Qed.

Theorem encode_roundtrip : forall m pkts,
  wf_out m = true -> fits m = true -> to_packets m = Ok pkts -> chk_C02 m pkts = true.
Proof.
  intros m pkts Hwf Hfits Hrun.
  unfold fits in Hfits.
  destruct (write_questions empty_pkt (og_questions m)) as [p0| | |] eqn:H0; try discriminate.
  apply N.leb_le in Hfits.
  destruct (sections_open m p0 Hwf H0 Hfits)
    as (p1 & a & p2 & ns & lA & lN & H1 & H2 & HsA & HsN & Hopen).
  apply wf_out_inv in Hwf as (Hfl & Hid0 & _ & _ & _ & Hr).
  set (id := if og_multicast m then 0 else og_id m) in *.
  assert (Hid : id < 65536) by (subst id; destruct (og_multicast m); [lia|exact Hid0]).
  destruct (put_addls_correct (N.land (og_flags m) 32768 =? 32768) id (og_flags m) Hid Hfl
              (og_additionals m) [] p2 _ a ns 0 _ _ _ _ Hopen Hr)
    as (mids & p' & q' & a' & ns' & ar' & ARnew & H3 & HsR & Hgood).
  unfold to_packets, to_packets_tables in Hrun. fold id in Hrun.
  rewrite H0 in Hrun. cbn [bind] in Hrun. rewrite H1 in Hrun. cbn [bind] in Hrun.
  rewrite H2 in Hrun. cbn [bind] in Hrun. rewrite H3 in Hrun. cbn [bind] in Hrun.
  inversion Hrun as [Hpk]. clear Hrun. rewrite map_app. cbn [map fst].
  destruct Hgood as (m0 & ms & G1 & G2 & G3 & G4 & G5 & G6 & G7 & G8 & G9).
  destruct (concat_nil_tail ms G8) as (C1 & C2 & C3).
  unfold chk_C02. fold id. rewrite G2, G1, G3, G4, G9.
  cbn [map concat andb app]. rewrite C1, C2, C3, G5, G6, G7, !app_nil_r.
  rewrite (list_beq_refl ref_q_beq ref_q_beq_refl), HsA, HsN, HsR. reflexivity.
Qed.

Print Assumptions encode_total.
Print Assumptions encode_roundtrip.
