(* Proofs about interface selection, subnets and per-interface address filtering (C18). *)
From Coq Require Import List NArith Bool Lia.
From Mdns Require Import Intf ParamsResponder ParamsResponderPinned ListFacts.
Import ListNotations.
Open Scope N_scope.

Lemma mark_one_map s tbl (f : iface -> bool) :
  mark_one s tbl (map f tbl) = map (fun i => if kind_matches (fst s) i then snd s else f i) tbl.
Proof. induction tbl as [|i tbl IH]; simpl; [reflexivity|]. rewrite IH. reflexivity. Qed.

Lemma fold_marks sels : forall tbl (f : iface -> bool),
  fold_left (fun marks s => mark_one s tbl marks) sels (map f tbl)
  = map (fun i => match find (fun s : selection => kind_matches (fst s) i) (rev sels) with
                  | Some s => snd s
                  | None => f i
                  end) tbl.
Proof.
  induction sels as [|s sels IH]; intros tbl f; simpl.
  - reflexivity.
  - rewrite mark_one_map, IH. apply map_ext. intros i. rewrite find_app. simpl.
    destruct (find _ (rev sels)); [reflexivity|]. destruct (kind_matches (fst s) i); reflexivity.
Qed.

Lemma repeat_map {A B} (b : B) (l : list A) : repeat b (length l) = map (fun _ => b) l.
Proof. induction l; simpl; congruence. Qed.

Lemma selection_marks_spec d sels tbl :
  selection_marks d sels tbl
  = map (fun i => match find (fun s : selection => kind_matches (fst s) i) (rev sels) with
                  | Some s => snd s | None => d end) tbl.
Proof. unfold selection_marks. rewrite repeat_map. apply fold_marks. Qed.

Lemma pick_marked_filter {A} (f : A -> bool) l : pick_marked l (map f l) = filter f l.
Proof. induction l as [|x l IH]; simpl; [reflexivity|]. rewrite IH. reflexivity. Qed.

Theorem apply_marks_last_match sels tbl :
  selection_marks apply_selection_default sels tbl = map (last_match sels) tbl.
Proof. rewrite selection_marks_spec, apply_selection_default_pinned. reflexivity. Qed.

Theorem resolve_other k tbl : (forall a, k <> KAddr a) -> resolve_addr_to_index k tbl = k.
Proof. intros H. destruct k; try reflexivity. exfalso. apply (H a). reflexivity. Qed.

Definition ip_num (a : ip) : N := match a with V4 n => n | V6 n => n end.
Definition same_family (a b : ip) : Prop := is_v4 a = is_v4 b.

Lemma land_eq_iff a b m :
  N.land a m = N.land b m <-> (forall n, N.testbit m n = true -> N.testbit a n = N.testbit b n).
Proof.
  split.
  - intros H n Hm. apply (f_equal (fun x => N.testbit x n)) in H.
    rewrite !N.land_spec, Hm, !andb_true_r in H. exact H.
  - intros H. apply N.bits_inj. intros n. rewrite !N.land_spec.
    destruct (N.testbit m n) eqn:Hm; [rewrite (H n Hm); reflexivity|rewrite !andb_false_r; reflexivity].
Qed.

(* for every address and every mask (any bit pattern, 32 or 128 bits - the statement does not
   depend on the width): the address is on the interface's network iff it has the family of
   the interface address and agrees with it on every bit the mask selects *)
Theorem valid_ip_on_intf_spec a x :
  valid_ip_on_intf a x = true <->
  same_family a (ia_ip x) /\
  (forall n, N.testbit (ia_mask x) n = true -> N.testbit (ip_num a) n = N.testbit (ip_num (ia_ip x)) n).
Proof.
  unfold valid_ip_on_intf, same_family.
  destruct a as [a|a], (ia_ip x) as [i|i]; simpl;
    rewrite ?subnet_test_v4_pinned, ?subnet_test_v6_pinned, ?N.eqb_eq, ?land_eq_iff;
    try (split; [intros H; split; [reflexivity|exact H]|intros [_ H]; exact H]);
    split; try discriminate; intros [H _]; discriminate.
Qed.

Lemma testbit_prefix_mask w p n : p <= w ->
  N.testbit (N.shiftl (N.ones p) (w - p)) n = (w - p <=? n) && (n <? w).
Proof.
  intros Hp. destruct (N.leb_spec (w - p) n) as [H|H].
  - rewrite N.shiftl_spec_high' by exact H. simpl.
    destruct (N.ltb_spec n w) as [H2|H2].
    + apply N.ones_spec_low. lia.
    + apply N.ones_spec_high. lia.
  - rewrite N.shiftl_spec_low by exact H. reflexivity.
Qed.

Lemma land_prefix_eq w p a i : p <= w -> a < 2 ^ w -> i < 2 ^ w ->
  (N.land a (N.shiftl (N.ones p) (w - p)) = N.land i (N.shiftl (N.ones p) (w - p))
   <-> N.shiftr a (w - p) = N.shiftr i (w - p)).
Proof.
  intros Hp Ha Hi. rewrite land_eq_iff. split.
  - intros H. apply N.bits_inj. intros n. rewrite !N.shiftr_spec'.
    destruct (N.ltb_spec (n + (w - p)) w) as [Hn|Hn].
    + apply H. rewrite testbit_prefix_mask by exact Hp.
      apply andb_true_iff. split; [apply N.leb_le; lia|apply N.ltb_lt; exact Hn].
    + assert (Hlog : forall z, z < 2 ^ w -> z = 0 \/ N.log2 z < w).
      { intros z Hz. destruct (N.eq_dec z 0) as [->|Hnz]; [left; reflexivity|right].
        apply N.log2_lt_pow2; [lia|exact Hz]. }
      assert (Hbit : forall z, z < 2 ^ w -> N.testbit z (n + (w - p)) = false).
      { intros z Hz. destruct (Hlog z Hz) as [->|Hl]; [apply N.bits_0|].
        apply N.bits_above_log2. lia. }
      rewrite (Hbit a Ha), (Hbit i Hi). reflexivity.
  - intros H n Hm. rewrite testbit_prefix_mask in Hm by exact Hp.
    apply andb_true_iff in Hm as [H1 H2]. apply N.leb_le in H1.
    apply (f_equal (fun x => N.testbit x (n - (w - p)))) in H.
    rewrite !N.shiftr_spec' in H. replace (n - (w - p) + (w - p)) with n in H by lia. exact H.
Qed.

(* a /p network on w-bit addresses: the subnet test of the code compares the first p bits *)
Lemma land_prefix_eqb w p a i : p <= w -> a < 2 ^ w -> i < 2 ^ w ->
  (N.land a (N.shiftl (N.ones p) (w - p)) =? N.land i (N.shiftl (N.ones p) (w - p))) = true
  <-> N.shiftr a (w - p) = N.shiftr i (w - p).
Proof. intros Hp Ha Hi. rewrite N.eqb_eq. apply land_prefix_eq; assumption. Qed.

(* what get_addrs_on_my_intf_v4 / _v6 return *)
Theorem addrs_on_intf_v4_spec addrs intf a :
  In a (addrs_on_intf_v4 addrs intf) <->
  In a addrs /\ is_v4 a = true /\ exists x, In x (mi_addrs intf) /\ valid_ip_on_intf a x = true.
Proof.
  unfold addrs_on_intf_v4, addr_on_intf. rewrite filter_In, andb_true_iff, existsb_exists. tauto.
Qed.

Theorem addrs_on_intf_v6_spec addrs intf a :
  In a (addrs_on_intf_v6 addrs intf) <->
  In a addrs /\ is_v4 a = false /\ exists x, In x (mi_addrs intf) /\ valid_ip_on_intf a x = true.
Proof.
  unfold addrs_on_intf_v6, addr_on_intf, is_v6. rewrite filter_In, andb_true_iff, existsb_exists, negb_true_iff.
  tauto.
Qed.
