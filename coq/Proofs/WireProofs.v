(* Proofs about the wire decoder model (Model/Wire.v).
   The results hold for EVERY byte list (no well-formedness hypothesis); a reader that
   slices at its offset is specified for offsets inside the datagram, which is what its
   callers supply.

   Each reader gets one specification `spec r F P`: the result never panics, runs out of
   fuel only if F, and satisfies P when it is Ok.  Safety and the facts about a successful
   read are then projections (spec_safe, spec_ok), and readers compose through spec_bind2.
   For the loops F says that the fuel does not exceed the bytes left, so the same induction
   serves every fuel. *)
From Coq Require Import List NArith Bool Lia PeanoNat.
From Mdns Require Import Res Bytes Utf8 Rec Wire TxtProofs.
Import ListNotations.
Open Scope N_scope.

Definition spec {A} (r : res A) (F : Prop) (P : A -> Prop) : Prop :=
  match r with Ok a => P a | Err => True | Panic => False | OutOfFuel => F end.

Lemma spec_safe {A} (r : res A) F P : spec r F P -> ~ F -> safe r.
Proof. destruct r; cbn [spec]; intros H HF; try contradiction; split; discriminate. Qed.

Lemma spec_ok {A} (r : res A) F P a : spec r F P -> r = Ok a -> P a.
Proof. intros H ->. exact H. Qed.

Lemma spec_mono {A} (r : res A) (F1 F : Prop) (P Q : A -> Prop) :
  spec r F1 P -> (F1 -> F) -> (forall a, P a -> Q a) -> spec r F Q.
Proof. destruct r; cbn [spec]; auto. Qed.

Lemma spec_bind2 {A B C} (r : res (A * B)) (f : A -> B -> res C) (F1 F : Prop) P Q :
  spec r F1 P -> (forall a b, P (a, b) -> spec (f a b) F Q) -> (F1 -> F) ->
  spec (let? (a, b) := r in f a b) F Q.
Proof. destruct r as [[a b]| | |]; cbn [spec bind]; auto. Qed.

(* a run starting at `off` over `rest` with accumulator `acc` that stops (zero byte or
   pointer) with accumulated name `name` and next offset `next`; a label of l bytes takes
   l + 1 bytes of `rest` and adds l + 1 bytes (the label and a dot) to the name *)
Definition run_ok (rest : bytes) (off : N) (acc name : bytes) (next : N) : Prop :=
  off < next /\ next <= off + N.of_nat (length rest) /\
  (length name + 1 <= length acc + length rest)%nat.

Lemma rn_labels_spec fuel : forall rest off acc,
  (length rest < fuel)%nat ->
  match rn_labels fuel rest off acc with
  | LEnd name next => run_ok rest off acc name next
  | LPtr name next _ => run_ok rest off acc name next
  | LErr => True
  | LFuel => False
  end.
Proof.
  induction fuel as [|f IH]; intros rest off acc Hf; [lia|].
  destruct rest as [|l tl]; cbn [rn_labels]; [exact I|].
  cbn [length] in Hf.
  destruct (l =? 0) eqn:E0.
  { unfold run_ok. cbn [length]. lia. }
  destruct (N.land l 192 =? 0) eqn:E1.
  - destruct (Nat.ltb (length tl) (N.to_nat l)) eqn:E2; [exact I|].
    apply Nat.ltb_ge in E2.
    destruct (utf8_valid (firstn (N.to_nat l) tl)); [|exact I].
    assert (Hsk : length (skipn (N.to_nat l) tl) = (length tl - N.to_nat l)%nat)
      by apply skipn_length.
    assert (Hfi : length (firstn (N.to_nat l) tl) = N.to_nat l)
      by (apply firstn_length_le; exact E2).
    assert (Hacc : length (acc ++ firstn (N.to_nat l) tl ++ [46])
                   = (length acc + N.to_nat l + 1)%nat).
    { rewrite !app_length, Hfi. cbn [length]. lia. }
    assert (Hlt : (length (skipn (N.to_nat l) tl) < f)%nat) by lia.
    generalize (IH _ (off + 1 + l) (acc ++ firstn (N.to_nat l) tl ++ [46]) Hlt).
    destruct (rn_labels f (skipn (N.to_nat l) tl) (off + 1 + l)
                (acc ++ firstn (N.to_nat l) tl ++ [46])) as [name next|name next target| |];
      unfold run_ok; cbn [length]; try tauto; rewrite Hsk, Hacc; lia.
  - destruct (N.land l 192 =? 192); [|exact I].
    destruct tl as [|b1 tl']; [exact I|].
    unfold run_ok. cbn [length]. lia.
Qed.

(* Every jump goes strictly below `limit`, so the loop can run out of jumps only if it was
   given no more than `limit` of them; read_name starts with S (length d). *)
Lemma read_name_from_spec jumps : forall d off limit acc ret,
  spec (read_name_from jumps d off limit acc ret) (jumps <= N.to_nat limit)%nat
    (fun '(nm, o) =>
       match ret with Some r => o = r | None => off < o /\ o <= len d end /\
       (length nm <= length acc + jumps * length d)%nat).
Proof.
  induction jumps as [|j IH]; intros d off limit acc ret; cbn [read_name_from spec]; [lia|].
  pose proof (rn_labels_spec (S (length (skipn (N.to_nat off) d)))
                (skipn (N.to_nat off) d) off acc (Nat.lt_succ_diag_r _)) as Hs.
  pose proof (skipn_length (N.to_nat off) d) as Hsk.
  destruct (rn_labels (S (length (skipn (N.to_nat off) d))) (skipn (N.to_nat off) d) off acc)
    as [name next|name next target| |]; cbn [spec]; [| |exact I|contradiction].
  - destruct Hs as (Hs1 & Hs2 & Hs3). split; [|lia].
    destruct ret as [r|]; [reflexivity|]. unfold len. lia.
  - destruct (limit <=? target) eqn:Elt; [exact I|]. apply N.leb_gt in Elt.
    destruct Hs as (Hs1 & Hs2 & Hs3).
    eapply spec_mono; [apply IH|lia|]. intros [nm o] [Ho Hl]. split; [|lia].
    destruct ret as [r|]; [exact Ho|]. subst o. unfold len. lia.
Qed.

(* The explicit bound on decoded names, a polynomial in the datagram length alone. *)
Definition name_bound (d : bytes) : nat := 2 * length d * S (length d).

Lemma read_name_spec d off :
  spec (read_name d off) False
    (fun '(nm, o) => (off < o /\ o <= len d) /\ (length nm <= name_bound d)%nat
                     /\ name_fits nm = true).
Proof.
  unfold read_name, read_name_raw.
  eapply spec_bind2 with (F1 := False)
    (P := fun '(nm, o) => (off < o /\ o <= len d) /\ (length nm <= name_bound d)%nat);
    [|intros name o [Ho Hl]|tauto].
  - destruct (Nat.lt_ge_cases (N.to_nat off) (S (length d))) as [Hlt|Hge].
    + eapply spec_mono; [apply read_name_from_spec|lia|]. intros [nm o] [Ho Hl].
      cbn [length] in Hl. unfold name_bound. split; [exact Ho|nia].
    + (* beyond the end of the datagram the first run finds no byte: Err *)
      cbn [read_name_from]. rewrite skipn_all2 by lia. exact I.
  - destruct (name_fits name) eqn:Ef; [|exact I]. cbn [spec]. auto.
Qed.

Lemma read_name_safe : forall d off, safe (read_name d off).
Proof. intros d off. apply (spec_safe _ _ _ (read_name_spec d off)). tauto. Qed.

Lemma read_name_offset : forall d off nm o,
  read_name d off = Ok (nm, o) -> off < o /\ o <= len d.
Proof. intros d off nm o H. apply (spec_ok _ _ _ _ (read_name_spec d off) H). Qed.

Lemma read_name_fits : forall d off nm o,
  read_name d off = Ok (nm, o) -> name_fits nm = true.
Proof. intros d off nm o H. apply (spec_ok _ _ _ _ (read_name_spec d off) H). Qed.

Lemma slice_total d off n :
  off + n <= len d -> exists s, slice d off n = Ok s /\ length s = N.to_nat n.
Proof.
  intros H. unfold slice. destruct (off + n <=? len d) eqn:E; [|apply N.leb_gt in E; lia].
  eexists; split; [reflexivity|]. apply firstn_length_le. rewrite skipn_length.
  unfold len in H. lia.
Qed.

Lemma slice_sublist d off n s : slice d off n = Ok s -> sublist_of s d.
Proof.
  unfold slice. destruct (off + n <=? len d); [|discriminate].
  intros H. injection H as Hs. subst s.
  exists (firstn (N.to_nat off) d), (skipn (N.to_nat n) (skipn (N.to_nat off) d)).
  rewrite firstn_skipn. symmetry. apply firstn_skipn.
Qed.

Lemma byte_at_total d off : off < len d -> exists b, byte_at d off = Ok b.
Proof.
  intros H. unfold byte_at. destruct (nth_error d (N.to_nat off)) as [b|] eqn:E; [eauto|].
  apply nth_error_None in E. unfold len in H. lia.
Qed.

Lemma u16_at_total d off : off + 2 <= len d -> exists v, u16_at d off = Ok v.
Proof.
  intros H. unfold u16_at. destruct (slice_total d off 2 H) as [s [Hs Hl]].
  rewrite Hs. cbn [bind]. change (N.to_nat 2) with 2%nat in Hl.
  destruct s as [|b0 [|b1 [|b2 s]]]; try discriminate Hl.
  eexists; reflexivity.
Qed.

Lemma u32_at_total d off : off + 4 <= len d -> exists v, u32_at d off = Ok v.
Proof.
  intros H. unfold u32_at. destruct (slice_total d off 4 H) as [s [Hs Hl]].
  rewrite Hs. cbn [bind]. change (N.to_nat 4) with 4%nat in Hl.
  destruct s as [|b0 [|b1 [|b2 [|b3 [|b4 s]]]]]; try discriminate Hl.
  eexists; reflexivity.
Qed.

(* The test that opens read_u16 and the fixed part of a question or record:
   `&data[off..]` panics beyond the end, fewer than `n` bytes left is an error. *)
Lemma short_spec {A} d off n (r : res A) F P :
  off <= len d -> (off + n <= len d -> spec r F P) ->
  spec (if len d - off <? n then (if off <=? len d then Err else Panic) else r) F P.
Proof.
  intros Hoff Hr. destruct (len d - off <? n) eqn:E.
  - apply N.leb_le in Hoff. rewrite Hoff. exact I.
  - apply N.ltb_ge in E. apply Hr. lia.
Qed.

Lemma read_u16_spec d off :
  off <= len d -> spec (read_u16 d off) False (fun '(v, o) => o = off + 2 /\ o <= len d).
Proof.
  intros H. apply short_spec; [exact H|]. intros H2.
  destruct (u16_at_total d off H2) as [v Hv]. rewrite Hv. cbn [bind spec]. auto.
Qed.

Lemma read_vec_spec d off n : spec (read_vec d off n) False (fun '(s, o) => sublist_of s d).
Proof.
  unfold read_vec. destruct (len d <? off + n) eqn:E; [exact I|].
  apply N.ltb_ge in E. destruct (slice_total d off n E) as [s [Hs _]].
  rewrite Hs. cbn [bind spec]. eapply slice_sublist. exact Hs.
Qed.

Lemma read_string_spec d off n : spec (read_string d off n) False (fun _ => True).
Proof.
  unfold read_string. destruct (len d <? off + n) eqn:E; [exact I|].
  apply N.ltb_ge in E. destruct (slice_total d off n E) as [s [Hs _]].
  rewrite Hs. cbn [bind]. destruct (utf8_valid s); exact I.
Qed.

Lemma read_char_string_spec d off : spec (read_char_string d off) False (fun _ => True).
Proof.
  unfold read_char_string. destruct (len d <=? off) eqn:E; [exact I|].
  apply N.leb_gt in E. destruct (byte_at_total d off E) as [l Hl].
  rewrite Hl. cbn [bind]. apply read_string_spec.
Qed.

Lemma read_type_bitmap_spec d off : spec (read_type_bitmap d off) False (fun _ => True).
Proof.
  unfold read_type_bitmap. destruct (len d <? off + 2) eqn:E; [exact I|].
  apply N.ltb_ge in E.
  destruct (byte_at_total d off) as [b Hb]; [lia|]. rewrite Hb. cbn [bind].
  destruct (negb (b =? 0)); [exact I|].
  destruct (byte_at_total d (off + 1)) as [bl Hbl]; [lia|]. rewrite Hbl. cbn [bind].
  destruct (negb ((1 <=? bl) && (bl <=? 32))); [exact I|].
  cbv zeta. destruct (len d <? off + 2 + bl) eqn:E2; [exact I|].
  apply N.ltb_ge in E2. destruct (slice_total d (off + 2) bl E2) as [s [Hs _]].
  rewrite Hs. exact I.
Qed.

Definition data_inside (d : bytes) (x : rdata) : Prop :=
  match x with RTxt t | RAddr t => sublist_of t d | _ => True end.

Lemma read_rdata_spec d ty off rdlen :
  off <= len d ->
  spec (read_rdata d ty off rdlen) False
    (fun '(x, o) => match x with Some x => data_inside d x | None => True end).
Proof.
  intros H. unfold read_rdata.
  destruct ((ty =? TY_CNAME) || (ty =? TY_PTR)).
  { eapply spec_bind2; [apply read_name_spec|intros; exact I|tauto]. }
  destruct (ty =? TY_TXT).
  { eapply spec_bind2; [apply read_vec_spec|intros t o Ht; exact Ht|tauto]. }
  destruct (ty =? TY_SRV).
  { eapply spec_bind2; [apply read_u16_spec; exact H|intros p o1 [_ Hl1]|tauto].
    eapply spec_bind2; [apply read_u16_spec; exact Hl1|intros w o2 [_ Hl2]|tauto].
    eapply spec_bind2; [apply read_u16_spec; exact Hl2|intros po o3 _|tauto].
    eapply spec_bind2; [apply read_name_spec|intros; exact I|tauto]. }
  destruct (ty =? TY_HINFO).
  { eapply spec_bind2; [apply read_char_string_spec|intros cpu o1 _|tauto].
    eapply spec_bind2; [apply read_char_string_spec|intros; exact I|tauto]. }
  destruct (ty =? TY_A).
  { destruct (len d <? off + 4) eqn:E; [exact I|]. apply N.ltb_ge in E.
    destruct (slice_total d off 4 E) as [s [Hs _]]. rewrite Hs. eapply slice_sublist. exact Hs. }
  destruct (ty =? TY_AAAA).
  { destruct (len d <? off + 16) eqn:E; [exact I|]. apply N.ltb_ge in E.
    destruct (slice_total d off 16 E) as [s [Hs _]]. rewrite Hs. eapply slice_sublist. exact Hs. }
  destruct (ty =? TY_NSEC).
  { eapply spec_bind2; [apply read_name_spec|intros nx o1 _|tauto].
    eapply spec_bind2; [apply read_type_bitmap_spec|intros; exact I|tauto]. }
  exact I.
Qed.

Lemma read_one_rr_spec d resp off :
  spec (read_one_rr d resp off) False
    (fun '(ro, o) =>
       (off + 11 <= o /\ o <= len d) /\
       match ro with
       | Some r => (length (r_name r) <= name_bound d)%nat /\ data_inside d (r_data r)
       | None => True
       end).
Proof.
  unfold read_one_rr.
  eapply spec_bind2; [apply read_name_spec|intros name off1 ((Hlt & Hle) & Hlen & _)|tauto].
  apply short_spec; [exact Hle|]. intros H10.
  destruct (u16_at_total d off1) as [ty Hty]; [lia|]. rewrite Hty. cbn [bind].
  destruct (u16_at_total d (off1 + 2)) as [cl Hcl]; [lia|]. rewrite Hcl. cbn [bind].
  destruct (u32_at_total d (off1 + 4)) as [ttl0 Httl]; [lia|]. rewrite Httl. cbn [bind].
  destruct (u16_at_total d (off1 + 8)) as [rdlen Hrd]; [lia|]. rewrite Hrd. cbn [bind].
  cbv zeta.
  destruct (len d <? off1 + 10 + rdlen) eqn:En2; [exact I|]. apply N.ltb_ge in En2.
  eapply spec_bind2 with (F1 := False)
    (P := fun '(x, o) => match x with Some x => data_inside d x | None => True end);
    [|intros rd off3 Hd|tauto].
  { destruct (known_type ty); [apply read_rdata_spec; lia|exact I]. }
  destruct (off3 =? off1 + 10 + rdlen); [|exact I]. cbn [spec]. split; [lia|].
  destruct rd as [x|]; [|exact I]. cbn [r_name r_data]. split; assumption.
Qed.

Lemma read_one_rr_offset : forall d resp off r o,
  read_one_rr d resp off = Ok (r, o) -> off + 11 <= o /\ o <= len d.
Proof. intros d resp off r o H. apply (spec_ok _ _ _ _ (read_one_rr_spec d resp off) H). Qed.

Definition names_bounded {A} (name : A -> bytes) (d : bytes) (l : list A) : Prop :=
  Forall (fun x => (length (name x) <= name_bound d)%nat) l.

(* every record consumes at least 11 bytes, so fuel beyond the bytes left is never used *)
Lemma read_rrs_spec fuel : forall count d resp off,
  spec (read_rrs fuel count d resp off) (N.of_nat fuel <= len d - off)
    (fun '(rs, o) =>
       (off + 11 * N.of_nat (length rs) <= o /\ N.of_nat (length rs) <= count /\
        (off <= len d -> o <= len d)) /\ names_bounded r_name d rs).
Proof.
  induction fuel as [|f IH]; intros count d resp off; cbn [read_rrs];
    destruct (count =? 0) eqn:Ec.
  1, 3: cbn [spec length]; split; [lia|constructor].
  { cbn [spec]. lia. }
  apply N.eqb_neq in Ec.
  eapply spec_bind2; [apply read_one_rr_spec|intros r off1 ((H11 & Hle) & Hr)|tauto].
  eapply spec_bind2; [apply IH|intros rs off2 ((B1 & B2 & B3) & Hn)|lia].
  cbn [spec]. destruct r as [x|]; cbn [length]; (split; [lia|]); [|exact Hn].
  constructor; [apply Hr|exact Hn].
Qed.

Lemma read_rrs_safe : forall d resp count off fuel,
  (length d < fuel)%nat -> off <= len d -> safe (read_rrs fuel count d resp off).
Proof.
  intros d resp count off fuel Hf _. apply (spec_safe _ _ _ (read_rrs_spec fuel count d resp off)).
  unfold len. lia.
Qed.

Lemma read_rrs_end_inside fuel count d resp off rs o :
  read_rrs fuel count d resp off = Ok (rs, o) -> off <= len d -> o <= len d.
Proof. intros H. apply (spec_ok _ _ _ _ (read_rrs_spec fuel count d resp off) H). Qed.

Lemma read_questions_spec fuel : forall count d off,
  spec (read_questions fuel count d off) (N.of_nat fuel <= len d - off)
    (fun '(qs, o) =>
       (off + 5 * N.of_nat (length qs) <= o /\ N.of_nat (length qs) <= count /\
        (off <= len d -> o <= len d)) /\ names_bounded q_name d qs).
Proof.
  induction fuel as [|f IH]; intros count d off; cbn [read_questions];
    destruct (count =? 0) eqn:Ec.
  1, 3: cbn [spec length]; split; [lia|constructor].
  { cbn [spec]. lia. }
  apply N.eqb_neq in Ec.
  eapply spec_bind2; [apply read_name_spec|intros name off1 ((Hlt & Hle) & Hlen & _)|tauto].
  apply short_spec; [exact Hle|]. intros H4.
  destruct (u16_at_total d off1) as [ty Hty]; [lia|]. rewrite Hty. cbn [bind].
  destruct (u16_at_total d (off1 + 2)) as [cl Hcl]; [lia|]. rewrite Hcl. cbn [bind].
  destruct (known_type ty); [|exact I].
  eapply spec_bind2; [apply IH|intros qs off2 ((B1 & B2 & B3) & Hn)|lia].
  cbn [spec length]. split; [lia|]. constructor; [exact Hlen|exact Hn].
Qed.

Lemma read_questions_safe : forall d count off fuel,
  (length d < fuel)%nat -> off <= len d -> safe (read_questions fuel count d off).
Proof.
  intros d count off fuel Hf _. apply (spec_safe _ _ _ (read_questions_spec fuel count d off)).
  unfold len. lia.
Qed.

Lemma read_questions_end_inside fuel count d off qs o :
  read_questions fuel count d off = Ok (qs, o) -> off <= len d -> o <= len d.
Proof. intros H. apply (spec_ok _ _ _ _ (read_questions_spec fuel count d off) H). Qed.

Lemma fuel_enough d off : len d - off < N.of_nat (S (length d)).
Proof. unfold len. lia. Qed.

Lemma decode_spec d :
  spec (decode d) False
    (fun m =>
       (12 <= len d /\
        5 * N.of_nat (length (m_questions m)) +
        11 * N.of_nat (length (m_answers m) + length (m_authorities m) + length (m_additionals m))
          <= len d - 12) /\
       names_bounded q_name d (m_questions m) /\ names_bounded r_name d (m_answers m) /\
       names_bounded r_name d (m_authorities m) /\ names_bounded r_name d (m_additionals m)).
Proof.
  destruct (N.lt_ge_cases (len d) 12) as [E|E].
  { unfold decode. apply N.ltb_lt in E. rewrite E. exact I. }
  unfold decode. apply N.ltb_ge in E as E'. rewrite E'.
  destruct (u16_at_total d 0) as [id Hid]; [lia|]. rewrite Hid.
  destruct (u16_at_total d 2) as [flags Hfl]; [lia|]. rewrite Hfl.
  destruct (u16_at_total d 4) as [nq Hnq]; [lia|]. rewrite Hnq.
  destruct (u16_at_total d 6) as [nan Hnan]; [lia|]. rewrite Hnan.
  destruct (u16_at_total d 8) as [nns Hnns]; [lia|]. rewrite Hnns.
  destruct (u16_at_total d 10) as [nar Hnar]; [lia|]. rewrite Hnar.
  cbn [bind]. cbv zeta.
  pose proof (fuel_enough d) as Hfuel.
  eapply spec_bind2; [apply read_questions_spec|intros qs o1 ((Q1 & _ & Q3) & Nq)|].
  2:{ specialize (Hfuel 12). lia. }
  eapply spec_bind2; [apply read_rrs_spec|intros an o2 ((A1 & _ & A3) & Na)|].
  2:{ specialize (Hfuel o1). lia. }
  eapply spec_bind2; [apply read_rrs_spec|intros ns o3 ((N1 & _ & N3) & Nn)|].
  2:{ specialize (Hfuel o2). lia. }
  eapply spec_bind2; [apply read_rrs_spec|intros ar o4 ((R1 & _ & R3) & Nr)|].
  2:{ specialize (Hfuel o3). lia. }
  cbn [spec m_questions m_answers m_authorities m_additionals].
  split; [split; [exact E|lia]|]. auto.
Qed.

Theorem decode_total : forall d, safe (decode d).
Proof. intros d. apply (spec_safe _ _ _ (decode_spec d)). tauto. Qed.

Theorem decode_bounded : forall d m,
  decode d = Ok m ->
  12 <= len d /\
  5 * N.of_nat (length (m_questions m)) +
  11 * N.of_nat (length (m_answers m) + length (m_authorities m) + length (m_additionals m))
    <= len d - 12.
Proof. intros d m H. apply (spec_ok _ _ _ _ (decode_spec d) H). Qed.

Theorem decode_names_bounded : forall d m,
  decode d = Ok m ->
  Forall (fun q => (length (q_name q) <= name_bound d)%nat) (m_questions m) /\
  Forall (fun r => (length (r_name r) <= name_bound d)%nat) (m_answers m) /\
  Forall (fun r => (length (r_name r) <= name_bound d)%nat) (m_authorities m) /\
  Forall (fun r => (length (r_name r) <= name_bound d)%nat) (m_additionals m).
Proof. intros d m H. apply (spec_ok _ _ _ _ (decode_spec d) H). Qed.

Print Assumptions decode_total.
Print Assumptions decode_bounded.
Print Assumptions decode_names_bounded.
