(* Invariants of the daemon model over ALL histories (any interface table, datagrams - queries and
   responses -, calls incl. enable/disable_interface, jitter values, iteration times):
   init satisfies them, every iteration preserves them, induction over the list of iterations
   (run_state, run_state_keeps).  In order: the retransmission queue (what each step adds, no overdue
   entry, queued repeats are goodbyes); the goodbye and its one repeat; every first announcement queues
   its second; probing names pairwise different in every registry; no overdue probe step; due_work
   covers every pending probe; what forget_service leaves. *)
From Coq Require Import List NArith Bool Lia.
From Mdns Require Import Bytes ParamsRegistry Registry RegistryDaemon RegistrySpec RegistryParamsPinned RegistryProofs
     RegistryDaemonProofs RegistryStepProofs.
Import ListNotations.
Open Scope N_scope.

(* the state after a history *)
Fixpoint run_state (st : dstate) (its : list iter) : dstate :=
  match its with
  | [] => st
  | it :: t => run_state (fst (fst (fst (iterate st it)))) t
  end.

Lemma run_state_app a : forall st b, run_state st (a ++ b) = run_state (run_state st a) b.
Proof. induction a as [|it a IH]; intros st b; [reflexivity|]. cbn [app run_state]. apply IH. Qed.

Lemma run_state_keeps (I : dstate -> Prop) :
  (forall st it, I st -> I (fst (fst (fst (iterate st it))))) -> forall its st, I st -> I (run_state st its).
Proof. intros S. induction its as [|it t IH]; intros st H; [exact H|]. cbn [run_state]. apply IH, S, H. Qed.

Definition is_rr_entry (e : N * cmd) : Prop := match snd e with RegisterResend _ _ => True | _ => False end.

(* a property of queue entries that every RegisterResend entry has: it holds of a list of such entries *)
Section Queue.
  Variable P : N * cmd -> Prop.
  Hypothesis P_rr : forall t full i, P (t, RegisterResend full i).
  Definition qall (st : dstate) : Prop := Forall P (d_retrans st).

  Lemma P_of_rr l : Forall is_rr_entry l -> Forall P l.
  Proof.
    induction 1 as [|[t c] l H _ IH]; constructor; [|exact IH].
    destruct c; [apply P_rr|contradiction].
  Qed.
End Queue.

(* what one step does to the queue: appends entries, each a RegisterResend due one second later or
   the repeat of a goodbye due 120 ms later; shutdown empties it *)
Definition new_entry (now : N) (e : N * cmd) : Prop :=
  (is_rr_entry e /\ fst e = now + 1000) \/
  (exists i v4 m, e = (now + 120, UnregisterResend m i v4) /\ is_goodbye m = true).

Definition adds (now : N) (a b : dstate) : Prop :=
  exists l, d_retrans b = d_retrans a ++ l /\ Forall (new_entry now) l.

Lemma adds_same now a b : d_retrans b = d_retrans a -> adds now a b.
Proof. intros E. exists []. rewrite app_nil_r. split; [exact E|constructor]. Qed.

Lemma adds_trans now a b c : adds now a b -> adds now b c -> adds now a c.
Proof.
  intros (l1 & E1 & N1) (l2 & E2 & N2). exists (l1 ++ l2). rewrite E2, E1, app_assoc.
  split; [reflexivity|apply Forall_app; split; assumption].
Qed.

Lemma new_rr now t full i : t = now + 1000 -> new_entry now (t, RegisterResend full i).
Proof. intros E. left. split; [exact I|exact E]. Qed.

Lemma handle_dgrams_retrans now gs st js : d_retrans (fst (fst (handle_dgrams st gs now js))) = d_retrans st.
Proof. exact (proj1 (proj2 (proj2 (handle_dgrams_frame now gs st js)))). Qed.

Lemma register_service_adds st s now js : adds now st (fst (fst (register_service st s now js))).
Proof.
  unfold register_service.
  destruct (register_intfs (d_intfs st) (auto_addrs st s) (d_regs st) now js) as [[[[s' regs] os] anns] js'].
  eexists. split; [reflexivity|]. apply Forall_forall. intros e He. apply in_map_iff in He as (i & <- & _).
  apply new_rr. destruct (announce_repeat_pinned now) as [_ ->]. reflexivity.
Qed.

Lemma add_row_services_rt now svcs itf rg ip js :
  Forall (new_entry now) (snd (fst (add_row_services svcs itf rg ip now js))).
Proof.
  destruct (add_row_services svcs itf rg ip now js) as [[[[svcs' rg'] os] rt] js'] eqn:E.
  refine (add_row_services_loop (fun _ _ _ _ _ rt => Forall (new_entry now) rt) (fun _ => Forall_nil _) _ itf ip now svcs _ _ rg js svcs' rg' os rt js' E).
  - intros a b c i1 i2 s1 s2 o1 o2 r1 r2 H1 H2. apply Forall_app. split; assumption.
  - intros k s a _ _. constructor.
  - intros k s a js0 rg1 mo js1 _ _ s1 _. destruct mo; [|constructor]. constructor; [|constructor].
    apply new_rr. rewrite announce_repeat_add_interface_pinned. reflexivity.
Qed.

Lemma add_interface_adds st r now js : adds now st (fst (fst (add_interface st r now js))).
Proof.
  destruct (add_interface_cases st r now js) as [E|(itf & intfs & _ & _ & H)]; [rewrite E; apply adds_same; reflexivity|].
  pose proof (add_row_services_rt now (d_svcs st) itf (get_reg st (os_index r)) (os_ip r) js) as R.
  destruct (add_row_services (d_svcs st) itf (get_reg st (os_index r)) (os_ip r) now js) as [[[[svcs rg] os] rt] js']. rewrite (H _ _ _ _ _ eq_refl).
  exists rt. split; [reflexivity|exact R].
Qed.

Lemma del_interface_addr_retrans st r : d_retrans (fst (del_interface_addr st r)) = d_retrans st.
Proof.
  unfold del_interface_addr. destruct (find_intf st (os_index r)) as [itf0|]; [|reflexivity].
  destruct (negb (has_addr itf0 (os_ip r))); [reflexivity|].
  destruct (filter (fun a => negb (beq (ia_ip a) (os_ip r))) (if_addrs itf0)); reflexivity.
Qed.

Lemma apply_rows_adds now rows st js : adds now st (fst (fst (apply_rows st rows now js))).
Proof.
  apply (apply_rows_phase (fun a b _ => adds now a b)).
  - intros a. apply adds_same. reflexivity.
  - intros a b c _ _. apply adds_trans.
  - intros st0 r js0. unfold row_step. destruct (row_selected (d_sel st0) r); [apply add_interface_adds|].
    pose proof (del_interface_addr_retrans st0 r) as E. destruct (del_interface_addr st0 r) as [st1 os1]. apply adds_same. exact E.
Qed.

Lemma select_interfaces_adds st en kinds now js : adds now st (fst (fst (select_interfaces st en kinds now js))).
Proof. unfold select_interfaces. match goal with |- context [apply_rows ?a ?b now js] => exact (apply_rows_adds now b a js) end. Qed.

Lemma unregister_adds st k ch now : adds now st (fst (unregister st k ch now)).
Proof.
  destruct (aget k (d_svcs st)) as [s|] eqn:G; [|rewrite unregister_not_found by exact G; apply adds_same; reflexivity].
  eexists. split; [exact (unregister_schedules_repeat st k ch now s G)|].
  apply Forall_forall. intros e He. apply in_map_iff in He as ([[i v4] m] & <- & Hin). right. exists i, v4, m.
  split; [reflexivity|exact (goodbyes_are_goodbyes st s i v4 m Hin)].
Qed.

Definition adds_or_new (now : N) (a b : dstate) : Prop := adds now a b \/ Forall (new_entry now) (d_retrans b).

Lemma exec_call_retrans st c now js : adds_or_new now st (fst (fst (fst (exec_call st c now js)))).
Proof.
  destruct c; cbn [exec_call].
  - pose proof (register_service_adds st s now js) as H. destruct (register_service st s now js) as [[st1 os1] js1]. left. exact H.
  - pose proof (unregister_adds st (lower name) ch now) as H. destruct (unregister st (lower name) ch now) as [st1 os1]. left. exact H.
  - left. apply adds_same. reflexivity.
  - right. constructor.
  - pose proof (select_interfaces_adds st enable kinds now js) as H. destruct (select_interfaces st enable kinds now js) as [[st1 os1] js1]. left. exact H.
  - left. apply adds_same. reflexivity.
Qed.

Lemma exec_calls_retrans now cs st js : adds_or_new now st (fst (fst (exec_calls st cs now js))).
Proof.
  apply (exec_calls_phase (fun a b _ => adds_or_new now a b)).
  - intros a. left. apply adds_same. reflexivity.
  - intros a b c _ _ H1 [H2|H2]; [|right; exact H2]. destruct H1 as [H1|H1]; [left; exact (adds_trans _ _ _ _ H1 H2)|right].
    destruct H2 as (l & -> & N2). apply Forall_app. split; assumption.
  - intros st0 c js0 _. apply exec_call_retrans.
Qed.

Lemma retransmit_retrans st now js :
  d_retrans (fst (fst (retransmit st now js))) = filter (fun e => negb (fst e <=? now)) (d_retrans st).
Proof. exact (proj1 (proj2 (retransmit_frame st now js))). Qed.

Lemma announce_waiting_rt itf now m waiting rg svcs js :
  Forall (new_entry now) (snd (fst (announce_waiting waiting itf rg svcs now js m))).
Proof.
  destruct (announce_waiting waiting itf rg svcs now js m) as [[[[rg2 svcs2] os] rt] js2] eqn:E.
  refine (announce_waiting_loop (fun _ _ _ rt => Forall (new_entry now) rt) (fun _ => Forall_nil _) _ itf now m waiting _ rg svcs js rg2 svcs2 os rt js2 E).
  - intros x y z o1 o2 r1 r2 H1 H2. apply Forall_app. split; assumption.
  - intros w s rg0 svcs0 js0 rg1 os1 ann js1 _ _ _ _. destruct ann; [|constructor].
    constructor; [|constructor]. apply new_rr. destruct (announce_repeat_pinned now) as [-> _]. reflexivity.
Qed.

Lemma pass_adds itf st now js : adds now st (fst (fst (pass itf st now js))).
Proof.
  unfold pass. destruct (nget (if_index itf) (d_regs st)) as [rg|]; [|apply adds_same; reflexivity].
  destruct (probe_step rg now) as [[[rg1 qs] evs] waiting].
  pose proof (announce_waiting_rt itf now (d_mon st) waiting rg1 (d_svcs st) js) as H1.
  destruct (announce_waiting waiting itf rg1 (d_svcs st) now js (d_mon st)) as [[[[rg2 svcs2] os2] rt2] js2].
  exists rt2. split; [reflexivity|exact H1].
Qed.

Lemma probing_intfs_adds now ifs st js : adds now st (fst (fst (probing_intfs ifs st now js))).
Proof.
  apply (probing_intfs_phase (fun a b _ => adds now a b)).
  - intros a. apply adds_same. reflexivity.
  - intros a b c _ _. apply adds_trans.
  - intros st0 itf js0 _. apply pass_adds.
Qed.

Lemma new_entry_later now e : new_entry now e -> now < fst e.
Proof. intros [[_ ->]|(i & v4 & m & -> & _)]; cbn [fst]; lia. Qed.

(* every entry was there before, or was queued in this iteration for now + 1000 (RegisterResend)
   or now + 120 (the repeat of a goodbye) *)
Lemma iterate_retrans st it :
  Forall (fun e => In e (d_retrans st) \/ new_entry (it_now it) e) (d_retrans (fst (fst (fst (iterate st it))))).
Proof.
  destruct (d_dead st) eqn:D; [unfold iterate; rewrite D; apply Forall_forall; intros e He; left; exact He|].
  destruct (iterate_cases st it D) as (st1 & os1 & js1 & st2 & os2 & js2 & E1 & E2 & C).
  pose proof (handle_dgrams_retrans (it_now it) (it_gs it) st (it_jitter it)) as H1. rewrite E1 in H1. cbn [fst] in H1.
  pose proof (exec_calls_retrans (it_now it) (it_calls it) st1 js1) as H2. rewrite E2 in H2. cbn [fst] in H2.
  assert (A2 : Forall (fun e => In e (d_retrans st) \/ new_entry (it_now it) e) (d_retrans st2)).
  { apply Forall_forall. intros e He. destruct H2 as [(l & E & N)|N].
    - rewrite E, H1 in He. apply in_app_or in He as [He|He]; [left; exact He|right; exact (proj1 (Forall_forall _ _) N e He)].
    - right. exact (proj1 (Forall_forall _ _) N e He). }
  destruct C as [(_ & p & E)|(_ & st3 & os3 & js3 & st4 & os4 & js4 & os & p & E3 & E4 & _ & E)]; rewrite E; cbn [fst]; [exact A2|].
  pose proof (retransmit_retrans st2 (it_now it) js2) as H3. rewrite E3 in H3. cbn [fst] in H3.
  destruct (probing_intfs_adds (it_now it) (d_intfs st3) st3 js3) as (l & E5 & N5). rewrite E4 in E5. cbn [fst] in E5.
  assert (A4 : Forall (fun e => In e (d_retrans st) \/ new_entry (it_now it) e) (d_retrans st4)).
  { rewrite E5, H3. apply Forall_app. split.
    - apply Forall_forall. intros e He. apply filter_In in He as [He _]. exact (proj1 (Forall_forall _ _) A2 e He).
    - eapply Forall_impl; [|exact N5]. intros e He. right. exact He. }
  destruct p; exact A4.
Qed.

(* In all histories every queued UnregisterResend holds a goodbye - a response whose
   records all have TTL 0 *)
Definition gb_entry (e : N * cmd) : Prop :=
  match snd e with UnregisterResend m _ _ => is_goodbye m = true | RegisterResend _ _ => True end.
Definition saved_goodbyes (st : dstate) : Prop := Forall gb_entry (d_retrans st).

Lemma new_entry_gb now e : new_entry now e -> gb_entry e.
Proof.
  intros [[R _]|(i & v4 & m & -> & G)]; [|exact G].
  destruct e as [t c]. destruct c; [exact I|contradiction].
Qed.

Lemma saved_goodbyes_step st it : saved_goodbyes st -> saved_goodbyes (fst (fst (fst (iterate st it)))).
Proof.
  intros H. eapply Forall_impl; [|exact (iterate_retrans st it)]. intros e [I|N].
  - exact (proj1 (Forall_forall _ _) H e I).
  - exact (new_entry_gb _ _ N).
Qed.

Theorem saved_goodbyes_all_histories ifs os : forall its, saved_goodbyes (run_state (d_init_os ifs os) its).
Proof. intros its. apply (run_state_keeps _ saved_goodbyes_step). constructor. Qed.

(* No overdue queue entry survives an iteration that leaves the daemon running: everything due at
   or before `now` was run (each entry exactly once: it is taken out of the queue), everything
   queued meanwhile is due later *)
Lemma iterate_queue_future st it st' os js :
  iterate st it = (st', os, Running, js) -> Forall (fun e => it_now it < fst e) (d_retrans st').
Proof.
  intros H. apply iterate_running in H as (_ & st1 & os1 & js1 & st2 & os2 & js2 & st3 & os3 & js3 & os4 & _ & _ & _ & E3 & E4 & _).
  pose proof (retransmit_retrans st2 (it_now it) js2) as H3. rewrite E3 in H3. cbn [fst] in H3.
  destruct (probing_intfs_adds (it_now it) (d_intfs st3) st3 js3) as (l & E & R). rewrite E4 in E. cbn [fst] in E.
  rewrite E, H3. apply Forall_app. split.
  - apply Forall_forall. intros e He. apply filter_In in He as [_ He]. apply negb_true_iff, N.leb_gt in He. exact He.
  - eapply Forall_impl; [|exact R]. apply new_entry_later.
Qed.

(* on OK, for EVERY interface on which the service is announced and every family in which it has an
   address there: the goodbye goes out now and the same message is queued for now + 120 *)
Lemma goodbye_everywhere_announced st k ch now s itf v4 :
  aget k (d_svcs st) = Some s -> In itf (d_intfs st) -> announced_on (if_index itf) s = true ->
  addrs_on_intf s itf v4 <> [] ->
  let m := goodbye_msg (get_reg st (if_index itf)) s (addrs_on_intf s itf v4) in
  In (OSend (if_index itf) v4 Mcast m) (snd (unregister st k ch now)) /\
  In (now + 120, UnregisterResend m (if_index itf) v4) (d_retrans (fst (unregister st k ch now))).
Proof.
  intros G Hin A Hne m.
  assert (Hg : In (if_index itf, v4, m) (goodbyes_of st s)).
  { unfold goodbyes_of. apply in_flat_map. exists itf. split; [exact Hin|]. rewrite A.
    unfold goodbye_on, m. destruct v4.
    - apply in_or_app. left. destruct (addrs_on_intf s itf true); [contradiction|]. left. reflexivity.
    - apply in_or_app. right. destruct (addrs_on_intf s itf false); [contradiction|]. left. reflexivity. }
  rewrite (unregister_schedules_repeat st k ch now s G), (unregister_found _ _ _ _ _ G). cbn [snd]. split.
  - apply in_or_app. left. apply (in_map send_of _ _ Hg).
  - apply in_or_app. right. apply in_map_iff. exists (if_index itf, v4, m). split; [reflexivity|exact Hg].
Qed.

Lemma unregister_resend_intfs st st' m i v4 :
  d_intfs st' = d_intfs st -> unregister_resend st' m i v4 = unregister_resend st m i v4.
Proof. intros E. unfold unregister_resend, find_intf. rewrite E. reflexivity. Qed.

Lemma run_due_sends_repeat now m i v4 : forall due st js t,
  In (t, UnregisterResend m i v4) due -> incl (unregister_resend st m i v4) (snd (fst (run_due st due now js))).
Proof.
  induction due as [|[t0 c] due IH]; intros st js t Hin; [contradiction|]. cbn [run_due]. fold (due_step st c now js).
  destruct Hin as [E|Hin].
  - inversion E; subst. cbn [due_step]. destruct (run_due st due now js) as [[st2 os2] js2]. apply incl_appl, incl_refl.
  - pose proof (due_step_frame st c now js) as (EI & _). destruct (due_step st c now js) as [[st1 os1] js1]. cbn [fst] in EI.
    specialize (IH st1 js1 t Hin). destruct (run_due st1 due now js1) as [[st2 os2] js2]. cbn [fst snd] in *.
    rewrite (unregister_resend_intfs st st1 m i v4 EI) in IH. apply incl_appr, IH.
Qed.

(* The repeat, once: when the queued entry is due, the saved message is sent again unchanged on its
   interface and family (if the interface still has that family) and the entry leaves the queue *)
Lemma repeat_run_once st now js t m i v4 :
  In (t, UnregisterResend m i v4) (d_retrans st) -> t <= now ->
  incl (unregister_resend st m i v4) (snd (fst (retransmit st now js))) /\
  ~ In (t, UnregisterResend m i v4) (d_retrans (fst (fst (retransmit st now js)))).
Proof.
  intros Hin Ht. split.
  - unfold retransmit.
    match goal with |- incl _ (snd (fst (run_due ?s0 ?d now js))) =>
      pose proof (run_due_sends_repeat now m i v4 d s0 js t) as H;
      rewrite (unregister_resend_intfs st s0 m i v4 eq_refl) in H end.
    apply H.
    apply filter_In. split; [exact Hin|]. apply N.leb_le. exact Ht.
  - rewrite retransmit_retrans. intros H. apply filter_In in H as [_ H]. cbn [fst] in H.
    apply negb_true_iff, N.leb_gt in H. lia.
Qed.

(* o is a live response (not a goodbye) sent on interface i *)
Definition live_resp_on (i : N) (o : out) : Prop :=
  match o with OSend k _ _ m => k = i /\ o_resp m = true /\ is_goodbye m = false | _ => False end.
Definition is_send (o : out) : Prop := match o with OSend _ _ _ _ => True | _ => False end.
Definition send_if (o : out) : option N := match o with OSend k _ _ _ => Some k | _ => None end.

Lemma announce_both_sends s itf rg now js :
  let '(_, os, ann, _) := announce_both s itf rg now js in
  Forall (fun o => send_if o = Some (if_index itf)) os /\ (os <> [] -> ann = true).
Proof.
  unfold announce_both.
  destruct (prepare_announce s itf rg true now js) as [[rg1 m4] js1].
  destruct (prepare_announce s itf rg1 false now js1) as [[rg2 m6] js2].
  split.
  - apply Forall_app. split; [destruct m4|destruct m6]; repeat constructor.
  - destruct m4, m6; intros H; try reflexivity. contradiction.
Qed.

Lemma register_intfs_sends now ifs s regs js :
  let '(_, _, os, anns, _) := register_intfs ifs s regs now js in
  Forall (fun o => exists i, send_if o = Some i /\ In i anns) os.
Proof.
  destruct (register_intfs ifs s regs now js) as [[[[s' regs'] os] anns] js'] eqn:E.
  refine (register_intfs_loop (fun _ _ os anns => Forall (fun o => exists i, send_if o = Some i /\ In i anns) os) (fun _ => Forall_nil _) _ now ifs _ s regs js s' regs' os anns js' E).
  - intros x y z o1 o2 a1 a2 H1 H2. apply Forall_app.
    split; [eapply Forall_impl; [|exact H1]|eapply Forall_impl; [|exact H2]]; intros o (i & Ei & I); exists i; (split; [exact Ei|apply in_or_app; auto]).
  - intros itf s0 regs0 js0 rg' os1 ann js1 _ EB. pose proof (announce_both_sends s0 itf (match nget (if_index itf) regs0 with Some r => r | None => reg_new end) now js0) as H1. rewrite EB in H1. destruct H1 as [F A].
    apply Forall_forall. intros o Ho. exists (if_index itf). split; [exact (proj1 (Forall_forall _ _) F o Ho)|].
    rewrite A; [left; reflexivity|]. intros E0. rewrite E0 in Ho. contradiction.
Qed.

Lemma mon_no_send (m : bool) ev o : In o (mon m [ev]) -> is_send ev = False -> ~ is_send o.
Proof. unfold mon. destruct m; [|contradiction]. intros [<-|[]] E. rewrite E. exact (fun H => H). Qed.

(* register_service: every packet it sends goes out on an interface for which the second
   announcement is queued at now + 1000 *)
Lemma register_service_queues_second st s now js :
  let '(st1, os, _) := register_service st s now js in
  forall o, In o os -> is_send o ->
  exists i full, send_if o = Some i /\ In (now + 1000, RegisterResend full i) (d_retrans st1).
Proof.
  unfold register_service.
  pose proof (register_intfs_sends now (d_intfs st) (auto_addrs st s) (d_regs st) js) as H.
  destruct (register_intfs (d_intfs st) (auto_addrs st s) (d_regs st) now js) as [[[[s' regs] os] anns] js'].
  intros o Ho So. apply in_app_or in Ho as [Ho|Ho].
  - destruct (proj1 (Forall_forall _ _) H o Ho) as (i & E & I). exists i, (s_full (auto_addrs st s)). split; [exact E|].
    cbn [d_retrans]. apply in_or_app. right. apply in_map_iff. exists i. split; [|exact I].
    destruct (announce_repeat_pinned now) as [_ ->]. reflexivity.
  - destruct anns; [contradiction|]. destruct (mon_no_send _ _ _ Ho eq_refl So).
Qed.

Lemma add_row_services_queues_second now svcs itf rg ip js :
  let '(_, _, os, rt, _) := add_row_services svcs itf rg ip now js in
  forall o, In o os -> exists full, send_if o = Some (if_index itf) /\ In (now + 1000, RegisterResend full (if_index itf)) rt.
Proof.
  destruct (add_row_services svcs itf rg ip now js) as [[[[svcs' rg'] os] rt] js'] eqn:E.
  refine (add_row_services_loop (fun _ _ _ _ os rt => forall o, In o os ->
            exists full, send_if o = Some (if_index itf) /\ In (now + 1000, RegisterResend full (if_index itf)) rt)
            (fun _ o (H : In o []) => match H with end) _ itf ip now svcs _ _ rg js svcs' rg' os rt js' E).
  - intros a b c i1 i2 s1 s2 o1 o2 r1 r2 H1 H2 o Ho.
    apply in_app_or in Ho as [Ho|Ho]; [destruct (H1 o Ho) as (full & Ef & I)|destruct (H2 o Ho) as (full & Ef & I)];
      exists full; (split; [exact Ef|apply in_or_app; auto]).
  - intros k s a _ _ o [].
  - intros k s a js0 rg1 mo js1 _ _ s1 _ o Ho. destruct mo as [msg|]; [|contradiction]. destruct Ho as [<-|[]].
    exists (s_full s). split; [reflexivity|]. left. rewrite announce_repeat_add_interface_pinned. reflexivity.
Qed.

(* add_interface: every announcement it makes is queued again for now + 1000 *)
Lemma add_interface_queues_second st r now js :
  let '(st1, os, _) := add_interface st r now js in
  forall o, In o os -> is_send o ->
  exists i full, send_if o = Some i /\ In (now + 1000, RegisterResend full i) (d_retrans st1).
Proof.
  destruct (add_interface_cases st r now js) as [E|(itf & intfs & _ & _ & H)]; [rewrite E; intros o []|].
  pose proof (add_row_services_queues_second now (d_svcs st) itf (get_reg st (os_index r)) (os_ip r) js) as Q.
  destruct (add_row_services (d_svcs st) itf (get_reg st (os_index r)) (os_ip r) now js) as [[[[svcs rg] os] rt] js']. rewrite (H _ _ _ _ _ eq_refl).
  intros o Ho So. apply in_app_or in Ho as [Ho|Ho]; [|destruct (mon_no_send _ _ _ Ho eq_refl So)].
  destruct (Q o Ho) as (full & E & I). eexists _, full. split; [exact E|]. cbn [d_retrans]. apply in_or_app. right. exact I.
Qed.

(* the probing handler: every announcement made when a probe completes is queued again for now + 1000 *)
Lemma announce_waiting_queues_second itf now m waiting rg svcs js :
  let '(_, _, os, rt, _) := announce_waiting waiting itf rg svcs now js m in
  forall o, In o os -> is_send o ->
  exists full, send_if o = Some (if_index itf) /\ In (now + 1000, RegisterResend full (if_index itf)) rt.
Proof.
  destruct (announce_waiting waiting itf rg svcs now js m) as [[[[rg2 svcs2] os] rt] js2] eqn:E.
  refine (announce_waiting_loop (fun _ _ os rt => forall o, In o os -> is_send o ->
            exists full, send_if o = Some (if_index itf) /\ In (now + 1000, RegisterResend full (if_index itf)) rt)
            (fun _ o (H : In o []) => match H with end) _ itf now m waiting _ rg svcs js rg2 svcs2 os rt js2 E).
  - intros x y z o1 o2 r1 r2 H1 H2 o Ho So.
    apply in_app_or in Ho as [Ho|Ho]; [destruct (H1 o Ho So) as (full & Ef & I)|destruct (H2 o Ho So) as (full & Ef & I)];
      exists full; (split; [exact Ef|apply in_or_app; auto]).
  - intros w s rg0 svcs0 js0 rg1 os1 ann js1 _ _ _ EB. pose proof (announce_both_sends s itf rg0 now js0) as H1. rewrite EB in H1.
    destruct H1 as [F A]. destruct ann; intros o Ho So.
    + apply in_app_or in Ho as [Ho|Ho]; [|destruct (mon_no_send _ _ _ Ho eq_refl So)].
      exists (s_full s). split; [exact (proj1 (Forall_forall _ _) F o Ho)|]. left. destruct (announce_repeat_pinned now) as [-> _]. reflexivity.
    + destruct os1; [contradiction|]. discriminate A. discriminate.
Qed.

Definition resp_send (o : out) : Prop := match o with OSend _ _ _ m => o_resp m = true | _ => False end.

(* every response of the pass over some interfaces is an announcement whose repeat is in the queue the
   pass leaves behind (probe queries are not responses, events are not packets) *)
Definition repeats_queued (now : N) (a b : dstate) (os : list out) : Prop :=
  incl (d_retrans a) (d_retrans b) /\
  forall o, In o os -> resp_send o -> exists i full, send_if o = Some i /\ In (now + 1000, RegisterResend full i) (d_retrans b).

Lemma pass_queues_second itf st now js :
  repeats_queued now st (fst (fst (pass itf st now js))) (snd (fst (pass itf st now js))).
Proof.
  unfold pass. destruct (nget (if_index itf) (d_regs st)) as [rg|]; [|split; [apply incl_refl|intros o []]].
  destruct (probe_step rg now) as [[[rg1 qs] evs] waiting].
  pose proof (announce_waiting_queues_second itf now (d_mon st) waiting rg1 (d_svcs st) js) as H1.
  destruct (announce_waiting waiting itf rg1 (d_svcs st) now js (d_mon st)) as [[[[rg2 svcs2] os2] rt2] js2].
  cbn [fst snd d_retrans]. split; [apply incl_appl, incl_refl|]. intros o Ho Ro.
  apply in_app_or in Ho as [Ho|Ho]; [|apply in_app_or in Ho as [Ho|Ho]].
  - exfalso. destruct qs; [contradiction|].
    apply in_app_or in Ho as [Ho|Ho]; [destruct (intf_has_family itf true)|destruct (intf_has_family itf false)];
      try contradiction; destruct Ho as [<-|[]]; cbn in Ro; discriminate.
  - exfalso. unfold mon in Ho. destruct (d_mon st); [|contradiction].
    apply in_map_iff in Ho as ([[a b] c] & <- & _). contradiction.
  - assert (So : is_send o) by (destruct o; try contradiction; exact I).
    destruct (H1 o Ho So) as (full & Ei & I). exists (if_index itf), full. split; [exact Ei|apply in_or_app; right; exact I].
Qed.

Lemma probing_intfs_queues_second now ifs st js :
  repeats_queued now st (fst (fst (probing_intfs ifs st now js))) (snd (fst (probing_intfs ifs st now js))).
Proof.
  apply (probing_intfs_phase (repeats_queued now)).
  - intros a. split; [apply incl_refl|intros o []].
  - intros a b c o1 o2 [I1 H1] [I2 H2]. split; [exact (incl_tran I1 I2)|]. intros o Ho Ro. apply in_app_or in Ho as [Ho|Ho].
    + destruct (H1 o Ho Ro) as (i & full & E & I). exists i, full. split; [exact E|exact (I2 _ I)].
    + exact (H2 o Ho Ro).
  - intros st0 itf js0 _. apply pass_queues_second.
Qed.

(* at the level of one iteration: every response the probing handler sends (the announcements made
   when probes complete) has its second announcement in the queue the iteration leaves behind *)
Theorem probing_announcements_queued st it st' os js :
  iterate st it = (st', os, Running, js) ->
  forall st3 js3, d_dead st = false ->
  (let now := it_now it in
   let '(st1, _, js1) := handle_dgrams st (filter (fun g => g_v4 g) (it_dgrams it) ++ filter (fun g => negb (g_v4 g)) (it_dgrams it)) now (it_jitter it) in
   let '(st2, _, js2) := exec_calls st1 (it_calls it) now js1 in
   let '(s3, _, j3) := retransmit st2 now js2 in st3 = s3 /\ js3 = j3) ->
  forall o, In o (snd (fst (probing_handler st3 (it_now it) js3))) -> resp_send o ->
  exists i full, send_if o = Some i /\ In (it_now it + 1000, RegisterResend full i) (d_retrans st').
Proof.
  intros H st3 js3 _. apply iterate_running in H as (_ & st1 & os1 & js1 & st2 & os2 & js2 & s3 & os3 & j3 & os4 & E1 & E2 & _ & E3 & E4 & _).
  cbv zeta. fold (it_gs it). rewrite E1, E2, E3. intros [-> ->]. unfold probing_handler.
  pose proof (probing_intfs_queues_second (it_now it) (d_intfs s3) s3 j3) as [_ Q]. rewrite E4 in Q. rewrite E4. exact Q.
Qed.

Definition regs_all (RP : registry -> Prop) (st : dstate) : Prop := Forall (fun kr => RP (snd kr)) (d_regs st).

Definition RPn (rg : registry) : Prop := NoDup (keys (rg_probing rg)).
Definition regs_nodup (st : dstate) : Prop := regs_all RPn st.

Lemma ipd_nodup rg r svc start : RPn rg -> RPn (fst (is_probing_done rg r svc start)).
Proof.
  intros H. unfold is_probing_done. destruct (in_active rg r); [exact H|]. unfold RPn. cbn [fst rg_probing].
  apply NoDup_aset. exact H.
Qed.

Lemma apply_op_nodup rg now o : RPn rg -> RPn (fst (fst (apply_op rg now o))).
Proof.
  intros H. destruct o; cbn [apply_op fst].
  - apply tick_names_nodup. exact H.
  - apply ipd_nodup. exact H.
  - unfold apply_tiebreak. destruct (aget qn (rg_probing rg)); [|exact H]. unfold RPn. cbn [rg_probing]. apply NoDup_aset. exact H.
  - apply apply_conflict_nodup. exact H.
Qed.

Lemma Ops_nodup A now rg rg' : Ops A now rg rg' -> RPn rg -> RPn rg'.
Proof. apply Ops_keeps. intros rg0 o _. apply apply_op_nodup. Qed.

Lemma reg_new_nodup : RPn reg_new. Proof. constructor. Qed.

Lemma regs_get regs i : Forall (fun kr => RPn (snd kr)) regs -> RPn (match nget i regs with Some r => r | None => reg_new end).
Proof. intros H. destruct (nget i regs) eqn:G; [exact (nget_Forall RPn i r _ H G)|exact reg_new_nodup]. Qed.

Lemma get_reg_nodup st i : regs_nodup st -> RPn (get_reg st i).
Proof. apply regs_get. Qed.

Lemma register_intfs_nodup now ifs s regs js :
  Forall (fun kr => RPn (snd kr)) regs ->
  Forall (fun kr => RPn (snd kr)) (snd (fst (fst (fst (register_intfs ifs s regs now js))))).
Proof.
  destruct (register_intfs ifs s regs now js) as [[[[s' regs'] os] anns] js'] eqn:E.
  refine (register_intfs_loop (fun x y _ _ => Forall (fun kr => RPn (snd kr)) (snd x) -> Forall (fun kr => RPn (snd kr)) (snd y))
            (fun _ H => H) (fun _ _ _ _ _ _ _ H1 H2 H => H2 (H1 H)) now ifs _ s regs js s' regs' os anns js' E).
  intros itf s0 regs0 js0 rg' os1 ann js1 _ EB H. apply Forall_nset; [|exact H].
  pose proof (Ops_nodup _ _ _ _ (announce_both_Ops s0 itf (match nget (if_index itf) regs0 with Some r => r | None => reg_new end) now js0) (regs_get regs0 (if_index itf) H)) as H1. rewrite EB in H1. exact H1.
Qed.

Lemma register_service_nodup st s now js : regs_nodup st -> regs_nodup (fst (fst (register_service st s now js))).
Proof.
  intros H. unfold register_service.
  pose proof (register_intfs_nodup now (d_intfs st) (auto_addrs st s) (d_regs st) js H) as H1.
  destruct (register_intfs (d_intfs st) (auto_addrs st s) (d_regs st) now js) as [[[[s' regs] os] anns] js']. exact H1.
Qed.

Lemma register_resend_nodup st full i now js : regs_nodup st -> regs_nodup (fst (fst (register_resend st full i now js))).
Proof.
  intros H. unfold register_resend. destruct (aget (lower full) (d_svcs st)) as [s|]; [|exact H].
  destruct (nget i (d_regs st)) as [rg|] eqn:G; [|exact H]. destruct (find_intf st i) as [itf|]; [|exact H].
  pose proof (Ops_nodup _ _ _ _ (announce_both_Ops s itf rg now js) (nget_Forall RPn _ _ _ H G)) as H1.
  destruct (announce_both s itf rg now js) as [[[rg' os] ann] js']. cbn [fst] in H1.
  destruct ann; unfold regs_nodup, regs_all; cbn [fst d_regs]; apply Forall_nset; assumption.
Qed.

Lemma conflict_answers_nodup now : forall ans rg js, RPn rg -> RPn (fst (conflict_answers rg ans now js)).
Proof.
  induction ans as [|a t IH]; intros rg js H; [exact H|]. cbn [conflict_answers].
  destruct (conflict_applies rg a) eqn:C; [|apply IH; exact H].
  destruct (draw js) as [j js']. apply IH. apply apply_conflict_nodup. exact H.
Qed.

Lemma handle_dgram_nodup st g now js : regs_nodup st -> regs_nodup (fst (fst (handle_dgram st g now js))).
Proof.
  intros H. unfold handle_dgram. destruct (find_intf st (g_if g)) as [itf|]; [|exact H].
  destruct (negb (intf_has_family itf (g_v4 g))); [exact H|]. destruct (g_resp g).
  - unfold handle_response. destruct (find_intf st (g_if g)); [|exact H].
    destruct (nget (g_if g) (d_regs st)) as [rg|] eqn:G; [|exact H].
    pose proof (conflict_answers_nodup now (g_an g) rg js (nget_Forall RPn _ _ _ H G)) as H1.
    destruct (conflict_answers rg (g_an g) now js) as [rg' js']. apply Forall_nset; assumption.
  - unfold handle_query. destruct (nget (g_if g) (d_regs st)) as [rg|] eqn:G; [|exact H].
    destruct (find_intf st (g_if g)) as [itf'|]; [|exact H].
    pose proof (Ops_nodup _ _ _ _ (handle_questions_Ops st g itf' now (g_q g) rg) (nget_Forall RPn _ _ _ H G)) as H1.
    destruct (handle_questions st g itf' rg (g_q g) now) as [[rg' an] ar]. cbn [fst] in H1.
    destruct an; apply Forall_nset; assumption.
Qed.

Lemma add_interface_nodup st r now js : regs_nodup st -> regs_nodup (fst (fst (add_interface st r now js))).
Proof.
  intros Hn. destruct (add_interface_cases st r now js) as [E|(itf & intfs & _ & _ & H)]; [rewrite E; exact Hn|].
  pose proof (Ops_nodup _ _ _ _ (add_row_services_Ops now (d_svcs st) itf (get_reg st (os_index r)) (os_ip r) js) (get_reg_nodup st _ Hn)) as H1.
  destruct (add_row_services (d_svcs st) itf (get_reg st (os_index r)) (os_ip r) now js) as [[[[svcs rg] os] rt] js']. rewrite (H _ _ _ _ _ eq_refl).
  apply Forall_nset; assumption.
Qed.

Lemma del_interface_addr_nodup st r : regs_nodup st -> regs_nodup (fst (del_interface_addr st r)).
Proof.
  intros H. unfold del_interface_addr. destruct (find_intf st (os_index r)) as [itf0|]; [|exact H].
  destruct (negb (has_addr itf0 (os_ip r))); [exact H|].
  destruct (filter (fun a => negb (beq (ia_ip a) (os_ip r))) (if_addrs itf0)); [|exact H].
  apply Forall_nremove. exact H.
Qed.

Lemma NoDup_keys_filter {V} (f : bytes * V -> bool) : forall l, NoDup (keys l) -> NoDup (keys (filter f l)).
Proof.
  induction l as [|[k v] t IH]; intros H; [constructor|]. cbn [filter]. inversion H; subst.
  destruct (f (k, v)); [|apply IH; assumption]. cbn [keys map fst]. constructor; [|apply IH; assumption].
  intros Hin. apply H2. unfold keys in *. apply in_map_iff in Hin as (x & E & Hx). apply filter_In in Hx as [Hx _].
  apply in_map_iff. exists x. split; assumption.
Qed.

Lemma forget_service_nodup full rg : RPn rg -> RPn (forget_service full rg).
Proof. intros H. unfold forget_service, forget_name, RPn. cbn [rg_probing]. apply NoDup_keys_filter, NoDup_keys_filter. exact H. Qed.

Lemma apply_rows_nodup now rows st js : regs_nodup st -> regs_nodup (fst (fst (apply_rows st rows now js))).
Proof.
  apply (apply_rows_phase (keeps regs_nodup) (keeps_nil _) (keeps_app _)). intros st0 r js0 H0. unfold row_step.
  destruct (row_selected (d_sel st0) r); [apply add_interface_nodup; exact H0|].
  pose proof (del_interface_addr_nodup st0 r H0). destruct (del_interface_addr st0 r). assumption.
Qed.

Lemma exec_call_nodup st c now js : regs_nodup st -> regs_nodup (fst (fst (fst (exec_call st c now js)))).
Proof.
  intros H. destruct c; cbn [exec_call]; try exact H.
  - pose proof (register_service_nodup st s now js H). destruct (register_service st s now js) as [[? ?] ?]. assumption.
  - unfold unregister. destruct (aget (lower name) (d_svcs st)); [|exact H]. unfold regs_nodup, regs_all, forget_regs. cbn [fst d_regs].
    apply Forall_map. eapply Forall_impl; [|exact H]. intros kr. apply forget_service_nodup.
  - unfold select_interfaces.
    match goal with |- context [apply_rows ?a ?b now js] => pose proof (apply_rows_nodup now b a js H) as H0; destruct (apply_rows a b now js) as [[? ?] ?] end.
    exact H0.
Qed.

Lemma probe_step_nodup rg now : RPn rg -> RPn (fst (fst (fst (probe_step rg now)))).
Proof. rewrite probe_step_tick. apply tick_names_nodup. Qed.

Lemma pass_nodup itf st now js : regs_nodup st -> regs_nodup (fst (fst (pass itf st now js))).
Proof.
  intros H. unfold pass. destruct (nget (if_index itf) (d_regs st)) as [rg|] eqn:G; [|exact H].
  pose proof (probe_step_nodup rg now (nget_Forall RPn _ _ _ H G)) as H1.
  destruct (probe_step rg now) as [[[rg1 qs] evs] waiting]. cbn [fst] in H1.
  pose proof (Ops_nodup _ _ _ _ (announce_waiting_Ops itf now (d_mon st) waiting rg1 (d_svcs st) js) H1) as H2.
  destruct (announce_waiting waiting itf rg1 (d_svcs st) now js (d_mon st)) as [[[[rg2 svcs2] os2] rt2] js2]. cbn [fst] in H2.
  apply Forall_nset; assumption.
Qed.

Lemma handle_dgrams_nodup now gs st js : regs_nodup st -> regs_nodup (fst (fst (handle_dgrams st gs now js))).
Proof. apply (handle_dgrams_phase (keeps regs_nodup) (keeps_nil _) (keeps_app _)). intros st1 g js1 _. exact (handle_dgram_nodup st1 g now js1). Qed.

Lemma exec_calls_nodup now cs st js : regs_nodup st -> regs_nodup (fst (fst (exec_calls st cs now js))).
Proof. apply (exec_calls_phase (keeps regs_nodup) (keeps_nil _) (keeps_app _)). intros st1 c js1 _. exact (exec_call_nodup st1 c now js1). Qed.

Lemma run_due_nodup now due st js : regs_nodup st -> regs_nodup (fst (fst (run_due st due now js))).
Proof.
  apply (run_due_phase (keeps regs_nodup) (keeps_nil _) (keeps_app _)).
  intros st1 [t c] js1 _. destruct c; [exact (register_resend_nodup st1 full ifidx now js1)|intros H; exact H].
Qed.

Lemma retransmit_nodup st now js : regs_nodup st -> regs_nodup (fst (fst (retransmit st now js))).
Proof. intros H. unfold retransmit. apply run_due_nodup. exact H. Qed.

Lemma probing_intfs_nodup now ifs st js : regs_nodup st -> regs_nodup (fst (fst (probing_intfs ifs st now js))).
Proof. apply (probing_intfs_phase (keeps regs_nodup) (keeps_nil _) (keeps_app _)). intros st1 itf js1 _. exact (pass_nodup itf st1 now js1). Qed.

Lemma iterate_nodup st it : regs_nodup st -> regs_nodup (fst (fst (fst (iterate st it)))).
Proof.
  apply iterate_keeps.
  - intros st0 H. exact H.
  - intros st0 js. apply handle_dgrams_nodup.
  - intros st0 js. apply exec_calls_nodup.
  - intros st0 js. apply retransmit_nodup.
  - intros st0 js. apply probing_intfs_nodup.
Qed.

Theorem regs_nodup_all_histories ifs os : forall its, regs_nodup (run_state (d_init_os ifs os) its).
Proof. intros its. apply (run_state_keeps _ iterate_nodup). constructor. Qed.

Definition probes_ge (now : N) (rg : registry) : Prop := Forall (fun np => now <= pb_next (snd np)) (rg_probing rg).

Lemma ipd_ge lo rg r svc start : lo <= start -> probes_ge lo rg -> probes_ge lo (fst (is_probing_done rg r svc start)).
Proof.
  intros Hs H. unfold is_probing_done. destruct (in_active rg r); [exact H|]. unfold probes_ge. cbn [fst rg_probing].
  apply (Forall_aset (fun p => lo <= pb_next p)); [|exact H]. cbn [pb_next].
  destruct (aget (p_name r) (rg_probing rg)) as [p|] eqn:G; [|exact Hs].
  apply aget_In in G. exact (proj1 (Forall_forall _ _) H _ G).
Qed.

Lemma joins_ge R now rg rg' : Ops (joins R) now rg rg' -> probes_ge now rg -> probes_ge now rg'.
Proof. apply Ops_keeps. intros rg0 o (r & svc & j & -> & _). apply ipd_ge. lia. Qed.

(* after the probing pass over a registry every remaining probe is due in the future: it sent its
   query (next step 250 ms later) or was not yet due *)
Lemma probe_step_ge rg now : RPn rg -> probes_ge now (fst (fst (fst (probe_step rg now)))).
Proof.
  intros Hnd. rewrite probe_step_tick. pose proof (tick_names_nodup rg now Hnd) as N1.
  destruct (tick_names rg now) as [[rg' qs] ex] eqn:T. cbn [fst] in *.
  apply Forall_forall. intros [n p] Hin. cbn [snd]. pose proof (In_aget _ _ _ N1 Hin) as G.
  pose proof (tick_names_aget rg now rg' qs ex n Hnd T) as A.
  destruct (aget n (rg_probing rg)) as [p0|]; [|destruct A as (A & _); congruence].
  destruct (sends now p0) eqn:S; [|destruct (expires now p0) eqn:X]; destruct A as (_ & _ & A); rewrite A in G; inversion G; subst p.
  - unfold tick_probe. rewrite S. cbn [pb_next]. rewrite probe_next_send_pinned. lia.
  - unfold sends, expires in S, X. destruct (probe_due (pb_next p0) now) eqn:D.
    + destruct (probe_expired (pb_start p0) now); discriminate.
    + rewrite probe_due_pinned in D. apply N.leb_gt in D. lia.
Qed.

Lemma pass_ge itf st now js k rg : regs_nodup st ->
  nget k (d_regs (fst (fst (pass itf st now js)))) = Some rg ->
  (k = if_index itf /\ probes_ge now rg) \/ (k <> if_index itf /\ nget k (d_regs st) = Some rg).
Proof.
  intros Hnd. unfold pass. destruct (nget (if_index itf) (d_regs st)) as [rg0|] eqn:G0.
  - pose proof (probe_step_ge rg0 now (nget_Forall RPn _ _ _ Hnd G0)) as H1.
    destruct (probe_step rg0 now) as [[[rg1 qs] evs] waiting]. cbn [fst] in H1.
    pose proof (joins_ge _ _ _ _ (announce_waiting_Ops itf now (d_mon st) waiting rg1 (d_svcs st) js) H1) as H2.
    destruct (announce_waiting waiting itf rg1 (d_svcs st) now js (d_mon st)) as [[[[rg2 svcs2] os2] rt2] js2]. cbn [fst d_regs] in *.
    rewrite nget_nset. destruct (k =? if_index itf) eqn:E.
    + apply N.eqb_eq in E. intros X. inversion X; subst. left. split; [reflexivity|exact H2].
    + apply N.eqb_neq in E. intros X. right. split; assumption.
  - cbn [fst]. intros X. right. split; [intros ->; congruence|exact X].
Qed.

Lemma probing_intfs_ge now : forall ifs st js k rg, regs_nodup st ->
  nget k (d_regs (fst (fst (probing_intfs ifs st now js)))) = Some rg ->
  (In k (map if_index ifs) /\ probes_ge now rg) \/ (~ In k (map if_index ifs) /\ nget k (d_regs st) = Some rg).
Proof.
  induction ifs as [|itf t IH]; intros st js k rg Hnd G; [right; split; [intros []|exact G]|]. rewrite probing_intfs_cons in G.
  pose proof (pass_nodup itf st now js Hnd) as N1. pose proof (pass_ge itf st now js k rg Hnd) as P1.
  destruct (pass itf st now js) as [[st1 os1] js1]. cbn [fst] in N1, P1.
  specialize (IH st1 js1 k rg N1). destruct (probing_intfs t st1 now js1) as [[st2 os2] js2]. cbn [fst] in *.
  destruct (IH G) as [[I H]|[NI G1]]; [left; split; [right; exact I|exact H]|].
  destruct (P1 G1) as [[E H]|[NE G0]]; [left; split; [left; symmetry; exact E|exact H]|right; split; [|exact G0]].
  intros [E|I]; [apply NE; symmetry; exact E|exact (NI I)].
Qed.

(* No overdue probe step, in all histories: after every iteration that leaves the daemon running, on
   every interface it has, every probe still in progress has its next step at `now` or later (due
   steps were sent, finished probes were activated); with iterate_queue_future: nothing of the
   registry layer's time-driven work is left overdue by an iteration *)
Theorem no_overdue_probe_all_histories ifs os its it st' outs js :
  iterate (run_state (d_init_os ifs os) its) it = (st', outs, Running, js) ->
  forall itf rg, In itf (d_intfs st') -> nget (if_index itf) (d_regs st') = Some rg -> probes_ge (it_now it) rg.
Proof.
  pose proof (regs_nodup_all_histories ifs os its) as Hnd. set (st := run_state (d_init_os ifs os) its) in *.
  intros H. apply iterate_running in H as (_ & st1 & os1 & js1 & st2 & os2 & js2 & st3 & os3 & js3 & os4 & E1 & E2 & _ & E3 & E4 & _).
  pose proof (handle_dgrams_nodup (it_now it) (it_gs it) st (it_jitter it) Hnd) as H1. rewrite E1 in H1.
  pose proof (exec_calls_nodup (it_now it) (it_calls it) st1 js1 H1) as H2. rewrite E2 in H2.
  pose proof (retransmit_nodup st2 (it_now it) js2 H2) as H3. rewrite E3 in H3. cbn [fst] in H3.
  intros itf rg Hin G. pose proof (probing_intfs_grows (it_now it) (d_intfs st3) st3 js3) as (EI & _). rewrite E4 in EI. cbn [fst] in EI.
  pose proof (probing_intfs_ge (it_now it) (d_intfs st3) st3 js3 (if_index itf) rg H3) as K. rewrite E4 in K. cbn [fst] in K.
  destruct (K G) as [[_ H]|[NI _]]; [exact H|]. destruct NI. rewrite <- EI. apply in_map. exact Hin.
Qed.

Lemma reg_due_le rg n p : In (n, p) (rg_probing rg) -> exists d, reg_due rg = Some d /\ d <= pb_next p.
Proof.
  unfold reg_due. generalize (@None N). induction (rg_probing rg) as [|[n0 p0] t IH]; intros acc Hin; [contradiction|].
  cbn [fold_left snd].
  assert (K : forall (l : list (bytes * probe)) (a : N), exists d, fold_left (fun (acc : option N) (np : bytes * probe) => match acc with None => Some (pb_next (snd np)) | Some m => Some (N.min m (pb_next (snd np))) end) l (Some a) = Some d /\ d <= a).
  { induction l as [|[n1 p1] l IHl]; intros a; cbn [fold_left snd]; [exists a; split; [reflexivity|lia]|].
    destruct (IHl (N.min a (pb_next p1))) as (d & E & L). exists d. split; [exact E|lia]. }
  destruct Hin as [E|Hin].
  - inversion E; subst. destruct acc as [m|].
    + destruct (K t (N.min m (pb_next p))) as (d & E1 & L). exists d. split; [exact E1|lia].
    + destruct (K t (pb_next p)) as (d & E1 & L). exists d. split; [exact E1|exact L].
  - apply IH. exact Hin.
Qed.

Lemma fold_regs_due_le (regs : list (N * registry)) : forall acc t,
  ((exists k rg n p, In (k, rg) regs /\ In (n, p) (rg_probing rg) /\ pb_next p <= t) \/ exists a, acc = Some a /\ a <= t) ->
  exists d, fold_left (fun acc ir => opt_min acc (reg_due (snd ir))) regs acc = Some d /\ d <= t.
Proof.
  induction regs as [|[k0 rg0] regs IH]; intros acc t H; cbn [fold_left snd].
  - destruct H as [(k & rg & n & p & [] & _)|(a & -> & Ha)]. exists a. split; [reflexivity|exact Ha].
  - apply IH. destruct H as [(k & rg & n & p & [E|I] & Ip & L)|(a & -> & Ha)].
    + inversion E; subst. right. destruct (reg_due_le rg n p Ip) as (d & Ed & Ld). rewrite Ed.
      destruct acc as [a|]; cbn [opt_min]; eexists; split; try reflexivity; lia.
    + left. exists k, rg, n, p. auto.
    + right. destruct (reg_due rg0) as [d|]; cbn [opt_min]; eexists; split; try reflexivity; lia.
Qed.
(* a probe step pending at time t: the model's due work is at most t *)
Lemma due_work_covers_probe st k rg n p :
  nget k (d_regs st) = Some rg -> In (n, p) (rg_probing rg) -> exists d, due_work st = Some d /\ d <= pb_next p.
Proof.
  intros G Hin. unfold due_work.
  destruct (fold_regs_due_le (d_regs st) None (pb_next p)) as (d0 & E0 & L0).
  { left. exists k, rg, n, p. split; [apply nget_In; exact G|split; [exact Hin|lia]]. }
  rewrite E0. destruct (d_retrans st) as [|[t0 c0] l] eqn:ER.
  - exists d0. split; [reflexivity|exact L0].
  - apply (fold_due_le _ _ (pb_next p) c0). right. exists d0. split; [reflexivity|exact L0].
Qed.

Lemma aget_filter_same {V} n : forall l : list (bytes * V), aget n (filter (fun kv => negb (beq (fst kv) n)) l) = None.
Proof.
  induction l as [|[k v] t IH]; [reflexivity|]. cbn [filter fst]. destruct (beq k n) eqn:B; cbn [negb]; [exact IH|].
  cbn [aget]. destruct (beq n k) eqn:B2; [apply beq_eq in B2; subst; rewrite beq_refl in B; discriminate|exact IH].
Qed.

Lemma aget_filter_other {V} n m : m <> n -> forall l : list (bytes * V), aget m (filter (fun kv => negb (beq (fst kv) n)) l) = aget m l.
Proof.
  intros Hne. induction l as [|[k v] t IH]; [reflexivity|]. cbn [filter fst aget]. destruct (beq k n) eqn:B; cbn [negb].
  - apply beq_eq in B. subst k. destruct (beq m n) eqn:B2; [apply beq_eq in B2; contradiction|exact IH].
  - cbn [aget]. destruct (beq m k); [reflexivity|exact IH].
Qed.

Lemma aget_filter_none {V} n m : forall l : list (bytes * V), aget m l = None -> aget m (filter (fun kv => negb (beq (fst kv) n)) l) = None.
Proof.
  intros l H. destruct (beq m n) eqn:B; [apply beq_eq in B; subst; apply aget_filter_same|].
  rewrite aget_filter_other; [exact H|]. intros ->. rewrite beq_refl in B. discriminate.
Qed.

Lemma nget_forget_regs full i : forall regs, nget i (forget_regs full regs) = option_map (forget_service full) (nget i regs).
Proof.
  induction regs as [|[k rg] t IH]; [reflexivity|]. cbn [forget_regs map nget fst snd]. destruct (i =? k); [reflexivity|exact IH].
Qed.

(* no entry under the registered full name or under the name the service currently has there *)
Lemma forget_service_none full rg n :
  n = full \/ n = resolve_name rg full ->
  aget n (rg_probing (forget_service full rg)) = None /\ aget n (rg_active (forget_service full rg)) = None /\
  aget n (rg_changes (forget_service full rg)) = None.
Proof.
  unfold forget_service, forget_name. cbn [rg_probing rg_active rg_changes]. intros [->| ->].
  - repeat split; apply aget_filter_none, aget_filter_same.
  - repeat split; apply aget_filter_same.
Qed.

