(* The checkers of C04 and C05 run on the model's own trace: a checker reports no failure of a
   kind p when an invariant relating its state to the model's state is kept by every iteration
   (viol_sim).  Here the scheme, what step05 does with one iteration's outputs, and the three
   C05 theorems over histories. *)
From Coq Require Import List NArith Bool Lia.
From Mdns Require Import Bytes Browser C03Spec BrowserSpec BrowserKnown CacheInvProofs BrowserProofs SpecTrackProofs BrowserLoopProofs C05SafetyProofs C04OrderProofs C05AgainProofs C05TimelyProofs.
Import ListNotations.
Open Scope N_scope.

Definition none_of (p : fail -> bool) (fs : list fail) : Prop := forall f, In f fs -> p f = false.

Lemma none_of_nil p : none_of p [].
Proof. intros f []. Qed.

Lemma none_of_one p f : p f = false -> none_of p [f].
Proof. intros H g [<-|[]]. exact H. Qed.

Lemma none_of_app p a b : none_of p a -> none_of p b -> none_of p (a ++ b).
Proof. intros Ha Hb f Hf. apply in_app_iff in Hf as [Hf|Hf]; auto. Qed.

Lemma none_of_flat_map {A} p (g : A -> list fail) l : (forall a, In a l -> none_of p (g a)) -> none_of p (flat_map g l).
Proof. intros H f Hf. apply in_flat_map in Hf as [a [Ha Hf]]. exact (H a Ha f Hf). Qed.

Lemma none_of_fold {A B} p (g : A * list fail -> B -> A * list fail) :
  (forall acc i, none_of p (snd acc) -> none_of p (snd (g acc i))) ->
  forall l acc, none_of p (snd acc) -> none_of p (snd (fold_left g l acc)).
Proof. intros Hg. induction l as [|i t IH]; intros acc H; simpl; [exact H|]. apply IH, Hg, H. Qed.

(* the two checkers share the loop over the history *)
Fixpoint viol_gen {T} (step : N -> T -> iter -> option N -> obs -> T * list fail)
    (k : N) (t : T) (h : list iter) (wakes : list (option N)) (tr : list obs) : list fail :=
  match h, wakes, tr with
  | [], [], [] => []
  | it :: h', w :: wakes', ob :: tr' =>
    let '(t1, fs) := step k t it w ob in fs ++ viol_gen step (k + 1) t1 h' wakes' tr'
  | _, _, _ => [F_len]
  end.

Lemma viol05_gen ifs : forall h k t wakes tr, viol05_from ifs k t h wakes tr = viol_gen (step05 ifs) k t h wakes tr.
Proof.
  induction h as [|it h IH]; intros k t wakes tr; [reflexivity|]. destruct wakes, tr; try reflexivity.
  simpl. destruct (step05 ifs k t it o o0). now rewrite IH.
Qed.

Lemma viol04_gen ifs : forall h k t wakes tr, viol04_from ifs k t h wakes tr = viol_gen (step04 ifs) k t h wakes tr.
Proof.
  induction h as [|it h IH]; intros k t wakes tr; [reflexivity|]. destruct wakes, tr; try reflexivity.
  simpl. destruct (step04 ifs k t it o o0). now rewrite IH.
Qed.

(* J relates checker state, model state and a ghost g before the remaining history h.  In every use below the
   failure kinds are treated one by one as "either p ignores this kind, or the clause that rules it out holds"
   (the disjunctive hypotheses of fold_ev05_spec / step05_spec / step04_spec). *)
Lemma viol_sim {T G} (step : N -> T -> iter -> option N -> obs -> T * list fail) ifs p
    (J : N -> T -> st -> G -> list iter -> Prop) :
  p F_len = false ->
  (forall k t s g it h w, J k t s g (it :: h) ->
     none_of p (snd (step k t it w (obs_of (snd (iterate ifs s it)))))
     /\ exists g', J (k + 1) (fst (step k t it w (obs_of (snd (iterate ifs s it))))) (fst (iterate ifs s it)) g' h) ->
  forall h k t s g wakes, J k t s g h -> none_of p (viol_gen step k t h wakes (map obs_of (run_from ifs s h))).
Proof.
  intros Hlen Hstep. induction h as [|it h IH]; intros k t s g wakes HJ.
  - destruct wakes; [apply none_of_nil|now apply none_of_one].
  - simpl. destruct (iterate ifs s it) as [s1 o] eqn:Eit. destruct wakes as [|w wakes']; [now apply none_of_one|].
    destruct (Hstep k t s g it h w HJ) as [Hfs [g' HJ']]. rewrite Eit in Hfs, HJ'. cbn [fst snd map] in *.
    destruct (step k t it w (obs_of o)) as [t1 fs]. apply none_of_app; [exact Hfs|]. exact (IH _ _ _ _ _ HJ').
Qed.

(* the ghost of the theorems over histories: the deliveries so far, the time of the last iteration,
   the largest channel number a browse call has used *)
Definition ghost : Type := list dlv * N * N.
Definition g_log (g : ghost) : list dlv := fst (fst g).
Definition g_now (g : ghost) : N := snd (fst g).
Definition g_chan (g : ghost) : N := snd g.

(* what every history-level invariant carries: the cache invariant for the log so far, time, the
   spec cache, and the whole log inside the class-free log Lf *)
Definition Base (Lf : list dlv) (ifs : iftab) (sp : spec) (s : st) (prev : list dlv) (t0 : N) (h : list iter) : Prop :=
  Inv prev (s_cache s) /\ times_le prev t0 /\ times_mono t0 h = true /\ tracks s sp
  /\ incl (prev ++ flat_map (iter_dlvs ifs) h) Lf.

Lemma Base_step Lf ifs sp s prev t0 it h :
  Base Lf ifs sp s prev t0 (it :: h) ->
  t0 <= i_now it /\ times_le prev (i_now it) /\ incl prev Lf /\ incl (prev ++ iter_dlvs ifs it) Lf
  /\ Base Lf ifs (snd (iter_snaps ifs sp it)) (fst (iterate ifs s it)) (prev ++ iter_dlvs ifs it) (i_now it) h.
Proof.
  intros (HI & Ht & Hm & Htr & Hsub). simpl in Hm. apply andb_true_iff in Hm as [Hm1 Hm2]. apply N.leb_le in Hm1.
  assert (Ht' : times_le prev (i_now it)) by (intros d Hd; specialize (Ht d Hd); lia).
  split; [exact Hm1|]. split; [exact Ht'|]. split; [intros x Hx; apply Hsub, in_app_iff; now left|].
  split; [intros x Hx; apply Hsub; simpl; rewrite !in_app_iff in *; tauto|].
  split; [apply (iterate_ok ifs prev s it HI Ht')|]. split.
  - intros d Hd. apply in_app_iff in Hd as [Hd|Hd]; [now apply Ht'|]. rewrite (iter_dlvs_times _ _ _ Hd). lia.
  - split; [exact Hm2|]. split; [apply tracks_iterate, Htr|].
    intros x Hx. apply Hsub. simpl. rewrite !in_app_iff in *. tauto.
Qed.

Lemma Base_init Lf ifs h : wf_history h = true -> incl (log_of_history ifs h) Lf -> Base Lf ifs init_spec init_st [] 0 h.
Proof.
  intros Hwf Hsub. split; [apply Inv_empty|]. split; [intros d []|]. split; [exact Hwf|].
  split; [split; [apply ceqr_refl|reflexivity]|exact Hsub].
Qed.

Lemma fold_ev05_spec k now snaps log p : forall o ups D fs,
  (forall j ch ty i, p (F05_alive j ch ty i) = false) \/ Forall (rmok snaps now) o ->
  (forall j ch i, p (F05_again j ch i) = false) \/ again_ok k log D o ->
  none_of p fs ->
  let r := fold_left (ev05 k now snaps log) (evs o) (ups, D, fs) in
  fst (fst r) = upsf ups o /\ snd (fst r) = deads k D o /\ none_of p (snd r).
Proof.
  induction o as [|x t IH]; intros ups D fs Ha Hg Hfs; [simpl; auto|].
  assert (Ha' : (forall j ch ty i, p (F05_alive j ch ty i) = false) \/ Forall (rmok snaps now) t)
    by (destruct Ha as [Ha|Ha]; [now left|right; now inversion Ha]).
  assert (Hg' : (forall j ch i, p (F05_again j ch i) = false) \/ again_ok k log (dead_step k D x) t)
    by (destruct Hg as [Hg|Hg]; [now left|right; apply Hg]).
  rewrite evs_cons, fold_left_app. destruct x as [c [ty i|r|ty i]|qs|c l]; cbn [fold_left ev05 fst snd app].
  - apply (IH ups D fs Ha' Hg' Hfs).
  - apply (IH _ _ _ Ha' Hg'). match goal with |- none_of p (if ?b then _ else _) => destruct b eqn:E end; [|exact Hfs].
    apply none_of_app; [exact Hfs|]. apply none_of_one. destruct Hg as [Hg|[Hx _]]; [apply Hg|]. exfalso.
    apply existsb_exists in E as [y [Hy Hc]]. apply andb_true_iff in Hc as [Hd Hn]. apply negb_true_iff in Hn.
    destruct (Hx y Hy Hd) as (jd & A & B & C). pose proof (existsb_false_forall _ _ Hn jd A) as Hf. cbv beta in Hf.
    rewrite C, andb_true_r in Hf. apply N.leb_gt in Hf. lia.
  - apply (IH _ _ _ Ha' Hg'). match goal with |- none_of p (if ?b then _ else _) => destruct b eqn:E end; [exact Hfs|].
    apply none_of_app; [exact Hfs|]. apply none_of_one. destruct Ha as [Ha|Ha]; [apply Ha|]. exfalso.
    inversion Ha as [|? ? Hx _]; subst. simpl in Hx. congruence.
  - apply (IH ups D fs Ha' Hg' Hfs).
  - apply (IH ups D fs Ha' Hg' Hfs).
Qed.

Lemma step05_spec ifs k t it w o p :
  (forall j ch ty i, p (F05_wake j ch ty i) = false) ->
  (forall j ch ty i, p (F05_alive j ch ty i) = false)
  \/ Forall (rmok (fst (fst (iter_snaps ifs (t5_sp t) it)) ++ [snd (fst (iter_snaps ifs (t5_sp t) it)); snd (iter_snaps ifs (t5_sp t) it)])
                  (i_now it)) o ->
  (forall j ch i, p (F05_again j ch i) = false)
  \/ again_ok k (t5_log t ++ map (fun d => (k, d)) (iter_dlvs ifs it)) (t5_dead t) o ->
  (forall j ch ty i a b, p (F05_dead j ch ty i a b) = false)
  \/ (forall u, In u (ups_current (sp_q (snd (iter_snaps ifs (t5_sp t) it))) (upsf (t5_ups t) o)) ->
        alive_weak (sp_c (snd (iter_snaps ifs (t5_sp t) it))) (i_now it) (fst (snd u)) (snd (snd u)) = true) ->
  let r := step05 ifs k t it w (obs_of o) in
  none_of p (snd r)
  /\ t5_sp (fst r) = snd (iter_snaps ifs (t5_sp t) it)
  /\ t5_ups (fst r) = ups_current (sp_q (snd (iter_snaps ifs (t5_sp t) it))) (upsf (t5_ups t) o)
  /\ t5_dead (fst r) = filter (fun x => existsb (fun tc => snd tc =? fst x) (sp_q (snd (iter_snaps ifs (t5_sp t) it))))
                              (deads k (t5_dead t) o)
  /\ t5_log (fst r) = t5_log t ++ map (fun d => (k, d)) (iter_dlvs ifs it).
Proof.
  intros Hw Ha Hg Hd. unfold step05. cbv zeta. destruct (iter_snaps ifs (t5_sp t) it) as [[ds sp2] sp3]. cbn [fst snd] in *.
  pose proof (fold_ev05_spec k (i_now it) (ds ++ [sp2; sp3]) _ p o (t5_ups t) (t5_dead t) [] Ha Hg (none_of_nil p)) as Hf.
  cbv zeta in Hf. unfold dlist in Hf. fold (evs o). revert Hf.
  destruct (fold_left (ev05 k (i_now it) (ds ++ [sp2; sp3]) (t5_log t ++ map (fun d => (k, d)) (iter_dlvs ifs it)))
                      (evs o) (t5_ups t, t5_dead t, [])) as [[ups1 dead1] fs1].
  cbn [fst snd t5_sp t5_ups t5_dead t5_log]. intros (-> & -> & Hf1). split; [|repeat split].
  apply none_of_app; [exact Hf1|]. apply none_of_app; apply none_of_flat_map; intros u Hu.
  - destruct (alive_weak (sp_c sp3) (i_now it) (fst (snd u)) (snd (snd u))) eqn:E; [apply none_of_nil|].
    apply none_of_one. destruct Hd as [Hd|Hd]; [apply Hd|]. rewrite (Hd u Hu) in E. discriminate.
  - match goal with |- none_of p (if ?b then _ else _) => destruct b end; [apply none_of_nil|apply none_of_one, Hw].
Qed.

Lemma safe_class_elim ifs h :
  safe_class ifs h = true ->
  known_ptr_variant (log_of_history ifs h) = false /\ known_srv_targets (log_of_history ifs h) = false
  /\ ptr_names_ok (log_of_history ifs h) = true.
Proof.
  unfold safe_class. intros H. apply andb_true_iff in H as [H Hn]. apply andb_true_iff in H as [Hv Ht].
  apply negb_true_iff in Hv, Ht. auto.
Qed.

(* C05, safety: outside the classes "PTR variants" and "two SRV targets" (and with no PTR record
   whose owner or target is the root name) the checker never reports "ServiceRemoved while PTR,
   SRV and address have more than one second left" on the model's trace - whatever the
   wake-ups, for every history in which time does not run backwards. *)
Theorem removed_only_when_true ifs h wakes :
  wf_history h = true -> safe_class ifs h = true ->
  forall f, In f (viol_C05 ifs h wakes (map obs_of (run_history ifs h))) -> is_alive_fail f = false.
Proof.
  intros Hwf Hsafe. destruct (safe_class_elim ifs h Hsafe) as (Hv & Ht & Hn).
  unfold viol_C05, run_history. rewrite viol05_gen.
  apply (viol_sim (step05 ifs) ifs is_alive_fail
           (fun _ t s (g : ghost) h0 => Base (log_of_history ifs h) ifs (t5_sp t) s (g_log g) (g_now g) h0))
    with (g := ([], 0, 0)); [reflexivity| |apply (Base_init _ ifs h Hwf), incl_refl].
  intros k t s [[prev t0] m] it h0 w HB. cbn [g_log g_now fst snd] in *.
  destruct (Base_step _ _ _ _ _ _ _ _ HB) as (_ & Ht' & _ & Hsub1 & HB'). destruct HB as (HI & _ & _ & Htr & _).
  pose proof (iterate_rmok _ Hv Ht Hn ifs prev s (t5_sp t) it HI Ht' Htr Hsub1) as Hrm.
  destruct (step05_spec ifs k t it w (snd (iterate ifs s it)) is_alive_fail) as (Hfs & Hsp & _);
    [reflexivity| |now left|now left|].
  - right. destruct (iter_snaps ifs (t5_sp t) it) as [[ds sp2] sp3]. exact Hrm.
  - split; [exact Hfs|]. exists (prev ++ iter_dlvs ifs it, i_now it, m). cbn [g_log g_now fst snd]. now rewrite Hsp.
Qed.

(* C05, safety, second half: with increasing channel numbers in addition, the checker never
   reports "ServiceResolved after ServiceRemoved of the same instance on the same channel with no
   record of the instance or its host delivered in between". *)
Theorem no_resolved_again ifs h wakes :
  wf_history h = true -> safe_class ifs h = true -> fresh_channels h = true ->
  forall f, In f (viol_C05 ifs h wakes (map obs_of (run_history ifs h))) -> is_again_fail f = false.
Proof.
  intros Hwf Hsafe Hfr. destruct (safe_class_elim ifs h Hsafe) as (Hv & Ht & Hn). set (Lf := log_of_history ifs h) in *.
  unfold viol_C05, run_history. rewrite viol05_gen.
  apply (viol_sim (step05 ifs) ifs is_again_fail
           (fun k t s (g : ghost) h0 =>
              Base Lf ifs (t5_sp t) s (g_log g) (g_now g) h0
              /\ DI Lf (t5_log t) (s_cache s) (s_q s) (g_now g) (t5_dead t) /\ side k (s_q s) (t5_dead t) (g_chan g)
              /\ fresh_channels_from (g_chan g) h0 = true))
    with (g := ([], 0, 0)); [reflexivity| |].
  2:{ split; [apply (Base_init _ ifs h Hwf), incl_refl|]. split; [intros ch inst j ty []|].
      split; [|exact Hfr]. split; [constructor|]. split; [intros tc []|intros y []]. }
  intros k t s [[prev t0] m] it h0 w (HB & HD & Hs & Hf). cbn [g_log g_now g_chan fst snd] in *.
  destruct (Base_step _ _ _ _ _ _ _ _ HB) as (Hm1 & Ht' & Hsub0 & Hsub1 & HB'). destruct HB as (HI & _).
  simpl in Hf. destruct (calls_fresh m (i_calls it)) as [m'|] eqn:Ecf; [|discriminate].
  set (log := t5_log t ++ map (fun d => (k, d)) (iter_dlvs ifs it)).
  assert (Hcur : forall x, In x (iter_dlvs ifs it) -> In (k, x) log)
    by (intros x Hx; apply in_app_iff; right; apply in_map_iff; eauto).
  assert (Hg : good5 Lf k log (i_now it) prev s (t5_dead t) m).
  { split; [exact HI|]. split; [exact Ht'|]. split; [exact Hsub0|]. split; [|exact Hs].
    apply (DI_mono Lf (t5_log t) log _ _ t0); [|exact Hm1|exact HD]. intros x Hx. apply in_app_iff. now left. }
  destruct (iterate_again Lf Hv Ht Hn k log (i_now it) (iter_dlvs ifs it) Hcur ifs prev s it (t5_dead t) m m' eq_refl eq_refl
              (fun x Hx => Hsub1 x (proj2 (in_app_iff _ _ _) (or_intror Hx))) Hg Ecf) as [Hok (_ & _ & _ & HD1 & Hs1)].
  destruct (step05_spec ifs k t it w (snd (iterate ifs s it)) is_again_fail) as (Hfs & Hsp & _ & Hdead & Hlog);
    [reflexivity|now left|now right|now left|].
  split; [exact Hfs|]. exists (prev ++ iter_dlvs ifs it, i_now it, m'). cbn [g_log g_now g_chan fst snd]. rewrite Hsp, Hdead, Hlog.
  assert (Hinc : forall (D : dlist) q0, incl (filter (fun x => existsb (fun tc : bytes * N => snd tc =? fst x) q0) D) D)
    by (intros D q0 y Hy; apply filter_In in Hy; tauto).
  split; [exact HB'|]. split; [eapply DI_incl; [apply Hinc|exact HD1]|]. split; [|exact Hf].
  apply (side_mono k); [lia|]. eapply side_incl; [apply Hinc|exact Hs1].
Qed.

(* C05, timeliness: outside the known classes the checker never reports "still reported resolved
   at the end of an iteration although PTR, SRV or every address of the SRV's host has run out"
   on the model's trace - whatever the wake-ups: in the first iteration at or after the instant
   a goodbye's second, a TTL or a verify deadline runs out, the ServiceRemoved is emitted. *)
Theorem removed_on_time ifs h wakes :
  wf_history h = true -> timely_class ifs h = true ->
  forall f, In f (viol_C05 ifs h wakes (map obs_of (run_history ifs h))) -> is_dead_fail f = false.
Proof.
  intros Hwf Hcls. unfold timely_class in Hcls.
  apply andb_true_iff in Hcls as [Hcls Hhid]. apply andb_true_iff in Hcls as [Hcls Hstop].
  apply andb_true_iff in Hcls as [Hsafe Hfr]. apply negb_true_iff in Hhid, Hstop.
  destruct (safe_class_elim ifs h Hsafe) as (_ & Ht & Hn). set (Lf := log_of_history ifs h) in *.
  assert (Hok : forall it cl, In it h -> In cl (i_calls it) -> call_ok Lf cl).
  { intros it cl Hit Hcl. destruct cl as [ty ch|ty2|inst timeout|ch]; simpl; try exact I.
    intros d d' Hd Hd' T1 N1 T2 N2 Ha. unfold known_stop_second_name in Hstop.
    pose proof (existsb_false_forall _ _ (existsb_false_forall _ _ Hstop it Hit) (CStop ty2) Hcl) as H1. cbv beta in H1.
    pose proof (existsb_false_forall _ _ H1 d Hd) as H2. cbv beta in H2.
    rewrite T1, N1, N.eqb_refl, beq_refl in H2. simpl in H2.
    pose proof (existsb_false_forall _ _ H2 d' Hd') as H3. cbv beta in H3.
    rewrite T2, N.eqb_refl, Ha, beq_refl in H3. simpl in H3. rewrite andb_true_r in H3.
    apply negb_false_iff in H3. apply beq_eq in H3. contradiction. }
  unfold viol_C05, run_history. rewrite viol05_gen.
  apply (viol_sim (step05 ifs) ifs is_dead_fail
           (fun _ t s (g : ghost) h0 =>
              Base Lf ifs (t5_sp t) s (g_log g) (g_now g) h0
              /\ UI s (t5_ups t) /\ sideU (s_q s) (t5_ups t) (g_chan g) /\ fresh_channels_from (g_chan g) h0 = true
              /\ (forall it cl, In it h0 -> In cl (i_calls it) -> call_ok Lf cl) /\ known_hidden_from ifs s h0 = false))
    with (g := ([], 0, 0)); [reflexivity| |].
  2:{ split; [apply (Base_init _ ifs h Hwf), incl_refl|]. split; [intros ch ty inst []|].
      split; [split; [intros tc []|intros u []]|]. auto. }
  intros k t s [[prev t0] m] it h0 w (HB & HU & HS & Hf & Hc & Hh). cbn [g_log g_now g_chan fst snd] in *.
  destruct (Base_step _ _ _ _ _ _ _ _ HB) as (_ & _ & Hsub0 & Hsub1 & HB'). destruct HB as (HI & _).
  simpl in Hf, Hh. destruct (calls_fresh m (i_calls it)) as [m'|] eqn:Ecf; [|discriminate].
  apply orb_false_iff in Hh as [Hh1 Hh2].
  destruct (iterate_timely Lf Ht Hn (i_now it) ifs prev s it (t5_ups t) m m' eq_refl
              (conj HI (conj Hsub0 (conj HU HS))) Hsub1 Ecf (fun cl Hcl => Hc it cl (or_introl eq_refl) Hcl) Hh1)
    as [(_ & _ & HU1 & HS1) Hl].
  pose proof HB' as (_ & _ & _ & [Hceq Hq] & _).
  destruct (step05_spec ifs k t it w (snd (iterate ifs s it)) is_dead_fail) as (Hfs & Hsp & Hups & _);
    [reflexivity|now left|now left| |].
  - right. intros [ch [ty inst]] Hin. cbn [fst snd]. apply filter_In in Hin as [Hin Hcur]. cbn [fst snd] in Hcur.
    destruct (q_get ty (sp_q (snd (iter_snaps ifs (t5_sp t) it)))) as [ch'|] eqn:Eq; [|discriminate].
    apply N.eqb_eq in Hcur. subst ch'. rewrite <- Hq in Eq. destruct (HU1 ch ty inst Hin Eq) as [Hp _].
    rewrite <- (alive_weak_ceqr _ _ (i_now it) ty inst Hceq). exact (present_alive_weak _ _ ty inst Hl Hp).
  - split; [exact Hfs|]. exists (prev ++ iter_dlvs ifs it, i_now it, m'). cbn [g_log g_now g_chan fst snd]. rewrite Hsp, Hups.
    assert (Hinc : incl (ups_current (sp_q (snd (iter_snaps ifs (t5_sp t) it))) (upsf (t5_ups t) (snd (iterate ifs s it))))
                        (upsf (t5_ups t) (snd (iterate ifs s it))))
      by (intros y Hy; apply filter_In in Hy; tauto).
    split; [exact HB'|]. split; [intros ch ty inst Hu; apply (HU1 ch ty inst (Hinc _ Hu))|].
    split; [destruct HS1 as [A B]; split; [exact A|intros u Hu; apply B, Hinc, Hu]|].
    split; [exact Hf|]. split; [intros it0 cl Hit; apply (Hc it0 cl (or_intror Hit))|exact Hh2].
Qed.
