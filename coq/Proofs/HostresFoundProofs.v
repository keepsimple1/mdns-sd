(* C17 addresses_found_spec, history level: every address in an AddressesFound event was
   received in an address record with exactly that owner spelling, on exactly that interface,
   whose TTL had not run out at the previous iteration; and the event goes to the search whose
   name equals the reported spelling in lower case.  Invariant of the address cache over
   arbitrary histories of the reference machine.  No axioms. *)
From Coq Require Import List NArith Bool Lia.
From Mdns Require Import Bytes ListFacts HostresBase HostresModel HostresSpec HostresPinned HostresBaseFacts
                         HostresSpecFacts HostresCacheProofs HostresSchedProofs.
Import ListNotations.
Open Scope N_scope.

(* an address record delivered at time t on interface ifx *)
Definition deliv : Type := (N * N * inrec)%type.

Definition msg_delivs (now : N) (m : msg) : list deliv :=
  map (fun r => (now, m_if m, r)) (filter (fun r => is_addr_ty (i_ty r)) (m_recs m)).
Definition iter_delivs (i : iter) : list deliv := flat_map (msg_delivs (it_now i)) (it_msgs i).
Definition deliveries (h : list iter) : list deliv := flat_map iter_delivs h.

(* x is (a later state of) the cache entry made from a delivery of D *)
Definition prov (D : list deliv) (x : arec) : Prop :=
  exists t ifx r, In (t, ifx, r) D /\ ident x = ident (arec_of t ifx r)
                  /\ l_created (a_life x) = t /\ l_ttl (a_life x) = wire_ttl (i_ttl r).

Definition entry_good (D : list deliv) (prev : N) (x : arec) : Prop :=
  prov D x /\ life_wf (a_life x) /\ prev < l_expires (a_life x).

Definition cache_good (D : list deliv) (prev : N) (c : cache) : Prop :=
  (forall x, In x (entries c) -> entry_good D prev x)
  /\ (forall k b, In (k, b) c -> forall x, In x b -> lower (a_name x) = k).

(* the invariant carried through the histories: cache_good, and one bucket per name (eviction
   drops emptied buckets, so a second bucket of the same name would surface) *)
Definition lname (x : arec) : name := lower (a_name x).
Definition cache_inv (D : list deliv) (prev : N) (c : cache) : Prop :=
  cache_good D prev c /\ NoDup (map fst c).

Lemma cache_inv_wf D prev c : cache_inv D prev c -> kmap_wf lname c.
Proof. intros [[_ H2] H3]. split; assumption. Qed.

Lemma cache_inv_intro D prev c :
  kmap_wf lname c -> (forall x, In x (entries c) -> entry_good D prev x) -> cache_inv D prev c.
Proof. intros [H1 H2] H. split; [split|]; assumption. Qed.

Lemma cache_inv_entry D prev c x : cache_inv D prev c -> In x (entries c) -> entry_good D prev x.
Proof. intros [[H _] _]. apply H. Qed.

Lemma cache_inv_nil D prev : cache_inv D prev [].
Proof. split; [split; [intros x []|intros k b []]|constructor]. Qed.

Lemma cache_inv_incl D D' prev c : incl D D' -> cache_inv D prev c -> cache_inv D' prev c.
Proof.
  intros Hi Hc. apply cache_inv_intro; [eapply cache_inv_wf; exact Hc|].
  intros x Hx. destruct (cache_inv_entry _ _ _ _ Hc Hx) as [[t [ifx [r [H1 H2]]]] Hr].
  split; [exists t, ifx, r; split; [apply Hi; exact H1|exact H2]|exact Hr].
Qed.

Lemma bucket_inv D prev c k x :
  cache_inv D prev c -> In x (bucket_of c k) -> entry_good D prev x /\ lname x = k.
Proof.
  intros Hc Hx. split.
  - apply (cache_inv_entry _ _ _ _ Hc). apply (bucket_in_ents c k). exact Hx.
  - apply (bucket_key lname c k x (cache_inv_wf _ _ _ Hc) Hx).
Qed.

Lemma cache_inv_aset D prev c k b' :
  cache_inv D prev c -> (forall y, In y b' -> entry_good D prev y /\ lname y = k) ->
  cache_inv D prev (aset k b' c).
Proof.
  intros Hc Hb'. apply cache_inv_intro.
  - apply kmap_wf_aset; [eapply cache_inv_wf; exact Hc|]. intros y Hy. apply Hb'. exact Hy.
  - intros y Hy. apply ents_aset_in in Hy as [Hy|Hy]; [apply Hb'; exact Hy|apply (cache_inv_entry _ _ _ _ Hc Hy)].
Qed.

Lemma update_match_elems now x b b' :
  update_match now x b = Some b' ->
  forall y', In y' b' ->
    In y' b \/ exists y, In y b /\ arec_matches y x = true
                         /\ y' = a_set_life (life_reset now (l_ttl (a_life x))) y.
Proof.
  revert b'. induction b as [|r t IH]; simpl; intros b' H; [discriminate|].
  destruct (arec_matches r x) eqn:E.
  - inversion H; subst. intros y' [Hy|Hy]; [right; exists r; auto|left; right; exact Hy].
  - destruct (update_match now x t) as [t'|]; [|discriminate]. inversion H; subst.
    intros y' [Hy|Hy]; [left; left; exact Hy|].
    destruct (IH t' eq_refl y' Hy) as [H1|[y [H1 H2]]]; [left; right; exact H1|right; exists y; tauto].
Qed.

Lemma arec_of_life now ifx r :
  a_life (arec_of now ifx r)
  = mkLife (wire_ttl (i_ttl r)) now (now + wire_ttl (i_ttl r) * 1000) (now + wire_ttl (i_ttl r) * 800).
Proof. unfold arec_of. simpl. apply life_new_eq. Qed.

Lemma entry_good_new D prev now ifx r :
  prev <= now -> In (now, ifx, r) D -> entry_good D prev (arec_of now ifx r).
Proof.
  intros Hle HD. split; [|split; [apply life_new_wf|]].
  - exists now, ifx, r. rewrite arec_of_life. simpl. auto.
  - apply (wire_life_bounds prev now (i_ttl r) Hle).
Qed.

Lemma entry_good_reset D prev now ifx r y :
  prev <= now -> In (now, ifx, r) D -> ident y = ident (arec_of now ifx r) ->
  entry_good D prev (a_set_life (life_reset now (l_ttl (a_life (arec_of now ifx r)))) y).
Proof.
  intros Hle HD Hid. split; [|split; [apply life_reset_wf|]].
  - exists now, ifx, r. rewrite ident_set_life, arec_of_life. cbn [a_life a_set_life l_ttl]. rewrite life_reset_eq. auto.
  - apply (wire_life_bounds prev now (i_ttl r) Hle).
Qed.

Lemma flush_one_good D prev now x y :
  prev <= now -> entry_good D prev y -> entry_good D prev (flush_one now x y) /\ a_name (flush_one now x y) = a_name y.
Proof.
  intros Hle [Hp [Hw He]]. split; [|unfold flush_one; destruct (_ && _); reflexivity].
  split; [|split].
  - destruct Hp as [t [ifx [r [H1 [H2 [H3 H4]]]]]]. exists t, ifx, r.
    unfold flush_one. destruct (_ && _); simpl; auto.
  - apply flush_one_wf. exact Hw.
  - unfold flush_one. destruct (_ && _); simpl; [|exact He]. rewrite pin_flush_expire. lia.
Qed.

Lemma aou_store_inv D prev now ifx r c :
  prev <= now -> In (now, ifx, r) D -> cache_inv D prev c ->
  cache_inv D prev (fst (aou_store now (arec_of now ifx r) c)).
Proof.
  intros Hle HD Hc. set (x := arec_of now ifx r). unfold aou_store.
  set (k := lower (a_name x)).
  set (b1 := if a_flush x then map (flush_one now x) (bucket_of c k) else bucket_of c k).
  assert (Hb1 : forall y, In y b1 -> entry_good D prev y /\ lname y = k).
  { intros y Hy. unfold b1 in Hy. destruct (a_flush x); [|apply (bucket_inv _ _ _ _ _ Hc Hy)].
    apply in_map_iff in Hy as [y0 [<- Hy0]]. destruct (bucket_inv _ _ _ _ _ Hc Hy0) as [Hg Hn].
    destruct (flush_one_good D prev now x y0 Hle Hg) as [Hg' Hn']. split; [exact Hg'|].
    unfold lname. rewrite Hn'. exact Hn. }
  destruct (update_match now x b1) as [b2|] eqn:Eu; cbn [fst]; apply (cache_inv_aset _ _ _ _ _ Hc).
  - intros y' Hy'.
    destruct (update_match_elems now x b1 b2 Eu y' Hy') as [H|[y [Hy [Hm ->]]]]; [apply Hb1; exact H|].
    apply matches_ident in Hm. split; [apply entry_good_reset; assumption|apply (Hb1 y Hy)].
  - intros y [<-|Hy]; [split; [apply entry_good_new; assumption|reflexivity]|apply Hb1; exact Hy].
Qed.

Lemma aou_inv D prev now fu ifx r c :
  prev <= now -> In (now, ifx, r) D -> cache_inv D prev c ->
  cache_inv D prev (fst (add_or_update now fu (arec_of now ifx r) c)).
Proof.
  intros Hle HD Hc. rewrite add_or_update_eq.
  destruct (bucket_of c _); [destruct fu|]; try (apply aou_store_inv; assumption). exact Hc.
Qed.

Lemma absorb_inv D prev now fu ifx rs c ch :
  prev <= now -> (forall r, In r rs -> is_addr_ty (i_ty r) = true -> In (now, ifx, r) D) ->
  cache_inv D prev c ->
  cache_inv D prev (fst (fold_left (absorb now fu ifx) rs (c, ch))).
Proof.
  intros Hle HD Hc. apply (fold_left_inv (fun a => cache_inv D prev (fst a))); [|exact Hc].
  intros [c0 ch0] r Hr Hc0. unfold absorb. cbn [fst snd] in *. destruct (is_addr_ty (i_ty r)) eqn:E; [|exact Hc0].
  pose proof (aou_inv D prev now fu ifx r c0 Hle (HD r Hr E) Hc0) as H.
  destruct (add_or_update now fu (arec_of now ifx r) c0) as [c' isnew]. exact H.
Qed.

(* an AddressesFound event is justified by a cache that is in order *)
Definition found_from (D : list deliv) (prev : N) (res : list resolver) (ce : N * ev) : Prop :=
  exists c host, cache_inv D prev c /\ In ce (found_events res c host).

Lemma respond_inv D prev now res c m :
  prev <= now -> incl (msg_delivs now m) D -> cache_inv D prev c ->
  cache_inv D prev (fst (respond now res c m))
  /\ forall ce, In ce (snd (respond now res c m)) -> found_from D prev res ce.
Proof.
  intros Hle HD Hc. unfold respond.
  pose proof (absorb_inv D prev now (is_for_us res m) (m_if m) (m_recs m) c [] Hle) as H.
  destruct (fold_left (absorb now (is_for_us res m) (m_if m)) (m_recs m) (c, [])) as [c' changes]. cbn [fst snd] in *.
  assert (Hc' : cache_inv D prev c').
  { apply H; [|exact Hc]. intros r Hr Ha. apply HD. unfold msg_delivs.
    apply in_map_iff. exists r. split; [reflexivity|]. apply filter_In. auto. }
  split; [exact Hc'|]. intros ce Hce. apply in_flat_map in Hce as [host [_ Hce]].
  exists c', host. auto.
Qed.

Lemma respond_all_inv D prev now res ms c :
  prev <= now -> incl (flat_map (msg_delivs now) ms) D -> cache_inv D prev c ->
  cache_inv D prev (fst (respond_all now res c ms))
  /\ forall ce, In ce (snd (respond_all now res c ms)) -> found_from D prev res ce.
Proof.
  intros Hle HD Hc. unfold respond_all.
  apply (fold_left_inv (fun a => cache_inv D prev (fst a) /\ forall ce, In ce (snd a) -> found_from D prev res ce));
    [|split; [exact Hc|intros ce []]].
  intros [c0 e0] m Hm [Hc0 He0]. cbn [fst snd] in *.
  destruct (respond_inv D prev now res c0 m Hle) as [H1 H2]; [|exact Hc0|].
  { intros d Hd. apply HD. apply in_flat_map. exists m. auto. }
  destruct (respond now res c0 m) as [c' e]. cbn [fst snd] in *. split; [exact H1|].
  intros ce Hce. apply in_app_or in Hce as [Hce|Hce]; [apply He0; exact Hce|apply H2; exact Hce].
Qed.

Lemma no_more_good D prev y : entry_good D prev y -> entry_good D prev (a_set_life (life_no_more (a_life y)) y).
Proof.
  intros [[t [ifx [r [H1 [H2 [H3 H4]]]]]] [Hw He]]. split; [|split].
  - exists t, ifx, r. simpl. auto.
  - simpl. apply life_no_more_wf. exact Hw.
  - simpl. exact He.
Qed.

Lemma refresh_one_inv D prev now r c qs :
  cache_inv D prev c -> cache_inv D prev (fst (refresh_one now (c, qs) r)).
Proof.
  intros Hc. unfold refresh_one. destruct (aget (r_key r) c) as [b|] eqn:E; [|exact Hc].
  unfold refresh_bucket. cbn [fst]. apply (cache_inv_aset _ _ _ _ _ Hc).
  intros y' Hy'. apply in_map_iff in Hy' as [y [<- Hy]].
  assert (Hg : entry_good D prev y /\ lname y = r_key r).
  { apply (bucket_inv _ _ c _ _ Hc). unfold bucket_of. rewrite E. exact Hy. }
  destruct (refresh_wanted now y); [|exact Hg]. split; [apply no_more_good|]; apply Hg.
Qed.

Lemma refresh_all_inv D prev now res c :
  cache_inv D prev c -> cache_inv D prev (fst (refresh_all now res c)).
Proof.
  intros Hc. unfold refresh_all. apply (fold_left_inv (fun a => cache_inv D prev (fst a))); [|exact Hc].
  intros [c0 qs] r _ Hc0. apply refresh_one_inv. exact Hc0.
Qed.

Lemma evict_inv D prev now c : cache_inv D prev c -> cache_inv D now (evict_cache now c).
Proof.
  intros Hc. apply cache_inv_intro.
  - unfold evict_cache. apply kmap_wf_filter, kmap_wf_filter_buckets. eapply cache_inv_wf. exact Hc.
  - intros x Hx. apply entries_evict in Hx as [Hx He]. destruct (cache_inv_entry _ _ _ _ Hc Hx) as [Hp [Hw _]].
    split; [exact Hp|]. split; [exact Hw|].
    unfold a_expired, life_expired in He. rewrite pin_is_expired in He. apply N.leb_gt in He. exact He.
Qed.

Definition replay_from (D : list deliv) (prev : N) (ce : N * ev) : Prop :=
  exists c host sp A, cache_good D prev c /\ ce = (fst ce, EFound sp A)
                      /\ In (sp, A) (addresses_for_host c host).

(* events of the command phase that are AddressesFound are replays of the cache *)
Lemma sp_call_found now p c ch sp A :
  In (ch, EFound sp A) (snd (fst (sp_call now p c))) ->
  exists host to, c = CResolve host to ch /\ In (sp, A) (addresses_for_host (ss_cache p) host).
Proof.
  destruct c as [host to chan|host]; simpl.
  - intros [H|H]; [discriminate|]. apply in_map_iff in H as [[sp' A'] [E Hin]]. inversion E; subst.
    exists host, to. auto.
  - destruct (find_search (lower host) (ss_searches p)); simpl; [intros [H|[]]; discriminate|intros []].
Qed.

(* what an AddressesFound event of one iteration is justified by *)
Definition found_justified (D : list deliv) (prev : N) (sp : name) (A : list saddr) : Prop :=
  forall a ifx, In (a, ifx) A ->
    exists t r, In (t, ifx, r) D /\ i_name r = sp /\ i_data r = a
                /\ prev < t + wire_ttl (i_ttl r) * 1000.

Lemma good_bucket_justified D prev c host sp A :
  cache_inv D prev c -> In (sp, A) (addresses_for_host c host) ->
  lower sp = lower host /\ found_justified D prev sp A.
Proof.
  intros Hc Hin. unfold addresses_for_host in Hin.
  destruct (group_addrs_spec (bucket_of c (lower host))) as [_ [G2 _]]. split.
  - assert (Hs : In sp (map fst (group_addrs (bucket_of c (lower host))))) by (apply (in_map fst) in Hin; exact Hin).
    apply group_addrs_keys in Hs as [x [Hx <-]]. apply (bucket_inv _ _ _ _ _ Hc Hx).
  - intros a ifx Ha. apply (G2 sp A Hin) in Ha as [x [Hx [Hn Ha]]]. inversion Ha; subst.
    destruct (bucket_inv _ _ _ _ _ Hc Hx) as [[[t [ifx' [r [H1 [H2 [H3 H4]]]]]] [Hw He]] _].
    unfold ident, arec_of in H2. simpl in H2. inversion H2; subst.
    exists (l_created (a_life x)), r. repeat split; try assumption; try congruence.
    unfold life_wf in Hw. rewrite H4 in Hw. lia.
Qed.

Lemma after_resp_inv D prev p i :
  prev <= it_now i -> cache_inv D prev (ss_cache p) ->
  cache_inv (D ++ iter_delivs i) prev (fst (after_resp p i))
  /\ forall ce, In ce (snd (after_resp p i)) -> found_from (D ++ iter_delivs i) prev (res_view p) ce.
Proof.
  intros Hle Hc. unfold after_resp. apply respond_all_inv; [exact Hle|apply incl_appr, incl_refl|].
  eapply cache_inv_incl; [apply incl_appl, incl_refl|exact Hc].
Qed.

Lemma after_refresh_inv D prev p i :
  prev <= it_now i -> cache_inv D prev (ss_cache p) -> cache_inv (D ++ iter_delivs i) prev (fst (after_refresh p i)).
Proof.
  intros Hle Hc. unfold after_refresh. apply refresh_all_inv. rewrite after_calls_cache.
  apply (proj1 (after_resp_inv D prev p i Hle Hc)).
Qed.

(* addresses_found_spec over one iteration from a state whose cache is in order *)
Theorem sp_step_found D prev p i :
  prev <= it_now i -> cache_inv D prev (ss_cache p) ->
  cache_inv (D ++ iter_delivs i) (it_now i) (ss_cache (fst (sp_step p i)))
  /\ forall ch sp A, In (ch, EFound sp A) (o_events (snd (sp_step p i))) ->
       found_justified (D ++ iter_delivs i) prev sp A
       /\ ((exists k, In k (ss_searches p) /\ sk_chan k = ch /\ sk_key k = lower sp)
           \/ (exists host to, In (CResolve host to ch) (it_calls i) /\ lower host = lower sp)).
Proof.
  intros Hle Hc. destruct (after_resp_inv D prev p i Hle Hc) as [H1 H1e].
  split; [rewrite sp_step_cache; exact (evict_inv _ prev _ _ (after_refresh_inv D prev p i Hle Hc))|].
  intros ch sp A Hin. rewrite sp_step_eq in Hin. cbn [snd o_events] in Hin.
  repeat (apply in_app_or in Hin as [Hin|Hin]).
  - (* response phase *)
    destruct (H1e _ Hin) as [c' [host [Hc' Hf]]]. unfold found_events in Hf.
    unfold res_view in Hf. rewrite find_res_view in Hf.
    destruct (find_search (lower host) (ss_searches p)) as [k|] eqn:Ek; [|destruct Hf].
    apply in_map_iff in Hf as [[sp2 A2] [E2 Hin2]]. inversion E2; subst.
    destruct (good_bucket_justified _ prev c' host sp A Hc' Hin2) as [Hl Hj].
    apply find_search_some in Ek as [Hk Hkey]. split; [exact Hj|]. left. exists k. simpl. repeat split; congruence.
  - (* deadlines phase: no AddressesFound *)
    exfalso. apply in_flat_map in Hin as [k [_ Hin]]. simpl in Hin. destruct Hin as [H|[H|[]]]; discriminate.
  - (* command phase: replay of the cache as the responses left it *)
    apply sp_calls_events in Hin as [c [p0 [Hcall [Hp0 Hin]]]].
    apply sp_call_found in Hin as [host [to [-> Hsp]]]. rewrite Hp0 in Hsp. cbn [ss_cache] in Hsp.
    destruct (good_bucket_justified _ prev _ host sp A H1 Hsp) as [Hl Hj].
    split; [exact Hj|]. right. exists host, to. auto.
  - exfalso. apply in_map_iff in Hin as [k [E _]]. discriminate.
  - exfalso. unfold evict_all in Hin. cbn [snd] in Hin. apply in_flat_map in Hin as [g [_ Hin]].
    unfold removed_events in Hin. destruct (find_res _ _); [destruct Hin as [H|[]]; discriminate|destruct Hin].
  - exfalso. apply in_map_iff in Hin as [k [E _]]. discriminate.
Qed.

Lemma sp_cache_inv h : forall p prev D,
  times_ok prev h = true -> cache_inv D prev (ss_cache p) ->
  cache_inv (D ++ deliveries h) (last_time prev h) (ss_cache (sp_state_after p h)).
Proof.
  induction h as [|i t IH]; intros p prev D Ht Hc; simpl.
  - unfold deliveries. simpl. rewrite app_nil_r. exact Hc.
  - simpl in Ht. apply andb_true_iff in Ht as [H1 H2]. apply N.leb_le in H1.
    destruct (sp_step_found D prev p i H1 Hc) as [Hg _].
    specialize (IH _ _ _ H2 Hg). unfold deliveries in *. simpl. rewrite app_assoc. exact IH.
Qed.

Lemma sp_state_after_app h1 h2 p : sp_state_after p (h1 ++ h2) = sp_state_after (sp_state_after p h1) h2.
Proof. revert p. induction h1 as [|i t IH]; intros p; simpl; [reflexivity|apply IH]. Qed.

Lemma times_ok_app prev h1 h2 : times_ok prev (h1 ++ h2) = true -> times_ok prev h1 = true /\ times_ok (last_time prev h1) h2 = true.
Proof.
  revert prev. induction h1 as [|i t IH]; intros prev H; simpl in *; [auto|].
  apply andb_true_iff in H as [H1 H2]. destruct (IH _ H2) as [H3 H4]. rewrite H1, H3. auto.
Qed.

Lemma history_cache_inv h1 i h2 :
  times_ok 0 (h1 ++ i :: h2) = true ->
  last_time 0 h1 <= it_now i
  /\ cache_inv (deliveries h1) (last_time 0 h1) (ss_cache (sp_state_after sst0 h1)).
Proof.
  intros Ht. apply times_ok_app in Ht as [Ht1 Ht2]. simpl in Ht2. apply andb_true_iff in Ht2 as [Hle _].
  apply N.leb_le in Hle. split; [exact Hle|].
  apply (sp_cache_inv h1 sst0 0 [] Ht1). apply cache_inv_nil.
Qed.

Theorem addresses_found_spec : forall h1 i h2 ch sp A,
  times_ok 0 (h1 ++ i :: h2) = true ->
  In (ch, EFound sp A) (o_events (snd (sp_step (sp_state_after sst0 h1) i))) ->
  ((exists k, In k (ss_searches (sp_state_after sst0 h1)) /\ sk_chan k = ch /\ sk_key k = lower sp)
   \/ (exists host to, In (CResolve host to ch) (it_calls i) /\ lower host = lower sp))
  /\ forall a ifx, In (a, ifx) A ->
       exists j m r, In j (h1 ++ [i]) /\ In m (it_msgs j) /\ In r (m_recs m)
                     /\ is_addr_ty (i_ty r) = true /\ i_name r = sp /\ i_data r = a /\ m_if m = ifx
                     /\ last_time 0 h1 < it_now j + wire_ttl (i_ttl r) * 1000.
Proof.
  intros h1 i h2 ch sp A Ht Hin. destruct (history_cache_inv h1 i h2 Ht) as [Hle Hg].
  destruct (sp_step_found _ _ _ i Hle Hg) as [_ Hf]. destruct (Hf ch sp A Hin) as [Hj Hr].
  split; [exact Hr|]. intros a ifx Ha. destruct (Hj a ifx Ha) as [t [r [HD [Hn [Hd Hlt]]]]].
  assert (HD' : In (t, ifx, r) (deliveries (h1 ++ [i]))).
  { unfold deliveries. rewrite flat_map_app. simpl. rewrite app_nil_r. exact HD. }
  unfold deliveries in HD'. apply in_flat_map in HD' as [j [Hj1 Hj2]].
  unfold iter_delivs in Hj2. apply in_flat_map in Hj2 as [m [Hm1 Hm2]].
  unfold msg_delivs in Hm2. apply in_map_iff in Hm2 as [r' [E Hr']]. inversion E; subst.
  apply filter_In in Hr' as [Hr1 Hr2].
  exists j, m, r. repeat split; assumption.
Qed.
