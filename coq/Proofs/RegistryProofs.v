(* The probe state machine of one interface's DnsRegistry (Model/Registry.v), for every sequence
   of operations and every sequence of times:
     - consecutive probe queries for a name are at least 250 ms apart,
     - a name becomes active no earlier than 750 ms after its probe's start and 250 ms after its
       last probe query,
     - on a schedule that is never late the timetable is exactly T, T+250, T+500, active at T+750,
     - a record is reported "probing done" only after its name was activated. *)
From Coq Require Import List NArith Bool Lia.
From Mdns Require Import Bytes ListFacts Rec ParamsRegistry Registry RegistryParamsPinned.
Import ListNotations.
Open Scope N_scope.

Lemma beq_spec a b : reflect (a = b) (beq a b).
Proof. apply iff_reflect. symmetry. apply beq_eq. Qed.

Section AListFacts.
  Context {V : Type}.
  Implicit Types (l : list (bytes * V)).

  Definition keys l : list bytes := map fst l.

  Lemma aget_In k v l : aget k l = Some v -> In (k, v) l.
  Proof.
    induction l as [|[k' v'] t IH]; simpl; [discriminate|].
    destruct (beq_spec k k') as [<-|_]; intros H; [inversion H; left; reflexivity|right; auto].
  Qed.

  Lemma aget_none_notin k l : aget k l = None -> ~ In k (keys l).
  Proof.
    induction l as [|[k' v'] t IH]; simpl; [tauto|].
    destruct (beq_spec k k') as [|Hne]; [discriminate|]. intros H [H1|H1]; [congruence|exact (IH H H1)].
  Qed.

  Lemma In_aget k v l : NoDup (keys l) -> In (k, v) l -> aget k l = Some v.
  Proof.
    induction l as [|[k' v'] t IH]; simpl; [tauto|]. intros Hnd [H|H].
    - inversion H; subst. rewrite beq_refl. reflexivity.
    - inversion Hnd; subst. destruct (beq_spec k k') as [<-|_]; [|auto].
      exfalso. exact (H2 (in_map fst _ _ H)).
  Qed.

  Lemma keys_aset k v l : forall x, In x (keys (aset k v l)) <-> x = k \/ In x (keys l).
  Proof.
    induction l as [|[k' v'] t IH]; simpl; intros x.
    - split; intros [H|H]; subst; auto; contradiction.
    - destruct (beq_spec k k') as [<-|_]; simpl.
      + split; [tauto|]. intros [->|H]; [left; reflexivity|exact H].
      + rewrite IH. tauto.
  Qed.

  Lemma NoDup_aset k v l : NoDup (keys l) -> NoDup (keys (aset k v l)).
  Proof.
    induction l as [|[k' v'] t IH]; simpl; intros H.
    - constructor; [tauto|constructor].
    - inversion H; subst. destruct (beq_spec k k') as [<-|Hne]; simpl; constructor; auto.
      intros Hin. apply keys_aset in Hin as [->|Hin]; [apply Hne; reflexivity|contradiction].
  Qed.

  Lemma aget_aset_same k v l : aget k (aset k v l) = Some v.
  Proof.
    induction l as [|[k' v'] t IH]; simpl.
    - rewrite beq_refl. reflexivity.
    - destruct (beq k k') eqn:E; simpl; [rewrite beq_refl; reflexivity|rewrite E; assumption].
  Qed.

  Lemma aget_aset_other k k1 v l : k1 <> k -> aget k1 (aset k v l) = aget k1 l.
  Proof.
    intros Hne. induction l as [|[k' v'] t IH]; simpl.
    - destruct (beq_spec k1 k); [contradiction|reflexivity].
    - destruct (beq_spec k k') as [<-|_]; simpl.
      + destruct (beq_spec k1 k); [contradiction|reflexivity].
      + destruct (beq k1 k'); [reflexivity|assumption].
  Qed.

  Lemma aset_entries k v l k1 v1 :
    NoDup (keys l) -> In (k1, v1) (aset k v l) -> (k1 = k /\ v1 = v) \/ (k1 <> k /\ In (k1, v1) l).
  Proof.
    intros Hnd Hin. apply (In_aget _ _ _ (NoDup_aset k v l Hnd)) in Hin. destruct (beq_spec k1 k) as [->|Hne].
    - rewrite aget_aset_same in Hin. inversion Hin. auto.
    - rewrite aget_aset_other in Hin by exact Hne. right. split; [exact Hne|apply aget_In, Hin].
  Qed.

  Lemma adel_entries k l k1 v1 : In (k1, v1) (adel k l) -> In (k1, v1) l.
  Proof.
    induction l as [|[k' v'] t IH]; simpl; [tauto|].
    destruct (beq k k'); simpl; [auto|]. intros [H|H]; auto.
  Qed.

  Lemma keys_adel k l x : In x (keys (adel k l)) -> In x (keys l).
  Proof.
    induction l as [|[k' v'] t IH]; simpl; [tauto|].
    destruct (beq k k'); simpl; [auto|]. intros [H|H]; auto.
  Qed.

  Lemma NoDup_adel k l : NoDup (keys l) -> NoDup (keys (adel k l)).
  Proof.
    induction l as [|[k' v'] t IH]; simpl; intros H; [constructor|].
    inversion H; subst. destruct (beq k k'); simpl; [assumption|].
    constructor; [|auto]. intros Hin. apply keys_adel in Hin. contradiction.
  Qed.

  Lemma aget_adel_same k l : NoDup (keys l) -> aget k (adel k l) = None.
  Proof.
    induction l as [|[k' v'] t IH]; simpl; intros H; [reflexivity|].
    inversion H; subst. destruct (beq k k') eqn:E; simpl; [|rewrite E; auto].
    apply beq_eq in E. subst. destruct (aget k' t) eqn:G; [|reflexivity].
    exfalso. exact (H2 (in_map fst _ _ (aget_In _ _ _ G))).
  Qed.

  Lemma aget_adel_other k k1 l : k1 <> k -> aget k1 (adel k l) = aget k1 l.
  Proof.
    intros Hne. induction l as [|[k' v'] t IH]; simpl; [reflexivity|].
    destruct (beq_spec k k') as [<-|_]; simpl.
    - destruct (beq_spec k1 k); [contradiction|reflexivity].
    - destruct (beq k1 k'); [reflexivity|assumption].
  Qed.

  Lemma adel_absent k l : aget k l = None -> adel k l = l.
  Proof.
    induction l as [|[k' v'] t IH]; simpl; [reflexivity|].
    destruct (beq k k'); [discriminate|]. intros H. rewrite IH by exact H. reflexivity.
  Qed.

  Lemma NoDup_fold_adel ex : forall l, NoDup (keys l) -> NoDup (keys (fold_left (fun l n => adel n l) ex l)).
  Proof. induction ex as [|n t IH]; intros l H; simpl; [exact H|]. apply IH, NoDup_adel, H. Qed.

  Lemma aget_fold_adel m ex : forall l, NoDup (keys l) ->
    aget m (fold_left (fun l n => adel n l) ex l) = if mem m ex then None else aget m l.
  Proof.
    induction ex as [|n t IH]; intros l H; simpl; [reflexivity|]. rewrite IH by (apply NoDup_adel, H).
    destruct (beq_spec m n) as [->|Hne]; simpl.
    - rewrite aget_adel_same by exact H. destruct (mem n t); reflexivity.
    - rewrite aget_adel_other by exact Hne. reflexivity.
  Qed.

End AListFacts.

Lemma keys_map_val {V W} (g : V -> W) (l : list (bytes * V)) : keys (map (fun kv => (fst kv, g (snd kv))) l) = keys l.
Proof. unfold keys. rewrite map_map. reflexivity. Qed.

Definition sends (now : N) (p : probe) : bool := probe_due (pb_next p) now && negb (probe_expired (pb_start p) now).
Definition expires (now : N) (p : probe) : bool := probe_due (pb_next p) now && probe_expired (pb_start p) now.
Definition tick_probe (now : N) (p : probe) : probe :=
  if sends now p then mkProbe (pb_records p) (pb_waiting p) (pb_start p) (probe_next_send now) else p.

Lemma check_probes_spec ps now :
  check_probes ps now =
  (map (fun np => (fst np, tick_probe now (snd np))) ps,
   flat_map (fun np => if sends now (snd np) then [(fst np, pb_records (snd np))] else []) ps,
   flat_map (fun np => if expires now (snd np) then [fst np] else []) ps).
Proof.
  induction ps as [|[n p] t IH]; simpl; [reflexivity|].
  rewrite IH. unfold tick_probe, sends, expires. simpl.
  destruct (probe_due (pb_next p) now); simpl; [|reflexivity].
  destruct (probe_expired (pb_start p) now); reflexivity.
Qed.

Lemma sends_iff now p : sends now p = true <-> pb_next p <= now /\ now < pb_start p + 750.
Proof.
  unfold sends. rewrite probe_due_pinned, probe_expired_pinned, andb_true_iff, negb_true_iff, N.leb_le, N.leb_gt.
  tauto.
Qed.

Lemma expires_iff now p : expires now p = true <-> pb_next p <= now /\ pb_start p + 750 <= now.
Proof.
  unfold expires. rewrite probe_due_pinned, probe_expired_pinned, andb_true_iff, !N.leb_le. tauto.
Qed.

Lemma sends_expires_excl now p : sends now p = true -> expires now p = false.
Proof.
  unfold sends, expires. destruct (probe_due (pb_next p) now); simpl; [|reflexivity].
  destruct (probe_expired (pb_start p) now); simpl; [discriminate|reflexivity].
Qed.

Lemma tick_probe_next now p : sends now p = true -> pb_next (tick_probe now p) = now + 250.
Proof. intros H. unfold tick_probe. rewrite H. simpl. apply probe_next_send_pinned. Qed.

Lemma tick_probe_id now p : sends now p = false -> tick_probe now p = p.
Proof. intros H. unfold tick_probe. rewrite H. reflexivity. Qed.

Lemma tick_probe_start now p : pb_start (tick_probe now p) = pb_start p.
Proof. unfold tick_probe. destruct (sends now p); reflexivity. Qed.

Lemma aget_map_snd (g : probe -> probe) ps n :
  aget n (map (fun np => (fst np, g (snd np))) ps) = option_map g (aget n ps).
Proof.
  induction ps as [|[k p] t IH]; simpl; [reflexivity|]. destruct (beq n k); [reflexivity|assumption].
Qed.

Definition sent_names (now : N) (ps : list (bytes * probe)) : list bytes :=
  map fst (flat_map (fun np => if sends now (snd np) then [(fst np, pb_records (snd np))] else []) ps).
Definition expired_names (now : N) (ps : list (bytes * probe)) : list bytes :=
  flat_map (fun np => if expires now (snd np) then [fst np] else []) ps.

Lemma sent_names_iff ps now n : In n (sent_names now ps) <-> exists p, In (n, p) ps /\ sends now p = true.
Proof.
  unfold sent_names. rewrite in_map_iff. split.
  - intros ([k recs] & E & Hin). simpl in E. subst k. apply in_flat_map in Hin as ([k p] & Hin & Hx).
    simpl in Hx. destruct (sends now p) eqn:S; [|contradiction]. destruct Hx as [Hx|[]]. inversion Hx; subst. eauto.
  - intros (p & Hin & S). exists (n, pb_records p). split; [reflexivity|].
    apply in_flat_map. exists (n, p). split; [assumption|]. simpl. rewrite S. left. reflexivity.
Qed.

Lemma expired_names_iff ps now n :
  In n (flat_map (fun np : bytes * probe => if expires now (snd np) then [fst np] else []) ps)
  <-> exists p, In (n, p) ps /\ expires now p = true.
Proof.
  rewrite in_flat_map. split.
  - intros ([k p] & Hin & Hx). simpl in Hx. destruct (expires now p) eqn:S; [|contradiction].
    destruct Hx as [Hx|[]]. subst. eauto.
  - intros (p & Hin & S). exists (n, p). split; [assumption|]. simpl. rewrite S. left. reflexivity.
Qed.

Lemma mem_names (test : probe -> bool) (names : list bytes) ps n :
  NoDup (keys ps) -> (In n names <-> exists p, In (n, p) ps /\ test p = true) ->
  mem n names = match aget n ps with Some p => test p | None => false end.
Proof.
  intros Hnd Hiff. destruct (aget n ps) as [p|] eqn:G.
  - destruct (test p) eqn:S.
    + apply mem_In, Hiff. exists p. split; [apply aget_In|]; assumption.
    + apply mem_false_iff. intros H. apply Hiff in H as (q & Hq & Sq). apply (In_aget _ _ _ Hnd) in Hq. congruence.
  - apply mem_false_iff. intros H. apply Hiff in H as (q & Hq & _). apply (In_aget _ _ _ Hnd) in Hq. congruence.
Qed.

Lemma expire_one_probing_eq rg name : rg_probing (fst (fst (expire_one rg name))) = adel name (rg_probing rg).
Proof.
  unfold expire_one. destruct (aget name (rg_probing rg)) as [pb|] eqn:G.
  - destruct (pb_records pb); reflexivity.
  - symmetry. apply adel_absent, G.
Qed.

Lemma expire_one_nodup rg n : NoDup (keys (rg_probing rg)) -> NoDup (keys (rg_probing (fst (fst (expire_one rg n))))).
Proof. rewrite expire_one_probing_eq. apply NoDup_adel. Qed.

Lemma expire_all_probing ex : forall rg,
  rg_probing (fst (fst (expire_all rg ex))) = fold_left (fun ps n => adel n ps) ex (rg_probing rg).
Proof.
  induction ex as [|n t IH]; intros rg; simpl; [reflexivity|].
  rewrite <- expire_one_probing_eq, <- IH.
  destruct (expire_one rg n) as [[rg1 ev1] w1]. cbn [fst]. destruct (expire_all rg1 t) as [[rg2 ev2] w2]. reflexivity.
Qed.

Lemma expire_all_aget ex : forall rg m,
  NoDup (keys (rg_probing rg)) ->
  aget m (rg_probing (fst (fst (expire_all rg ex)))) = if mem m ex then None else aget m (rg_probing rg).
Proof. intros rg m. rewrite expire_all_probing. apply aget_fold_adel. Qed.

Lemma expire_all_nodup ex : forall rg, NoDup (keys (rg_probing rg)) -> NoDup (keys (rg_probing (fst (fst (expire_all rg ex))))).
Proof. intros rg. rewrite expire_all_probing. apply NoDup_fold_adel. Qed.

Lemma tick_names_spec rg now :
  tick_names rg now =
  (fst (fst (expire_all (mkReg (map (fun np => (fst np, tick_probe now (snd np))) (rg_probing rg)) (rg_active rg) (rg_changes rg))
                        (expired_names now (rg_probing rg)))),
   sent_names now (rg_probing rg), expired_names now (rg_probing rg)).
Proof.
  unfold tick_names. rewrite check_probes_spec. fold (expired_names now (rg_probing rg)).
  destruct (expire_all _ _) as [[rg1 ev] w]. reflexivity.
Qed.

Lemma tick_names_nodup rg now : NoDup (keys (rg_probing rg)) -> NoDup (keys (rg_probing (fst (fst (tick_names rg now))))).
Proof.
  intros H. rewrite tick_names_spec. cbn [fst]. apply expire_all_nodup. cbn [rg_probing]. rewrite keys_map_val. exact H.
Qed.

Lemma tick_names_nodup_eq rg now rg' qs ex :
  NoDup (keys (rg_probing rg)) -> tick_names rg now = (rg', qs, ex) -> NoDup (keys (rg_probing rg')).
Proof. intros H E. pose proof (tick_names_nodup rg now H) as N1. rewrite E in N1. exact N1. Qed.

Lemma tick_names_at rg now rg' qs ex n :
  NoDup (keys (rg_probing rg)) -> tick_names rg now = (rg', qs, ex) ->
  mem n qs = match aget n (rg_probing rg) with Some p => sends now p | None => false end /\
  mem n ex = match aget n (rg_probing rg) with Some p => expires now p | None => false end /\
  aget n (rg_probing rg') = match aget n (rg_probing rg) with
                            | Some p => if expires now p then None else Some (tick_probe now p)
                            | None => None
                            end.
Proof.
  intros Hnd Ht. rewrite tick_names_spec in Ht. inversion Ht; subst rg' qs ex; clear Ht.
  assert (E : mem n (expired_names now (rg_probing rg))
              = match aget n (rg_probing rg) with Some p => expires now p | None => false end)
    by (apply mem_names; [exact Hnd|apply expired_names_iff]).
  split; [apply mem_names; [exact Hnd|apply sent_names_iff]|]. split; [exact E|].
  rewrite expire_all_aget by (cbn [rg_probing]; rewrite keys_map_val; exact Hnd).
  cbn [rg_probing]. rewrite E, aget_map_snd. destruct (aget n (rg_probing rg)) as [p|]; [|reflexivity].
  destruct (expires now p); reflexivity.
Qed.

(* tick_names_at in case form, on In instead of mem *)
Lemma tick_names_aget rg now rg' qs ex n :
  NoDup (keys (rg_probing rg)) -> tick_names rg now = (rg', qs, ex) ->
  match aget n (rg_probing rg) with
  | None => aget n (rg_probing rg') = None /\ ~ In n qs /\ ~ In n ex
  | Some p =>
    if sends now p then In n qs /\ ~ In n ex /\ aget n (rg_probing rg') = Some (tick_probe now p)
    else if expires now p then ~ In n qs /\ In n ex /\ aget n (rg_probing rg') = None
    else ~ In n qs /\ ~ In n ex /\ aget n (rg_probing rg') = Some p
  end.
Proof.
  intros Hnd Ht. destruct (tick_names_at rg now rg' qs ex n Hnd Ht) as (Q & E & G).
  destruct (aget n (rg_probing rg)) as [p|]; [|rewrite <- !mem_false_iff; auto].
  destruct (sends now p) eqn:S.
  - rewrite (sends_expires_excl _ _ S) in *. rewrite <- mem_false_iff, <- mem_In. auto.
  - rewrite (tick_probe_id _ _ S) in G. destruct (expires now p); rewrite <- ?mem_false_iff, <- ?mem_In; auto.
Qed.

(* Ghost state of the spacing argument: for each name the time of its last probe query since the
   last conflict (None: no query yet, or a conflict came after it). *)
Definition lastmap := bytes -> option N.
Definition upd_all (f : lastmap) (names : list bytes) (now : N) : lastmap :=
  fun x => if mem x names then Some now else f x.

(* t is a lower bound for the time of the next operation.  Every probe is due no earlier than 250 ms
   after the last query for its name; a name without probe was last queried at least 250 ms ago. *)
Record Inv (ps : list (bytes * probe)) (f : lastmap) (t : N) : Prop := mkInv {
  inv_nodup : NoDup (keys ps);
  inv_next : forall n p L, In (n, p) ps -> f n = Some L -> L + 250 <= pb_next p;
  inv_absent : forall n L, f n = Some L -> aget n ps = None -> L + 250 <= t;
  inv_past : forall n L, f n = Some L -> L <= t }.

Lemma Inv_init t : Inv [] (fun _ => None) t.
Proof. constructor; simpl; try discriminate; try tauto. constructor. Qed.

Lemma Inv_later ps f t t' : Inv ps f t -> t <= t' -> Inv ps f t'.
Proof.
  intros [H1 H2 H3 H4] Hle. constructor; auto.
  - intros n L Hf Hg. specialize (H3 n L Hf Hg). lia.
  - intros n L Hf. specialize (H4 n L Hf). lia.
Qed.

Lemma Inv_reset ps t : NoDup (keys ps) -> Inv ps (fun _ => None) t.
Proof. intros H. constructor; [assumption| | |]; intros; discriminate. Qed.

Lemma tick_names_inv rg f t now rg' qs ex :
  Inv (rg_probing rg) f t -> t <= now -> tick_names rg now = (rg', qs, ex) ->
  Inv (rg_probing rg') (upd_all f qs now) now /\
  (forall n, In n qs \/ In n ex -> match f n with Some L => L + 250 <= now | None => True end) /\
  (forall n, In n ex -> ~ In n qs).
Proof.
  intros [Hnd Hnext Habs Hpast] Hle Ht.
  assert (Hnd' : NoDup (keys (rg_probing rg'))).
  { exact (tick_names_nodup_eq rg now rg' qs ex Hnd Ht). }
  assert (At : forall n, _) by (intros n; exact (tick_names_at rg now rg' qs ex n Hnd Ht)).
  assert (Hnext' : forall n p L, aget n (rg_probing rg) = Some p -> f n = Some L -> L + 250 <= pb_next p)
    by (intros n p L G; apply Hnext, aget_In, G).
  split; [constructor; [exact Hnd'| | |]|split].
  - intros n p' L Hin. apply (In_aget _ _ _ Hnd') in Hin. destruct (At n) as (Q & _ & G). unfold upd_all. rewrite Q.
    rewrite Hin in G. destruct (aget n (rg_probing rg)) as [p|] eqn:Gp; [|discriminate].
    destruct (expires now p); [discriminate|]. inversion G; subst p'. destruct (sends now p) eqn:S.
    + intros E. inversion E; subst L. rewrite tick_probe_next by exact S. lia.
    + rewrite tick_probe_id by exact S. apply Hnext', Gp.
  - intros n L Hf Hg. destruct (At n) as (Q & _ & G). unfold upd_all in Hf. rewrite Q in Hf. rewrite Hg in G.
    destruct (aget n (rg_probing rg)) as [p|] eqn:Gp; [|specialize (Habs n L Hf Gp); lia].
    destruct (expires now p) eqn:X; [|discriminate]. apply expires_iff in X.
    destruct (sends now p) eqn:S; [apply sends_iff in S; lia|]. specialize (Hnext' n p L Gp Hf). lia.
  - intros n L. unfold upd_all. destruct (mem n qs); intros E; [inversion E; lia|specialize (Hpast n L E); lia].
  - intros n Hn. destruct (At n) as (Q & E & _). destruct (f n) as [L|] eqn:F; [|exact I].
    rewrite <- !mem_In in Hn. destruct (aget n (rg_probing rg)) as [p|] eqn:Gp; [|rewrite Q, E in Hn; destruct Hn; discriminate].
    specialize (Hnext' n p L Gp F). rewrite Q, E, sends_iff, expires_iff in Hn. lia.
  - intros n Hn Hq. destruct (At n) as (Q & E & _). apply mem_In in Hn, Hq. rewrite Hn in E. rewrite Hq in Q.
    destruct (aget n (rg_probing rg)) as [p|]; [|discriminate]. symmetry in Q. apply sends_expires_excl in Q. congruence.
Qed.

(* ps' descends from ps by quiet operations at time now: every probe of ps' keeps the next_send it
   had in ps or has it deferred to now + 1000 (lost tie-break), or is new and due now or later *)
Definition desc (now : N) (ps ps' : list (bytes * probe)) : Prop :=
  NoDup (keys ps') /\
  (forall n p', In (n, p') ps' ->
     (exists p, In (n, p) ps /\ (pb_next p' = pb_next p \/ pb_next p' = now + 1000))
     \/ (aget n ps = None /\ now <= pb_next p')) /\
  (forall n, aget n ps' = None -> aget n ps = None).

Lemma desc_refl now ps : NoDup (keys ps) -> desc now ps ps.
Proof. intros H. split; [assumption|split]; [|auto]. intros n p' Hin. left. exists p'. auto. Qed.

Lemma desc_trans now ps1 ps2 ps3 : desc now ps1 ps2 -> desc now ps2 ps3 -> desc now ps1 ps3.
Proof.
  intros (N2 & D2 & A2) (N3 & D3 & A3). split; [assumption|split]; [|auto].
  intros n p3 Hin. destruct (D3 n p3 Hin) as [(p2 & Hin2 & Hn)|(Hnone & Hle)].
  - destruct (D2 n p2 Hin2) as [(p1 & Hin1 & Hn1)|(Hnone1 & Hle1)].
    + left. exists p1. split; [assumption|]. destruct Hn as [->| ->]; auto.
    + right. split; [assumption|]. destruct Hn as [->| ->]; lia.
  - right. split; auto.
Qed.

Lemma desc_aset now ps k p' :
  NoDup (keys ps) ->
  match aget k ps with
  | Some p => pb_next p' = pb_next p \/ pb_next p' = now + 1000
  | None => now <= pb_next p'
  end -> desc now ps (aset k p' ps).
Proof.
  intros Hnd Hk. split; [apply NoDup_aset; assumption|split].
  - intros n q Hin. destruct (aset_entries _ _ _ _ _ Hnd Hin) as [[-> ->]|[Hne Hin']]; [|left; exists q; auto].
    destruct (aget k ps) as [p|] eqn:G; [left; exists p; split; [apply aget_In, G|exact Hk]|right; auto].
  - intros n Hnone. destruct (beq_spec n k) as [->|Hne].
    + rewrite aget_aset_same in Hnone. discriminate.
    + rewrite aget_aset_other in Hnone by exact Hne. exact Hnone.
Qed.

Lemma desc_map now ps (g : probe -> probe) :
  NoDup (keys ps) -> (forall p, pb_next (g p) = pb_next p) ->
  desc now ps (map (fun np => (fst np, g (snd np))) ps).
Proof.
  intros Hnd Hg. split; [rewrite keys_map_val; assumption|split].
  - intros n p' Hin. apply in_map_iff in Hin as ([k p] & E & Hin). simpl in E. inversion E; subst.
    left. exists p. auto.
  - intros n Hnone. rewrite aget_map_snd in Hnone. destruct (aget n ps); [discriminate|reflexivity].
Qed.

Lemma desc_nodup now ps ps' : desc now ps ps' -> NoDup (keys ps').
Proof. intros (H & _). exact H. Qed.

Lemma Inv_desc ps ps' f t now : Inv ps f t -> t <= now -> desc now ps ps' -> Inv ps' f now.
Proof.
  intros [H1 H2 H3 H4] Hle (N' & D & A). constructor; [assumption| | |].
  - intros n p' L Hin Hf. destruct (D n p' Hin) as [(p & Hinp & Hn)|(Hnone & Hn)].
    + specialize (H2 n p L Hinp Hf). specialize (H4 n L Hf). destruct Hn as [->| ->]; lia.
    + specialize (H3 n L Hf Hnone). lia.
  - intros n L Hf Hnone. specialize (H3 n L Hf (A n Hnone)). lia.
  - intros n L Hf. specialize (H4 n L Hf). lia.
Qed.

Lemma join_desc rg r svc now j :
  NoDup (keys (rg_probing rg)) ->
  desc now (rg_probing rg) (rg_probing (fst (is_probing_done rg r svc (now + j)))).
Proof.
  intros Hnd. unfold is_probing_done. destruct (in_active rg r); simpl; [apply desc_refl; assumption|].
  apply desc_aset; [exact Hnd|]. destruct (aget (p_name r) (rg_probing rg)); simpl; [left; reflexivity|lia].
Qed.

Lemma tiebreak_next p incoming now :
  pb_next (tiebreak p incoming now) = pb_next p \/ pb_next (tiebreak p incoming now) = now + 1000.
Proof.
  unfold tiebreak. destruct (tiebreak_not_started (pb_start p) now); [auto|].
  destruct (tb_cmp (map p_rr (pb_records p)) incoming); simpl; auto.
Qed.

Lemma apply_tiebreak_desc rg qn incoming now :
  NoDup (keys (rg_probing rg)) -> desc now (rg_probing rg) (rg_probing (apply_tiebreak rg qn incoming now)).
Proof.
  intros Hnd. unfold apply_tiebreak. destruct (aget qn (rg_probing rg)) as [pb|] eqn:G; simpl.
  - apply desc_aset; [exact Hnd|]. rewrite G. apply tiebreak_next.
  - apply desc_refl. assumption.
Qed.

Lemma fold_desc {A} now (proj : A -> list (bytes * probe)) {X} (step : A -> X -> A) (l : list X) :
  (forall acc x, NoDup (keys (proj acc)) -> desc now (proj acc) (proj (step acc x))) ->
  forall acc, NoDup (keys (proj acc)) -> desc now (proj acc) (proj (fold_left step l acc)).
Proof.
  intros Hstep. induction l as [|x t IH]; intros acc Hnd; simpl; [apply desc_refl; assumption|].
  eapply desc_trans; [apply Hstep; assumption|]. apply IH. eapply desc_nodup. apply Hstep. assumption.
Qed.

(* conflict handling keeps one probe per name *)
Lemma update_hostname_nodup rg orig new_name pt :
  NoDup (keys (rg_probing rg)) -> NoDup (keys (rg_probing (fst (update_hostname rg orig new_name pt)))).
Proof.
  intros Hnd. unfold update_hostname.
  match goal with |- context [fold_left ?st ?l ?acc] =>
    apply (fold_left_inv (fun a : registry * bool => NoDup (keys (rg_probing (fst a)))) st l)
  end.
  - intros [rg1 added] r0 _ H. simpl in *.
    destruct (aget (p_name (srv_set_host new_name r0)) (rg_probing rg1)); simpl; apply NoDup_aset; assumption.
  - simpl. unfold keys. rewrite map_map. exact Hnd.
Qed.

Lemma conflict_one_nodup rg ans ct :
  NoDup (keys (rg_probing rg)) -> NoDup (keys (rg_probing (conflict_one rg ans ct))).
Proof.
  intros Hnd. unfold conflict_one.
  destruct (aget (r_name ans) (rg_probing rg)) as [pb|]; [|assumption].
  match goal with |- context [fold_left ?st ?l ?acc] =>
    apply (fold_left_inv (fun a : registry => NoDup (keys (rg_probing a))) st l)
  end.
  - intros rg1 r _ H.
    pose proof (update_hostname_nodup rg1 (r_name ans) (p_name r) ct H) as H2.
    destruct (update_hostname rg1 (r_name ans) (p_name r) ct) as [rg2 b]. simpl in *.
    apply NoDup_aset. assumption.
  - simpl. apply NoDup_aset. assumption.
Qed.

Lemma apply_conflict_nodup rg ans ct :
  NoDup (keys (rg_probing rg)) -> NoDup (keys (rg_probing (apply_conflict rg ans ct))).
Proof.
  intros H. unfold apply_conflict. destruct (conflict_applies rg ans); [apply conflict_one_nodup|]; assumption.
Qed.

(* conflict handling may restart probes (new names, and the probe of an SRV record whose target host
   was renamed): the spacing count starts afresh after it *)
Definition ghost_after (f : lastmap) (o : rop) (qs : list bytes) (now : N) : lastmap :=
  if is_conflict o then (fun _ => None) else upd_all f qs now.

Lemma apply_op_inv rg f t now o rg' qs ex :
  Inv (rg_probing rg) f t -> t <= now -> apply_op rg now o = (rg', qs, ex) ->
  Inv (rg_probing rg') (ghost_after f o qs now) now /\
  (forall n, In n qs \/ In n ex -> match f n with Some L => L + 250 <= now | None => True end).
Proof.
  intros HI Hle Hop. destruct o as [|jr jsvc jj|qn incoming|ans cj]; simpl in Hop; unfold ghost_after; simpl.
  - destruct (tick_names_inv _ _ _ _ _ _ _ HI Hle Hop) as (H1 & H2 & _). auto.
  - inversion Hop; subst. split; [|intros n [[]|[]]].
    eapply Inv_desc; [exact HI|exact Hle|]. apply join_desc. destruct HI; assumption.
  - inversion Hop; subst. split; [|intros n [[]|[]]].
    eapply Inv_desc; [exact HI|exact Hle|]. apply apply_tiebreak_desc. destruct HI; assumption.
  - inversion Hop; subst. split; [|intros n [[]|[]]].
    apply Inv_reset. apply apply_conflict_nodup. destruct HI; assumption.
Qed.

Lemma spaced_run ops : forall rg f t n,
  Inv (rg_probing rg) f t -> times_from t ops -> spaced_250 n (f n) ops (run_ops rg ops).
Proof.
  induction ops as [|[now o] rest IH]; intros rg f t n HI Ht; simpl; [exact I|].
  destruct Ht as [Hle Hrest].
  destruct (apply_op rg now o) as [[rg' qs] ex] eqn:Hop.
  destruct (apply_op_inv _ _ _ _ _ _ _ _ HI Hle Hop) as [HI' Hsp].
  split.
  - intros [H|H]; apply mem_In in H; apply Hsp; auto.
  - specialize (IH rg' (ghost_after f o qs now) now n HI' Hrest).
    unfold ghost_after in IH. destruct (is_conflict o); [exact IH|unfold upd_all in IH; exact IH].
Qed.

Theorem probe_spacing_all_schedules : forall ops n t0,
  times_from t0 ops -> spaced_250 n None ops (run_ops reg_new ops).
Proof.
  intros ops n t0 Ht. apply (spaced_run ops reg_new (fun _ => None) t0 n); [apply Inv_init|assumption].
Qed.

Definition no_conflicts (ops : list (N * rop)) : Prop := Forall (fun o => is_conflict (snd o) = false) ops.

Lemma spaced_probe_times n : forall ops rg last,
  no_conflicts ops -> spaced_250 n last ops (run_ops rg ops) ->
  gaps_250 (probe_times n (run_ops rg ops)) /\
  match last, probe_times n (run_ops rg ops) with Some l, a :: _ => l + 250 <= a | _, _ => True end.
Proof.
  induction ops as [|[t o] r IH]; intros rg last Hnc H; simpl in *.
  - split; [exact I|destruct last; exact I].
  - inversion Hnc as [|x l Ho Hr]; subst. simpl in Ho.
    destruct (apply_op rg t o) as [[rg' qs] ex] eqn:Hop. simpl in *. rewrite Ho in H.
    destruct H as [H1 H2]. unfold probe_times in *. cbn [flat_map].
    destruct (mem n qs) eqn:M; simpl.
    + destruct (IH rg' _ Hr H2) as [G1 G2]. split.
      * destruct (flat_map _ (run_ops rg' r)) eqn:P; [exact I|]. split; assumption.
      * destruct last; [apply H1; auto|exact I].
    + apply IH; assumption.
Qed.

Lemma apply_op_nodup rg now o :
  NoDup (keys (rg_probing rg)) -> NoDup (keys (rg_probing (fst (fst (apply_op rg now o))))).
Proof.
  intros H. destruct o; simpl.
  - apply tick_names_nodup, H.
  - unfold is_probing_done. destruct (in_active rg r); simpl; [exact H|apply NoDup_aset, H].
  - unfold apply_tiebreak. destruct (aget qn (rg_probing rg)); simpl; [apply NoDup_aset, H|exact H].
  - apply apply_conflict_nodup, H.
Qed.

Lemma final_reg_nodup ops : forall rg,
  NoDup (keys (rg_probing rg)) -> NoDup (keys (rg_probing (final_reg rg ops))).
Proof. induction ops as [|[now o] r IH]; intros rg H; simpl; [exact H|]. apply IH, apply_op_nodup, H. Qed.

(* the probe for n started at T and has sent k queries: the next step is due at T + 250 k *)
Definition phase (rg : registry) (n : bytes) (T : N) (k : nat) : Prop :=
  exists p, aget n (rg_probing rg) = Some p /\ pb_start p = T /\ pb_next p = T + 250 * N.of_nat k.

Definition timetable (T : N) : list N := [T; T + 250; T + 500].

Lemma probe_times_cons n t qs ex tr :
  probe_times n ((t, qs, ex) :: tr) = (if mem n qs then [t] else []) ++ probe_times n tr.
Proof. reflexivity. Qed.

Lemma activation_times_cons n t qs ex tr :
  activation_times n ((t, qs, ex) :: tr) = (if mem n ex then [t] else []) ++ activation_times n tr.
Proof. reflexivity. Qed.

Lemma phase_tick rg n T k t rg' qs ex :
  NoDup (keys (rg_probing rg)) -> phase rg n T k -> (k <= 3)%nat -> t <= T + 250 * N.of_nat k ->
  tick_names rg t = (rg', qs, ex) ->
  (t < T + 250 * N.of_nat k /\ mem n qs = false /\ mem n ex = false /\ phase rg' n T k) \/
  (t = T + 250 * N.of_nat k /\ (k < 3)%nat /\ mem n qs = true /\ mem n ex = false /\ phase rg' n T (S k)) \/
  (t = T + 750 /\ k = 3%nat /\ mem n qs = false /\ mem n ex = true /\ aget n (rg_probing rg') = None).
Proof.
  intros Hnd (p & G & Hs & Hn) Hk Hle Htk.
  destruct (tick_names_at rg t rg' qs ex n Hnd Htk) as (Q & E & G'). rewrite G in Q, E, G'.
  assert (C : t < T + 250 * N.of_nat k \/ (t = T + 250 * N.of_nat k /\ (k < 3)%nat) \/ (t = T + 750 /\ k = 3%nat)) by lia.
  destruct C as [C|[[C C']|[C C']]].
  - left. assert (S : sends t p = false) by (apply not_true_is_false; rewrite sends_iff; lia).
    assert (X : expires t p = false) by (apply not_true_is_false; rewrite expires_iff; lia).
    rewrite X, (tick_probe_id _ _ S) in G'. repeat split; try congruence. exists p. auto.
  - right. left. assert (S : sends t p = true) by (apply sends_iff; lia).
    rewrite (sends_expires_excl _ _ S) in *. repeat split; try congruence.
    exists (tick_probe t p). rewrite tick_probe_start, (tick_probe_next _ _ S). repeat split; [exact G'|exact Hs|lia].
  - right. right. assert (S : sends t p = false) by (apply not_true_is_false; rewrite sends_iff; lia).
    assert (X : expires t p = true) by (apply expires_iff; lia).
    rewrite X in G'. repeat split; congruence.
Qed.

Lemma absent_silent n : forall ts rg,
  NoDup (keys (rg_probing rg)) -> aget n (rg_probing rg) = None ->
  probe_times n (run_ops rg (ticks ts)) = [] /\ activation_times n (run_ops rg (ticks ts)) = [].
Proof.
  induction ts as [|t ts IH]; intros rg Hnd G; simpl; [auto|].
  destruct (tick_names rg t) as [[rg' qs] ex] eqn:Htk.
  destruct (tick_names_at rg t rg' qs ex n Hnd Htk) as (Q & E & G'). rewrite G in Q, E, G'.
  rewrite probe_times_cons, activation_times_cons, Q, E. apply IH; [|exact G'].
  exact (tick_names_nodup_eq rg t rg' qs ex Hnd Htk).
Qed.

Lemma skipn_timetable T k : (k < 3)%nat -> skipn k (timetable T) = (T + 250 * N.of_nat k) :: skipn (S k) (timetable T).
Proof. intros H. destruct k as [|[|[|k]]]; [| | |lia]; unfold timetable; cbn [skipn]; f_equal; lia. Qed.

Lemma exact_from_phase n T : forall ts rg k,
  NoDup (keys (rg_probing rg)) -> (k <= 3)%nat -> phase rg n T k -> never_late_for n rg ts ->
  exists j, (k + j <= 3)%nat /\
    probe_times n (run_ops rg (ticks ts)) = firstn j (skipn k (timetable T)) /\
    (activation_times n (run_ops rg (ticks ts)) = [] \/
     ((k + j = 3)%nat /\ activation_times n (run_ops rg (ticks ts)) = [T + 750])).
Proof.
  induction ts as [|t ts IH]; intros rg k Hnd Hk Hph Hnl.
  - exists O. simpl. split; [lia|]. split; [reflexivity|left; reflexivity].
  - simpl in Hnl. destruct Hnl as [Hle Hnl]. pose proof Hph as (p & G & _ & Hn). rewrite G, Hn in Hle.
    simpl. destruct (tick_names rg t) as [[rg' qs] ex] eqn:Htk. simpl in Hnl.
    assert (Hnd' : NoDup (keys (rg_probing rg'))).
    { exact (tick_names_nodup_eq rg t rg' qs ex Hnd Htk). }
    rewrite probe_times_cons, activation_times_cons.
    destruct (phase_tick rg n T k t rg' qs ex Hnd Hph Hk Hle Htk)
      as [(_ & -> & -> & Hph')|[(Ht & Hk3 & -> & -> & Hph')|(Ht & -> & -> & -> & G')]].
    + apply (IH rg' k Hnd' Hk Hph' Hnl).
    + destruct (IH rg' (S k) Hnd' Hk3 Hph' Hnl) as (j & Hj & Hp & Ha). exists (S j). split; [lia|].
      rewrite Hp, (skipn_timetable T k Hk3), Ht. split; [reflexivity|].
      destruct Ha as [Ha|[Ha1 Ha2]]; [left; exact Ha|right; split; [lia|exact Ha2]].
    + destruct (absent_silent n ts rg' Hnd' G') as [-> ->]. exists O. split; [lia|]. split; [reflexivity|].
      right. split; [reflexivity|]. rewrite Ht. reflexivity.
Qed.

Lemma three_probes_exact : forall n T ts rg t0,
  NoDup (keys (rg_probing rg)) -> phase rg n T 0 ->
  times_from t0 (ticks ts) -> never_late_for n rg ts ->
  exists j, (j <= 3)%nat /\
    probe_times n (run_ops rg (ticks ts)) = firstn j [T; T + 250; T + 500] /\
    (activation_times n (run_ops rg (ticks ts)) = [] \/
     (j = 3%nat /\ activation_times n (run_ops rg (ticks ts)) = [T + 750])).
Proof.
  intros n T ts rg t0 Hnd Hph _ Hnl.
  destruct (exact_from_phase n T ts rg 0 Hnd ltac:(lia) Hph Hnl) as (j & Hj & Hp & Ha).
  exists j. split; [lia|]. split; [exact Hp|]. destruct Ha as [Ha|[Ha1 Ha2]]; [left; exact Ha|right; split; [lia|exact Ha2]].
Qed.

Lemma phase_tick_due rg n T k t rg' qs ex :
  NoDup (keys (rg_probing rg)) -> phase rg n T k -> (k <= 3)%nat -> t = T + 250 * N.of_nat k ->
  tick_names rg t = (rg', qs, ex) ->
  NoDup (keys (rg_probing rg')) /\
  ((k < 3)%nat -> mem n qs = true /\ mem n ex = false /\ phase rg' n T (S k)) /\
  (k = 3%nat -> mem n qs = false /\ mem n ex = true).
Proof.
  intros Hnd Hph Hk Ht Htk. split.
  - exact (tick_names_nodup_eq rg t rg' qs ex Hnd Htk).
  - destruct (phase_tick rg n T k t rg' qs ex Hnd Hph Hk ltac:(lia) Htk) as [(?&_)|[(_&?&?&?&?)|(_&?&?&?&_)]]; [lia| |].
    + split; [auto|lia].
    + split; [lia|auto].
Qed.

Lemma exact_full rg n T :
  NoDup (keys (rg_probing rg)) -> phase rg n T 0 ->
  let tr := run_ops rg (ticks [T; T + 250; T + 500; T + 750]) in
  probe_times n tr = [T; T + 250; T + 500] /\ activation_times n tr = [T + 750].
Proof.
  intros N0 P0. cbn [ticks map run_ops apply_op].
  destruct (tick_names rg T) as [[rg1 qs1] ex1] eqn:H1.
  destruct (phase_tick_due rg n T 0 T rg1 qs1 ex1 N0 P0) as (N1 & S1 & _); [lia|simpl; lia|exact H1|].
  destruct S1 as (Q1 & E1 & P1); [lia|].
  destruct (tick_names rg1 (T + 250)) as [[rg2 qs2] ex2] eqn:H2.
  destruct (phase_tick_due rg1 n T 1 (T + 250) rg2 qs2 ex2 N1 P1) as (N2 & S2 & _); [lia|simpl; lia|exact H2|].
  destruct S2 as (Q2 & E2 & P2); [lia|].
  destruct (tick_names rg2 (T + 500)) as [[rg3 qs3] ex3] eqn:H3.
  destruct (phase_tick_due rg2 n T 2 (T + 500) rg3 qs3 ex3 N2 P2) as (N3 & S3 & _); [lia|simpl; lia|exact H3|].
  destruct S3 as (Q3 & E3 & P3); [lia|].
  destruct (tick_names rg3 (T + 750)) as [[rg4 qs4] ex4] eqn:H4.
  destruct (phase_tick_due rg3 n T 3 (T + 750) rg4 qs4 ex4 N3 P3) as (_ & _ & X4); [lia|simpl; lia|exact H4|].
  destruct X4 as (Q4 & E4); [reflexivity|].
  rewrite !probe_times_cons, !activation_times_cons, Q1, E1, Q2, E2, Q3, E3, Q4, E4. split; reflexivity.
Qed.

Lemma join_creates_phase0 rg r svc T :
  in_active rg r = false -> aget (p_name r) (rg_probing rg) = None ->
  phase (fst (is_probing_done rg r svc T)) (p_name r) T 0.
Proof.
  intros Ha Hg. unfold is_probing_done. rewrite Ha, Hg. simpl.
  eexists. split; [apply aget_aset_same|]. simpl. split; [reflexivity|lia].
Qed.

Lemma join_then_exact rg r svc now j :
  NoDup (keys (rg_probing rg)) -> in_active rg r = false -> aget (p_name r) (rg_probing rg) = None -> j < 250 ->
  let T := now + j in
  let tr := run_ops (fst (is_probing_done rg r svc T)) (ticks [T; T + 250; T + 500; T + 750]) in
  probe_times (p_name r) tr = [T; T + 250; T + 500] /\ activation_times (p_name r) tr = [T + 750] /\
  T + 750 < now + 250 + 750.
Proof.
  intros Hnd Ha Hg Hj T tr.
  destruct (exact_full (fst (is_probing_done rg r svc T)) (p_name r) T) as [H1 H2].
  - apply (apply_op_nodup rg now (OJoin r svc j)), Hnd.
  - apply join_creates_phase0; assumption.
  - split; [exact H1|split; [exact H2|unfold T; lia]].
Qed.

(* the names with active records grow only by the names a probing pass activates *)
Lemma expire_one_active rg name m :
  In m (keys (rg_active (fst (fst (expire_one rg name))))) -> m = name \/ In m (keys (rg_active rg)).
Proof.
  unfold expire_one. destruct (aget name (rg_probing rg)) as [pb|]; [|auto].
  destruct (pb_records pb); cbn [fst rg_active]; [auto|].
  destruct (aget name (rg_active rg)); apply keys_aset.
Qed.

Lemma expire_all_active ex : forall rg m,
  In m (keys (rg_active (fst (fst (expire_all rg ex))))) -> In m ex \/ In m (keys (rg_active rg)).
Proof.
  induction ex as [|n t IH]; intros rg m; simpl; [auto|].
  pose proof (expire_one_active rg n m) as H1. destruct (expire_one rg n) as [[rg1 ev1] w1].
  pose proof (IH rg1 m) as H2. destruct (expire_all rg1 t) as [[rg2 ev2] w2]. cbn [fst] in *.
  intros H. destruct (H2 H) as [?|H3]; [auto|]. destruct (H1 H3) as [->|?]; auto.
Qed.

Lemma update_hostname_active rg orig new_name pt :
  keys (rg_active (fst (update_hostname rg orig new_name pt))) = keys (rg_active rg).
Proof.
  unfold update_hostname.
  match goal with |- context [fold_left ?st ?l ?acc] =>
    rewrite (fold_left_inv (fun a => rg_active (fst a) = rg_active (fst acc)) st l)
  end.
  - apply keys_map_val.
  - intros [rg1 added] x _ Ha. simpl in *.
    destruct (aget (p_name (srv_set_host new_name x)) (rg_probing rg1)); exact Ha.
  - reflexivity.
Qed.

Lemma conflict_one_active rg ans ct : keys (rg_active (conflict_one rg ans ct)) = keys (rg_active rg).
Proof.
  unfold conflict_one. destruct (aget (r_name ans) (rg_probing rg)) as [pb|]; [|reflexivity].
  match goal with |- context [fold_left ?st ?l ?acc] =>
    apply (fold_left_inv (fun a => keys (rg_active a) = keys (rg_active rg)) st l); [|reflexivity]
  end.
  intros a x _ Ha. rewrite <- Ha, <- (update_hostname_active a (r_name ans) (p_name x) ct).
  destruct (update_hostname a (r_name ans) (p_name x) ct) as [rg2 b]. reflexivity.
Qed.

Definition all_activations (tr : list (N * list bytes * list bytes)) : list bytes :=
  flat_map (fun e => snd e) tr.

Lemma apply_op_active rg now o m :
  In m (keys (rg_active (fst (fst (apply_op rg now o))))) -> In m (snd (apply_op rg now o)) \/ In m (keys (rg_active rg)).
Proof.
  destruct o as [|r svc j|qn incoming|ans j]; simpl.
  - rewrite tick_names_spec. cbn [fst snd]. exact (expire_all_active _ (mkReg _ _ _) m).
  - unfold is_probing_done. destruct (in_active rg r); auto.
  - unfold apply_tiebreak. destruct (aget qn (rg_probing rg)); auto.
  - unfold apply_conflict. destruct (conflict_applies rg ans); [rewrite conflict_one_active|]; auto.
Qed.

Lemma run_ops_active ops : forall rg m,
  In m (keys (rg_active (final_reg rg ops))) -> In m (all_activations (run_ops rg ops)) \/ In m (keys (rg_active rg)).
Proof.
  induction ops as [|[now o] t IH]; intros rg m; simpl; [auto|].
  pose proof (apply_op_active rg now o m) as H1. destruct (apply_op rg now o) as [[rg' qs] ex]. cbn [fst snd] in *.
  intros H. unfold all_activations. cbn [flat_map snd]. rewrite in_app_iff.
  destruct (IH rg' m H); tauto.
Qed.

Theorem silent_until_activated ops r svc start :
  snd (is_probing_done (final_reg reg_new ops) r svc start) = true ->
  In (p_name r) (all_activations (run_ops reg_new ops)).
Proof.
  intros H. unfold is_probing_done in H.
  destruct (in_active (final_reg reg_new ops) r) eqn:A; [|simpl in H; discriminate].
  unfold in_active in A. destruct (aget (p_name r) (rg_active (final_reg reg_new ops))) as [rs|] eqn:G; [|discriminate].
  apply aget_In, (in_map fst) in G. destruct (run_ops_active ops reg_new _ G) as [Hin|[]]. exact Hin.
Qed.
