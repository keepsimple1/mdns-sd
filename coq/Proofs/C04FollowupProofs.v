(* C04, the follow-up clause in the property's own terms, over the model's trace:
   an instance that is reported found and not reported resolved in an iteration is, at the end of
   that iteration, in pending_resolves, or one of its follow-up tries ran in that iteration;
   a pending instance has a try queued that is due within 500 ms (C04PendingProofs,
   C04ScheduleProofs); a queued try runs in the first iteration at or after its due time and asks
   exactly the question the checker expects (try_asks_expected of C04PendingProofs).  Outside the class
   known_found_withdrawn (ServiceFound for a PTR whose goodbye follows in the same message). *)
From Coq Require Import List NArith Bool.
From Mdns Require Import Bytes Rec ParamsBrowser Cache Browser C03Spec BrowserSpec BrowserKnown CacheProofs SpecTrackProofs BrowserLoopProofs C04ScheduleProofs C04PendingProofs C05SafetyProofs C05TimelyProofs.
Import ListNotations.
Open Scope N_scope.

(* i is in pending_resolves; i is not reported resolved in o; i is reported found in o *)
Definition pend (i : bytes) (s : st) : Prop := mem i (s_pending s) = true.
Definition NR (i : bytes) (o : list out) : Prop := forall ch r, In (OEvt ch (EResolved r)) o -> rs_name r <> i.
Definition FD (i : bytes) (o : list out) : Prop := exists ch ty, In (OEvt ch (EFound ty i)) o.

Lemma NR_app i a b : NR i (a ++ b) <-> NR i a /\ NR i b.
Proof.
  unfold NR. split.
  - intros H. split; intros ch r Hin; apply (H ch r); apply in_app_iff; auto.
  - intros [A B] ch r Hin. apply in_app_iff in Hin as [Hin|Hin]; eauto.
Qed.

Lemma pend_after s s' i new (res unres : bytes -> Prop) :
  (forall j, In j (s_pending s') <-> (In j (s_pending s) /\ ~ res j) \/ In j new) ->
  (forall j, In j new <-> unres j /\ ~ (In j (s_pending s) /\ ~ res j)) ->
  ~ res i -> (pend i s \/ unres i) -> pend i s'.
Proof.
  intros P Nw Hr Hc. unfold pend in *. apply mem_In, P. destruct (mem i (s_pending s)) eqn:E.
  - left. split; [now apply mem_In|exact Hr].
  - right. apply Nw. destruct Hc as [Hc|Hc]; [congruence|]. split; [exact Hc|].
    intros [Hin _]. apply mem_In in Hin. congruence.
Qed.

Lemma resolve_updated_no_found s now updated ch ty i : ~ In (OEvt ch (EFound ty i)) (snd (resolve_updated s now updated)).
Proof. intros H. apply resolve_updated_out in H as [(t & c0 & p & _ & _ & E)|(t & c0 & j & _ & _ & E)]; discriminate. Qed.

(* resolve_updated_instances keeps an instance pending unless it reports it resolved, and makes
   pending every updated instance with a live PTR under a browsed name that it does not resolve *)
Lemma resolve_updated_pend s now updated i :
  NR i (snd (resolve_updated s now updated)) ->
  (pend i s \/ exists ty ch ptrs p, In (ty, ptrs) (c_ptr (s_cache s)) /\ q_get ty (s_q s) = Some ch /\ In p ptrs
                                  /\ expires_soon p now = false /\ alias_of (e_rr p) = i /\ mem i updated = true) ->
  pend i (fst (resolve_updated s now updated)).
Proof.
  intros Hnr Hc. destruct (resolve_updated_fields s now updated) as (_ & _ & _ & new & P & _ & Nw).
  assert (Hres : ~ ru_res s now updated i).
  { intros (ty & ch & p & He & Hv & Ha). apply (Hnr ch (resolve_from_cache (s_cache s) now ty (alias_of (e_rr p)))); [|exact Ha].
    apply resolve_updated_out. left. exists ty, ch, p. auto. }
  apply (pend_after s _ i new _ _ P Nw Hres). destruct Hc as [Hp|(ty & ch & ptrs & p & A & B & C & D & E & F)]; [now left|right].
  assert (He : ru_entry s now updated ty ch p) by (exists ptrs; rewrite E; auto).
  destruct (ru_valid (s_cache s) now ty p) eqn:Hv; [destruct Hres|]; exists ty, ch, p; auto.
Qed.

Lemma hr_found now ifx q fu ch ty i : forall rs c,
  In (OEvt ch (EFound ty i)) (snd (fst (hr_records c now ifx q fu rs))) ->
  In (TY_PTR, i) (snd (hr_records c now ifx q fu rs)) /\ q_get ty q = Some ch.
Proof.
  induction rs as [|r rest IH]; intros c; simpl; [tauto|].
  destruct (add_or_update c now ifx r fu) as [c1 res]. specialize (IH c1).
  destruct (hr_records c1 now ifx q fu rest) as [[c2 o2] ch2]. cbn [fst snd] in *.
  assert (Hrest : In (OEvt ch (EFound ty i)) o2 -> forall a, In (TY_PTR, i) (a ++ ch2) /\ q_get ty q = Some ch).
  { intros H a. destruct (IH H) as [A B]. split; [apply in_app_iff; now right|exact B]. }
  destruct res as [[e [|]]|]; simpl; try (intros H; apply (Hrest H [])).
  destruct ((e_type e =? TY_PTR) && found_ttl_guard (e_ttl e)); simpl; [|intros H; apply (Hrest H [_])].
  destruct (q_get (e_name e) q) as [ch0|] eqn:Eq; simpl.
  - intros [H|H]; [|apply (Hrest H [_])]. inversion H; subst. split; [now left|exact Eq].
  - intros H. apply (Hrest H [_]).
Qed.

Lemma handle_read_pend ifs s now d i :
  read_found_withdrawn ifs s now d = false -> NR i (snd (handle_read ifs s now d)) ->
  (pend i s \/ FD i (snd (handle_read ifs s now d))) -> pend i (fst (handle_read ifs s now d)).
Proof.
  unfold handle_read, read_found_withdrawn. destruct (accepted_msg ifs d) as [m|].
  2:{ intros _ _ [H|(ch & ty & [])]. exact H. }
  unfold handle_response.
  pose proof (hr_found now (d_if d) (s_q s) (for_us (s_q s) (m_answers m))) as Hf.
  destruct (hr_records (s_cache s) now (d_if d) (s_q s) (for_us (s_q s) (m_answers m))
              (m_answers m ++ m_authorities m ++ m_additionals m)) as [[c1 o1] changes] eqn:Ehr.
  pose proof (resolve_updated_pend (with_cache s c1) now (updated_of c1 changes) i) as Hru.
  pose proof (fun ch ty => resolve_updated_no_found (with_cache s c1) now (updated_of c1 changes) ch ty i) as Hnf.
  destruct (resolve_updated (with_cache s c1) now (updated_of c1 changes)) as [s2 o2]. cbn [fst snd] in *.
  intros Hcls Hnr Hc. apply NR_app in Hnr as [_ Hnr2]. apply (Hru Hnr2).
  destruct Hc as [Hp|(ch & ty & Hin)]; [left; exact Hp|right].
  apply in_app_iff in Hin as [Hin|Hin]; [|destruct (Hnf ch ty Hin)].
  specialize (Hf ch ty i (m_answers m ++ m_authorities m ++ m_additionals m) (s_cache s)). rewrite Ehr in Hf. cbn [fst snd] in Hf. destruct (Hf Hin) as [Hch Hq].
  pose proof (existsb_false_forall _ _ Hcls _ Hin) as Hw. cbv beta in Hw. apply negb_false_iff in Hw.
  destruct (bm_get ty (c_ptr c1)) as [b|] eqn:Eb; [|discriminate].
  apply existsb_exists in Hw as [p [Hp Hpp]]. apply andb_true_iff in Hpp as [Hal Hs].
  apply beq_eq in Hal. apply negb_true_iff in Hs.
  exists ty, ch, b, p. cbn [s_cache s_q with_cache]. split; [now apply bm_get_In|]. split; [exact Hq|].
  split; [exact Hp|]. split; [exact Hs|]. split; [exact Hal|].
  apply mem_In. unfold updated_of. apply in_flat_map. exists (TY_PTR, i). split; [exact Hch|]. simpl. now left.
Qed.

Lemma reads_pend ifs now i : forall ds s,
  reads_found_withdrawn ifs s now ds = false -> NR i (snd (run_cmds (handle_read ifs) s now ds)) ->
  (pend i s \/ FD i (snd (run_cmds (handle_read ifs) s now ds))) -> pend i (fst (run_cmds (handle_read ifs) s now ds)).
Proof.
  induction ds as [|d rest IH]; intros s Hcls Hnr Hc; simpl in *.
  - destruct Hc as [H|(ch & ty & [])]. exact H.
  - apply orb_false_iff in Hcls as [Hc1 Hc2].
    pose proof (handle_read_pend ifs s now d i Hc1) as H1.
    destruct (handle_read ifs s now d) as [s1 o1]. cbn [fst snd] in *.
    specialize (IH s1 Hc2).
    destruct (run_cmds (handle_read ifs) s1 now rest) as [s2 o2]. cbn [fst snd] in *.
    apply NR_app in Hnr as [Hn1 Hn2]. apply (IH Hn2).
    destruct Hc as [Hp|(ch & ty & Hin)]; [left; apply (H1 Hn1); now left|].
    apply in_app_iff in Hin as [Hin|Hin]; [left; apply (H1 Hn1); right; exists ch, ty; exact Hin|right; exists ch, ty; exact Hin].
Qed.

Lemma exec_call_pend s now cl i :
  NR i (snd (exec_call s now cl)) -> (pend i s \/ FD i (snd (exec_call s now cl))) -> pend i (fst (exec_call s now cl)).
Proof.
  destruct cl as [ty ch|ty|inst timeout|ch0]; simpl.
  - intros Hnr Hc. destruct (exec_browse_fields s now ty ch) as (_ & _ & _ & new & P & _ & Nw).
    assert (Hres : ~ qc_res s now ty true i).
    { intros (ptrs & p & Eb & Hp & Hs & Hv & Ha).
      apply (Hnr ch (resolve_from_cache (s_cache s) now ty (alias_of (e_rr p)))); [|exact Ha].
      apply exec_browse_out. exists ptrs, p. repeat (split; [assumption|]). right. split; [exact Hv|reflexivity]. }
    apply (pend_after s _ i new _ _ P Nw Hres). destruct Hc as [Hp|(c0 & t0 & Hin)]; [now left|right].
    apply exec_browse_out in Hin as (ptrs & p & Eb & Hp & Hs & [E|[_ E]]); [|discriminate]. inversion E; subst.
    destruct (ru_valid (s_cache s) now ty p) eqn:Hv; [destruct Hres|]; exists ptrs, p; auto.
  - unfold exec_stop. destruct (q_get ty (s_q s)); intros _ [H|(c0 & t0 & [])]; exact H.
  - unfold exec_verify. destruct (service_verify_queries (s_cache s) inst (Some (now + timeout))) as [c1 qs].
    destruct qs; simpl; intros _ [H|(c0 & t0 & Hin)]; try exact H; try destruct Hin as [Hin|[]]; try discriminate; destruct Hin.
  - intros _ [H|(c0 & t0 & [Hin|[]])]; [exact H|discriminate].
Qed.

Lemma calls_pend now i : forall cls s,
  NR i (snd (run_cmds exec_call s now cls)) ->
  (pend i s \/ FD i (snd (run_cmds exec_call s now cls))) -> pend i (fst (run_cmds exec_call s now cls)).
Proof.
  induction cls as [|cl rest IH]; intros s Hnr Hc; simpl in *.
  - destruct Hc as [H|(ch & ty & [])]. exact H.
  - pose proof (exec_call_pend s now cl i) as H1.
    destruct (exec_call s now cl) as [s1 o1]. cbn [fst snd] in *. specialize (IH s1).
    destruct (run_cmds exec_call s1 now rest) as [s2 o2]. cbn [fst snd] in *.
    apply NR_app in Hnr as [Hn1 Hn2]. apply (IH Hn2).
    destruct Hc as [Hp|(ch & ty & Hin)]; [left; apply (H1 Hn1); now left|].
    apply in_app_iff in Hin as [Hin|Hin]; [left; apply (H1 Hn1); right; exists ch, ty; exact Hin|right; exists ch, ty; exact Hin].
Qed.

Lemma rcmd_pend s now c i : pend i s -> (forall n, c <> RResolve i n) -> pend i (fst (exec_rcmd s now c)).
Proof.
  intros Hp Hne. destruct c as [j n|j timeout]; simpl.
  - unfold exec_resolve.
    destruct (if has_ptr_to (s_cache s) j then query_unresolved (s_cache s) j else (false, [])) as [sent o].
    destruct (sent && retry_guard n max_try); cbn [fst]; unfold pend in *; cbn [s_pending]; [exact Hp|].
    rewrite mem_set_remove_other; [exact Hp|]. destruct (beq i j) eqn:E; [|reflexivity].
    apply beq_eq in E. subst j. exfalso. now apply (Hne n).
  - unfold exec_verify. destruct (service_verify_queries (s_cache s) j None) as [c1 qs]. destruct qs; exact Hp.
Qed.

Lemma rcmds_pend now i : forall l s,
  pend i s -> (forall n, ~ In (RResolve i n) l) -> pend i (fst (run_cmds exec_rcmd s now l)).
Proof.
  induction l as [|c rest IH]; intros s Hp Hn; simpl; [exact Hp|].
  pose proof (rcmd_pend s now c i Hp) as H1. destruct (exec_rcmd s now c) as [s1 o1]. cbn [fst] in *.
  specialize (IH s1). destruct (run_cmds exec_rcmd s1 now rest) as [s2 o2]. cbn [fst]. apply IH.
  - apply H1. intros n E. apply (Hn n). now left.
  - intros n Hin. apply (Hn n). now right.
Qed.

Lemma resolve_hosts_pend now i : forall names s,
  NR i (snd (resolve_hosts s now names)) -> pend i s -> pend i (fst (resolve_hosts s now names)).
Proof.
  induction names as [|h t IH]; intros s Hnr Hp; simpl in *; [exact Hp|].
  pose proof (resolve_updated_pend s now (dedup (get_instances_on_host (s_cache s) h)) i) as H1.
  destruct (resolve_updated s now (dedup (get_instances_on_host (s_cache s) h))) as [s1 o1]. cbn [fst snd] in *.
  specialize (IH s1). destruct (resolve_hosts s1 now t) as [s2 o2]. cbn [fst snd] in *.
  apply NR_app in Hnr as [Hn1 Hn2]. apply (IH Hn2). apply (H1 Hn1). now left.
Qed.

Lemma evict_pend s now i : NR i (snd (evict s now)) -> pend i s -> pend i (fst (evict s now)).
Proof.
  unfold evict. destruct (evict_services (s_cache s) now) as [c1 expired]. destruct (evict_addr c1 now) as [c2 names].
  pose proof (resolve_hosts_pend now i (dedup names) (with_cache s c2)) as H.
  destruct (resolve_hosts (with_cache s c2) now (dedup names)) as [s2 o2]. cbn [fst snd] in *.
  intros Hnr Hp. apply NR_app in Hnr as [_ Hn2]. apply (H Hn2). exact Hp.
Qed.

(* the follow-up tries that run in the iteration: the Resolve retransmissions that are due when the
   retransmission pass starts (after the datagrams and the commands) *)
Definition due_tries (ifs : iftab) (s : st) (it : iter) : list (bytes * N) :=
  let now := i_now it in
  let s1 := fst (run_cmds (handle_read ifs) s now (deliveries_in_order (i_dgrams it))) in
  let s2 := fst (run_cmds exec_call s1 now (i_calls it)) in
  flat_map (fun tc => match snd tc with RResolve i n => [(i, n)] | _ => [] end)
           (filter (fun tc => fst tc <=? now) (s_retrans s2)).

(* o consists of query packets only *)
Definition allq (o : list out) : Prop := forall x, In x o -> exists qs, x = OQuery qs.

Lemma allq_app a b : allq a -> allq b -> allq (a ++ b).
Proof. intros Ha Hb x Hx. apply in_app_iff in Hx as [Hx|Hx]; auto. Qed.

Lemma rcmd_allq s now c : allq (snd (exec_rcmd s now c)).
Proof.
  destruct c as [j n|j timeout]; simpl.
  - rewrite try_asks_expected. destruct (expected_followup (s_cache s) j) as [[nm ty]|]; [|intros x []].
    destruct (ty =? TY_ANY); intros x [<-|[]]; eauto.
  - unfold exec_verify. destruct (service_verify_queries (s_cache s) j None) as [c1 qs].
    destruct qs; simpl; [intros x []|intros x [<-|[]]; eauto].
Qed.

Lemma rcmds_allq now l s : allq (snd (run_cmds exec_rcmd s now l)).
Proof.
  refine (proj2 (run_cmds_outs exec_rcmd now (fun _ => True) (fun x => exists qs, x = OQuery qs) _ l s I)).
  intros s0 c _. split; [exact I|apply rcmd_allq].
Qed.

Lemma resolve_hosts_no_found now ch ty i names s : ~ In (OEvt ch (EFound ty i)) (snd (resolve_hosts s now names)).
Proof.
  rewrite resolve_hosts_run. intros H.
  refine (proj2 (run_cmds_outs resolve_host now (fun _ => True) (fun x => x <> OEvt ch (EFound ty i)) _ names s I) _ H eq_refl).
  intros s0 h _. split; [exact I|]. intros x Hx ->. exact (resolve_updated_no_found _ _ _ _ _ _ Hx).
Qed.

Lemma evict_no_found s now ch ty i : ~ In (OEvt ch (EFound ty i)) (snd (evict s now)).
Proof.
  unfold evict. destruct (evict_services (s_cache s) now) as [c1 expired]. destruct (evict_addr c1 now) as [c2 names].
  pose proof (resolve_hosts_no_found now ch ty i (dedup names) (with_cache s c2)) as H.
  destruct (resolve_hosts (with_cache s c2) now (dedup names)) as [s2 o2]. cbn [snd] in *.
  intros Hin. apply in_app_iff in Hin as [Hin|Hin]; [|auto].
  apply C05AgainProofs.notify_removal_shape in Hin as (c0 & t & j & E & _). discriminate.
Qed.

(* Found and not resolved in the iteration (or pending before and not resolved): pending afterwards,
   or one of its tries ran in the iteration *)
Theorem iterate_found_unresolved ifs s it i :
  reads_found_withdrawn ifs s (i_now it) (deliveries_in_order (i_dgrams it)) = false ->
  NR i (snd (iterate ifs s it)) -> (pend i s \/ FD i (snd (iterate ifs s it))) ->
  pend i (fst (iterate ifs s it)) \/ exists n, In (i, n) (due_tries ifs s it).
Proof.
  intros Hcls. unfold iterate, due_tries. cbv zeta. set (now := i_now it) in *.
  set (dgs := deliveries_in_order (i_dgrams it)) in *.
  pose proof (reads_pend ifs now i dgs s Hcls) as P1.
  destruct (run_cmds (handle_read ifs) s now dgs) as [s1 o1]. cbn [fst snd] in *.
  pose proof (calls_pend now i (i_calls it) s1) as P2.
  destruct (run_cmds exec_call s1 now (i_calls it)) as [s2 o2]. cbn [fst snd] in *.
  unfold run_retrans.
  set (due := filter (fun tc => fst tc <=? now) (s_retrans s2)).
  set (keep := filter (fun tc => negb (fst tc <=? now)) (s_retrans s2)).
  pose proof (rcmds_pend now i (map snd due) (mkSt (s_cache s2) (s_q s2) (s_pending s2) (s_resolved s2) keep)) as P3.
  pose proof (rcmds_allq now (map snd due) (mkSt (s_cache s2) (s_q s2) (s_pending s2) (s_resolved s2) keep)) as Q3.
  destruct (run_cmds exec_rcmd (mkSt (s_cache s2) (s_q s2) (s_pending s2) (s_resolved s2) keep) now (map snd due)) as [s3 o3].
  cbn [fst snd] in *.
  pose proof (proj2 (refresh_all_csteps now (s_q s3) (s_cache s3))) as Q4.
  destruct (refresh_all (s_cache s3) now (s_q s3)) as [c4 o4]. cbn [fst snd] in *.
  pose proof (evict_pend (with_cache s3 c4) now i) as P5.
  pose proof (fun ch ty => evict_no_found (with_cache s3 c4) now ch ty i) as Q5.
  destruct (evict (with_cache s3 c4) now) as [s5 o5]. cbn [fst snd] in *.
  intros Hnr Hc.
  apply NR_app in Hnr as [N1 Hnr]. apply NR_app in Hnr as [N2 Hnr]. apply NR_app in Hnr as [_ Hnr].
  apply NR_app in Hnr as [_ N5].
  assert (Hp2 : pend i s2).
  { apply (P2 N2). destruct Hc as [Hp|(ch & ty & Hin)]; [left; apply (P1 N1); now left|].
    apply in_app_iff in Hin as [Hin|Hin]; [left; apply (P1 N1); right; exists ch, ty; exact Hin|].
    apply in_app_iff in Hin as [Hin|Hin]; [right; exists ch, ty; exact Hin|]. exfalso.
    apply in_app_iff in Hin as [Hin|Hin]; [destruct (Q3 _ Hin) as [qs E]; discriminate|].
    apply in_app_iff in Hin as [Hin|Hin]; [|exact (Q5 ch ty Hin)].
    rewrite Forall_forall in Q4. exact (Q4 _ Hin). }
  destruct (existsb (fun c => match c with RResolve j _ => beq j i | _ => false end) (map snd due)) eqn:Ex.
  - right. apply existsb_exists in Ex as [c [Hin Hc']]. destruct c as [j n|]; [|discriminate]. apply beq_eq in Hc'. subst j.
    exists n. apply in_map_iff in Hin as [[t c0] [E Hin]]. simpl in E. subst c0.
    apply in_flat_map. exists (t, RResolve i n). split; [exact Hin|]. simpl. now left.
  - left. apply (P5 N5). unfold pend. cbn [s_pending with_cache]. apply P3; [exact Hp2|].
    intros n Hin. pose proof (existsb_false_forall _ _ Ex _ Hin) as Hf. simpl in Hf. now rewrite beq_refl in Hf.
Qed.

Lemma appends_incl now r r' x : appends now r r' -> In x r -> In x r'.
Proof. intros [l [-> _]] H. apply in_app_iff. now left. Qed.

(* a queued try that is due runs in the iteration *)
Theorem queued_due_is_tried ifs s it t i n :
  In (t, RResolve i n) (s_retrans s) -> t <= i_now it -> In (i, n) (due_tries ifs s it).
Proof.
  intros Hin Hle. unfold due_tries. cbv zeta. set (now := i_now it) in *.
  pose proof (run_cmds_appends (handle_read ifs) now (fun s d => handle_read_appends ifs s now d)
                (deliveries_in_order (i_dgrams it)) s) as A1.
  destruct (run_cmds (handle_read ifs) s now (deliveries_in_order (i_dgrams it))) as [s1 o1]. cbn [fst] in *.
  pose proof (run_cmds_appends exec_call now (fun s c => exec_call_appends s now c) (i_calls it) s1) as A2.
  destruct (run_cmds exec_call s1 now (i_calls it)) as [s2 o2]. cbn [fst] in *.
  apply in_flat_map. exists (t, RResolve i n). split; [|simpl; now left].
  apply filter_In. split; [eapply appends_incl; [exact A2|]; eapply appends_incl; eauto|].
  simpl. now apply N.leb_le.
Qed.

Lemma existsb_meqr (f : entry -> bool) m m' :
  meqr m m' -> (forall e e', eqr e e' -> f e = f e') ->
  existsb (fun kb => existsb f (snd kb)) m = existsb (fun kb => existsb f (snd kb)) m'.
Proof.
  intros H Hf. induction H as [|x y l l' [_ Hb] Hl IH]; simpl; [reflexivity|].
  rewrite IH. f_equal. apply existsb_beqr; assumption.
Qed.

Lemma find_beqr (f g : entry -> bool) b b' :
  beqr b b' -> (forall e e', eqr e e' -> f e = g e') ->
  match find f b, find g b' with
  | Some x, Some y => eqr x y
  | None, None => True
  | _, _ => False
  end.
Proof.
  intros H Hfg. induction H as [|x y l l' Hxy Hl IH]; simpl; [exact I|].
  rewrite (Hfg _ _ Hxy). destruct (g y); [exact Hxy|exact IH].
Qed.

Lemma expected_followup_ceqr c c' inst : ceqr c c' -> expected_followup c inst = expected_followup c' inst.
Proof.
  intros (A1 & A2 & _ & A4 & _). unfold expected_followup.
  destruct (negb (valid_instance_name inst)); [reflexivity|].
  assert (Hp : has_ptr_to c inst = has_ptr_to c' inst).
  { unfold has_ptr_to. apply existsb_meqr; [exact A1|]. intros e e' (E & _). now rewrite E. }
  rewrite Hp. destruct (negb (has_ptr_to c' inst)); [reflexivity|].
  pose proof (meqr_get inst _ _ A2) as Hg.
  destruct (bm_get inst (c_srv c)) as [b|], (bm_get inst (c_srv c')) as [b'|]; try contradiction; [|reflexivity].
  pose proof (find_beqr (fun e => match get_addr c (srv_host e) with None => true | Some _ => false end)
                        (fun e => match get_addr c' (srv_host e) with None => true | Some _ => false end) b b' Hg) as Hf.
  match type of Hf with ?P -> _ => assert (HP : P) end.
  { intros e e' (E & _). unfold srv_host, get_addr. rewrite E.
    pose proof (meqr_get (lower (rr_host (e_rr e'))) _ _ A4) as Ha.
    destruct (bm_get _ (c_addr c)), (bm_get _ (c_addr c')); try contradiction; reflexivity. }
  specialize (Hf HP).
  destruct (find _ b) as [x|], (find _ b') as [y|]; try contradiction; [|reflexivity].
  destruct Hf as (E & _). unfold srv_host. now rewrite E.
Qed.

Lemma expected_types c inst nm ty : expected_followup c inst = Some (nm, ty) -> ty = TY_ANY \/ ty = TY_A.
Proof.
  unfold expected_followup. destruct (negb (valid_instance_name inst)); [discriminate|].
  destruct (negb (has_ptr_to c inst)); [discriminate|].
  destruct (bm_get inst (c_srv c)) as [recs|]; [|intros H; inversion H; now left].
  destruct (find _ recs); [intros H; inversion H; now right|discriminate].
Qed.

Lemma rcmds_asks now sp i n : forall l s,
  tracks s sp -> In (RResolve i n) l ->
  match expected_followup (sp_c sp) i with
  | Some (nm, ty) => exists qs, In (OQuery qs) (snd (run_cmds exec_rcmd s now l)) /\ In (nm, ty) qs
  | None => True
  end.
Proof.
  induction l as [|c rest IH]; intros s Htr Hin; [destruct Hin|]. simpl.
  pose proof (tracks_rcmd now s sp c Htr) as Htr1.
  pose proof (try_asks_expected s now i n) as Hask.
  destruct Hin as [->|Hin].
  - simpl in *. rewrite (expected_followup_ceqr _ _ i (proj1 Htr)) in Hask.
    destruct (exec_resolve s now i n) as [s1 o1]. cbn [fst snd] in *.
    destruct (run_cmds exec_rcmd s1 now rest) as [s2 o2]. cbn [snd].
    destruct (expected_followup (sp_c sp) i) as [[nm ty]|] eqn:Ee; [|exact I].
    destruct (expected_types _ _ _ _ Ee) as [-> | ->]; simpl in Hask; subst o1.
    + exists [(nm, TY_ANY)]. split; [now left|now left].
    + exists [(nm, TY_A); (nm, TY_AAAA)]. split; [now left|now left].
  - destruct (exec_rcmd s now c) as [s1 o1]. cbn [fst] in Htr1. specialize (IH s1 Htr1 Hin).
    destruct (run_cmds exec_rcmd s1 now rest) as [s2 o2]. cbn [snd] in *.
    destruct (expected_followup (sp_c sp) i) as [[nm ty]|]; [|exact I].
    destruct IH as (qs & A & B). exists qs. split; [apply in_app_iff; now right|exact B].
Qed.

Theorem tried_asks_expected ifs s sp it i n :
  tracks s sp -> In (i, n) (due_tries ifs s it) ->
  match expected_followup (sp_c (snd (fst (iter_snaps ifs sp it)))) i with
  | Some (nm, ty) => In (nm, ty) (questions_of (snd (iterate ifs s it)))
  | None => True
  end.
Proof.
  intros Htr Hin. unfold due_tries, iterate, iter_snaps in *. cbv zeta in *. cbn [fst snd]. set (now := i_now it) in *.
  set (dgs := deliveries_in_order (i_dgrams it)) in *.
  pose proof (tracks_reads ifs now dgs s sp Htr) as T1.
  destruct (run_cmds (handle_read ifs) s now dgs) as [s1 o1]. cbn [fst snd] in *.
  pose proof (tracks_calls now (i_calls it) s1 _ T1) as T2.
  destruct (run_cmds exec_call s1 now (i_calls it)) as [s2 o2]. cbn [fst snd] in *.
  set (sp2 := fold_left (spec_call now) (i_calls it) (last (scan (spec_dgram ifs now) sp dgs) sp)) in *.
  apply in_flat_map in Hin as [[t c] [Hdue Hc]]. destruct c as [j m|]; [|destruct Hc]. destruct Hc as [E|[]]. inversion E; subst j m.
  unfold run_retrans.
  set (due := filter (fun tc => fst tc <=? now) (s_retrans s2)) in *.
  set (keep := filter (fun tc => negb (fst tc <=? now)) (s_retrans s2)).
  assert (T2' : tracks (mkSt (s_cache s2) (s_q s2) (s_pending s2) (s_resolved s2) keep) sp2) by exact T2.
  assert (Hl : In (RResolve i n) (map snd due)) by (apply in_map_iff; exists (t, RResolve i n); auto).
  pose proof (rcmds_asks now sp2 i n (map snd due) _ T2' Hl) as Hask.
  destruct (run_cmds exec_rcmd (mkSt (s_cache s2) (s_q s2) (s_pending s2) (s_resolved s2) keep) now (map snd due)) as [s3 o3].
  destruct (refresh_all (s_cache s3) now (s_q s3)) as [c4 o4].
  destruct (evict (with_cache s3 c4) now) as [s5 o5]. cbn [fst snd] in *.
  destruct (expected_followup (sp_c sp2) i) as [[nm ty]|]; [|exact I].
  destruct Hask as (qs & A & B). unfold questions_of. apply in_flat_map. exists (OQuery qs). split; [|exact B].
  apply in_app_iff. right. apply in_app_iff. right. apply in_app_iff. now left.
Qed.

Lemma model_after_snoc ifs : forall h s it, model_after ifs s (h ++ [it]) = fst (iterate ifs (model_after ifs s h) it).
Proof. induction h as [|x t IH]; intros s it; simpl; [reflexivity|]. apply IH. Qed.

Lemma last_now_snoc h it : last_now (h ++ [it]) = i_now it.
Proof. unfold last_now. rewrite rev_app_distr. reflexivity. Qed.

(* after any history h: an instance reported found and not reported resolved in the next iteration
   gets a follow-up try in that iteration, or is pending afterwards with a try (number 1..3) queued
   that is due within the next 500 ms *)
Theorem found_unresolved_gets_try ifs h it i :
  wf_history (h ++ [it]) = true ->
  let s := model_after ifs init_st h in
  reads_found_withdrawn ifs s (i_now it) (deliveries_in_order (i_dgrams it)) = false ->
  NR i (snd (iterate ifs s it)) -> FD i (snd (iterate ifs s it)) ->
  (exists n, In (i, n) (due_tries ifs s it))
  \/ (pend i (fst (iterate ifs s it))
      /\ exists t n, In (t, RResolve i n) (s_retrans (fst (iterate ifs s it)))
                     /\ i_now it < t /\ t <= i_now it + 500 /\ 1 <= n /\ n <= 3).
Proof.
  intros Hwf s Hcls Hnr Hfd.
  destruct (iterate_found_unresolved ifs s it i Hcls Hnr (or_intror Hfd)) as [Hp|Ht]; [right|now left].
  split; [exact Hp|].
  assert (Hne : h ++ [it] <> []) by (destruct h; discriminate).
  pose proof (pending_followup_within_500 ifs (h ++ [it]) i Hwf Hne) as H.
  rewrite model_after_snoc, last_now_snoc in H. exact (H Hp).
Qed.
