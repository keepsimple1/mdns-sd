(* The record level of C11 and C10 (Model/Life.v against the literal-number specifications of
   Model/LifeSpec.v): u64 arithmetic, lifetime, the refinement relation R between a record and the
   property's abstract state with the refresh ladder, update_ttl / remaining TTL, and the C10
   relations between records (matches, same_record, suppression, add_answer). *)
From Coq Require Import List NArith Bool Lia.
From Mdns Require Import Res Bytes Rec ParamsLife Life LifeSpec.
Import ListNotations.
Open Scope N_scope.

(* keep arithmetic symbolic under simpl *)
Local Arguments N.mul : simpl never.
Local Arguments N.add : simpl never.
Local Arguments N.sub : simpl never.
Local Arguments N.div : simpl never.
Local Arguments N.modulo : simpl never.
Local Arguments N.ltb : simpl never.
Local Arguments N.leb : simpl never.
Local Arguments N.eqb : simpl never.
Local Arguments N.min : simpl never.
Local Arguments N.max : simpl never.

Lemma chk64_ok_inv v x : chk64 v = Ok x -> x = v /\ v < U64.
Proof.
  unfold chk64. destruct (v <? U64) eqn:E; intros H; inversion H; subst.
  split; [reflexivity | apply N.ltb_lt; exact E].
Qed.

Lemma chk64_ok v : v < U64 -> chk64 v = Ok v.
Proof. intros H. unfold chk64. apply N.ltb_lt in H. rewrite H. reflexivity. Qed.

Lemma chk64_cases v : chk64 v = Ok v \/ chk64 v = Panic.
Proof. unfold chk64. destruct (v <? U64); auto. Qed.

(* 2^63 + (2^32 - 1) * 100 * 10 < 2^64 *)
Lemma mark_lt_U64 sc st p : sc < B63 -> st < U32 -> p <= 100 -> sc + st * p * 10 < U64.
Proof.
  intros. assert (st * p <= 4294967295 * 100) by (apply N.mul_le_mono; unfold U32 in *; lia).
  unfold U64, B63 in *. lia.
Qed.

Lemma exp_time_ok c t p :
  c < B63 -> t < U32 -> p <= 100 -> exp_time c t p = Ok (c + t * p * 10).
Proof. intros Hc Ht Hp. apply chk64_ok, mark_lt_U64; assumption. Qed.

Lemma exp_time_inv c t p x : exp_time c t p = Ok x -> x = c + t * p * 10 /\ c + t * p * 10 < U64.
Proof. unfold exp_time, expiration_time. apply chk64_ok_inv. Qed.

(* monotone in the percentage: if the 100 % time fits into u64, every mark does *)
Lemma exp_time_le c t p q : p <= q -> c + t * q * 10 < U64 -> exp_time c t p = Ok (c + t * p * 10).
Proof.
  intros Hpq H. unfold exp_time, expiration_time. apply chk64_ok.
  assert (t * p <= t * q) by (apply N.mul_le_mono_l; exact Hpq). lia.
Qed.

Lemma expiry_fits_u64 c t : c < B63 -> t < U32 -> c + 1000 * t < U64.
Proof. unfold U64, B63, U32. lia. Qed.

Lemma ttl_ok_iff t : ttl_ok t = true <-> 1 <= t /\ t < U32.
Proof. unfold ttl_ok. rewrite andb_true_iff, N.leb_le, N.ltb_lt. reflexivity. Qed.

Lemma mark_inj c t p q : 1 <= t -> (c + t * p * 10 =? c + t * q * 10) = (p =? q).
Proof.
  intros Ht. destruct (p =? q) eqn:E.
  - apply N.eqb_eq in E. subst. apply N.eqb_refl.
  - apply N.eqb_neq in E. apply N.eqb_neq. intros H. apply E.
    apply N.add_cancel_l, N.mul_cancel_r, N.mul_cancel_l in H; [exact H | lia | lia].
Qed.

Lemma new_rec_inv T t r :
  new_rec T t = Ok r -> r = mkT t T (T + 1000 * t) (T + 800 * t).
Proof.
  unfold new_rec. intros H.
  apply bind_ok_inv in H as (f & Hf & H). apply bind_ok_inv in H as (e & He & H).
  apply exp_time_inv in Hf as [Hf _]. apply exp_time_inv in He as [He _].
  unfold new_refresh_percent in Hf. unfold new_expires_percent in He.
  inversion H; subst. f_equal; lia.
Qed.

Lemma new_rec_ok T t : T + 1000 * t < U64 -> new_rec T t = Ok (mkT t T (T + 1000 * t) (T + 800 * t)).
Proof.
  intros H. unfold new_rec, new_refresh_percent, new_expires_percent.
  rewrite (exp_time_le T t 80 100) by lia. simpl.
  rewrite (exp_time_le T t 100 100) by lia. simpl. f_equal. f_equal; lia.
Qed.

Lemma stored_ttl_response t : stored_ttl true t = N.max 1 t.
Proof.
  unfold stored_ttl, ttl_zero_guard, ttl_zero_becomes. rewrite andb_true_r.
  destruct (t =? 0) eqn:E.
  - apply N.eqb_eq in E. subst. reflexivity.
  - apply N.eqb_neq in E. lia.
Qed.

Lemma stored_ttl_query t : stored_ttl false t = t.
Proof. unfold stored_ttl. rewrite andb_false_r. reflexivity. Qed.

Lemma stored_ttl_bounds t : t < U32 -> 1 <= stored_ttl true t /\ stored_ttl true t < U32.
Proof. intros H. rewrite stored_ttl_response. unfold U32 in *. lia. Qed.

Lemma set_refresh_same r : set_refresh r (t_refresh r) = r.
Proof. destruct r; reflexivity. Qed.

Lemma refresh_no_more_inv r r' :
  refresh_no_more r = Ok r' -> r' = set_refresh r (t_created r + t_ttl r * 100 * 10).
Proof.
  unfold refresh_no_more, no_more_percent. intros H. apply bind_ok_inv in H as (x & Hx & H).
  apply exp_time_inv in Hx as [-> _]. inversion H. reflexivity.
Qed.

Lemma refresh_maybe_cases r now r' b :
  refresh_maybe r now = Ok (r', b) ->
  (b = false /\ r' = r /\ (t_expires r <= now \/ now < t_refresh r)) \/
  (b = true /\ now < t_expires r /\ t_refresh r <= now /\ exists x, r' = set_refresh r x).
Proof.
  unfold refresh_maybe, is_expired, refresh_due, is_expired_g, refresh_due_g, refresh_maybe_guard_returns.
  destruct (t_expires r <=? now) eqn:E1; [apply N.leb_le in E1 | apply N.leb_gt in E1]; simpl.
  { intros H. inversion H; subst. auto. }
  destruct (t_refresh r <=? now) eqn:E2; [apply N.leb_le in E2 | apply N.leb_gt in E2]; simpl.
  2:{ intros H. inversion H; subst. auto. }
  intros H. right. enough (b = true /\ exists x, r' = set_refresh r x) as [-> Hx] by auto.
  apply bind_ok_inv in H as (m1 & _ & H). destruct (_ =? m1).
  { apply bind_ok_inv in H as (n & _ & H). inversion H. eauto. }
  apply bind_ok_inv in H as (m2 & _ & H). destruct (_ =? m2).
  { apply bind_ok_inv in H as (n & _ & H). inversion H. eauto. }
  apply bind_ok_inv in H as (m3 & _ & H). destruct (_ =? m3).
  { apply bind_ok_inv in H as (n & _ & H). inversion H. eauto. }
  apply bind_ok_inv in H as (n & Hn & H). inversion H; subst. apply refresh_no_more_inv in Hn. eauto.
Qed.

Lemma refresh_once_cases r now r' b :
  refresh_once r now = Ok (r', b) ->
  (b = false /\ r' = r /\ (t_expires r <= now \/ now < t_refresh r)) \/
  (b = true /\ r' = set_refresh r (t_created r + t_ttl r * 100 * 10)).
Proof.
  unfold refresh_once, is_expired, refresh_due, is_expired_g, refresh_due_g.
  destruct (t_expires r <=? now) eqn:E1; [apply N.leb_le in E1 | apply N.leb_gt in E1]; simpl.
  { intros H. inversion H; subst. auto. }
  destruct (t_refresh r <=? now) eqn:E2; [apply N.leb_le in E2 | apply N.leb_gt in E2]; simpl.
  2:{ intros H. inversion H; subst. auto. }
  intros H. apply bind_ok_inv in H as (n & Hn & H). inversion H; subst.
  apply refresh_no_more_inv in Hn. auto.
Qed.

Lemma refresh_maybe_frame r now r' b : refresh_maybe r now = Ok (r', b) -> exists x, r' = set_refresh r x.
Proof.
  intros H. destruct (refresh_maybe_cases _ _ _ _ H) as [(_ & -> & _) | (_ & _ & _ & Hx)]; [|exact Hx].
  exists (t_refresh r). symmetry. apply set_refresh_same.
Qed.

Lemma refresh_once_frame r now r' b : refresh_once r now = Ok (r', b) -> exists x, r' = set_refresh r x.
Proof.
  intros H. destruct (refresh_once_cases _ _ _ _ H) as [(_ & -> & _) | (_ & ->)]; [|eauto].
  exists (t_refresh r). symmetry. apply set_refresh_same.
Qed.

Definition keeps_expiry (o : lop) : bool :=
  match o with OSetExpire _ | OSetExpireSooner _ | OResetTtl _ _ => false | _ => true end.

Lemma apply_op_expires r o r' x :
  keeps_expiry o = true -> apply_op r o = Ok (r', x) -> t_expires r' = t_expires r.
Proof.
  destruct o; simpl; try discriminate; intros _ H.
  - (* is_expired *) inversion H; reflexivity.
  - (* expires_soon *) apply bind_ok_inv in H as (b & _ & H). inversion H; reflexivity.
  - (* refresh_due *) inversion H; reflexivity.
  - (* halflife *) apply bind_ok_inv in H as (b & _ & H). inversion H; reflexivity.
  - (* refresh_maybe *) apply bind_ok_inv in H as ([r1 b] & E & H). inversion H; subst.
    destruct (refresh_maybe_frame _ _ _ _ E) as [y ->]. reflexivity.
  - (* updated_refresh_time *) unfold updated_refresh_time in H. apply bind_ok_inv in H as ([r1 o] & H1 & H).
    apply bind_ok_inv in H1 as ([r2 b] & E & H1). inversion H1; subst. inversion H; subst.
    destruct (refresh_maybe_frame _ _ _ _ E) as [y ->]. reflexivity.
  - (* refresh_no_more *) apply bind_ok_inv in H as (r1 & E & H). inversion H; subst.
    rewrite (refresh_no_more_inv _ _ E). reflexivity.
  - (* remaining_ttl *) apply bind_ok_inv in H as (n & _ & H). inversion H; reflexivity.
  - (* update_ttl *) apply bind_ok_inv in H as (r1 & E & H). inversion H; subst. unfold update_ttl in E.
    destruct (update_ttl_guard _ _); [|inversion E; reflexivity].
    destruct (_ <? _); inversion E; reflexivity.
  - (* snapshot *) inversion H; reflexivity.
  - (* refresh_once *) apply bind_ok_inv in H as ([r1 b] & E & H). inversion H; subst.
    destruct (refresh_once_frame _ _ _ _ E) as [y ->]. reflexivity.
Qed.

Lemma run_ops_expires ops : forall r r' outs,
  forallb keeps_expiry ops = true -> run_ops r ops = Ok (r', outs) -> t_expires r' = t_expires r.
Proof.
  induction ops as [|o ops IH]; simpl; intros r r' outs Hk H.
  - inversion H; reflexivity.
  - apply andb_true_iff in Hk as [Hk1 Hk2].
    apply bind_ok_inv in H as ([r1 x] & H1 & H). apply bind_ok_inv in H as ([r2 xs] & H2 & H).
    inversion H; subst. rewrite (IH _ _ _ Hk2 H2). eapply apply_op_expires; eauto.
Qed.

Lemma lifetime_frame T t ops r0 r outs now :
  new_rec T t = Ok r0 -> forallb keeps_expiry ops = true -> run_ops r0 ops = Ok (r, outs) ->
  (is_expired r now = true <-> T + 1000 * t <= now).
Proof.
  intros H0 Hk H. pose proof (run_ops_expires _ _ _ _ Hk H) as E.
  apply new_rec_inv in H0 as ->. unfold is_expired, is_expired_g. rewrite E. simpl.
  apply N.leb_le.
Qed.

Lemma lifetime T t r now :
  new_rec T t = Ok r -> (is_expired r now = true <-> T + 1000 * t <= now).
Proof. intros H. exact (lifetime_frame T t [] r r [] now H eq_refl eq_refl). Qed.

(* R r s: the code's record r is what the property's abstract state s describes.  The first four
   conjuncts tie the fields: TTL, time of receipt, expiry (which set_expire_sooner and the cache
   flush may have lowered), and the refresh time, which always stands at the mark of rung a_k s
   (80 + 5k %; k = 4 is the 100 % time, no refresh left).  The rest is what the proofs need of s:
   k <= 4; the expiry never lies beyond the full lifetime (so at k = 4 the record expires before
   it is due); TTL in 1 .. 2^32-1 and receipt time below 2^63 (no u64 overflow, and marks of
   different rungs differ). *)
Definition R (r : trec) (s : astate) : Prop :=
  t_ttl r = a_ttl s /\ t_created r = a_created s /\ t_expires r = a_expires s /\
  t_refresh r = amark s /\ a_k s <= 4 /\ a_expires s <= a_created s + 1000 * a_ttl s /\
  1 <= a_ttl s /\ a_ttl s < U32 /\ a_created s < B63.

Lemma R_ttl r s : R r s -> t_ttl r = a_ttl s.
Proof. intros H. apply H. Qed.
Lemma R_created r s : R r s -> t_created r = a_created s.
Proof. intros H. apply H. Qed.
Lemma R_expires r s : R r s -> t_expires r = a_expires s.
Proof. intros H. apply H. Qed.
Lemma R_refresh r s : R r s -> t_refresh r = amark s.
Proof. intros H. apply H. Qed.
Lemma R_k r s : R r s -> a_k s <= 4.
Proof. intros H. apply H. Qed.
Lemma R_expires_le r s : R r s -> a_expires s <= a_created s + 1000 * a_ttl s.
Proof. intros H. apply H. Qed.

Lemma R_within r s : R r s -> t_created r < B63 /\ t_ttl r < U32.
Proof.
  intros H. rewrite (R_created _ _ H), (R_ttl _ _ H). split; apply H.
Qed.

Lemma R_exp_time r s p :
  R r s -> p <= 100 -> exp_time (t_created r) (t_ttl r) p = Ok (t_created r + t_ttl r * p * 10).
Proof.
  intros H Hp. destruct (R_within _ _ H) as [Hc Ht]. apply exp_time_ok; assumption.
Qed.

Lemma R_init T t : 1 <= t -> t < U32 -> T < B63 ->
  R (mkT t T (T + 1000 * t) (T + 800 * t)) (a_init T t).
Proof.
  intros. unfold R, a_init, amark, mark_percent. simpl. repeat split; try lia.
Qed.

Lemma R_setk r s k : R r s -> k <= 4 ->
  R (set_refresh r (t_created r + t_ttl r * mark_percent k * 10)) (a_setk s k).
Proof.
  intros (Ht & Hc & He & _ & _ & Hle & H1 & H32 & H63) Hk. unfold R, amark. simpl.
  rewrite Ht, Hc. repeat split; assumption.
Qed.

Lemma R_shorten r s x :
  R r s -> x <= a_expires s -> R (set_expires r x) (mkA (a_created s) (a_ttl s) (a_k s) x).
Proof.
  intros (Ht & Hc & _ & Hf & Hk & Hle & H1 & H32 & H63) Hx. unfold R, amark in *. simpl.
  repeat split; try assumption. lia.
Qed.

(* what reset_ttl leaves: a fresh lifetime; TTL 1 (a goodbye) is not refreshed *)
Lemma reset_ttl_ok r t c : 1 <= t -> t < U32 -> c < B63 ->
  reset_ttl r t c = Ok (mkT t c (c + 1000 * t) (c + (if 1 <? t then 800 else 1000) * t)).
Proof.
  intros H1 H2 H3. unfold reset_ttl, reset_expires_percent, reset_refresh_guard, reset_refresh_percent.
  rewrite (exp_time_ok c t 100) by (auto; lia). simpl.
  destruct (1 <? t).
  - rewrite (exp_time_ok c t 80) by (auto; lia). simpl. f_equal. f_equal; lia.
  - simpl. f_equal. f_equal; lia.
Qed.

Lemma R_reset t c : 1 <= t -> t < U32 -> c < B63 ->
  R (mkT t c (c + 1000 * t) (c + (if 1 <? t then 800 else 1000) * t))
    (mkA c t (if 1 <? t then 0 else 4) (c + 1000 * t)).
Proof.
  intros. unfold R, amark, mark_percent. destruct (1 <? t); simpl; repeat split; lia.
Qed.

(* the guard of refresh_maybe / refresh_once: with no mark left (k = 4) the refresh time is the
   100 % time, which is not before the expiry *)
Lemma refresh_guard r s now :
  R r s -> is_expired r now || negb (refresh_due r now) = negb (a_due s now).
Proof.
  intros HR. unfold is_expired, refresh_due, is_expired_g, refresh_due_g, a_due.
  rewrite (R_expires _ _ HR), (R_refresh _ _ HR).
  pose proof (R_k _ _ HR) as Hk. pose proof (R_expires_le _ _ HR) as Hle. unfold amark, mark_percent in *.
  destruct (a_expires s <=? now) eqn:E1; [apply N.leb_le in E1 | apply N.leb_gt in E1].
  - assert (now <? a_expires s = false) as -> by (apply N.ltb_ge; lia). reflexivity.
  - assert (now <? a_expires s = true) as -> by (apply N.ltb_lt; lia). simpl.
    destruct (_ <=? now) eqn:E2; [apply N.leb_le in E2 | rewrite andb_false_r; reflexivity].
    destruct (a_k s <? 4) eqn:E3; [reflexivity | apply N.ltb_ge in E3].
    assert (a_k s = 4) as K by lia. rewrite K in E2. lia.
Qed.

(* the ladder of refresh_maybe as a function of the percentage the refresh time stands at *)
Definition next_pct (p : N) : N :=
  if p =? 80 then 85 else if p =? 85 then 90 else if p =? 90 then 95 else 100.

(* refresh_maybe finds its rung by comparing the refresh TIME with the 80, 85 and 90 % times; with
   TTL >= 1 equal times mean equal percentages (mark_inj), so under R it reads the rung a_k s.
   (With TTL 0 all marks coincide and the ladder would collapse: R excludes it.) *)
Lemma refresh_maybe_rung r s now :
  R r s ->
  refresh_maybe r now =
  if is_expired r now || negb (refresh_due r now) then Ok (r, false)
  else Ok (set_refresh r (t_created r + t_ttl r * next_pct (mark_percent (a_k s)) * 10), true).
Proof.
  intros HR. unfold refresh_maybe, refresh_no_more, refresh_maybe_guard_returns,
    ladder_from1, ladder_to1, ladder_from2, ladder_to2, ladder_from3, ladder_to3, no_more_percent.
  destruct (_ || _); [reflexivity|].
  rewrite !(R_exp_time r s) by (exact HR || lia). simpl.
  rewrite (R_refresh _ _ HR). unfold amark. rewrite <- (R_ttl _ _ HR), <- (R_created _ _ HR).
  rewrite !mark_inj by (rewrite (R_ttl _ _ HR); apply HR). unfold next_pct.
  destruct (_ =? 80); [reflexivity|]. destruct (_ =? 85); [reflexivity|].
  destruct (_ =? 90); reflexivity.
Qed.

Lemma next_pct_mark k : k < 4 -> next_pct (mark_percent k) = mark_percent (k + 1).
Proof.
  intros H. assert (k = 0 \/ k = 1 \/ k = 2 \/ k = 3) as [->|[->|[->| ->]]] by lia; reflexivity.
Qed.

Lemma refresh_maybe_spec r s now :
  R r s ->
  exists r', refresh_maybe r now = Ok (r', a_due s now) /\
             R r' (if a_due s now then a_setk s (a_k s + 1) else s).
Proof.
  intros HR. rewrite (refresh_maybe_rung r s now HR), (refresh_guard r s now HR).
  destruct (a_due s now) eqn:D; simpl; [|exists r; split; [reflexivity | exact HR]].
  unfold a_due in D. rewrite !andb_true_iff in D. destruct D as [[_ Dk] _]. apply N.ltb_lt in Dk.
  eexists. split; [reflexivity|]. rewrite (next_pct_mark _ Dk). apply R_setk; [exact HR | lia].
Qed.

Lemma refresh_once_spec r s now :
  R r s ->
  exists r', refresh_once r now = Ok (r', a_due s now) /\
             R r' (if a_due s now then a_setk s 4 else s).
Proof.
  intros HR. unfold refresh_once, refresh_no_more, no_more_percent. rewrite (refresh_guard r s now HR).
  destruct (a_due s now); simpl; [|exists r; split; [reflexivity | exact HR]].
  rewrite (R_exp_time r s 100 HR) by lia. simpl.
  eexists. split; [reflexivity|]. apply (R_setk r s 4 HR). lia.
Qed.

Lemma trec_eqb_refl x : trec_eqb x x = true.
Proof. unfold trec_eqb. rewrite !N.eqb_refl. reflexivity. Qed.

Lemma lout_eqb_refl x : lout_eqb x x = true.
Proof.
  destruct x; simpl; auto using Bool.eqb_reflx, N.eqb_refl, trec_eqb_refl.
  destruct o; auto using N.eqb_refl.
Qed.

Lemma apply_op_ok r s o s' y :
  R r s -> op_bounds o = true -> aspec_op s o = Some (s', Some y) ->
  exists r', apply_op r o = Ok (r', y) /\ R r' s'.
Proof.
  intros HR Hb Hs.
  destruct o; simpl in Hs; try discriminate; simpl.
  - (* is_expired *) inversion Hs; subst. exists r. split; [|exact HR].
    unfold is_expired, is_expired_g. rewrite (R_expires _ _ HR). reflexivity.
  - (* expires_soon *) inversion Hs; subst. exists r. split; [|exact HR].
    simpl in Hb. apply N.ltb_lt in Hb. unfold expires_soon, expires_soon_lhs, expires_soon_g.
    rewrite chk64_ok by (unfold U64, B63 in *; lia). simpl. rewrite (R_expires _ _ HR). reflexivity.
  - (* refresh_due *) inversion Hs; subst. exists r. split; [|exact HR].
    unfold refresh_due, refresh_due_g. rewrite (R_refresh _ _ HR). reflexivity.
  - (* halflife *) inversion Hs; subst. exists r. split; [|exact HR].
    unfold halflife_passed, halflife_percent, halflife_passed_g.
    rewrite (R_exp_time r _ 50 HR) by lia. simpl.
    rewrite (R_ttl _ _ HR), (R_created _ _ HR). do 4 f_equal. lia.
  - (* refresh_maybe *)
    destruct (refresh_maybe_spec r s now HR) as (r1 & E & HR1). rewrite E. simpl.
    destruct (a_due s now); inversion Hs; subst; eauto.
  - (* updated_refresh_time *)
    destruct (refresh_maybe_spec r s now HR) as (r1 & E & HR1). unfold updated_refresh_time. rewrite E. simpl.
    destruct (a_due s now); inversion Hs; subst; [|eauto].
    exists r1. split; [|exact HR1]. rewrite (R_refresh _ _ HR1). reflexivity.
  - (* refresh_no_more *) inversion Hs; subst. unfold refresh_no_more, no_more_percent.
    rewrite (R_exp_time r s 100 HR) by lia. simpl.
    eexists. split; [reflexivity|]. apply (R_setk r s 4 HR). lia.
  - (* set_expire_sooner *) inversion Hs; subst. eexists. split; [reflexivity|].
    unfold set_expire_sooner, expire_sooner_guard. rewrite (R_expires _ _ HR).
    destruct (x <? a_expires s) eqn:E; [apply N.ltb_lt in E | apply N.ltb_ge in E].
    + rewrite N.min_l by lia. apply R_shorten; [exact HR | lia].
    + rewrite N.min_r by lia. destruct s. exact HR.
  - (* reset_ttl *) inversion Hs; subst. simpl in Hb. apply andb_true_iff in Hb as [Hb Hcr].
    apply ttl_ok_iff in Hb as [Hb1 Hb2]. apply N.ltb_lt in Hcr.
    rewrite new_rec_ok by (apply expiry_fits_u64; assumption). simpl.
    rewrite reset_ttl_ok by assumption. simpl.
    eexists. split; [reflexivity|]. apply R_reset; assumption.
  - (* snapshot *) inversion Hs; subst. exists r. split; [|exact HR].
    rewrite <- (R_ttl _ _ HR), <- (R_created _ _ HR), <- (R_expires _ _ HR), <- (R_refresh _ _ HR).
    destruct r. reflexivity.
  - (* refresh_once *)
    destruct (refresh_once_spec r s now HR) as (r1 & E & HR1). rewrite E. simpl.
    destruct (a_due s now); inversion Hs; subst; eauto.
Qed.

Lemma aspec_open_inv s o s' : aspec_op s o = Some (s', None) -> s' = s /\ exists n, o = ORemaining n.
Proof.
  destruct o; simpl; try discriminate; try (destruct (a_due s now); discriminate).
  intros H. inversion H. eauto.
Qed.

Lemma chk_life_sound ops : forall r s r' outs,
  R r s -> forallb op_bounds ops = true -> run_ops r ops = Ok (r', outs) -> chk_life s ops outs = true.
Proof.
  induction ops as [|o ops IH]; simpl; intros r s r' outs HR Hb H.
  - inversion H; reflexivity.
  - apply andb_true_iff in Hb as [Hb1 Hb2].
    apply bind_ok_inv in H as ([r1 x] & H1 & H). apply bind_ok_inv in H as ([r2 xs] & H2 & H).
    inversion H; subst.
    destruct (aspec_op s o) as [[s' [y|]]|] eqn:Es; [| |reflexivity].
    + destruct (apply_op_ok r s o s' y HR Hb1 Es) as (r1' & E & HR1).
      rewrite E in H1. inversion H1; subst. rewrite lout_eqb_refl. simpl. exact (IH _ _ _ _ HR1 Hb2 H2).
    + apply aspec_open_inv in Es as [-> [n ->]]. simpl in H1.
      apply bind_ok_inv in H1 as (m & _ & H1). inversion H1; subst. exact (IH _ _ _ _ HR Hb2 H2).
Qed.

Lemma life_bounds_inv created ttl ops :
  life_bounds created ttl ops = true ->
  1 <= ttl /\ ttl < U32 /\ created < B63 /\ forallb op_bounds ops = true.
Proof.
  unfold life_bounds. rewrite !andb_true_iff, ttl_ok_iff, N.ltb_lt. tauto.
Qed.

Lemma chk_C11_life_sound created ttl ops outs :
  life_case created ttl ops = Ok outs -> chk_C11_life created ttl ops outs = true.
Proof.
  unfold chk_C11_life, life_case. intros H.
  destruct (life_bounds created ttl ops) eqn:Eb; [|reflexivity].
  apply life_bounds_inv in Eb as (Ht1 & Ht2 & Hc & Hops).
  apply bind_ok_inv in H as (r & Hr & H). apply bind_ok_inv in H as ([r' outs'] & Hrun & H).
  inversion H; subst. apply new_rec_inv in Hr as ->.
  eapply chk_life_sound; eauto. apply R_init; assumption.
Qed.

Definition in_alphabet (o : lop) : bool :=
  match o with OSetExpire _ | OUpdateTtl _ | ORemaining _ => false | _ => true end.

Lemma run_ops_total ops : forall r s,
  R r s -> forallb op_bounds ops = true -> forallb in_alphabet ops = true ->
  exists r' outs, run_ops r ops = Ok (r', outs).
Proof.
  induction ops as [|o ops IH]; simpl; intros r s HR Hb Ha; [eauto|].
  apply andb_true_iff in Hb as [Hb1 Hb2]. apply andb_true_iff in Ha as [Ha1 Ha2].
  assert (exists s' y, aspec_op s o = Some (s', Some y)) as (s' & y & Es).
  { destruct o; simpl in *; try discriminate; try (destruct (a_due s now)); eauto. }
  destruct (apply_op_ok r s o s' y HR Hb1 Es) as (r1 & H1 & HR1).
  destruct (IH r1 s' HR1 Hb2 Ha2) as (r2 & xs & H2).
  rewrite H1. simpl. rewrite H2. simpl. eauto.
Qed.

Lemma life_case_total created ttl ops :
  life_bounds created ttl ops = true -> forallb in_alphabet ops = true ->
  exists outs, life_case created ttl ops = Ok outs.
Proof.
  intros Eb Ha. apply life_bounds_inv in Eb as (Ht1 & Ht2 & Hc & Hops).
  unfold life_case. rewrite new_rec_ok by (apply expiry_fits_u64; assumption). simpl.
  destruct (run_ops_total ops _ _ (R_init created ttl Ht1 Ht2 Hc) Hops Ha) as (r' & outs & H).
  rewrite H. simpl. eauto.
Qed.

Definition pending (s : astate) : list N :=
  let c := a_created s in let t := a_ttl s in
  let k := a_k s in
  if k =? 0 then [c + 800 * t; c + 850 * t; c + 900 * t; c + 950 * t]
  else if k =? 1 then [c + 850 * t; c + 900 * t; c + 950 * t]
  else if k =? 2 then [c + 900 * t; c + 950 * t]
  else if k =? 3 then [c + 950 * t]
  else [].

Lemma pending_step s :
  a_k s <= 4 ->
  match pending s with
  | m :: rest => a_k s < 4 /\ m = amark s /\ pending (a_setk s (a_k s + 1)) = rest
  | [] => a_k s = 4
  end.
Proof.
  intros Hk. destruct s as [c t k e]. unfold pending, amark, mark_percent, a_setk. simpl in *.
  assert (k = 0 \/ k = 1 \/ k = 2 \/ k = 3 \/ k = 4) as [K|[K|[K|[K|K]]]] by lia; subst k; simpl; repeat split; try lia; reflexivity.
Qed.

(* one observation: the ladder over the marks still pending makes the abstract step *)
Lemma ladder_cons (marks : astate -> list N) (next : astate -> N) s now obs :
  match marks s with
  | m :: rest => a_k s < 4 /\ m = amark s /\ marks (a_setk s (next s)) = rest
  | [] => a_k s = 4
  end ->
  ladder_spec (marks s) (a_expires s) (now :: obs) =
  a_due s now :: ladder_spec (marks (if a_due s now then a_setk s (next s) else s)) (a_expires s) obs.
Proof.
  intros P. unfold a_due. simpl. destruct (marks s) as [|m rest] eqn:Ep.
  - assert (a_k s <? 4 = false) as -> by (apply N.ltb_ge; lia).
    rewrite andb_false_r. simpl. rewrite Ep. reflexivity.
  - destruct P as (Hlt & -> & Hrest). apply N.ltb_lt in Hlt. rewrite Hlt, andb_true_r.
    destruct ((now <? a_expires s) && (amark s <=? now)); [rewrite Hrest | rewrite Ep]; reflexivity.
Qed.

Lemma refresh_obs_spec obs : forall r s,
  R r s -> refresh_obs r obs = Ok (ladder_spec (pending s) (a_expires s) obs).
Proof.
  induction obs as [|now obs IH]; intros r s HR; [reflexivity|].
  rewrite (ladder_cons pending (fun s => a_k s + 1) s now obs (pending_step s (R_k _ _ HR))).
  simpl. destruct (refresh_maybe_spec r s now HR) as (r' & E & HR'). rewrite E. simpl.
  rewrite (IH _ _ HR'). destruct (a_due s now); reflexivity.
Qed.

Lemma refresh_marks T t r obs :
  new_rec T t = Ok r -> 1 <= t -> t < U32 -> T < B63 ->
  refresh_obs r obs = Ok (ladder_spec (marks4 T t) (T + 1000 * t) obs).
Proof.
  intros H Ht1 Ht2 HT. apply new_rec_inv in H as ->.
  rewrite (refresh_obs_spec obs _ _ (R_init T t Ht1 Ht2 HT)). reflexivity.
Qed.

Lemma pending_once_step s :
  a_k s <= 4 ->
  match firstn 1 (pending s) with
  | m :: rest => a_k s < 4 /\ m = amark s /\ firstn 1 (pending (a_setk s 4)) = rest
  | [] => a_k s = 4
  end.
Proof.
  intros Hk. pose proof (pending_step s Hk) as P. destruct (pending s) as [|m rest]; [exact P|].
  destruct P as (H1 & H2 & _). destruct s. repeat split; assumption || reflexivity.
Qed.

Lemma refresh_once_obs_spec obs : forall r s,
  R r s -> refresh_once_obs r obs = Ok (ladder_spec (firstn 1 (pending s)) (a_expires s) obs).
Proof.
  induction obs as [|now obs IH]; intros r s HR; [reflexivity|].
  rewrite (ladder_cons (fun s => firstn 1 (pending s)) (fun _ => 4) s now obs
             (pending_once_step s (R_k _ _ HR))).
  simpl. destruct (refresh_once_spec r s now HR) as (r' & E & HR'). rewrite E. simpl.
  rewrite (IH _ _ HR'). destruct (a_due s now); reflexivity.
Qed.


Lemma ladder_facts marks e obs :
  (count_true (ladder_spec marks e obs) <= length marks)%nat /\
  Forall (fun now => now < e) (true_times obs (ladder_spec marks e obs)) /\
  at_or_after marks (true_times obs (ladder_spec marks e obs)).
Proof.
  revert marks. induction obs as [|now obs IH]; intros marks; simpl.
  { split; [unfold count_true; simpl; lia | split; [constructor | exact I]]. }
  destruct marks as [|m marks']; [apply (IH [])|].
  destruct ((now <? e) && (m <=? now)) eqn:E; [|apply (IH (m :: marks'))].
  apply andb_true_iff in E as [E1 E2]. apply N.ltb_lt in E1. apply N.leb_le in E2.
  destruct (IH marks') as (H1 & H2 & H3). unfold count_true in *. simpl.
  split; [lia | split; [constructor; assumption | split; assumption]].
Qed.

Lemma ladder_takes_due m marks e now obs :
  m <= now -> now < e ->
  ladder_spec (m :: marks) e (now :: obs) = true :: ladder_spec marks e obs.
Proof.
  intros H1 H2. simpl. apply N.leb_le in H1. apply N.ltb_lt in H2. rewrite H1, H2. reflexivity.
Qed.

(* reset_ttl forgets everything: it is a fresh record with the other record's TTL and
   creation time (for TTL > 1), so the ladder restarts from the new TTL *)
Lemma reset_ttl_is_new r t c : 1 < t -> reset_ttl r t c = new_rec c t.
Proof.
  intros H. unfold reset_ttl, new_rec, reset_expires_percent, reset_refresh_guard,
    reset_refresh_percent, new_refresh_percent, new_expires_percent.
  apply N.ltb_lt in H. rewrite H. unfold exp_time.
  destruct (chk64_cases (expiration_time c t 100)) as [-> | ->];
    destruct (chk64_cases (expiration_time c t 80)) as [-> | ->]; reflexivity.
Qed.

Lemma reset_ttl_one r c r' : reset_ttl r 1 c = Ok r' -> r' = mkT 1 c (c + 1000) (c + 1000).
Proof.
  unfold reset_ttl, reset_expires_percent, reset_refresh_guard. change (1 <? 1) with false. cbv iota.
  intros H. apply bind_ok_inv in H as (e & He & H). simpl in H. inversion H; subst.
  apply exp_time_inv in He as [-> _]. f_equal; lia.
Qed.

Lemma update_ttl_panic_iff r now :
  update_ttl r now = Panic <->
  t_created r < now /\ t_ttl r < ((now - t_created r) / 1000) mod U32.
Proof.
  unfold update_ttl, update_ttl_guard, update_ttl_dec, update_ttl_elapsed.
  destruct (t_created r <? now) eqn:E1.
  - apply N.ltb_lt in E1. destruct (t_ttl r <? _) eqn:E2.
    + apply N.ltb_lt in E2. tauto.
    + apply N.ltb_ge in E2. split; [discriminate | lia].
  - apply N.ltb_ge in E1. split; [discriminate | lia].
Qed.

Lemma elapsed_le_half c t now : now <= c + 500 * t -> (now - c) / 1000 <= t / 2.
Proof.
  intros H. apply N.div_le_lower_bound; [lia|].
  pose proof (N.mul_div_le (now - c) 1000 ltac:(lia)). lia.
Qed.

(* under the half-life guard of get_known_answers the subtraction cannot underflow, and the
   TTL written is the remaining whole seconds *)
Lemma update_ttl_under_halflife r now :
  t_ttl r < U32 -> now <= t_created r + 500 * t_ttl r ->
  update_ttl r now = Ok (set_ttl r (ka_ttl_spec (t_ttl r) (t_created r) now))
  /\ (now - t_created r) / 1000 <= t_ttl r / 2.
Proof.
  intros Ht Hh. unfold update_ttl, update_ttl_guard, update_ttl_dec, update_ttl_elapsed, ka_ttl_spec.
  pose proof (elapsed_le_half _ _ _ Hh) as Hd.
  split; [|exact Hd].
  assert (Hle : t_ttl r / 2 <= t_ttl r) by (apply N.div_le_upper_bound; lia).
  destruct (t_created r <? now) eqn:E1.
  - rewrite N.mod_small by lia.
    assert (t_ttl r <? (now - t_created r) / 1000 = false) as -> by (apply N.ltb_ge; lia).
    reflexivity.
  - apply N.ltb_ge in E1. replace (now - t_created r) with 0 by lia.
    rewrite N.div_0_l by lia. rewrite N.sub_0_r. destruct r; reflexivity.
Qed.

Lemma halflife_passed_false_iff r now h :
  halflife_passed r now = Ok h -> (h = false <-> now <= t_created r + 500 * t_ttl r).
Proof.
  unfold halflife_passed, halflife_percent, halflife_passed_g. intros H.
  apply bind_ok_inv in H as (x & Hx & H). apply exp_time_inv in Hx as [-> _]. inversion H; subst.
  rewrite N.ltb_ge. lia.
Qed.

Lemma remaining_ttl_panic_iff r now :
  t_created r + 1000 * t_ttl r < U64 ->
  (remaining_ttl r now = Panic <-> t_created r + 1000 * t_ttl r < now).
Proof.
  intros Hfit. unfold remaining_ttl, remaining_percent.
  rewrite (exp_time_le _ _ 100 100) by lia. simpl.
  destruct (_ <? now) eqn:E.
  - apply N.ltb_lt in E. split; [lia | reflexivity].
  - apply N.ltb_ge in E. split; [discriminate | lia].
Qed.

Lemma no_overflow_marks c t p : c < B63 -> t < U32 -> p <= 100 -> exp_time c t p <> Panic.
Proof. intros. rewrite exp_time_ok by assumption. discriminate. Qed.

Lemma no_overflow_expires_soon r now : now < B63 -> expires_soon r now <> Panic.
Proof.
  intros H. unfold expires_soon, expires_soon_lhs. rewrite chk64_ok by (unfold U64, B63 in *; lia).
  simpl. discriminate.
Qed.

Lemma beq_rdata_eq a b : beq_rdata a b = true <-> a = b.
Proof.
  destruct a, b; simpl; try (split; [discriminate | intros H; discriminate H]);
    rewrite ?andb_true_iff, ?beq_eq, ?N.eqb_eq; (split; [intuition congruence | intros H; inversion H; auto]).
Qed.

Lemma matches_same_record a b :
  matches a b = same_record a b && Bool.eqb (i_flush a) (i_flush b).
Proof.
  unfold matches, same_record, rrdata_match, entry_eq.
  set (X := beq (i_name a) (i_name b) && (i_type a =? i_type b) && (i_class a =? i_class b)).
  destruct X, (beq_rdata (i_data a) (i_data b)), (Bool.eqb (i_flush a) (i_flush b)),
    (if is_addr_data (i_data a) then i_if a =? i_if b else true); reflexivity.
Qed.

Lemma same_record_iff a b :
  same_record a b = true <->
  i_data a = i_data b /\ i_name a = i_name b /\ i_type a = i_type b /\ i_class a = i_class b /\
  (is_addr_data (i_data a) = true -> i_if a = i_if b).
Proof.
  unfold same_record.
  rewrite !andb_true_iff, beq_rdata_eq, beq_eq, !N.eqb_eq.
  destruct (is_addr_data (i_data a)).
  - rewrite N.eqb_eq. intuition.
  - intuition. discriminate.
Qed.

Lemma matches_iff a b :
  matches a b = true <->
  i_data a = i_data b /\ i_name a = i_name b /\ i_type a = i_type b /\ i_class a = i_class b /\
  i_flush a = i_flush b /\ (is_addr_data (i_data a) = true -> i_if a = i_if b).
Proof. rewrite matches_same_record, andb_true_iff, same_record_iff, Bool.eqb_true_iff. tauto. Qed.

Lemma matches_rrdata a b : matches a b = true -> rrdata_match a b = true.
Proof. unfold matches. rewrite !andb_true_iff. tauto. Qed.

Lemma same_record_rrdata a b : same_record a b = true -> rrdata_match a b = true.
Proof. unfold same_record, rrdata_match. rewrite !andb_true_iff. tauto. Qed.

Lemma half_lt a b : (a / 2 <? b) = (a <? 2 * b).
Proof.
  pose proof (N.div_mod a 2 ltac:(lia)) as H. pose proof (N.mod_lt a 2 ltac:(lia)) as H0.
  set (x := a / 2) in *. set (y := a mod 2) in *. clearbody x y.
  destruct (a <? 2 * b) eqn:E; [apply N.ltb_lt in E; apply N.ltb_lt | apply N.ltb_ge in E; apply N.ltb_ge]; lia.
Qed.

(* the identity test of suppressed_by_answer is the property's same_record: with the flush bits
   made equal, `matches` is same_record, which does not look at them *)
Lemma suppress_identity mine theirs :
  (if Bool.eqb (i_flush theirs) (i_flush mine) then matches mine theirs
   else matches mine (with_flush theirs (suppress_flush_override (i_flush mine)))) = same_record mine theirs.
Proof.
  rewrite !matches_same_record. unfold suppress_flush_override, with_flush, same_record. simpl.
  destruct (i_flush theirs), (i_flush mine); simpl; rewrite ?andb_true_r; reflexivity.
Qed.

Lemma suppress_eq_spec mine tm theirs tt :
  suppressed_by_answer mine tm theirs tt = suppress_spec mine tm theirs tt.
Proof.
  unfold suppressed_by_answer, suppress_spec, suppress_ttl_cond. rewrite suppress_identity, half_lt. reflexivity.
Qed.

Lemma suppress_iff mine tm theirs tt :
  suppressed_by_answer mine tm theirs tt = true <-> same_record mine theirs = true /\ tm < 2 * tt.
Proof.
  rewrite suppress_eq_spec. unfold suppress_spec. rewrite andb_true_iff, N.ltb_lt. tauto.
Qed.

Lemma suppressed_by_iff mine tm kas :
  suppressed_by mine tm kas = true <->
  exists k, In k kas /\ same_record mine (fst k) = true /\ tm < 2 * snd k.
Proof.
  unfold suppressed_by. rewrite existsb_exists. split; intros (k & Hin & H); exists k; split; auto.
  - apply suppress_iff; assumption.
  - apply suppress_iff; assumption.
Qed.

Lemma add_answer_spec kas out a :
  add_answer kas out a =
  if suppressed_by (o_id a) (o_ttl a) kas
  then (mkOut (out_answers out) (out_additionals out) (out_suppressed out + 1), false)
  else (mkOut (out_answers out ++ [a]) (out_additionals out) (out_suppressed out), true).
Proof. reflexivity. Qed.

Lemma add_answer_with_additionals_no_addr kas out ptr adds :
  add_answer_with_additionals kas out false ptr adds = out.
Proof. reflexivity. Qed.
