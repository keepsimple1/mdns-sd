(* The cache of Model/LifeCache.v seen as a finite map: keys are unique (wf), get/set laws,
   relations on caches key by key (lift), lookups after the eviction sweeps; one loop iteration
   taken apart (sim_iter_inv) with the invariant lemmas for add_or_update, for taking records in
   (ingest_inv) and for the refresh part (refresh_phase_inv); no browse, no service query
   (no_browse_queries).  Generic in the record type. *)
From Coq Require Import List NArith Bool.
From Mdns Require Import Res Bytes Rec Life LifeCache.
Import ListNotations.
Open Scope N_scope.

Lemma key_eqb_eq a b : key_eqb a b = true <-> a = b.
Proof.
  destruct a as [a1 a2], b as [b1 b2]. unfold key_eqb. simpl.
  rewrite andb_true_iff, N.eqb_eq, beq_eq. split; [intros [-> ->]; reflexivity | intros H; inversion H; auto].
Qed.

Lemma key_eqb_refl a : key_eqb a a = true.
Proof. apply key_eqb_eq. reflexivity. Qed.

Lemma key_eqb_neq a b : key_eqb a b = false <-> a <> b.
Proof.
  split; intros H.
  - intros E. apply key_eqb_eq in E. congruence.
  - destruct (key_eqb a b) eqn:E; [apply key_eqb_eq in E; contradiction | reflexivity].
Qed.

Lemma Forall2_diag {A} (R : A -> A -> Prop) : (forall x, R x x) -> forall l, Forall2 R l l.
Proof. intros H l. induction l; constructor; auto. Qed.

Lemma Forall2_compose {A} (R : A -> A -> Prop) :
  (forall x y z, R x y -> R y z -> R x z) -> forall a b c, Forall2 R a b -> Forall2 R b c -> Forall2 R a c.
Proof.
  intros HR a b c H. revert c. induction H as [|x y a b Hxy Hab IH]; intros c Hc; inversion Hc; subst; constructor; eauto.
Qed.

Lemma In_flat_map_incl {A B} (f : A -> list B) l l' x :
  (forall a, In a l' -> In a l) -> In x (flat_map f l') -> In x (flat_map f l).
Proof. intros H. rewrite !in_flat_map. intros (a & Ha & Hx). exists a. auto. Qed.

Section Map.
Variable T : Type.
Variable OP : ops T.

Definition wf (c : cache T) : Prop := NoDup (map fst c).

Lemma get_absent (c : cache T) k : ~ In k (map fst c) -> get_bucket T c k = [].
Proof.
  induction c as [|[k1 b1] c IH]; intros H; [reflexivity|].
  simpl in *. destruct (key_eqb k k1) eqn:E.
  - apply key_eqb_eq in E. subst. exfalso. apply H. left. reflexivity.
  - apply IH. intros Hin. apply H. right. exact Hin.
Qed.

Lemma get_in (c : cache T) k b : wf c -> In (k, b) c -> get_bucket T c k = b.
Proof.
  unfold wf. induction c as [|[k1 b1] c IH]; intros Hw Hin; [contradiction|].
  simpl in *. inversion Hw as [|? ? Hn Hw']; subst. destruct Hin as [Hin|Hin].
  - inversion Hin; subst. rewrite key_eqb_refl. reflexivity.
  - destruct (key_eqb k k1) eqn:E.
    + apply key_eqb_eq in E. subst. exfalso. apply Hn. apply in_map_iff. exists (k1, b). auto.
    + apply IH; assumption.
Qed.

Lemma set_keys (c : cache T) k b x : In x (map fst (set_bucket T c k b)) -> In x (map fst c) \/ x = k.
Proof.
  induction c as [|[k1 b1] c IH]; simpl.
  - destruct (is_nil b); simpl; [tauto | intros [H|[]]; auto].
  - destruct (key_eqb k k1) eqn:E.
    + destruct (is_nil b); simpl; tauto.
    + simpl. intros [H|H]; [auto|]. destruct (IH H); auto.
Qed.

Lemma set_wf (c : cache T) k b : wf c -> wf (set_bucket T c k b).
Proof.
  unfold wf. induction c as [|[k1 b1] c IH]; simpl; intros Hw.
  - destruct (is_nil b); simpl; [constructor | constructor; [intros [] | constructor]].
  - inversion Hw as [|? ? Hn Hw']; subst. destruct (key_eqb k k1) eqn:E.
    + destruct (is_nil b); simpl; [assumption | constructor; assumption].
    + simpl. constructor; [|apply IH; assumption].
      intros Hin. apply set_keys in Hin as [Hin|Hin]; [contradiction|].
      subst. rewrite key_eqb_refl in E. discriminate.
Qed.

Lemma get_set (c : cache T) k b k2 :
  wf c -> get_bucket T (set_bucket T c k b) k2 = if key_eqb k2 k then b else get_bucket T c k2.
Proof.
  unfold wf. induction c as [|[k1 b1] c IH]; simpl; intros Hw.
  - destruct (is_nil b) eqn:En; simpl.
    + destruct b; [|discriminate]. destruct (key_eqb k2 k); reflexivity.
    + reflexivity.
  - inversion Hw as [|? ? Hn Hw']; subst. destruct (key_eqb k k1) eqn:E.
    + apply key_eqb_eq in E. subst k1. destruct (is_nil b) eqn:En; simpl.
      * destruct b; [|discriminate]. destruct (key_eqb k2 k) eqn:E2; [|reflexivity].
        apply key_eqb_eq in E2. subst. apply get_absent. assumption.
      * destruct (key_eqb k2 k); reflexivity.
    + simpl. destruct (key_eqb k2 k1) eqn:E1.
      * destruct (key_eqb k2 k) eqn:E2; [|reflexivity].
        apply key_eqb_eq in E1, E2. subst. rewrite key_eqb_refl in E. discriminate.
      * apply IH. assumption.
Qed.

Definition lift (Rv : bucket T -> bucket T -> Prop) (c c' : cache T) : Prop :=
  forall k, Rv (get_bucket T c k) (get_bucket T c' k).

Lemma lift_refl (Rv : bucket T -> bucket T -> Prop) c : (forall b, Rv b b) -> lift Rv c c.
Proof. intros H k. apply H. Qed.

Lemma lift_trans (Rv : bucket T -> bucket T -> Prop) a b c :
  (forall x y z, Rv x y -> Rv y z -> Rv x z) -> lift Rv a b -> lift Rv b c -> lift Rv a c.
Proof. intros H H1 H2 k. eapply H; [apply H1 | apply H2]. Qed.

Lemma lift_set (Rv : bucket T -> bucket T -> Prop) c k b :
  (forall x, Rv x x) -> wf c -> Rv (get_bucket T c k) b -> lift Rv c (set_bucket T c k b).
Proof.
  intros Hrefl Hw H k2. rewrite get_set by assumption. destruct (key_eqb k2 k) eqn:Ek; [|apply Hrefl].
  apply key_eqb_eq in Ek. subst. exact H.
Qed.

Lemma refresh_bucket_Forall2 (Rl : centry T -> centry T -> Prop) now :
  (forall e t d, op_refresh OP (c_t e) now = Ok (t, d) -> Rl e (mkC (c_id e) t)) ->
  forall b b' any, refresh_bucket T OP b now = Ok (b', any) -> Forall2 Rl b b'.
Proof.
  intros Hstep. induction b as [|e b IH]; intros b' any H; simpl in H; [inversion H; constructor|].
  apply bind_ok_inv in H as ([t d] & H1 & H). apply bind_ok_inv in H as ([r a] & H2 & H).
  inversion H; subst. constructor; eauto.
Qed.

Lemma refresh_once_bucket_Forall2 (Rl : centry T -> centry T -> Prop) now :
  (forall e t d, op_refresh_once OP (c_t e) now = Ok (t, d) -> Rl e (mkC (c_id e) t)) ->
  forall b b' due, refresh_once_bucket T OP b now = Ok (b', due) -> Forall2 Rl b b'.
Proof.
  intros Hstep. induction b as [|e b IH]; intros b' due H; simpl in H; [inversion H; constructor|].
  apply bind_ok_inv in H as ([t d] & H1 & H). apply bind_ok_inv in H as ([r a] & H2 & H).
  inversion H; subst. constructor; eauto.
Qed.

Section AouInv.
Variables (Pe : centry T -> Prop) (inc : ident) (ttl now : N).
Hypothesis Pe_shorten : forall e,
  Pe e -> op_should_flush OP inc (c_id e) (c_t e) now = Ok true ->
  Pe (mkC (c_id e) (fst (op_shorten OP (c_t e) now))).
Hypothesis Pe_reset : forall e t, Pe e -> op_reset OP (c_t e) ttl now = Ok t -> Pe (mkC (c_id e) t).
Hypothesis Pe_new : forall t, op_new OP now ttl = Ok t -> Pe (mkC inc t).

Lemma flush_pass_Forall : forall b b' ts,
  Forall Pe b -> flush_pass T OP inc now b = Ok (b', ts) -> Forall Pe b'.
Proof.
  induction b as [|e b IH]; intros b' ts Hb H; simpl in H; [inversion H; constructor|].
  inversion Hb as [|? ? He Hb']; subst.
  apply bind_ok_inv in H as (f & Hf & H). apply bind_ok_inv in H as ([r ts'] & Hr & H).
  specialize (IH _ _ Hb' Hr). destruct f; [|inversion H; subst; constructor; assumption].
  pose proof (Pe_shorten e He Hf) as Hs. destruct (op_shorten OP (c_t e) now) as [t tm].
  inversion H; subst. constructor; assumption.
Qed.

Lemma reset_first_Forall : forall b b' rv,
  Forall Pe b -> reset_first T OP inc ttl now b = Ok (Some (b', rv)) -> Forall Pe b'.
Proof.
  induction b as [|e b IH]; intros b' rv Hb H; simpl in H; [discriminate|].
  inversion Hb as [|? ? He Hb']; subst. destruct (matches (c_id e) inc).
  - apply bind_ok_inv in H as (t & Ht & H). inversion H; subst. constructor; eauto.
  - apply bind_ok_inv in H as (r & Hr & H). destruct r as [[rest rv']|]; inversion H; subst.
    constructor; eauto.
Qed.

Lemma add_or_update_Forall b ifu b' ts isnew :
  Forall Pe b -> add_or_update T OP b inc ttl now ifu = Ok (Some (b', ts, isnew)) -> Forall Pe b'.
Proof.
  intros Hb H. unfold add_or_update in H. apply bind_ok_inv in H as (tnew & Hnew & H).
  destruct (is_nil b && negb ifu); [discriminate|].
  apply bind_ok_inv in H as ([b1 ts1] & Hf & H).
  assert (Hb1 : Forall Pe b1).
  { destruct (i_flush inc); [eapply flush_pass_Forall; eauto | inversion Hf; subst; assumption]. }
  apply bind_ok_inv in H as (r & Hr & H). destruct r as [[b2 rv]|]; inversion H; subst.
  - eapply reset_first_Forall; eauto.
  - constructor; auto.
Qed.

End AouInv.

Lemma sweep_keys kinds (c : cache T) now x : In x (map fst (sweep T OP kinds c now)) -> In x (map fst c).
Proof.
  induction c as [|[k1 b1] c IH]; simpl; [tauto|].
  destruct (kinds (fst k1)); [destruct (is_nil _)|]; simpl; tauto.
Qed.

Lemma sweep_wf kinds (c : cache T) now : wf c -> wf (sweep T OP kinds c now).
Proof.
  unfold wf. induction c as [|[k1 b1] c IH]; simpl; intros Hw; [constructor|].
  inversion Hw as [|? ? Hn Hw']; subst.
  destruct (kinds (fst k1)); [destruct (is_nil _)|]; simpl; auto;
    constructor; auto; intros Hin; apply sweep_keys in Hin; contradiction.
Qed.

Lemma get_sweep kinds (c : cache T) now k :
  wf c ->
  get_bucket T (sweep T OP kinds c now) k =
  if kinds (fst k) then fst (evict T OP (get_bucket T c k) now) else get_bucket T c k.
Proof.
  unfold wf. induction c as [|[k1 b1] c IH]; simpl; intros Hw.
  - destruct (kinds (fst k)); reflexivity.
  - inversion Hw as [|? ? Hn Hw']; subst. destruct (key_eqb k k1) eqn:E.
    + apply key_eqb_eq in E. subst k1. destruct (kinds (fst k)) eqn:Ek.
      * destruct (is_nil (filter _ b1)) eqn:En; simpl.
        -- rewrite get_absent by (intros Hin; apply sweep_keys in Hin; contradiction).
           destruct (filter _ b1); [reflexivity | discriminate].
        -- rewrite key_eqb_refl. reflexivity.
      * simpl. rewrite key_eqb_refl. reflexivity.
    + destruct (kinds (fst k1)); [destruct (is_nil _)|]; simpl; rewrite ?E; apply IH; assumption.
Qed.

(* sweep_srv is the sweep of the SRV Vecs (it also reports the instances left without any) *)
Lemma sweep_srv_fst (c : cache T) now :
  fst (sweep_srv T OP c now) = sweep T OP (fun k => k =? 1) c now.
Proof.
  induction c as [|[k b] c IH]; [reflexivity|]. simpl.
  destruct (sweep_srv T OP c now) as [r g]. simpl in IH. subst r.
  destruct (fst k =? 1); [destruct (is_nil _)|]; reflexivity.
Qed.

Lemma sweep_srv_wf (c : cache T) now : wf c -> wf (fst (sweep_srv T OP c now)).
Proof. rewrite sweep_srv_fst. apply sweep_wf. Qed.

Definition refresh_phase (cfg : simcfg) (c : cache T) (now : N) : res (cache T * list qdesc) :=
  let? (c1, qr) := match sc_browse cfg with
                   | Some ty => refresh_browse T OP c now ty
                   | None => Ok (c, []) end in
  let? (c2, qa) := match sc_host cfg with
                   | Some h => refresh_host T OP c1 now h
                   | None => Ok (c1, []) end in
  Ok (c2, qr ++ qa).

Definition evict_phase (cfg : simcfg) (c : cache T) (now : N) : cache T :=
  fst (evict_addrs T OP (fst (evict_services T OP c now (sc_browse cfg))) now (sc_host cfg)).

Lemma sim_iter_inv cfg (c c' : cache T) now nsb nsh recs o :
  sim_iter T OP cfg c now nsb nsh recs = Ok (c', o) ->
  exists c0 qb qh c2 qr,
    ingest T OP c now recs = Ok c0 /\
    match sc_browse cfg with
    | Some ty => let? q := mk_query T OP c0 [(ty, TY_PTR)] now in Ok (repeat_q nsb q)
    | None => Ok [] end = Ok qb /\
    match sc_host cfg with
    | Some h => let? q := mk_query T OP c0 [(h, TY_A); (h, TY_AAAA)] now in Ok (repeat_q nsh q)
    | None => Ok [] end = Ok qh /\
    refresh_phase cfg c0 now = Ok (c2, qr) /\
    c' = evict_phase cfg c2 now /\ io_queries o = qb ++ qh ++ qr.
Proof.
  unfold sim_iter, refresh_phase, evict_phase. intros H.
  apply bind_ok_inv in H as (c0 & H0 & H). apply bind_ok_inv in H as (qb & Hqb & H).
  apply bind_ok_inv in H as (qh & Hqh & H). apply bind_ok_inv in H as ([c1 qr] & H1 & H).
  apply bind_ok_inv in H as ([c2 qa] & H2 & H).
  exists c0, qb, qh, c2, (qr ++ qa). rewrite H1. simpl. rewrite H2. simpl.
  destruct (evict_services T OP c2 now (sc_browse cfg)) as [c3 rs].
  unfold evict_addrs in *. simpl in H |- *. inversion H; subst. repeat split; assumption || reflexivity.
Qed.

Lemma mk_query_questions (c : cache T) qs now q : mk_query T OP c qs now = Ok q -> qd_questions q = qs.
Proof. unfold mk_query. intros H. apply bind_ok_inv in H as (a & _ & H). inversion H. reflexivity. Qed.

Lemma mk_queries_questions (c : cache T) now : forall qss qs,
  mk_queries T OP c qss now = Ok qs -> map qd_questions qs = qss.
Proof.
  induction qss as [|x qss IH]; intros qs H; simpl in H; [inversion H; reflexivity|].
  apply bind_ok_inv in H as (q & Hq & H). apply bind_ok_inv in H as (r & Hr & H). inversion H; subst.
  simpl. rewrite (mk_query_questions _ _ _ _ Hq), (IH _ Hr). reflexivity.
Qed.

Lemma addr_qtype_cases id : addr_qtype id = TY_A \/ addr_qtype id = TY_AAAA.
Proof. unfold addr_qtype. destruct (i_data id); auto. destruct (_ =? 4); auto. Qed.

Lemma no_browse_queries cfg (c c' : cache T) now nsb nsh recs o :
  sc_browse cfg = None -> sim_iter T OP cfg c now nsb nsh recs = Ok (c', o) ->
  Forall (fun q => Forall (fun qu : bytes * N => snd qu = TY_A \/ snd qu = TY_AAAA) (qd_questions q))
         (io_queries o) /\
  (sc_host cfg = None -> io_queries o = []).
Proof.
  intros Hb H. apply sim_iter_inv in H as (c0 & qb & qh & c2 & qr & _ & Hqb & Hqh & H2 & _ & ->).
  unfold refresh_phase in H2. rewrite Hb in Hqb, H2. inversion Hqb; subst qb. simpl in H2 |- *.
  destruct (sc_host cfg) as [h|].
  - split; [|discriminate]. apply Forall_app. split.
    + apply bind_ok_inv in Hqh as (q & Hq & Hqh). inversion Hqh; subst.
      apply mk_query_questions in Hq. clear Hqh.
      induction nsh as [|m IH]; simpl; [constructor|]. constructor; [|exact IH].
      rewrite Hq. constructor; [left; reflexivity|]. constructor; [right; reflexivity | constructor].
    + unfold refresh_host in H2. apply bind_ok_inv in H2 as ([c1 qa] & H2 & H3). inversion H3; subst.
      apply bind_ok_inv in H2 as ([b due] & _ & H2). apply bind_ok_inv in H2 as (q & Hq & H2). inversion H2; subst.
      apply mk_queries_questions in Hq. rewrite Forall_forall. intros x Hx.
      apply (in_map qd_questions) in Hx. rewrite Hq in Hx. apply in_map_iff in Hx as (id & <- & _).
      constructor; [apply addr_qtype_cases | constructor].
  - inversion Hqh; subst. inversion H2; subst. split; [constructor | reflexivity].
Qed.

(* The refresh part only ever replaces a Vec by its refreshed self.  A property of caches that
   survives that one step survives the whole part; G is what it guarantees of the queries built
   from the caches on the way. *)
Section RefreshInv.
Variables (now : N) (I : cache T -> Prop) (G : qdesc -> Prop).
Hypothesis I_refresh : forall c k b d,
  I c -> refresh_bucket T OP (get_bucket T c k) now = Ok (b, d) -> I (set_bucket T c k b).
Hypothesis I_once : forall c k b d,
  I c -> refresh_once_bucket T OP (get_bucket T c k) now = Ok (b, d) -> I (set_bucket T c k b).
Hypothesis G_queries : forall c qss qs, I c -> mk_queries T OP c qss now = Ok qs -> Forall G qs.

Lemma refresh_srv_txt_inv : forall insts c c' acc acc',
  I c -> refresh_srv_txt T OP c now insts acc = Ok (c', acc') -> I c'.
Proof.
  induction insts as [|i insts IH]; intros c c' acc acc' Hi H; simpl in H; [inversion H; subst; assumption|].
  apply bind_ok_inv in H as ([bs ds] & H1 & H). apply bind_ok_inv in H as ([bt dt] & H2 & H).
  eapply IH; [|exact H]. eapply I_refresh; [|exact H2]. eapply I_refresh; [|exact H1]. assumption.
Qed.

Lemma refresh_hosts_inv : forall hosts c c' qs,
  I c -> refresh_hosts T OP c now hosts = Ok (c', qs) -> I c'.
Proof.
  induction hosts as [|h hosts IH]; intros c c' qs Hi H; simpl in H; [inversion H; subst; assumption|].
  apply bind_ok_inv in H as ([b d] & H1 & H). apply bind_ok_inv in H as ([c2 q2] & H2 & H).
  inversion H; subst. eapply IH; [|exact H2]. eapply I_refresh; [|exact H1]. assumption.
Qed.

Lemma refresh_browse_inv c ty c' qs :
  I c -> refresh_browse T OP c now ty = Ok (c', qs) -> I c' /\ Forall G qs.
Proof.
  unfold refresh_browse. intros Hi H.
  apply bind_ok_inv in H as ([bp dp] & Hp & H). apply bind_ok_inv in H as (qp & Hqp & H).
  apply bind_ok_inv in H as ([c2 due] & H2 & H). apply bind_ok_inv in H as (qi & Hqi & H).
  apply bind_ok_inv in H as ([c3 hq] & H3 & H). apply bind_ok_inv in H as (qh & Hqh & H).
  inversion H; subst.
  pose proof (I_refresh _ _ _ _ Hi Hp) as I1.
  pose proof (refresh_srv_txt_inv _ _ _ _ _ I1 H2) as I2.
  pose proof (refresh_hosts_inv _ _ _ _ I2 H3) as I3.
  split; [exact I3|]. repeat (apply Forall_app; split); eauto.
Qed.

Lemma refresh_host_inv c h c' qs :
  I c -> refresh_host T OP c now h = Ok (c', qs) -> I c' /\ Forall G qs.
Proof.
  unfold refresh_host. intros Hi H.
  apply bind_ok_inv in H as ([b due] & Hb & H). apply bind_ok_inv in H as (q & Hq & H).
  inversion H; subst. pose proof (I_once _ _ _ _ Hi Hb) as I1. eauto.
Qed.

Lemma refresh_phase_inv cfg c c' qs :
  I c -> refresh_phase cfg c now = Ok (c', qs) -> I c' /\ Forall G qs.
Proof.
  unfold refresh_phase. intros Hi H.
  apply bind_ok_inv in H as ([c1 qr] & H1 & H). apply bind_ok_inv in H as ([c2 qa] & H2 & H).
  inversion H; subst.
  assert (I c1 /\ Forall G qr) as [I1 Gr].
  { destruct (sc_browse cfg); [eapply refresh_browse_inv; eauto | inversion H1; subst; auto]. }
  assert (I c' /\ Forall G qa) as [I2 Ga].
  { destruct (sc_host cfg); [eapply refresh_host_inv; eauto | inversion H2; subst; auto]. }
  split; [exact I2 | apply Forall_app; auto].
Qed.

End RefreshInv.

(* taking records in changes the cache only by storing what add_or_update returns; the induction
   runs over the sublists of recs (G) so that the step may know its record is one of recs *)
Lemma ingest_inv (I : cache T -> Prop) now recs :
  (forall c id t k b ts nw, In (id, t) recs -> I c -> key_of id = Some k ->
     add_or_update T OP (get_bucket T c k) id (stored_ttl true t) now true = Ok (Some (b, ts, nw)) ->
     I (set_bucket T c k b)) ->
  forall c c', I c -> ingest T OP c now recs = Ok c' -> I c'.
Proof.
  intros Hstep.
  assert (G : forall rs, incl rs recs -> forall c c', I c -> ingest T OP c now rs = Ok c' -> I c').
  { induction rs as [|[id t] rs IH]; intros Hin c c' Hi H; simpl in H; [inversion H; subst; exact Hi|].
    apply bind_ok_inv in H as (c1 & H1 & H).
    eapply IH; [intros x Hx; apply Hin; right; exact Hx | | exact H].
    destruct (key_of id) as [k|] eqn:Ek; simpl in H1; [|inversion H1; subst; exact Hi].
    apply bind_ok_inv in H1 as (r & Ha & H1). destruct r as [[[b ts] nw]|]; inversion H1; subst; [|exact Hi].
    eapply Hstep; eauto. apply Hin. left. reflexivity. }
  apply G, incl_refl.
Qed.

Lemma ingest_wf now recs (c c' : cache T) : wf c -> ingest T OP c now recs = Ok c' -> wf c'.
Proof. apply (ingest_inv wf). intros. apply set_wf. assumption. Qed.

Lemma refresh_phase_wf cfg (c c' : cache T) now qs :
  wf c -> refresh_phase cfg c now = Ok (c', qs) -> wf c'.
Proof.
  intros Hw H.
  apply (refresh_phase_inv now wf (fun _ => True)) in H; [apply H | | | | exact Hw]; auto using set_wf.
  intros. apply Forall_forall. auto.
Qed.

Lemma fold_evict_instance_wf now gone : forall (b : bucket T) (c : cache T) rm,
  wf c -> wf (fst (fold_left (evict_instance T OP now gone) b (c, rm))).
Proof.
  induction b as [|e b IH]; intros c rm Hw; simpl; [assumption|].
  unfold evict_instance at 2. destruct (alias_of (c_id e)); [|apply IH; assumption].
  apply IH. auto using set_wf.
Qed.

Lemma evict_services_wf (c : cache T) now browse : wf c -> wf (fst (evict_services T OP c now browse)).
Proof.
  intros Hw. unfold evict_services. pose proof (sweep_srv_wf c now Hw) as H0.
  destruct (sweep_srv T OP c now) as [c0 gone]. simpl in H0.
  destruct browse as [ty|]; simpl.
  - pose proof (fold_evict_instance_wf now gone (get_bucket T c0 (0, ty)) c0 [] H0) as H1.
    destruct (fold_left _ _ _) as [c1 rm1]. simpl in *.
    destruct (evict T OP (get_bucket T c0 (0, ty)) now) as [kp xp]. simpl.
    apply sweep_wf. apply set_wf. assumption.
  - apply sweep_wf. assumption.
Qed.

Lemma evict_phase_wf cfg (c : cache T) now : wf c -> wf (evict_phase cfg c now).
Proof. intros Hw. unfold evict_phase, evict_addrs. simpl. apply sweep_wf, evict_services_wf, Hw. Qed.

Lemma sim_iter_wf cfg (c c' : cache T) now nsb nsh recs o :
  wf c -> sim_iter T OP cfg c now nsb nsh recs = Ok (c', o) -> wf c'.
Proof.
  intros Hw H. apply sim_iter_inv in H as (c0 & qb & qh & c2 & qr & H0 & _ & _ & H2 & -> & _).
  eapply evict_phase_wf, refresh_phase_wf, H2. eapply ingest_wf; eauto.
Qed.

End Map.
