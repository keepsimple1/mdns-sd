(* Lemmas about the cache model (Model/Cache.v): association lists, record identity, lifetime
   arithmetic, specification of add_or_update and of the evictions. *)
From Coq Require Import List NArith Bool Lia.
From Mdns Require Import Bytes Rec ParamsBrowser ParamsBrowserPinned Cache.
Import ListNotations.
Open Scope N_scope.

Lemma bm_get_In k m b : bm_get k m = Some b -> In (k, b) m.
Proof.
  induction m as [|[k' b'] t IH]; simpl; [discriminate|].
  destruct (beq k k') eqn:E.
  - intros H; inversion H; subst. apply beq_eq in E. subst. now left.
  - intros H. right. auto.
Qed.

Lemma In_bm_get k b m : NoDup (map fst m) -> In (k, b) m -> bm_get k m = Some b.
Proof.
  induction m as [|[k' b'] t IH]; simpl; [tauto|].
  intros ND [H|H].
  - inversion H; subst. now rewrite beq_refl.
  - inversion ND; subst. destruct (beq k k') eqn:E.
    + apply beq_eq in E. subst. exfalso. apply H2. apply in_map_iff. now exists (k', b).
    + auto.
Qed.

Lemma bm_set_In k b m k' b' :
  In (k', b') (bm_set k b m) -> (k' = k /\ b' = b) \/ In (k', b') m.
Proof.
  induction m as [|[k0 b0] t IH]; simpl.
  - intros [H|[]]. inversion H; auto.
  - destruct (beq k k0) eqn:E.
    + intros [H|H]; [|auto]. inversion H; subst. apply beq_eq in E. auto.
    + intros [H|H]; [auto|]. destruct (IH H); auto.
Qed.

Lemma bm_set_nodup k b m : NoDup (map fst m) -> NoDup (map fst (bm_set k b m)).
Proof.
  induction m as [|[k0 b0] t IH]; simpl; intros ND; [repeat constructor; auto|].
  inversion ND; subst. destruct (beq k k0) eqn:E; simpl; constructor; auto.
  intros Hin. apply in_map_iff in Hin as [[k1 b1] [Hk Hin]]. simpl in Hk. subst k1.
  apply bm_set_In in Hin as [[-> _]|Hin]; [now rewrite beq_refl in E|].
  apply H1. apply in_map_iff. now exists (k0, b1).
Qed.

Lemma bm_set_get_same k b m : bm_get k (bm_set k b m) = Some b.
Proof.
  induction m as [|[k0 b0] t IH]; simpl.
  - now rewrite beq_refl.
  - destruct (beq k k0) eqn:E; simpl; rewrite E; [reflexivity|assumption].
Qed.

Lemma bm_set_get_other k k' b m : beq k' k = false -> bm_get k' (bm_set k b m) = bm_get k' m.
Proof.
  intros Hne. induction m as [|[k0 b0] t IH]; simpl.
  - now rewrite Hne.
  - destruct (beq k k0) eqn:E; simpl.
    + apply beq_eq in E. subst. now rewrite Hne.
    + now rewrite IH.
Qed.

Lemma bm_set_same k b m : bm_get k m = Some b -> bm_set k b m = m.
Proof.
  induction m as [|[k1 b1] t IH]; simpl; [discriminate|]. destruct (beq k k1).
  - intros [= ->]. reflexivity.
  - intros H. now rewrite (IH H).
Qed.

Lemma bm_remove_In k m x : In x (bm_remove k m) -> In x m.
Proof.
  induction m as [|[k0 b0] t IH]; simpl; [tauto|].
  destruct (beq k k0); simpl; intros H; [auto|]. destruct H; auto.
Qed.

Lemma bm_remove_nodup k m : NoDup (map fst m) -> NoDup (map fst (bm_remove k m)).
Proof.
  induction m as [|[k0 b0] t IH]; simpl; [auto|].
  intros ND. inversion ND; subst. destruct (beq k k0); simpl; [auto|].
  constructor; [|auto]. intros H. apply H1. apply in_map_iff in H as [[k1 b1] [Hk H]].
  apply bm_remove_In in H. apply in_map_iff. now exists (k1, b1).
Qed.

Lemma bm_remove_get_same k m : bm_get k (bm_remove k m) = None.
Proof.
  induction m as [|[k0 b0] t IH]; simpl; [reflexivity|].
  destruct (beq k k0) eqn:E; simpl; [assumption|]. now rewrite E.
Qed.

Lemma beq_rdata_eq a b : beq_rdata a b = true -> a = b.
Proof.
  destruct a, b; simpl; try discriminate; intros H;
    repeat (apply andb_true_iff in H as [H ?]);
    repeat match goal with
           | H : beq _ _ = true |- _ => apply beq_eq in H
           | H : (_ =? _) = true |- _ => apply N.eqb_eq in H
           end; subst; reflexivity.
Qed.

Lemma beq_rdata_refl a : beq_rdata a a = true.
Proof. destruct a; simpl; rewrite ?beq_refl, ?N.eqb_refl; reflexivity. Qed.

Lemma rr_matches_spec a ai b bi :
  rr_matches a ai b bi = true <->
  r_name a = r_name b /\ r_type a = r_type b /\ r_class a = r_class b /\ r_flush a = r_flush b
  /\ r_data a = r_data b /\ (is_addr_type (r_type a) = true -> ai = bi).
Proof.
  unfold rr_matches. split.
  - intros H. apply andb_true_iff in H as [H Hif]. apply andb_true_iff in H as [H Hd].
    apply andb_true_iff in H as [H Hf]. apply andb_true_iff in H as [H Hc].
    apply andb_true_iff in H as [Hn Ht].
    apply beq_eq in Hn. apply N.eqb_eq in Ht, Hc. apply Bool.eqb_prop in Hf. apply beq_rdata_eq in Hd.
    repeat split; auto. intros Ha. rewrite Ha in Hif. now apply N.eqb_eq.
  - intros (H1 & H2 & H3 & H4 & H5 & H6).
    rewrite H1, H2, H3, H4, H5, beq_refl, !N.eqb_refl, Bool.eqb_reflx, beq_rdata_refl. simpl.
    destruct (is_addr_type (r_type b)) eqn:E; [|reflexivity]. rewrite H2 in H6. apply N.eqb_eq. auto.
Qed.

Lemma rr_matches_refl a ai : rr_matches a ai a ai = true.
Proof. apply rr_matches_spec. repeat split; auto. Qed.

Lemma rr_matches_sym a ai b bi : rr_matches a ai b bi = rr_matches b bi a ai.
Proof.
  apply Bool.eq_true_iff_eq. rewrite !rr_matches_spec.
  split; intros (H1 & H2 & H3 & H4 & H5 & H6); repeat split; auto; intros Ha; symmetry; apply H6; congruence.
Qed.

Lemma rr_matches_trans a ai b bi c ci :
  rr_matches a ai b bi = true -> rr_matches b bi c ci = true -> rr_matches a ai c ci = true.
Proof.
  intros H1 H2. apply rr_matches_spec in H1 as (A1 & A2 & A3 & A4 & A5 & A6).
  apply rr_matches_spec in H2 as (B1 & B2 & B3 & B4 & B5 & B6). apply rr_matches_spec.
  repeat split; try congruence. intros Ha. rewrite (A6 Ha). apply B6. now rewrite <- A2.
Qed.

Lemma rr_matches_set_ttl_l a ai b bi t : rr_matches (set_ttl a t) ai b bi = rr_matches a ai b bi.
Proof. reflexivity. Qed.
Lemma rr_matches_set_ttl_r a ai b bi t : rr_matches a ai (set_ttl b t) bi = rr_matches a ai b bi.
Proof. reflexivity. Qed.

Lemma set_ttl_of_match a ai b bi : rr_matches a ai b bi = true -> set_ttl a (r_ttl b) = b.
Proof.
  intros H. apply rr_matches_spec in H as (H1 & H2 & H3 & H4 & H5 & _).
  unfold set_ttl. destruct b; simpl in *. congruence.
Qed.

Lemma kind_of_type_spec t k :
  kind_of_type t = Some k ->
  match k with
  | KPtr => t = TY_PTR | KSrv => t = TY_SRV | KTxt => t = TY_TXT
  | KAddr => is_addr_type t = true | KNsec => t = TY_NSEC
  end.
Proof.
  unfold kind_of_type.
  destruct (t =? TY_PTR) eqn:E1; [intros [= <-]; now apply N.eqb_eq|].
  destruct (t =? TY_SRV) eqn:E2; [intros [= <-]; now apply N.eqb_eq|].
  destruct (t =? TY_TXT) eqn:E3; [intros [= <-]; now apply N.eqb_eq|].
  destruct (is_addr_type t) eqn:E4; [intros [= <-]; reflexivity|].
  destruct (t =? TY_NSEC) eqn:E5; [intros [= <-]; now apply N.eqb_eq|discriminate].
Qed.

Lemma kind_of_type_srv t : kind_of_type t = Some KSrv -> t = TY_SRV.
Proof. exact (kind_of_type_spec t KSrv). Qed.

Lemma kind_of_type_txt t : kind_of_type t = Some KTxt -> t = TY_TXT.
Proof. exact (kind_of_type_spec t KTxt). Qed.

Lemma kind_of_type_ptr t : kind_of_type t = Some KPtr -> t = TY_PTR.
Proof. exact (kind_of_type_spec t KPtr). Qed.

Lemma kind_of_type_addr t : kind_of_type t = Some KAddr -> is_addr_type t = true.
Proof. exact (kind_of_type_spec t KAddr). Qed.

Lemma kind_dec (a b : kind) : {a = b} + {a <> b}.
Proof. decide equality. Defined.

Lemma get_set_map_same c k m : get_map (set_map c k m) k = m.
Proof. destruct k; reflexivity. Qed.

Lemma get_set_map_other c k k' m : k <> k' -> get_map (set_map c k m) k' = get_map c k'.
Proof. destruct k, k'; intros H; try reflexivity; congruence. Qed.

Lemma c_sub_set_map c k m : c_sub (set_map c k m) = c_sub c.
Proof. destruct k; reflexivity. Qed.

Lemma note_subtype_maps c r fu k : get_map (note_subtype c r fu) k = get_map c k.
Proof.
  unfold note_subtype. destruct ((r_type r =? TY_PTR) && fu && has_sub_mark (r_name r)); [|reflexivity].
  destruct (r_data r); try reflexivity. destruct (sub_get alias (c_sub c)); destruct k; reflexivity.
Qed.

Lemma new_entry_expires r now ifx : e_expires (new_entry r now ifx) = now + 1000 * r_ttl r.
Proof. unfold new_entry; simpl. apply full_life. Qed.

Lemma reset_ttl_expires e r now : e_expires (reset_ttl e r now) = now + 1000 * r_ttl r.
Proof. unfold reset_ttl; simpl. apply full_life. Qed.

Lemma expires_soon_false e now : expires_soon e now = false <-> now + 1000 < e_expires e.
Proof. unfold expires_soon. rewrite expires_soon_pinned. rewrite N.leb_gt. tauto. Qed.

(* a goodbye (TTL 0, decoded as 1) leaves the record expiring exactly one second after its
   delivery, whether it was cached before or not *)
Lemma goodbye_new_expires r now ifx :
  r_ttl r = 1 -> e_expires (new_entry r now ifx) = now + 1000.
Proof. intros H. rewrite new_entry_expires, H. lia. Qed.

Lemma goodbye_reset_expires e r now :
  r_ttl r = 1 -> e_expires (reset_ttl e r now) = now + 1000.
Proof. intros H. rewrite reset_ttl_expires, H. lia. Qed.

Lemma expire_sooner_le e x : e_expires (expire_sooner e x) <= e_expires e.
Proof.
  unfold expire_sooner. rewrite expire_sooner_pinned. destruct (x <? e_expires e) eqn:E; simpl; [|lia].
  apply N.ltb_lt in E. lia.
Qed.

Lemma expire_sooner_fields e x :
  e_rr (expire_sooner e x) = e_rr e /\ e_created (expire_sooner e x) = e_created e
  /\ e_if (expire_sooner e x) = e_if e.
Proof. unfold expire_sooner. destruct (expire_sooner_guard x (e_expires e)); auto. Qed.

Lemma refresh_maybe_fields e now :
  e_rr (fst (refresh_maybe e now)) = e_rr e /\ e_created (fst (refresh_maybe e now)) = e_created e
  /\ e_if (fst (refresh_maybe e now)) = e_if e /\ e_expires (fst (refresh_maybe e now)) = e_expires e.
Proof. unfold refresh_maybe. destruct (is_expired e now || negb (refresh_due e now)); simpl; auto. Qed.

Lemma flush_one_fields r ifx now e :
  e_rr (flush_one r ifx now e) = e_rr e /\ e_created (flush_one r ifx now e) = e_created e
  /\ e_if (flush_one r ifx now e) = e_if e.
Proof. unfold flush_one. match goal with |- context [if ?c then _ else _] => destruct c end; auto. Qed.

(* flush_cond with the extracted comparisons spelled out *)
Lemma flush_one_spec r ifx now e :
  let hit := (r_class r =? r_class (e_rr e)) && (r_type r =? e_type e)
             && (e_created e + 1000 <? now) && (now + 1000 <? e_expires e)
             && (if is_addr_type (r_type r) then e_if e =? ifx else true) in
  flush_one r ifx now e = if hit then set_expires e (now + 1000) else e.
Proof. reflexivity. Qed.

Lemma flush_one_le r ifx now e : e_expires (flush_one r ifx now e) <= e_expires e.
Proof.
  rewrite flush_one_spec. cbv zeta.
  match goal with |- context [if ?c then _ else _] => destruct c eqn:E end; simpl; [|lia].
  apply andb_true_iff in E as [E _]. apply andb_true_iff in E as [_ E]. apply N.ltb_lt in E. lia.
Qed.

Definition flushed (r : rr) (ifx now : N) (e : entry) : entry := if r_flush r then flush_one r ifx now e else e.

Lemma flushed_map r ifx now (b : bucket) :
  (if r_flush r then map (flush_one r ifx now) b else b) = map (flushed r ifx now) b.
Proof. unfold flushed. destruct (r_flush r); [reflexivity|]. symmetry. apply map_id. Qed.

Lemma flushed_fields r ifx now e :
  e_rr (flushed r ifx now e) = e_rr e /\ e_created (flushed r ifx now e) = e_created e
  /\ e_if (flushed r ifx now e) = e_if e /\ e_expires (flushed r ifx now e) <= e_expires e.
Proof.
  unfold flushed. destruct (r_flush r); [|repeat split; reflexivity].
  destruct (flush_one_fields r ifx now e) as (A & B & C). repeat split; auto. apply flush_one_le.
Qed.

Lemma flushed_matches r ifx now e r' i : entry_matches (flushed r ifx now e) r' i = entry_matches e r' i.
Proof. destruct (flushed_fields r ifx now e) as (A & _ & C & _). unfold entry_matches. now rewrite A, C. Qed.

Lemma update_first_spec r ifx now : forall b,
  match update_first b r ifx now with
  | None => forall e, In e b -> entry_matches e r ifx = false
  | Some (b2, (e', rv)) =>
    exists l1 e0 l2, b = l1 ++ e0 :: l2 /\ (forall x, In x l1 -> entry_matches x r ifx = false)
      /\ entry_matches e0 r ifx = true /\ e' = reset_ttl e0 r now
      /\ rv = revived_guard (e_ttl e0) (r_ttl r) /\ b2 = l1 ++ e' :: l2
  end.
Proof.
  induction b as [|e t IH]; simpl; [intros ? []|].
  destruct (entry_matches e r ifx) eqn:E.
  - exists [], e, t. repeat split; auto. intros ? [].
  - destruct (update_first t r ifx now) as [[t' [e1 rv1]]|].
    + destruct IH as (l1 & e0 & l2 & -> & B & C & D & F & ->). exists (e :: l1), e0, l2.
      repeat split; auto. intros x [<-|Hx]; auto.
    + intros x [<-|Hx]; auto.
Qed.

(* the bucket B that replaces the bucket b of the record's key, and the result reported: the record is
   refused (not for us, nothing filed under its key), put in front as new, or written over its match *)
Inductive aou_bucket (r : rr) (ifx now : N) (fu : bool) (b : bucket) : bucket -> option (entry * bool) -> Prop :=
| aou_refused : b = [] -> fu = false -> aou_bucket r ifx now fu b [] None
| aou_new : (b = [] -> fu = true) -> (forall e, In e b -> entry_matches e r ifx = false) ->
    aou_bucket r ifx now fu b (new_entry r now ifx :: map (flushed r ifx now) b) (Some (new_entry r now ifx, true))
| aou_again l1 e0 l2 :
    b = l1 ++ e0 :: l2 -> (forall x, In x l1 -> entry_matches x r ifx = false) -> entry_matches e0 r ifx = true ->
    aou_bucket r ifx now fu b
      (map (flushed r ifx now) l1 ++ reset_ttl (flushed r ifx now e0) r now :: map (flushed r ifx now) l2)
      (Some (reset_ttl (flushed r ifx now e0) r now, revived_guard (e_ttl e0) (r_ttl r))).

(* what add_or_update returns: of a record of no cached kind, the maps as they were; otherwise the
   map of its kind with the bucket of its key replaced as aou_bucket says, the other maps as they were *)
Inductive aou_result (c : cache) (now ifx : N) (r : rr) (fu : bool) (c' : cache) (res : option (entry * bool)) : Prop :=
| aou_no_kind :
    kind_of_type (r_type r) = None -> (forall k, get_map c' k = get_map c k) -> res = None ->
    aou_result c now ifx r fu c' res
| aou_kind k0 B :
    kind_of_type (r_type r) = Some k0 ->
    aou_bucket r ifx now fu (match bm_get (key_of k0 (r_name r)) (get_map c k0) with Some b => b | None => [] end) B res ->
    get_map c' k0 = bm_set (key_of k0 (r_name r)) B (get_map c k0) ->
    (forall k, k <> k0 -> get_map c' k = get_map c k) ->
    aou_result c now ifx r fu c' res.

Lemma aou_shape c now ifx r fu :
  aou_result c now ifx r fu (fst (add_or_update c now ifx r fu)) (snd (add_or_update c now ifx r fu)).
Proof.
  unfold add_or_update. pose proof (note_subtype_maps c r fu) as Hm. set (c1 := note_subtype c r fu) in *. clearbody c1.
  destruct (kind_of_type (r_type r)) as [k0|] eqn:Ek; [|now apply aou_no_kind].
  rewrite (Hm k0). set (key := key_of k0 (r_name r)). set (m := get_map c k0).
  assert (Hset : forall B (res : option (entry * bool)),
             aou_bucket r ifx now fu (match bm_get key m with Some b => b | None => [] end) B res ->
             aou_result c now ifx r fu (fst (set_map c1 k0 (bm_set key B m), res)) (snd (set_map c1 k0 (bm_set key B m), res))).
  { intros B res HB. apply (aou_kind c now ifx r fu _ _ k0 B Ek HB); cbn [fst]; [apply get_set_map_same|].
    intros k Hne. rewrite get_set_map_other by congruence. apply Hm. }
  destruct (bm_get key m) as [[|e0 t0]|].
  (* nothing filed under the key: the record is the first of its bucket, or refused *)
  1,3: destruct fu; apply Hset;
       [apply (aou_new r ifx now true []); [reflexivity|intros ? []] | now apply aou_refused].
  rewrite (flushed_map r ifx now (e0 :: t0)).
  pose proof (update_first_spec r ifx now (map (flushed r ifx now) (e0 :: t0))) as HU.
  destruct (update_first (map (flushed r ifx now) (e0 :: t0)) r ifx now) as [[b2 [e' rv]]|]; apply Hset.
  - destruct HU as (l1' & x0 & l2' & Hb & Hl1 & Hx0 & -> & -> & ->).
    apply map_eq_app in Hb as (l1 & r2 & Hb & <- & Hr2). destruct r2 as [|e1 l2]; [discriminate|].
    cbn [map] in Hr2. injection Hr2 as <- <-. rewrite flushed_matches in Hx0.
    destruct (flushed_fields r ifx now e1) as (A & _). unfold e_ttl at 1. rewrite A. fold (e_ttl e1).
    apply aou_again; [exact Hb| |exact Hx0].
    intros x Hx. rewrite <- (flushed_matches r ifx now). apply Hl1. now apply in_map.
  - apply aou_new; [discriminate|]. intros e He. rewrite <- (flushed_matches r ifx now). apply HU. now apply in_map.
Qed.

Lemma live_only_idem now b : live_only now (live_only now b) = live_only now b.
Proof.
  unfold live_only. induction b as [|e t IH]; simpl; [reflexivity|].
  destruct (negb (is_expired e now)) eqn:E; simpl; [rewrite E, IH|]; auto.
Qed.

Lemma live_only_In now b e : In e (live_only now b) <-> In e b /\ is_expired e now = false.
Proof. unfold live_only. rewrite filter_In, negb_true_iff. tauto. Qed.

Lemma sweep_In now m k b' :
  In (k, b') (sweep now m) <-> exists b, In (k, b) m /\ b' = live_only now b /\ b' <> [].
Proof.
  unfold sweep. rewrite filter_In, in_map_iff. split.
  - intros [[[k0 b0] [H1 H2]] H3]. simpl in H1. inversion H1; subst. exists b0. repeat split; auto.
    simpl in H3. destruct (live_only now b0); [discriminate|discriminate].
  - intros [b [H1 [H2 H3]]]. split.
    + exists (k, b). simpl. now subst.
    + simpl. destruct b'; [congruence|reflexivity].
Qed.

Lemma sweep_set_live now k b m :
  bm_get k m = Some b -> sweep now (bm_set k (live_only now b) m) = sweep now m.
Proof.
  unfold sweep. induction m as [|[k0 b0] t IH]; simpl; [discriminate|].
  destruct (beq k k0) eqn:E.
  - intros H. inversion H; subst. simpl. now rewrite live_only_idem.
  - intros H. simpl. now rewrite (IH H).
Qed.

Lemma sweep_remove_dead now k b m :
  NoDup (map fst m) -> bm_get k m = Some b -> live_only now b = [] ->
  sweep now (bm_remove k m) = sweep now m.
Proof.
  unfold sweep. induction m as [|[k0 b0] t IH]; simpl; [discriminate|].
  intros ND. inversion ND; subst. destruct (beq k k0) eqn:E.
  - intros H Hd. inversion H; subst. simpl. rewrite Hd. simpl.
    apply beq_eq in E. subst k0.
    assert (Hn : bm_remove k t = t).
    { clear - H1. induction t as [|[k1 b1] t IH]; simpl; [reflexivity|].
      destruct (beq k k1) eqn:E1.
      - apply beq_eq in E1. subst. exfalso. apply H1. now left.
      - rewrite IH; [reflexivity|]. intros Hin. apply H1. now right. }
    now rewrite Hn.
  - intros H Hd. simpl. now rewrite (IH H2 H Hd).
Qed.

Lemma evict_instances_sweep now ty ptrs se : forall txt txt' ex,
  evict_instances now ty ptrs se txt = (txt', ex) -> sweep now txt' = sweep now txt.
Proof.
  induction ptrs as [|p rest IH]; intros txt txt' ex; simpl.
  - intros H. inversion H; subst. reflexivity.
  - set (inst := alias_of (e_rr p)).
    destruct (bm_get inst txt) as [tb|] eqn:Et.
    + destruct (evict_instances now ty rest se (bm_set inst (live_only now tb) txt)) as [t2 e2] eqn:E2.
      intros H. inversion H; subst. rewrite (IH _ _ _ E2). now apply sweep_set_live.
    + destruct (evict_instances now ty rest se txt) as [t2 e2] eqn:E2.
      intros H. inversion H; subst. apply (IH _ _ _ E2).
Qed.

Lemma evict_types_sweep now se : forall ptr txt ptr' txt' ex,
  evict_types now ptr se txt = (ptr', txt', ex) ->
  ptr' = map (fun kb => (fst kb, live_only now (snd kb))) ptr /\ sweep now txt' = sweep now txt.
Proof.
  induction ptr as [|[ty ptrs] rest IH]; intros txt ptr' txt' ex; simpl.
  - intros H. inversion H; subst. auto.
  - destruct (evict_instances now ty ptrs se txt) as [txt1 ex1] eqn:E1.
    destruct (evict_types now rest se txt1) as [[ptr2 txt2] ex2] eqn:E2.
    intros H. inversion H; subst.
    destruct (IH _ _ _ _ E2) as (P & T). subst ptr2. rewrite T, (evict_instances_sweep _ _ _ _ _ _ _ E1). auto.
Qed.

Theorem evict_services_cache c now :
  fst (evict_services c now) =
  mkCache (map (fun kb => (fst kb, live_only now (snd kb))) (c_ptr c))
          (sweep now (c_srv c)) (sweep now (c_txt c)) (c_addr c) (sweep now (c_nsec c)) (c_sub c).
Proof.
  unfold evict_services.
  destruct (evict_types now (c_ptr c) (srv_expired_of now (c_srv c)) (c_txt c)) as [[ptr1 txt1] ex] eqn:E.
  destruct (evict_types_sweep _ _ _ _ _ _ _ E) as (P & T). simpl. now rewrite P, T.
Qed.

Lemma srv_expired_of_spec now srv i :
  mem i (srv_expired_of now srv) = true <-> exists b, In (i, b) srv /\ live_only now b = [].
Proof.
  unfold srv_expired_of. rewrite mem_In, in_map_iff. split.
  - intros [[k b] [H1 H2]]. simpl in H1. subst. apply filter_In in H2 as [H2 H3]. simpl in H3.
    exists b. split; [assumption|]. destruct (live_only now b); [reflexivity|discriminate].
  - intros [b [H1 H2]]. exists (i, b). split; [reflexivity|]. apply filter_In. split; [assumption|].
    simpl. now rewrite H2.
Qed.

(* what one ty_domain reports: the instances of its PTR records that are left without SRV
   (se), then those of its expired PTR records *)
Definition reported (now : N) (se : list bytes) (tp : bytes * bucket) : list (bytes * bytes) :=
  map (fun p => (fst tp, alias_of (e_rr p))) (filter (fun p => mem (alias_of (e_rr p)) se) (snd tp))
  ++ map (fun p => (fst tp, alias_of (e_rr p))) (filter (fun p => is_expired p now) (snd tp)).

Lemma evict_instances_report now ty se : forall ptrs txt,
  snd (evict_instances now ty ptrs se txt)
  = map (fun p => (ty, alias_of (e_rr p))) (filter (fun p => mem (alias_of (e_rr p)) se) ptrs).
Proof.
  induction ptrs as [|p rest IH]; intros txt; cbn [evict_instances filter]; [reflexivity|].
  match goal with |- context [evict_instances now ty rest se ?t] =>
    specialize (IH t); destruct (evict_instances now ty rest se t) end.
  cbn [snd] in *. rewrite IH. destruct (mem (alias_of (e_rr p)) se); reflexivity.
Qed.

Lemma evict_types_report now se : forall ptr txt,
  snd (evict_types now ptr se txt) = flat_map (reported now se) ptr.
Proof.
  induction ptr as [|[ty ptrs] rest IH]; intros txt; cbn [evict_types flat_map]; [reflexivity|].
  pose proof (evict_instances_report now ty se ptrs txt) as H1.
  destruct (evict_instances now ty ptrs se txt) as [txt1 ex1]. specialize (IH txt1).
  destruct (evict_types now rest se txt1) as [[p2 t2] e2]. cbn [snd] in *. subst.
  unfold reported at 1. cbn [fst snd]. now rewrite app_assoc.
Qed.

Lemma evict_services_report c now :
  snd (evict_services c now) = flat_map (reported now (srv_expired_of now (c_srv c))) (c_ptr c).
Proof.
  unfold evict_services. rewrite <- (evict_types_report now _ (c_ptr c) (c_txt c)).
  destruct (evict_types now (c_ptr c) _ (c_txt c)) as [[p t] e]. reflexivity.
Qed.

(* EVERY ty_domain with a PTR to an instance
   whose SRV records all expired reports it *)
Theorem evict_services_reports_srv_expiry c now ty ptrs p sb :
  In (ty, ptrs) (c_ptr c) -> In p ptrs ->
  In (alias_of (e_rr p), sb) (c_srv c) -> live_only now sb = [] ->
  In (ty, alias_of (e_rr p)) (snd (evict_services c now)).
Proof.
  intros H1 H2 H3 H4. rewrite evict_services_report. apply in_flat_map. exists (ty, ptrs). split; [exact H1|].
  apply in_app_iff. left. apply in_map_iff. exists p. split; [reflexivity|]. apply filter_In. split; [exact H2|].
  apply srv_expired_of_spec. eauto.
Qed.

Theorem evict_services_reports_expired_ptr c now ty ptrs p :
  In (ty, ptrs) (c_ptr c) -> In p ptrs -> is_expired p now = true ->
  In (ty, alias_of (e_rr p)) (snd (evict_services c now)).
Proof.
  intros H1 H2 H3. rewrite evict_services_report. apply in_flat_map. exists (ty, ptrs). split; [exact H1|].
  apply in_app_iff. right. apply in_map_iff. exists p. split; [reflexivity|]. apply filter_In. auto.
Qed.

(* removed_only_when_true, eviction path: (ty, instance) is reported only if some PTR record
   ty -> instance exists and either that PTR expired or the instance has an SRV bucket without
   any unexpired record *)
Theorem evict_reports_only_when_true c now t i :
  In (t, i) (snd (evict_services c now)) ->
  exists ptrs p, In (t, ptrs) (c_ptr c) /\ In p ptrs /\ alias_of (e_rr p) = i
    /\ (is_expired p now = true \/ exists sb, In (i, sb) (c_srv c) /\ live_only now sb = []).
Proof.
  rewrite evict_services_report. intros H. apply in_flat_map in H as [[ty ptrs] [Hin H]].
  apply in_app_iff in H as [H|H]; apply in_map_iff in H as [p [E H]]; apply filter_In in H as [Hp Hc];
    inversion E; subst; exists ptrs, p; repeat split; auto.
  right. now apply srv_expired_of_spec.
Qed.

Lemma evict_reported_has_ptr c now t i :
  In (t, i) (snd (evict_services c now)) ->
  exists ptrs p, In (t, ptrs) (c_ptr c) /\ In p ptrs /\ alias_of (e_rr p) = i.
Proof.
  intros H. destruct (evict_reports_only_when_true c now t i H) as (ps & p & A & B & C & _). eauto.
Qed.

Lemma verify_addrs_none srvs : forall addr, verify_addrs None srvs addr = addr.
Proof.
  induction srvs as [|s rest IH]; intros addr; simpl; [reflexivity|].
  destruct (bm_get (lower (srv_host s)) addr) eqn:E; [rewrite (bm_set_same _ _ _ E)|]; apply IH.
Qed.

Lemma verify_none_cache c inst : fst (service_verify_queries c inst None) = c.
Proof.
  unfold service_verify_queries. destruct (bm_get inst (c_srv c)) eqn:E; [|reflexivity].
  simpl. rewrite (bm_set_same _ _ _ E), verify_addrs_none. now destruct c.
Qed.

