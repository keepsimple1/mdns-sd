(* C17_case_insensitive: re-spelling the host names of the calls (fc) and the owner names of the
   responses (g) commutes with every operation of the model of the code; simulation over arbitrary
   histories (run_ren).  No axioms. *)
From Coq Require Import List NArith Bool Lia.
From Mdns Require Import Bytes ParamsHostres HostresBase HostresModel HostresBaseFacts HostresCacheProofs.
Import ListNotations.
Open Scope N_scope.

Section Rename.
Variable fc g : name -> name.
Hypothesis fc_lower : forall n, lower (fc n) = lower n.
Hypothesis g_lower : forall n, lower (g n) = lower n.
Hypothesis g_inj : forall n m, g n = g m -> n = m.

Lemma beq_g a b : beq (g a) (g b) = beq a b.
Proof.
  destruct (beq a b) eqn:E.
  - apply beq_eq in E. subst. apply beq_refl.
  - destruct (beq (g a) (g b)) eqn:E'; [|reflexivity].
    apply beq_eq in E'. apply g_inj in E'. subst. rewrite beq_refl in E. discriminate.
Qed.

Definition ren_inrec (r : inrec) : inrec :=
  mkIn (i_ans r) (i_ty r) (g (i_name r)) (i_class r) (i_flush r) (i_ttl r) (i_data r).
Definition ren_msg (m : msg) : msg := mkMsg (m_if m) (map ren_inrec (m_recs m)).
Definition ren_call (c : call) : call :=
  match c with
  | CResolve host to ch => CResolve (fc host) to ch
  | CStop host => CStop (fc host)
  end.
Definition ren_iter (i : iter) : iter :=
  mkIter (it_now i) (map ren_call (it_calls i)) (map ren_msg (it_msgs i)).

Definition ren_arec (x : arec) : arec :=
  mkA (g (a_name x)) (a_ty x) (a_class x) (a_flush x) (a_addr x) (a_if x) (a_life x).
Definition ren_cache (c : cache) : cache := map (fun kb => (fst kb, map ren_arec (snd kb))) c.
Definition ren_rr (rr : rerun) : rerun := mkRR (rr_time rr) (fc (rr_host rr)) (rr_delay rr) (rr_chan rr).
Definition ren_st (s : st) : st :=
  mkSt (ren_cache (s_cache s)) (s_res s) (map ren_rr (s_retr s)) (s_open s).

Definition ren_ev (e : ev) : ev :=
  match e with
  | EStarted h => EStarted (fc h)
  | EFound sp a => EFound (g sp) a
  | ERemoved sp a => ERemoved (g sp) a
  | _ => e
  end.
Definition ren_cev (ce : N * ev) : N * ev := (fst ce, ren_ev (snd ce)).
Definition lowerq (q : query) : query := map (fun x => (lower (fst x), snd x)) q.
Definition ren_g (x : name * list saddr) : name * list saddr := (g (fst x), snd x).

Lemma aget_ren k c : aget k (ren_cache c) = option_map (map ren_arec) (aget k c).
Proof. induction c as [|[k0 b] t IH]; simpl; [reflexivity|]. destruct (beq k k0); [reflexivity|exact IH]. Qed.

Lemma bucket_ren c k : bucket_of (ren_cache c) k = map ren_arec (bucket_of c k).
Proof. unfold bucket_of. rewrite aget_ren. destruct (aget k c); reflexivity. Qed.

Lemma aset_ren k b c : aset k (map ren_arec b) (ren_cache c) = ren_cache (aset k b c).
Proof.
  induction c as [|[k0 b0] t IH]; simpl; [reflexivity|].
  destruct (beq k k0); simpl; [reflexivity|]. rewrite IH. reflexivity.
Qed.

Lemma matches_ren r x : arec_matches (ren_arec r) (ren_arec x) = arec_matches r x.
Proof. unfold arec_matches. simpl. rewrite beq_g. reflexivity. Qed.

Lemma flush_ren now x r : flush_one now (ren_arec x) (ren_arec r) = ren_arec (flush_one now x r).
Proof. unfold flush_one. simpl. destruct (_ && _); reflexivity. Qed.

Lemma update_ren now x b :
  update_match now (ren_arec x) (map ren_arec b) = option_map (map ren_arec) (update_match now x b).
Proof.
  induction b as [|r t IH]; simpl; [reflexivity|].
  rewrite matches_ren. destruct (arec_matches r x); [reflexivity|].
  rewrite IH. destruct (update_match now x t); reflexivity.
Qed.

Lemma revived_ren x b : revived (ren_arec x) (map ren_arec b) = revived x b.
Proof.
  induction b as [|r t IH]; simpl; [reflexivity|]. rewrite matches_ren. destruct (arec_matches r x); [reflexivity|exact IH].
Qed.

Lemma aou_store_ren now x c :
  aou_store now (ren_arec x) (ren_cache c) = (ren_cache (fst (aou_store now x c)), snd (aou_store now x c)).
Proof.
  unfold aou_store. simpl a_name. simpl a_flush. rewrite g_lower, bucket_ren.
  set (b := bucket_of c (lower (a_name x))).
  replace (if a_flush x then map (flush_one now (ren_arec x)) (map ren_arec b) else map ren_arec b)
    with (map ren_arec (if a_flush x then map (flush_one now x) b else b))
    by (destruct (a_flush x); [|reflexivity]; rewrite !map_map; apply map_ext; intros r; symmetry; apply flush_ren).
  rewrite update_ren, revived_ren.
  destruct (update_match now x (if a_flush x then map (flush_one now x) b else b)); simpl.
  - rewrite aset_ren. reflexivity.
  - rewrite <- aset_ren. reflexivity.
Qed.

Lemma aou_ren now fu x c :
  add_or_update now fu (ren_arec x) (ren_cache c)
  = (ren_cache (fst (add_or_update now fu x c)), snd (add_or_update now fu x c)).
Proof.
  rewrite !add_or_update_eq. simpl a_name. rewrite g_lower, bucket_ren.
  destruct (bucket_of c (lower (a_name x))); [destruct fu|]; try apply aou_store_ren. reflexivity.
Qed.

Lemma group_add_ren sp a m : group_add (g sp) a (map ren_g m) = map ren_g (group_add sp a m).
Proof.
  induction m as [|[s0 A0] t IH]; simpl; [reflexivity|].
  rewrite beq_g. destruct (beq sp s0); simpl; [reflexivity|]. rewrite IH. reflexivity.
Qed.

Lemma group_addrs_ren b : group_addrs (map ren_arec b) = map ren_g (group_addrs b).
Proof.
  unfold group_addrs.
  apply (fold_left_sim (fun m m' => m' = map ren_g m) _ _ ren_arec b); [|reflexivity].
  intros m m' r ->. apply group_add_ren.
Qed.

Lemma afh_ren c host host' :
  lower host' = lower host ->
  addresses_for_host (ren_cache c) host' = map ren_g (addresses_for_host c host).
Proof. intros H. unfold addresses_for_host. rewrite H, bucket_ren. apply group_addrs_ren. Qed.

Lemma found_ren res c host host' :
  lower host' = lower host ->
  found_events res (ren_cache c) host' = map ren_cev (found_events res c host).
Proof.
  intros H. unfold found_events. rewrite H. destruct (find_res (lower host) res) as [r|]; [|reflexivity].
  rewrite (afh_ren c host host' H), !map_map. reflexivity.
Qed.

Lemma for_us_scan_ren res rs acc :
  for_us_scan res (map ren_inrec rs) acc = for_us_scan res rs acc.
Proof.
  revert acc. induction rs as [|r t IH]; intros acc; simpl; [reflexivity|].
  rewrite g_lower. destruct (i_ty r =? ty_PTR); [apply IH|].
  destruct (is_addr_ty (i_ty r)); [|apply IH].
  destruct (find_res (lower (i_name r)) res); [reflexivity|apply IH].
Qed.

Lemma for_us_ren res m : is_for_us res (ren_msg m) = is_for_us res m.
Proof. unfold is_for_us. simpl. rewrite (filter_map_comm i_ans ren_inrec). apply for_us_scan_ren. Qed.

Lemma absorb_step_ren now fu ifx c ch r :
  absorb now fu ifx (ren_cache c, map g ch) (ren_inrec r)
  = (ren_cache (fst (absorb now fu ifx (c, ch) r)), map g (snd (absorb now fu ifx (c, ch) r))).
Proof.
  unfold absorb. simpl i_ty. simpl fst. simpl snd.
  destruct (is_addr_ty (i_ty r)); [|reflexivity].
  change (arec_of now ifx (ren_inrec r)) with (ren_arec (arec_of now ifx r)).
  rewrite aou_ren. destruct (add_or_update now fu (arec_of now ifx r) c) as [c' isnew]. simpl.
  destruct isnew; [|reflexivity]. rewrite map_app. reflexivity.
Qed.

Lemma absorb_ren now fu ifx rs c ch :
  fold_left (absorb now fu ifx) (map ren_inrec rs) (ren_cache c, map g ch)
  = (ren_cache (fst (fold_left (absorb now fu ifx) rs (c, ch))),
     map g (snd (fold_left (absorb now fu ifx) rs (c, ch)))).
Proof.
  apply (fold_left_sim (fun a a' => a' = (ren_cache (fst a), map g (snd a))) _ _ ren_inrec rs); [|reflexivity].
  intros [c0 ch0] a' r ->. apply absorb_step_ren.
Qed.

Lemma respond_ren now res c m :
  respond now res (ren_cache c) (ren_msg m)
  = (ren_cache (fst (respond now res c m)), map ren_cev (snd (respond now res c m))).
Proof.
  unfold respond. rewrite for_us_ren. simpl m_if. simpl m_recs.
  pose proof (absorb_ren now (is_for_us res m) (m_if m) (m_recs m) c []) as H. simpl in H. rewrite H.
  destruct (fold_left (absorb now (is_for_us res m) (m_if m)) (m_recs m) (c, [])) as [c' changes]. simpl.
  f_equal. clear H. induction changes as [|h t IH]; simpl; [reflexivity|].
  rewrite map_app, <- IH. f_equal. apply found_ren. apply g_lower.
Qed.

Lemma respond_all_ren now res ms c :
  respond_all now res (ren_cache c) (map ren_msg ms)
  = (ren_cache (fst (respond_all now res c ms)), map ren_cev (snd (respond_all now res c ms))).
Proof.
  unfold respond_all.
  apply (fold_left_sim (fun a a' => a' = (ren_cache (fst a), map ren_cev (snd a))) _ _ ren_msg ms); [|reflexivity].
  intros [c0 e0] a' m ->. cbn [fst snd]. rewrite respond_ren.
  destruct (respond now res c0 m) as [c' e']. cbn [fst snd]. rewrite map_app. reflexivity.
Qed.

Lemma refresh_bucket_ren now b :
  refresh_bucket now (map ren_arec b) = (map ren_arec (fst (refresh_bucket now b)), snd (refresh_bucket now b)).
Proof.
  unfold refresh_bucket. simpl. f_equal.
  - rewrite !map_map. apply map_ext. intros r. unfold refresh_wanted. simpl. destruct (_ && _); reflexivity.
  - generalize (@nil saddr). induction b as [|r t IH]; intros acc; simpl; [reflexivity|].
    unfold refresh_wanted at 1. simpl. fold (refresh_wanted now r). apply IH.
Qed.

Lemma refresh_one_ren now c qs r :
  refresh_one now (ren_cache c, qs) r
  = (ren_cache (fst (refresh_one now (c, qs) r)), snd (refresh_one now (c, qs) r)).
Proof.
  unfold refresh_one. rewrite aget_ren. destruct (aget (r_key r) c) as [b|]; cbn [option_map]; [|reflexivity].
  rewrite refresh_bucket_ren. destruct (refresh_bucket now b) as [b' due]. cbn [fst snd]. rewrite aset_ren. reflexivity.
Qed.

Lemma refresh_all_ren now res c :
  refresh_all now res (ren_cache c) = (ren_cache (fst (refresh_all now res c)), snd (refresh_all now res c)).
Proof.
  unfold refresh_all. rewrite <- (map_id res) at 1.
  apply (fold_left_sim (fun a a' => a' = (ren_cache (fst a), snd a)) _ _ (fun r => r) res); [|reflexivity].
  intros [c0 qs] a' r ->. apply refresh_one_ren.
Qed.

Lemma evict_cache_ren now c : evict_cache now (ren_cache c) = ren_cache (evict_cache now c).
Proof.
  unfold evict_cache, ren_cache. induction c as [|[k b] t IH]; simpl; [reflexivity|].
  rewrite (filter_map_comm (fun r => negb (a_expired now r)) ren_arec).
  destruct (filter _ b); simpl; rewrite IH; reflexivity.
Qed.

Lemma evicted_ren now c : evicted now (ren_cache c) = map ren_arec (evicted now c).
Proof.
  unfold evicted, ren_cache. induction c as [|[k b] t IH]; simpl; [reflexivity|].
  rewrite map_app, <- IH. f_equal. apply (filter_map_comm (a_expired now) ren_arec).
Qed.

Lemma evict_all_ren now res c :
  evict_all now res (ren_cache c)
  = (ren_cache (fst (evict_all now res c)), map ren_cev (snd (evict_all now res c))).
Proof.
  unfold evict_all. simpl. rewrite evict_cache_ren, evicted_ren, group_addrs_ren. f_equal.
  induction (group_addrs (evicted now c)) as [|[sp A] t IH]; simpl; [reflexivity|].
  rewrite map_app, <- IH. f_equal. unfold removed_events. simpl. rewrite g_lower.
  destruct (find_res (lower sp) res); reflexivity.
Qed.

Lemma fold_msgs_ren now s ms :
  fold_msgs now (ren_st s) (map ren_msg ms)
  = (ren_st (fst (fold_msgs now s ms)), map ren_cev (snd (fold_msgs now s ms))).
Proof.
  unfold fold_msgs. simpl. rewrite respond_all_ren.
  destruct (respond_all now (s_res s) (s_cache s) ms) as [c e]. reflexivity.
Qed.

Lemma timeouts_ren now s :
  do_timeouts now (ren_st s) = (ren_st (fst (do_timeouts now s)), map ren_cev (snd (do_timeouts now s))).
Proof.
  unfold do_timeouts. simpl. f_equal.
  induction (filter (timed_out now) (s_res s)) as [|r t IH]; simpl; [reflexivity|]. rewrite <- IH. reflexivity.
Qed.

Lemma lowerq_host h : lowerq (host_query (fc h)) = lowerq (host_query h).
Proof. unfold lowerq, host_query. simpl. rewrite fc_lower. reflexivity. Qed.

Lemma retr_filter_ren k l :
  filter (fun rr => negb (beq (lower (rr_host rr)) k)) (map ren_rr l)
  = map ren_rr (filter (fun rr => negb (beq (lower (rr_host rr)) k)) l).
Proof. rewrite filter_map_comm. f_equal. apply filter_ext. intros rr. simpl. rewrite fc_lower. reflexivity. Qed.

Lemma send_rearm_ren now host delay chan s :
  send_and_rearm now (fc host) delay chan (ren_st s)
  = (ren_st (fst (send_and_rearm now host delay chan s)), [host_query (fc host)]).
Proof.
  unfold send_and_rearm, rearm_ok. simpl. rewrite fc_lower.
  destruct (find_res (lower host) (s_res s)) as [r|]; [destruct (r_deadline r) as [d|]; [destruct (hp_host_rearm _ d)|]|];
    unfold ren_st; simpl; rewrite ?map_app; reflexivity.
Qed.

Lemma exec_call_ren now s c :
  exists q', exec_call now (ren_st s) (ren_call c)
             = (ren_st (fst (fst (exec_call now s c))), map ren_cev (snd (fst (exec_call now s c))), q')
             /\ map lowerq q' = map lowerq (snd (exec_call now s c)).
Proof.
  destruct c as [host to chan|host]; cbn [exec_call ren_call ren_st s_cache s_res s_retr s_open].
  - rewrite fc_lower. rewrite retr_filter_ren.
    set (s1 := mkSt (s_cache s) (set_res (mkRes (lower host) chan (option_map (sat_add now) to)) (s_res s))
                    (filter (fun rr => negb (beq (lower (rr_host rr)) (lower host))) (s_retr s)) (s_open s ++ [chan])).
    change (mkSt (ren_cache (s_cache s)) (set_res (mkRes (lower host) chan (option_map (sat_add now) to)) (s_res s))
                 (map ren_rr (filter (fun rr => negb (beq (lower (rr_host rr)) (lower host))) (s_retr s))) (s_open s ++ [chan]))
      with (ren_st s1).
    rewrite send_rearm_ren.
    destruct (send_and_rearm now host hp_host_first_delay chan s1) as [s2 qs] eqn:E. simpl.
    assert (Eq : qs = [host_query host]) by (unfold send_and_rearm in E; inversion E; reflexivity).
    eexists. split.
    + rewrite (afh_ren (s_cache s) host (fc host) (fc_lower host)), !map_map. reflexivity.
    + subst qs. simpl. rewrite fc_lower. reflexivity.
  - rewrite fc_lower. destruct (find_res (lower host) (s_res s)) as [r|]; simpl.
    + eexists. split. { rewrite retr_filter_ren. reflexivity. } reflexivity.
    + eexists. split. { reflexivity. } reflexivity.
Qed.

(* the accumulators (state, events, queries) of the command and retransmission folds, original
   and re-spelled *)
Definition acc_rel (a a' : st * list (N * ev) * list query) : Prop :=
  fst (fst a') = ren_st (fst (fst a)) /\ snd (fst a') = map ren_cev (snd (fst a))
  /\ map lowerq (snd a') = map lowerq (snd a).

Lemma fold_calls_ren now cs s :
  acc_rel (fold_calls now s cs) (fold_calls now (ren_st s) (map ren_call cs)).
Proof.
  unfold fold_calls. apply (fold_left_sim acc_rel); [|repeat split].
  intros [[s0 e0] q0] [[s0' e0'] q0'] c [Hs [He Hq]]. cbn [fst snd] in Hs, He, Hq. subst s0' e0'.
  destruct (exec_call_ren now s0 c) as [q1' [H1 H2]]. rewrite H1.
  destruct (exec_call now s0 c) as [[s1 e1] q1]. cbn [fst snd] in *.
  split; [reflexivity|]. split; cbn [fst snd]; [rewrite map_app; reflexivity|]. rewrite !map_app, Hq, H2. reflexivity.
Qed.

Lemma exec_rerun_ren now a a' rr : acc_rel a a' -> acc_rel (exec_rerun now a rr) (exec_rerun now a' (ren_rr rr)).
Proof.
  destruct a as [[s e] q], a' as [[s' e'] q']. intros [Hs [He Hq]]. cbn [fst snd] in Hs, He, Hq. subst s' e'.
  unfold exec_rerun. cbn [rr_host rr_delay rr_chan ren_rr ren_st s_res]. rewrite fc_lower.
  destruct (find_res (lower (rr_host rr)) (s_res s)); [|repeat split; exact Hq].
  change (mkSt (ren_cache (s_cache s)) (s_res s) (map ren_rr (s_retr s)) (s_open s)) with (ren_st s).
  rewrite send_rearm_ren.
  destruct (send_and_rearm now (rr_host rr) (rr_delay rr) (rr_chan rr) s) as [s1 qs] eqn:E.
  assert (Eq : qs = [host_query (rr_host rr)]) by (unfold send_and_rearm in E; inversion E; reflexivity).
  subst qs. repeat split; cbn [fst snd].
  - rewrite map_app. reflexivity.
  - rewrite !map_app, Hq. simpl. rewrite fc_lower. reflexivity.
Qed.

Lemma do_reruns_ren now s : acc_rel (do_reruns now s) (do_reruns now (ren_st s)).
Proof.
  unfold do_reruns. cbn [ren_st s_retr s_cache s_res s_open].
  rewrite (filter_map_comm (rr_due now) ren_rr), (filter_map_comm (fun rr => negb (rr_due now rr)) ren_rr).
  apply (fold_left_sim acc_rel); [intros a a' rr; apply exec_rerun_ren|repeat split].
Qed.

Lemma do_refresh_ren now s :
  do_refresh now (ren_st s) = (ren_st (fst (do_refresh now s)), snd (do_refresh now s)).
Proof.
  unfold do_refresh. cbn [ren_st s_res s_cache s_retr s_open]. rewrite refresh_all_ren.
  destruct (refresh_all now (s_res s) (s_cache s)) as [c qs]. reflexivity.
Qed.

Lemma do_evict_ren now s :
  do_evict now (ren_st s) = (ren_st (fst (do_evict now s)), map ren_cev (snd (do_evict now s))).
Proof.
  unfold do_evict. simpl s_res. simpl s_cache. rewrite evict_all_ren.
  destruct (evict_all now (s_res s) (s_cache s)) as [c e]. reflexivity.
Qed.

Lemma chan_held_ren s c : chan_held (ren_st s) c = chan_held s c.
Proof.
  unfold chan_held. simpl. f_equal. induction (s_retr s) as [|rr t IH]; simpl; [reflexivity|]. rewrite IH. reflexivity.
Qed.

Lemma do_closed_ren s :
  do_closed (ren_st s) = (ren_st (fst (do_closed s)), map ren_cev (snd (do_closed s))).
Proof.
  unfold do_closed. simpl. f_equal.
  - unfold ren_st. simpl. f_equal. apply filter_ext. intros c. apply chan_held_ren.
  - rewrite map_map. simpl.
    rewrite (filter_ext (fun c => negb (chan_held (ren_st s) c)) (fun c => negb (chan_held s c)))
      by (intros c; rewrite chan_held_ren; reflexivity).
    reflexivity.
Qed.

Definition out_rel (o o' : out) : Prop :=
  o_now o' = o_now o /\ o_events o' = map ren_cev (o_events o)
  /\ map lowerq (o_queries o') = map lowerq (o_queries o).

Lemma step_ren s i :
  fst (step (ren_st s) (ren_iter i)) = ren_st (fst (step s i))
  /\ out_rel (snd (step s i)) (snd (step (ren_st s) (ren_iter i))).
Proof.
  unfold step. cbn [it_now it_msgs it_calls ren_iter].
  rewrite fold_msgs_ren. destruct (fold_msgs (it_now i) s (it_msgs i)) as [s1 e1]. cbn [fst snd].
  rewrite timeouts_ren. destruct (do_timeouts (it_now i) s1) as [s2 e2]. cbn [fst snd].
  destruct (fold_calls_ren (it_now i) (it_calls i) s2) as [H3s [H3e H3q]].
  destruct (fold_calls (it_now i) s2 (it_calls i)) as [[s3 e3] q3].
  destruct (fold_calls (it_now i) (ren_st s2) (map ren_call (it_calls i))) as [[s3' e3'] q3'].
  cbn [fst snd] in H3s, H3e, H3q. subst s3' e3'.
  destruct (do_reruns_ren (it_now i) s3) as [H4s [H4e H4q]].
  destruct (do_reruns (it_now i) s3) as [[s4 e4] q4].
  destruct (do_reruns (it_now i) (ren_st s3)) as [[s4' e4'] q4'].
  cbn [fst snd] in H4s, H4e, H4q. subst s4' e4'.
  rewrite do_refresh_ren. destruct (do_refresh (it_now i) s4) as [s5 q5]. cbn [fst snd].
  rewrite do_evict_ren. destruct (do_evict (it_now i) s5) as [s6 e6]. cbn [fst snd].
  rewrite do_closed_ren. destruct (do_closed s6) as [s7 e7]. cbn [fst snd].
  split; [reflexivity|]. unfold out_rel. cbn [o_now o_events o_queries]. split; [reflexivity|]. split.
  - rewrite !map_app. reflexivity.
  - rewrite !map_app, H3q, H4q. reflexivity.
Qed.

Theorem run_ren h : forall s,
  Forall2 out_rel (run_from s h) (run_from (ren_st s) (map ren_iter h)).
Proof.
  induction h as [|i t IH]; intros s; simpl; [constructor|].
  destruct (step_ren s i) as [H1 H2].
  destruct (step s i) as [s' o]. destruct (step (ren_st s) (ren_iter i)) as [s'' o'']. simpl in *. subst s''.
  constructor; [exact H2|apply IH].
Qed.

End Rename.

(* ASCII: 'a'..'z' = 97..122, 'A'..'Z' = 65..90 *)
Definition toggle_byte (b : N) : N :=
  if (97 <=? b) && (b <=? 122) then b - 32
  else if (65 <=? b) && (b <=? 90) then b + 32 else b.
Definition toggle_first (n : name) : name :=
  match n with [] => [] | b :: t => toggle_byte b :: t end.

(* case analysis on every comparison in the goal, outermost first *)
Ltac leb_cases :=
  repeat match goal with |- context [?a <=? ?b] => destruct (N.leb_spec a b); cbn [andb] end.

Lemma toggle_byte_cases b :
  (97 <= b <= 122 /\ toggle_byte b = b - 32) \/ (65 <= b <= 90 /\ toggle_byte b = b + 32)
  \/ ((b < 65 \/ 90 < b < 97 \/ 122 < b) /\ toggle_byte b = b).
Proof. unfold toggle_byte. leb_cases; lia. Qed.

Lemma lower_byte_cases b : (65 <= b <= 90 /\ lower_byte b = b + 32) \/ ((b < 65 \/ 90 < b) /\ lower_byte b = b).
Proof. unfold lower_byte. leb_cases; lia. Qed.

Lemma toggle_byte_lower b : lower_byte (toggle_byte b) = lower_byte b.
Proof.
  destruct (toggle_byte_cases b) as [[H ->]|[[H ->]|[H ->]]]; [| |reflexivity];
    destruct (lower_byte_cases b) as [[H1 ->]|[H1 ->]]; try lia.
  - destruct (lower_byte_cases (b - 32)) as [[H2 ->]|[H2 ->]]; lia.
  - destruct (lower_byte_cases (b + 32)) as [[H2 ->]|[H2 ->]]; lia.
Qed.

Lemma toggle_byte_invol b : toggle_byte (toggle_byte b) = b.
Proof.
  destruct (toggle_byte_cases b) as [[H E]|[[H E]|[H E]]]; rewrite E.
  - destruct (toggle_byte_cases (b - 32)) as [[H2 ->]|[[H2 ->]|[H2 ->]]]; lia.
  - destruct (toggle_byte_cases (b + 32)) as [[H2 ->]|[[H2 ->]|[H2 ->]]]; lia.
  - exact E.
Qed.

Lemma toggle_first_lower n : lower (toggle_first n) = lower n.
Proof. destruct n as [|b t]; [reflexivity|]. simpl. rewrite toggle_byte_lower. reflexivity. Qed.

Lemma toggle_first_inj n m : toggle_first n = toggle_first m -> n = m.
Proof.
  destruct n as [|b t], m as [|c u]; simpl; intros H; try discriminate; [reflexivity|].
  inversion H. f_equal. rewrite <- (toggle_byte_invol b), <- (toggle_byte_invol c). congruence.
Qed.

