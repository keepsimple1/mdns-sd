(* What the C17 and C20 proofs share about Model/HostresBase.v: list lemmas, association lists
   keyed by names, the notion of a map of buckets whose key is a function of the element
   (ents, bucket_at, kmap_wf), record lifetimes.  No axioms. *)
From Coq Require Import List NArith Lia Permutation.
From Mdns Require Import Bytes ListFacts ParamsHostres HostresBase HostresPinned.
Import ListNotations.
Open Scope N_scope.

Lemma fold_left_sim {A A' B B'} (R : A -> A' -> Prop) (f : A -> B -> A) (f' : A' -> B' -> A') (g : B -> B') l :
  (forall a a' x, R a a' -> R (f a x) (f' a' (g x))) ->
  forall a a', R a a' -> R (fold_left f l a) (fold_left f' (map g l) a').
Proof.
  intros H. induction l as [|x t IH]; intros a a' Ha; simpl; [exact Ha|]. apply IH. apply H. exact Ha.
Qed.

(* c is a counter that no step lowers.  If it has not moved over the whole fold it has not moved
   at any step; so two steppers that agree whenever c stays give the same fold. *)
Lemma fold_left_mono {A B} (c : A -> N) (g : A -> B -> A) l :
  (forall a x, c a <= c (g a x)) -> forall a, c a <= c (fold_left g l a).
Proof.
  intros H a. apply (fold_left_inv (fun a' => c a <= c a')); [|lia].
  intros a' x _ Ha. specialize (H a' x). lia.
Qed.

Lemma fold_left_agree {A B} (c : A -> N) (f g : A -> B -> A) l :
  (forall a x, c a <= c (g a x)) -> (forall a x, c (g a x) = c a -> f a x = g a x) ->
  forall a, c (fold_left g l a) = c a -> fold_left f l a = fold_left g l a.
Proof.
  intros Hm Hs. induction l as [|x t IH]; intros a H; simpl in *; [reflexivity|].
  pose proof (Hm a x). pose proof (fold_left_mono c g t Hm (g a x)).
  rewrite Hs by lia. apply IH. lia.
Qed.

Lemma filter_map_comm {A B} (f : B -> bool) (g : A -> B) l :
  filter f (map g l) = map g (filter (fun x => f (g x)) l).
Proof. induction l as [|x t IH]; simpl; [reflexivity|]. destruct (f (g x)); simpl; rewrite IH; reflexivity. Qed.

Lemma NoDup_map_filter_app {A B} (f : A -> B) (g : A -> bool) l r :
  NoDup (map f l ++ r) -> NoDup (map f (filter g l) ++ r).
Proof.
  induction l as [|x t IH]; simpl; intros H; [exact H|].
  inversion H as [|? ? Hn Hd]; subst.
  destruct (g x); simpl; [|apply IH; exact Hd].
  constructor; [|apply IH; exact Hd].
  intros Hin. apply Hn. apply in_app_or in Hin as [Hin|Hin]; apply in_or_app; [left|right; exact Hin].
  apply in_map_iff in Hin as [y [Hy Hin]]. apply filter_In in Hin as [Hin _]. apply in_map_iff. eauto.
Qed.

Lemma Forall_filter {A} (P : A -> Prop) g (l : list A) : Forall P l -> Forall P (filter g l).
Proof. rewrite !Forall_forall. intros H x Hx. apply filter_In in Hx as [Hx _]. apply H. exact Hx. Qed.

Lemma NoDup_app_l {A} (l r : list A) : NoDup (l ++ r) -> NoDup l.
Proof.
  induction l as [|x t IH]; simpl; intros H; [constructor|].
  inversion H as [|? ? Hn Hd]; subst. constructor; [|apply IH; exact Hd].
  intros Hin. apply Hn. apply in_or_app. left. exact Hin.
Qed.

Lemma NoDup_app_r {A} (l r : list A) : NoDup (l ++ r) -> NoDup r.
Proof. induction l as [|x t IH]; simpl; intros H; [exact H|]. inversion H; subst. apply IH. assumption. Qed.

Lemma flat_map_drop_empty {K A} (l : list (K * list A)) :
  flat_map snd (filter (fun kb => match snd kb with [] => false | _ => true end) l) = flat_map snd l.
Proof.
  induction l as [|[k b] t IH]; simpl; [reflexivity|].
  destruct b; simpl; rewrite IH; reflexivity.
Qed.

Section Assoc.
Context {A : Type}.
Implicit Types (m : list (name * A)) (k : name).

Lemma aget_Some_In k m v : aget k m = Some v -> In (k, v) m.
Proof.
  induction m as [|[k0 v0] t IH]; simpl; [discriminate|].
  destruct (beq k k0) eqn:E; intros H.
  - inversion H; subst. apply beq_eq in E. subst. left. reflexivity.
  - right. apply IH. exact H.
Qed.

Lemma aget_None_keys k m : aget k m = None -> ~ In k (map fst m).
Proof.
  induction m as [|[k0 v0] t IH]; simpl; [tauto|].
  destruct (beq k k0) eqn:E; [discriminate|]. intros H [H1|H1]; [subst; rewrite beq_refl in E; discriminate|].
  apply (IH H H1).
Qed.

Lemma aget_In_nodup k m v : NoDup (map fst m) -> In (k, v) m -> aget k m = Some v.
Proof.
  induction m as [|[k0 v0] t IH]; simpl; intros Hnd Hin; [contradiction|].
  inversion Hnd as [|? ? Hn Hd]; subst. destruct Hin as [Hin|Hin].
  - inversion Hin; subst. rewrite beq_refl. reflexivity.
  - destruct (beq k k0) eqn:E; [|apply IH; assumption].
    apply beq_eq in E. subst. exfalso. apply Hn. apply (in_map fst) in Hin. exact Hin.
Qed.

Lemma aget_aset k k' v m : aget k (aset k' v m) = if beq k k' then Some v else aget k m.
Proof.
  induction m as [|[k0 v0] t IH]; simpl; [reflexivity|].
  destruct (beq k' k0) eqn:E; simpl.
  - apply beq_eq in E. subst k0. destruct (beq k k'); reflexivity.
  - rewrite IH. destruct (beq k k0) eqn:E0; [|reflexivity].
    apply beq_eq in E0. subst k0. destruct (beq k k') eqn:E1; [|reflexivity].
    apply beq_eq in E1. subst k'. rewrite beq_refl in E. discriminate.
Qed.

Lemma In_aset k v m k' v' : In (k', v') (aset k v m) -> (k' = k /\ v' = v) \/ In (k', v') m.
Proof.
  induction m as [|[k0 v0] t IH]; simpl.
  - intros [H|[]]. inversion H. auto.
  - destruct (beq k k0); simpl; intros [H|H]; auto.
    + inversion H. auto.
    + destruct (IH H); auto.
Qed.

Lemma aset_keys_nodup k v m : NoDup (map fst m) -> NoDup (map fst (aset k v m)).
Proof.
  induction m as [|[k0 v0] t IH]; simpl; intros H; [constructor; [tauto|constructor]|].
  inversion H as [|? ? Hn Hd]; subst. destruct (beq k k0) eqn:E; simpl.
  - apply beq_eq in E. subst. constructor; assumption.
  - constructor; [|apply IH; assumption].
    intros Hin. apply in_map_iff in Hin as [[k1 v1] [E1 Hin]]. simpl in E1. subst k1.
    apply In_aset in Hin as [[-> _]|Hin]; [rewrite beq_refl in E; discriminate|].
    apply Hn. apply (in_map fst) in Hin. exact Hin.
Qed.

Lemma adel_absent k m : ~ In k (map fst m) -> adel k m = m.
Proof.
  induction m as [|[k0 v0] t IH]; simpl; intros H; [reflexivity|].
  destruct (beq k k0) eqn:E; [apply beq_eq in E; subst; exfalso; apply H; left; reflexivity|].
  rewrite IH; [reflexivity|]. intros Hin. apply H. right. exact Hin.
Qed.

Lemma adel_In k m kv : In kv (adel k m) -> In kv m.
Proof.
  induction m as [|[k0 v0] t IH]; simpl; [auto|].
  destruct (beq k k0); simpl; intros H; [right; apply IH; exact H|].
  destruct H as [H|H]; auto.
Qed.

Lemma adel_keys_nodup k m : NoDup (map fst m) -> NoDup (map fst (adel k m)).
Proof.
  induction m as [|[k0 v0] t IH]; simpl; intros H; [constructor|].
  inversion H as [|? ? Hn Hd]; subst. destruct (beq k k0); simpl; [apply IH; assumption|].
  constructor; [|apply IH; assumption].
  intros Hin. apply Hn. apply in_map_iff in Hin as [kv [E Hin]]. apply adel_In in Hin.
  rewrite <- E. apply in_map. exact Hin.
Qed.
End Assoc.

(* A map of buckets in which every element sits under the key computed from it, one bucket per
   key: the shape of every record map of the cache (key = the owner name, lower-cased for
   address records).  bucket_at is HostresModel.bucket_of and BoundedModel.bucket, ents is
   HostresCacheProofs.entries and BoundedProofs.entries_of k c at get_map k c, all by conversion:
   the lemmas below apply to goals stated with the models' names. *)
Section Buckets.
Context {A : Type} (key_of : A -> name).
Implicit Types (m : list (name * list A)).

Definition ents m : list A := flat_map snd m.
Definition bucket_at m (k : name) : list A := match aget k m with Some b => b | None => [] end.

Record kmap_wf m : Prop := mkKmap {
  km_keys : NoDup (map fst m);
  km_key : forall key b, In (key, b) m -> forall x, In x b -> key_of x = key }.

Lemma kmap_wf_nil : kmap_wf [].
Proof. split; [constructor|intros key b []]. Qed.

Lemma bucket_in_ents m k x : In x (bucket_at m k) -> In x (ents m).
Proof.
  unfold bucket_at, ents. destruct (aget k m) as [b|] eqn:E; [|intros []].
  intros H. apply aget_Some_In in E. apply in_flat_map. exists (k, b). auto.
Qed.

Lemma aget_in_ents m k b x : aget k m = Some b -> In x b -> In x (ents m).
Proof. intros E H. apply (bucket_in_ents m k). unfold bucket_at. rewrite E. exact H. Qed.

Lemma bucket_key m k x : kmap_wf m -> In x (bucket_at m k) -> key_of x = k.
Proof.
  intros Hm. unfold bucket_at. destruct (aget k m) as [b|] eqn:E; [|intros []].
  intros H. apply aget_Some_In in E. eapply (km_key _ Hm); eassumption.
Qed.

Lemma ents_in_bucket m x : kmap_wf m -> In x (ents m) -> In x (bucket_at m (key_of x)).
Proof.
  intros Hm Hx. unfold ents in Hx. apply in_flat_map in Hx as [[k b] [Hkb Hx]]. simpl in Hx.
  rewrite <- (km_key _ Hm k b Hkb x Hx) in Hkb.
  unfold bucket_at. rewrite (aget_In_nodup _ _ _ (km_keys _ Hm) Hkb). exact Hx.
Qed.

Lemma ents_aset_in k b m x : In x (ents (aset k b m)) -> In x b \/ In x (ents m).
Proof.
  unfold ents. intros H. apply in_flat_map in H as [[k' b'] [H1 H2]]. simpl in H2.
  apply In_aset in H1 as [[_ ->]|H1]; [left; exact H2|]. right. apply in_flat_map. exists (k', b'). auto.
Qed.

Lemma ents_adel_in k m x : In x (ents (adel k m)) -> In x (ents m).
Proof.
  unfold ents. intros H. apply in_flat_map in H as [kb [H1 H2]]. apply adel_In in H1.
  apply in_flat_map. exists kb. auto.
Qed.

Lemma ents_split m k : NoDup (map fst m) -> Permutation (ents m) (bucket_at m k ++ ents (adel k m)).
Proof.
  unfold ents, bucket_at. induction m as [|[k0 b0] t IH]; simpl; intros H; [constructor|].
  inversion H; subst. destruct (beq k k0) eqn:E.
  - apply beq_eq in E. subst. rewrite adel_absent by assumption. apply Permutation_refl.
  - simpl. eapply Permutation_trans; [apply Permutation_app_head; apply IH; assumption|].
    apply Permutation_app_swap_app.
Qed.

Lemma ents_aset m k b' : NoDup (map fst m) -> Permutation (ents (aset k b' m)) (b' ++ ents (adel k m)).
Proof.
  unfold ents. induction m as [|[k0 b0] t IH]; simpl; intros H; [apply Permutation_refl|].
  inversion H; subst. destruct (beq k k0) eqn:E; simpl.
  - apply beq_eq in E. subst. rewrite adel_absent by assumption. apply Permutation_refl.
  - eapply Permutation_trans; [apply Permutation_app_head; apply IH; assumption|].
    apply Permutation_app_swap_app.
Qed.

Lemma kmap_wf_aset m k b : kmap_wf m -> (forall x, In x b -> key_of x = k) -> kmap_wf (aset k b m).
Proof.
  intros [H1 H2] Hb. split; [apply aset_keys_nodup; exact H1|].
  intros key b' Hin x Hx. apply In_aset in Hin as [[-> ->]|Hin]; [apply Hb; exact Hx|eapply H2; eassumption].
Qed.

Lemma kmap_wf_adel m k : kmap_wf m -> kmap_wf (adel k m).
Proof.
  intros [H1 H2]. split; [apply adel_keys_nodup; exact H1|].
  intros key b Hin. apply adel_In in Hin. eapply H2. exact Hin.
Qed.

Lemma kmap_wf_add_empty m k : kmap_wf m -> aget k m = None -> kmap_wf (m ++ [(k, [])]).
Proof.
  intros [H1 H2] E. apply aget_None_keys in E. split.
  - rewrite map_app. simpl. clear H2. induction m as [|[k0 v0] t IH]; simpl in *; [constructor; [tauto|constructor]|].
    inversion H1; subst. constructor.
    + rewrite in_app_iff. simpl. intros [H|[H|[]]]; [contradiction|]. apply E. left. symmetry. exact H.
    + apply IH; [assumption|]. intros H. apply E. right. exact H.
  - intros key b Hin x Hx. apply in_app_or in Hin as [Hin|[Hin|[]]]; [eapply H2; eassumption|].
    inversion Hin; subst. contradiction.
Qed.

Lemma kmap_wf_filter_buckets m p :
  kmap_wf m -> kmap_wf (map (fun kb => (fst kb, filter p (snd kb))) m).
Proof.
  intros [H1 H2]. split; [rewrite map_map; exact H1|].
  intros key b Hin x Hx. apply in_map_iff in Hin as [[k0 b0] [E Hin]].
  inversion E; subst. apply filter_In in Hx as [Hx _]. eapply H2; eassumption.
Qed.

Lemma kmap_wf_filter m q : kmap_wf m -> kmap_wf (filter q m).
Proof.
  intros [H1 H2]. split; [apply NoDup_map_filter; exact H1|].
  intros key b Hin. apply filter_In in Hin as [Hin _]. eapply H2. exact Hin.
Qed.

Lemma ents_filter_buckets m p :
  ents (map (fun kb => (fst kb, filter p (snd kb))) m) = filter p (ents m).
Proof.
  unfold ents. induction m as [|[k b] t IH]; simpl; [reflexivity|]. rewrite filter_app, IH. reflexivity.
Qed.
End Buckets.

Lemma exp_time_eq c t p : exp_time c t p = c + t * p * 10.
Proof. reflexivity. Qed.

Lemma life_new_eq now ttl : life_new now ttl = mkLife ttl now (now + ttl * 1000) (now + ttl * 800).
Proof. unfold life_new. rewrite !exp_time_eq, pin_new_expire, pin_new_refresh. f_equal; lia. Qed.

Lemma life_reset_eq now ttl :
  life_reset now ttl = mkLife ttl now (now + ttl * 1000) (if 1 <? ttl then now + ttl * 800 else now + ttl * 1000).
Proof.
  unfold life_reset. rewrite !exp_time_eq, pin_reset_full, pin_reset_expire, pin_reset_refresh.
  destruct (1 <? ttl); f_equal; lia.
Qed.

Lemma wire_ttl_pos t : 1 <= wire_ttl t.
Proof.
  unfold wire_ttl. rewrite pin_goodbye, pin_goodbye_ttl. destruct (t =? 0) eqn:E; [lia|].
  apply N.eqb_neq in E. lia.
Qed.

(* a record delivered at `now`, as cached or as the renewed lifetime of the entry it matches:
   within created + ttl, and not yet expired at any earlier time *)
Lemma wire_life_bounds prev now t :
  prev <= now ->
  (l_expires (life_new now (wire_ttl t)) <= now + wire_ttl t * 1000 /\ prev < l_expires (life_new now (wire_ttl t)))
  /\ (l_expires (life_reset now (wire_ttl t)) <= now + wire_ttl t * 1000 /\ prev < l_expires (life_reset now (wire_ttl t))).
Proof. intros H. pose proof (wire_ttl_pos t). rewrite life_new_eq, life_reset_eq. simpl. lia. Qed.
