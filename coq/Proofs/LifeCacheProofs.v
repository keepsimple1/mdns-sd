(* Lemmas about the cache rules (Model/LifeCache.v, instance trec_ops) against the literal
   specifications of Model/LifeCacheSpec.v. *)
From Coq Require Import List NArith Bool Lia.
From Mdns Require Import Res ParamsLife Life LifeSpec LifeCache LifeCacheSpec LifeProofs.
Import ListNotations.
Open Scope N_scope.

Local Arguments N.mul : simpl never.
Local Arguments N.add : simpl never.
Local Arguments N.sub : simpl never.
Local Arguments N.div : simpl never.
Local Arguments N.modulo : simpl never.
Local Arguments N.ltb : simpl never.
Local Arguments N.leb : simpl never.
Local Arguments N.eqb : simpl never.

Lemma should_flush_trec_ok inc (e : tentry) now :
  t_created (c_t e) < B63 -> now < B63 ->
  should_flush_trec inc (c_id e) (c_t e) now = Ok (flushable inc now e).
Proof.
  intros Hc Hn. unfold should_flush_trec, flushable, flush_created_lhs, flush_now_rhs, flush_cond,
    flush_is_addr_type, flush_same_intf.
  destruct (i_class inc =? i_class (c_id e)); simpl; [|reflexivity].
  destruct (i_type inc =? i_type (c_id e)); simpl; [|reflexivity].
  rewrite chk64_ok by (unfold U64, B63 in *; lia). simpl.
  destruct (t_created (c_t e) + 1000 <? now); simpl; [|reflexivity].
  rewrite chk64_ok by (unfold U64, B63 in *; lia). simpl.
  destruct (now + 1000 <? t_expires (c_t e)); simpl; reflexivity.
Qed.

Lemma flush_pass_spec inc now (b : tbucket) :
  Forall entry_ok b -> now < B63 ->
  flush_pass trec trec_ops inc now b =
  Ok (map (fun e => if flushable inc now e then mkC (c_id e) (set_expires (c_t e) (now + 1000)) else e) b,
      map (fun _ => now + 1000) (filter (flushable inc now) b)).
Proof.
  intros Hb Hn. induction Hb as [|e b [He _] Hb IH]; [reflexivity|].
  simpl. rewrite (should_flush_trec_ok inc e now He Hn). simpl. rewrite IH. simpl.
  destruct (flushable inc now e); reflexivity.
Qed.

Lemma reset_ttl_fresh r ttl now :
  1 <= ttl -> ttl < U32 -> now < B63 -> reset_ttl r ttl now = Ok (fresh_reset ttl now).
Proof.
  intros H1 H2 H3. rewrite reset_ttl_ok by assumption. unfold fresh_reset. destruct (1 <? ttl); reflexivity.
Qed.

Lemma reset_first_spec inc ttl now (b : tbucket) :
  1 <= ttl -> ttl < U32 -> now < B63 ->
  reset_first trec trec_ops inc ttl now b = Ok (replace_first inc ttl (fresh_reset ttl now) b).
Proof.
  intros H1 H2 H3. induction b as [|e b IH]; [reflexivity|].
  simpl. destruct (matches (c_id e) inc).
  - rewrite (reset_ttl_fresh _ _ _ H1 H2 H3). reflexivity.
  - rewrite IH. simpl. destruct (replace_first inc ttl (fresh_reset ttl now) b) as [[r rv]|]; reflexivity.
Qed.

Lemma add_or_update_spec (b : tbucket) inc ttl now ifu :
  Forall entry_ok b -> now < B63 -> 1 <= ttl -> ttl < U32 ->
  add_or_update trec trec_ops b inc ttl now ifu = Ok (aou_spec b inc ttl now ifu).
Proof.
  intros Hb Hn H1 H2. unfold add_or_update, aou_spec. simpl.
  assert (Hfit : now + 1000 * ttl < U64) by (unfold U64, B63, U32 in *; lia).
  rewrite (new_rec_ok _ _ Hfit). simpl.
  destruct (is_nil b && negb ifu); [reflexivity|].
  destruct (i_flush inc) eqn:Ef.
  - rewrite (flush_pass_spec inc now b Hb Hn). simpl.
    rewrite (reset_first_spec inc ttl now _ H1 H2 Hn). simpl.
    unfold flush_entry. rewrite Ef. simpl.
    destruct (replace_first _ _ _ _) as [[? ?]|]; reflexivity.
  - simpl. rewrite (reset_first_spec inc ttl now _ H1 H2 Hn). simpl.
    unfold flush_entry. rewrite Ef. simpl.
    assert (map (fun e : tentry => e) b = b) as -> by apply map_id.
    assert (filter (fun _ : tentry => false) b = []) as -> by (clear; induction b; simpl; auto).
    destruct (replace_first _ _ _ _) as [[? ?]|]; reflexivity.
Qed.

Lemma flushable_true_inv inc now (e : tentry) :
  flushable inc now e = true ->
  i_class inc = i_class (c_id e) /\ i_type inc = i_type (c_id e) /\
  t_created (c_t e) + 1000 < now /\ now + 1000 < t_expires (c_t e) /\
  (((i_type inc = 1 \/ i_type inc = 28) /\ both_addr (c_id e) inc = true) -> i_if (c_id e) = i_if inc).
Proof.
  unfold flushable. rewrite !andb_true_iff, !N.eqb_eq, !N.ltb_lt.
  intros ((((H1 & H2) & H3) & H4) & H5). repeat split; auto.
  intros [Ht Hb]. rewrite Hb in H5.
  assert ((i_type inc =? 1) || (i_type inc =? 28) = true) as E.
  { destruct Ht as [-> | ->]; reflexivity. }
  rewrite E in H5. simpl in H5. apply N.eqb_eq. exact H5.
Qed.

Lemma flush_entry_unless inc now e : (flushable inc now e = true -> False) -> flush_entry inc now e = e.
Proof.
  intros H. unfold flush_entry. destruct (flushable inc now e); [destruct H; reflexivity|].
  rewrite andb_false_r. reflexivity.
Qed.

Lemma replace_first_some inc ttl fresh (b b' : tbucket) rv :
  replace_first inc ttl fresh b = Some (b', rv) ->
  exists pre e post, b = pre ++ e :: post /\ b' = pre ++ mkC (c_id e) fresh :: post /\
                     matches (c_id e) inc = true /\ Forall (fun x => matches (c_id x) inc = false) pre /\
                     rv = ((t_ttl (c_t e) <=? 1) && (1 <? ttl)).
Proof.
  revert b'. induction b as [|e b IH]; intros b' H; [discriminate|].
  simpl in H. destruct (matches (c_id e) inc) eqn:Em.
  - inversion H; subst. exists [], e, b. repeat split; auto.
  - destruct (replace_first inc ttl fresh b) as [[r rv']|] eqn:Er; [|discriminate]. inversion H; subst.
    destruct (IH r eq_refl) as (pre & x & post & -> & -> & Hm & Hpre & Hrv).
    exists (e :: pre), x, post. repeat split; auto.
Qed.

Lemma replace_first_none inc ttl fresh (b : tbucket) :
  replace_first inc ttl fresh b = None -> Forall (fun x => matches (c_id x) inc = false) b.
Proof.
  induction b as [|e b IH]; intros H; [constructor|].
  simpl in H. destruct (matches (c_id e) inc) eqn:Em; [discriminate|].
  destruct (replace_first inc ttl fresh b) as [[? ?]|]; [discriminate|]. constructor; auto.
Qed.

Lemma flush_entry_id inc now e : c_id (flush_entry inc now e) = c_id e.
Proof. unfold flush_entry. destruct (_ && _); reflexivity. Qed.

Lemma flush_entry_ttl inc now e : t_ttl (c_t (flush_entry inc now e)) = t_ttl (c_t e).
Proof. unfold flush_entry. destruct (_ && _); reflexivity. Qed.

Lemma aou_shape (b : tbucket) inc ttl now b' ts isnew :
  aou_spec b inc ttl now true = Some (b', ts, isnew) ->
  ts = map (fun _ => now + 1000) (filter (fun e => i_flush inc && flushable inc now e) b) /\
  ((exists pre e post, b = pre ++ e :: post /\ matches (c_id e) inc = true /\
       Forall (fun x => matches (c_id x) inc = false) pre /\
       isnew = ((t_ttl (c_t e) <=? 1) && (1 <? ttl)) /\
       b' = map (flush_entry inc now) pre ++ mkC (c_id e) (fresh_reset ttl now) :: map (flush_entry inc now) post)
   \/ (isnew = true /\ Forall (fun x => matches (c_id x) inc = false) b /\
       b' = mkC inc (fresh_new ttl now) :: map (flush_entry inc now) b)).
Proof.
  unfold aou_spec. rewrite andb_false_r.
  destruct (replace_first inc ttl (fresh_reset ttl now) (map (flush_entry inc now) b)) as [[b2 rv]|] eqn:Er;
    intros H; inversion H; subst; split; try reflexivity.
  - left.
    apply replace_first_some in Er as (pre & e & post & Hb & Hb2 & Hm & Hpre & Hrv).
    apply map_eq_app in Hb as (pre0 & rest & -> & <- & Hrest).
    apply map_eq_cons in Hrest as (e0 & post0 & -> & <- & <-).
    exists pre0, e0, post0. rewrite flush_entry_id, flush_entry_ttl in *. repeat split; auto.
    apply Forall_forall. intros x Hx. rewrite Forall_forall in Hpre.
    specialize (Hpre (flush_entry inc now x) (in_map _ _ _ Hx)). rewrite flush_entry_id in Hpre. exact Hpre.
  - right. split; [reflexivity|]. split; [|reflexivity].
    apply replace_first_none in Er. apply Forall_forall. intros x Hx. rewrite Forall_forall in Er.
    specialize (Er (flush_entry inc now x) (in_map _ _ _ Hx)). rewrite flush_entry_id in Er. exact Er.
Qed.

Lemma ka_ttl_trec_ok (t : trec) now :
  t_created t < B63 -> t_ttl t < U32 ->
  ka_ttl_trec t now =
  Ok (if now <=? t_created t + 500 * t_ttl t then Some (ka_ttl_spec (t_ttl t) (t_created t) now) else None).
Proof.
  intros Hc Ht. unfold ka_ttl_trec, halflife_passed, halflife_percent, halflife_passed_g.
  rewrite (exp_time_ok _ _ 50) by (auto; lia). simpl.
  replace (t_created t + t_ttl t * 50 * 10) with (t_created t + 500 * t_ttl t) by lia.
  destruct (t_created t + 500 * t_ttl t <? now) eqn:E.
  - apply N.ltb_lt in E. assert (now <=? t_created t + 500 * t_ttl t = false) as -> by (apply N.leb_gt; lia).
    reflexivity.
  - apply N.ltb_ge in E. assert (now <=? t_created t + 500 * t_ttl t = true) as -> by (apply N.leb_le; lia).
    destruct (update_ttl_under_halflife t now Ht E) as [-> _]. reflexivity.
Qed.

Lemma known_answers_spec (b : tbucket) now :
  Forall entry_ok b -> known_answers trec trec_ops b now = Ok (ka_spec b now).
Proof.
  intros Hb. induction Hb as [|e b [Hc Ht] Hb IH]; [reflexivity|].
  simpl. unfold ka_shared_filter at 1.
  destruct (i_flush (c_id e)); simpl.
  - rewrite IH. reflexivity.
  - rewrite (ka_ttl_trec_ok _ _ Hc Ht). simpl. rewrite IH. simpl.
    destruct (now <=? t_created (c_t e) + 500 * t_ttl (c_t e)); reflexivity.
Qed.

Lemma ka_spec_in (b : tbucket) now id ttl :
  In (id, ttl) (ka_spec b now) ->
  exists e, In e b /\ id = c_id e /\ i_flush id = false /\
            now <= t_created (c_t e) + 500 * t_ttl (c_t e) /\
            ttl = t_ttl (c_t e) - (now - t_created (c_t e)) / 1000 /\
            t_ttl (c_t e) - t_ttl (c_t e) / 2 <= ttl.
Proof.
  unfold ka_spec. rewrite in_flat_map. intros (e & He & H).
  destruct (i_flush (c_id e)) eqn:Ef; simpl in H; [contradiction|].
  destruct (now <=? _) eqn:El; simpl in H; [|contradiction].
  destruct H as [H|[]]. inversion H; subst. apply N.leb_le in El.
  exists e. repeat split; auto.
  unfold ka_ttl_spec.
  pose proof (elapsed_le_half _ _ _ El).
  lia.
Qed.

