(* The loops of the browser model (Model/Browser.v) in closed form: what resolve_updated_instances
   and query_cache_for_service emit and how they change the bookkeeping, stated once as
   selections over the PTR buckets, so that facts about them are membership arguments and not
   inductions over the five accumulators; the pieces of one loop iteration as projections.
   Before them the facts about the querier table and the `resolved` / pending sets they use; after
   them the steps that only age the cache (`csteps`, `quiet`). *)
From Coq Require Import List NArith Bool Lia.
From Mdns Require Import Bytes ListFacts Rec ParamsBrowser Cache Browser C03Spec CacheInvProofs.
Import ListNotations.
Open Scope N_scope.

Lemma existsb_false_forall {A} (f : A -> bool) l : existsb f l = false -> forall x, In x l -> f x = false.
Proof.
  intros H x Hx. destruct (f x) eqn:E; [|reflexivity].
  assert (existsb f l = true) by (apply existsb_exists; eauto). congruence.
Qed.

Lemma dedup_In (l : list bytes) x : In x (dedup l) <-> In x l.
Proof.
  induction l as [|y l IH]; simpl; [tauto|]. destruct (mem y l) eqn:E.
  - rewrite IH. split; [auto|]. intros [<-|H]; [now apply mem_In|exact H].
  - simpl. rewrite IH. tauto.
Qed.

Lemma In_dedup (l : list bytes) x : In x l -> In x (dedup l).
Proof. apply dedup_In. Qed.

Lemma set_remove_In i x l : In i (set_remove x l) <-> In i l /\ i <> x.
Proof.
  unfold set_remove. rewrite filter_In. split; intros [A B]; (split; [exact A|]).
  - intros ->. now rewrite beq_refl in B.
  - destruct (beq x i) eqn:E; [|reflexivity]. apply beq_eq in E. congruence.
Qed.

Lemma mem_set_remove x l : mem x (set_remove x l) = false.
Proof. apply mem_false_iff. rewrite set_remove_In. tauto. Qed.

Lemma set_add_In i x l : In i (set_add x l) <-> In i l \/ i = x.
Proof.
  unfold set_add. destruct (mem x l) eqn:E.
  - split; [auto|]. intros [H| ->]; [exact H|now apply mem_In].
  - rewrite in_app_iff. simpl. split; intros [H|H]; auto. destruct H as [<-|[]]. now right.
Qed.

Lemma q_get_In ty q ch : q_get ty q = Some ch -> In (ty, ch) q.
Proof.
  induction q as [|[t c] r IH]; simpl; [discriminate|]. destruct (beq ty t) eqn:E.
  - intros H. inversion H; subst. apply beq_eq in E. subst. now left.
  - intros H. right. auto.
Qed.

Lemma In_q_get ty ch (q : list (bytes * N)) : NoDup (map fst q) -> In (ty, ch) q -> q_get ty q = Some ch.
Proof.
  induction q as [|[t c] r IH]; simpl; [tauto|]. intros ND [H|H].
  - inversion H; subst. now rewrite beq_refl.
  - inversion ND as [|x l Hx ND']; subst. destruct (beq ty t) eqn:E; [|now apply IH].
    apply beq_eq in E. subst t. exfalso. apply Hx. apply in_map_iff. exists (ty, ch). auto.
Qed.

Lemma q_get_q_set ty ch q ty' :
  q_get ty' (q_set ty ch q) = if beq ty' ty then Some ch else q_get ty' q.
Proof.
  induction q as [|[t c] r IH]; simpl.
  - now rewrite (beq_sym ty' ty), (beq_sym ty ty').
  - destruct (beq ty t) eqn:E; simpl.
    + apply beq_eq in E. subst t. destruct (beq ty' ty); reflexivity.
    + destruct (beq ty' t) eqn:E2; [|exact IH].
      apply beq_eq in E2. subst t. now rewrite beq_sym, E.
Qed.

Lemma q_set_In ty ch q tc : In tc (q_set ty ch q) -> In tc q \/ tc = (ty, ch) \/ (snd tc = ch /\ In (fst tc) (map fst q)).
Proof.
  induction q as [|[t c] r IH]; simpl.
  - intros [<-|[]]. auto.
  - destruct (beq ty t) eqn:E; simpl.
    + intros [<-|H]; [|auto]. right. right. simpl. auto.
    + intros [<-|H]; [auto|]. destruct (IH H) as [A|[A|[A B]]]; auto.
Qed.

Lemma q_get_q_remove ty q ty' ch : q_get ty' (q_remove ty q) = Some ch <-> q_get ty' q = Some ch /\ ty' <> ty.
Proof.
  unfold q_remove. induction q as [|[t c] r IH]; simpl; [split; [discriminate|intros [H _]; discriminate]|].
  destruct (beq ty t) eqn:E; simpl.
  - apply beq_eq in E. subst t. rewrite IH. destruct (beq ty' ty) eqn:E2; [|tauto].
    apply beq_eq in E2. subst ty'. tauto.
  - destruct (beq ty' t) eqn:E2; [|exact IH]. apply beq_eq in E2. subst t.
    split; [intros H; split; [exact H|]|tauto]. intros ->. now rewrite beq_refl in E.
Qed.

Lemma q_get_q_set_old ty ch q t c0 : q_get t (q_set ty ch q) = Some c0 -> c0 <> ch -> q_get t q = Some c0.
Proof. rewrite q_get_q_set. destruct (beq t ty); [|auto]. intros H Hne. inversion H. congruence. Qed.

Lemma q_set_bound ty ch q m tc :
  m < ch -> (forall tc0, In tc0 q -> snd tc0 <= m) -> In tc (q_set ty ch q) -> snd tc <= ch.
Proof. intros Hm Hb Hin. apply q_set_In in Hin as [Hin|[->|[Hs _]]]; simpl; [specialize (Hb _ Hin)|..]; lia. Qed.

Lemma q_set_nodup ty ch q m :
  m < ch -> (forall tc, In tc q -> snd tc <= m) -> NoDup (map snd q) -> NoDup (map snd (q_set ty ch q)).
Proof.
  intros Hm. induction q as [|[t c] r IH]; simpl; intros Hb ND.
  - constructor; [tauto|constructor].
  - inversion ND as [|x l Hx ND']; subst. destruct (beq ty t); simpl.
    + constructor; [|exact ND']. intros Hin. apply in_map_iff in Hin as [tc [E Hin]].
      specialize (Hb tc (or_intror Hin)). lia.
    + constructor; [|apply IH; [intros tc Htc; apply Hb; now right|exact ND']].
      intros Hin. apply in_map_iff in Hin as [tc [E Hin]].
      assert (Hc : c <= m) by (apply (Hb (t, c)); now left).
      apply q_set_In in Hin as [Hin|[->|[Hs _]]]; simpl in *; [|lia|lia].
      apply Hx. apply in_map_iff. eauto.
Qed.

Lemma run_cmds_cons {C} (f : st -> N -> C -> st * list out) s now c t :
  run_cmds f s now (c :: t)
  = (fst (run_cmds f (fst (f s now c)) now t), snd (f s now c) ++ snd (run_cmds f (fst (f s now c)) now t)).
Proof. simpl. destruct (f s now c) as [s1 o1]. simpl. destruct (run_cmds f s1 now t) as [s2 o2]. reflexivity. Qed.

Lemma run_cmds_inv {C} (f : st -> N -> C -> st * list out) now (P : st -> Prop) :
  (forall s c, P s -> P (fst (f s now c))) -> forall l s, P s -> P (fst (run_cmds f s now l)).
Proof.
  intros Hf. induction l as [|c t IH]; intros s H; [exact H|]. rewrite run_cmds_cons. apply IH, Hf, H.
Qed.

Definition resolve_host (s : st) (now : N) (h : bytes) : st * list out :=
  resolve_updated s now (dedup (get_instances_on_host (s_cache s) h)).

Lemma resolve_hosts_run s now names : resolve_hosts s now names = run_cmds resolve_host s now names.
Proof.
  revert s. induction names as [|h t IH]; intros s; simpl; [reflexivity|]. unfold resolve_host at 1.
  destruct (resolve_updated s now _) as [s1 o1]. now rewrite IH.
Qed.

Lemma handle_response_eq s now ifx m :
  handle_response s now ifx m =
  let r := hr_records (s_cache s) now ifx (s_q s) (for_us (s_q s) (m_answers m)) (msg_records m) in
  let r2 := resolve_updated (with_cache s (fst (fst r))) now (updated_of (fst (fst r)) (snd r)) in
  (fst r2, snd (fst r) ++ snd r2).
Proof.
  unfold handle_response, msg_records.
  destruct (hr_records (s_cache s) now ifx (s_q s) (for_us (s_q s) (m_answers m)) _) as [[c1 o1] ch]. cbn [fst snd].
  destruct (resolve_updated (with_cache s c1) now (updated_of c1 ch)). reflexivity.
Qed.

Lemma evict_eq s now :
  evict s now =
  let r1 := evict_services (s_cache s) now in
  let r2 := evict_addr (fst r1) now in
  let r3 := resolve_hosts (with_cache s (fst r2)) now (dedup (snd r2)) in
  (fst r3, notify_removal (s_q s) (snd r1) ++ snd r3).
Proof.
  unfold evict. destruct (evict_services (s_cache s) now) as [c1 ex]. cbn [fst snd].
  destruct (evict_addr c1 now) as [c2 names]. cbn [fst snd]. destruct (resolve_hosts (with_cache s c2) now (dedup names)). reflexivity.
Qed.

Lemma iterate_eq ifs s it :
  iterate ifs s it =
  let now := i_now it in
  let r1 := run_cmds (handle_read ifs) s now (deliveries_in_order (i_dgrams it)) in
  let r2 := run_cmds exec_call (fst r1) now (i_calls it) in
  let r3 := run_retrans (fst r2) now in
  let r4 := refresh_all (s_cache (fst r3)) now (s_q (fst r3)) in
  let r5 := evict (with_cache (fst r3) (fst r4)) now in
  (fst r5, snd r1 ++ snd r2 ++ snd r3 ++ snd r4 ++ snd r5).
Proof.
  unfold iterate. destruct (run_cmds (handle_read ifs) s (i_now it) (deliveries_in_order (i_dgrams it))) as [s1 o1]. cbn [fst snd].
  destruct (run_cmds exec_call s1 (i_now it) (i_calls it)) as [s2 o2]. cbn [fst snd]. destruct (run_retrans s2 (i_now it)) as [s3 o3]. cbn [fst snd].
  destruct (refresh_all (s_cache s3) (i_now it) (s_q s3)) as [c4 o4]. cbn [fst snd]. destruct (evict (with_cache s3 c4) (i_now it)). reflexivity.
Qed.

Lemma fold_mark_spec l : forall s,
  let s' := fold_left mark_resolved l s in
  s_cache s' = s_cache s /\ s_q s' = s_q s /\ s_retrans s' = s_retrans s
  /\ (forall i, In i (s_pending s') <-> In i (s_pending s) /\ ~ In i l)
  /\ (forall i, In i (s_resolved s') <-> In i (s_resolved s) \/ In i l).
Proof.
  induction l as [|x l IH]; intros s; simpl; [tauto|].
  destruct (IH (mark_resolved s x)) as (A & B & C & D & E). simpl in *.
  repeat (split; [assumption|]). split; intros i.
  - rewrite D, set_remove_In. intuition congruence.
  - rewrite E, set_add_In. intuition congruence.
Qed.

Lemma fold_pending_spec now l : forall s,
  let s' := fold_left (fun s0 i => add_pending s0 now i) l s in
  s_cache s' = s_cache s /\ s_q s' = s_q s /\ s_resolved s' = s_resolved s
  /\ exists new, s_pending s' = s_pending s ++ new
       /\ s_retrans s' = s_retrans s ++ map (fun i => (now + pending_wait, RResolve i pending_first_try)) new
       /\ forall i, In i new <-> In i l /\ ~ In i (s_pending s).
Proof.
  induction l as [|x l IH]; intros s; simpl.
  - repeat (split; [reflexivity|]). exists []. rewrite !app_nil_r. simpl. tauto.
  - destruct (IH (add_pending s now x)) as (A & B & C & new & D & E & F). unfold add_pending in *.
    destruct (mem x (s_pending s)) eqn:Ex.
    + repeat (split; [assumption|]). exists new. split; [exact D|]. split; [exact E|].
      intros i. rewrite F. apply mem_In in Ex. intuition congruence.
    + simpl in *. repeat (split; [assumption|]). exists (x :: new). rewrite D, E, <- !app_assoc. simpl.
      split; [reflexivity|]. split; [reflexivity|]. intros i. simpl. rewrite F, in_app_iff. simpl.
      apply mem_false_iff in Ex. destruct (list_eq_dec N.eq_dec x i) as [<-|Hne]; tauto.
Qed.

Definition ru_hit (now : N) (updated : list bytes) (p : entry) : bool :=
  negb (expires_soon p now) && mem (alias_of (e_rr p)) updated.

Definition ru_valid (c : cache) (now : N) (ty : bytes) (p : entry) : bool :=
  is_valid (resolve_from_cache c now ty (alias_of (e_rr p))).

Definition ev_resolved (c : cache) (now : N) (ty : bytes) (ch : N) (p : entry) : out :=
  OEvt ch (EResolved (resolve_from_cache c now ty (alias_of (e_rr p)))).

Lemma ru_ptrs_spec c now ty ch updated rset : forall ptrs,
  ru_ptrs c now ty ch updated ptrs rset =
  (let sel := filter (ru_hit now updated) ptrs in
   (map (ev_resolved c now ty ch) (filter (ru_valid c now ty) sel),
    map (fun p => alias_of (e_rr p)) (filter (ru_valid c now ty) sel),
    map (fun p => alias_of (e_rr p)) (filter (fun p => negb (ru_valid c now ty p)) sel),
    map (fun p => (ty, alias_of (e_rr p)))
        (filter (fun p => negb (ru_valid c now ty p) && mem (alias_of (e_rr p)) rset) sel),
    rset)).
Proof.
  induction ptrs as [|p rest IH]; simpl; [reflexivity|]. fold (ru_hit now updated p).
  destruct (ru_hit now updated p); [|exact IH]. simpl. fold (ru_valid c now ty p). rewrite IH.
  destruct (ru_valid c now ty p); simpl; [reflexivity|]. destruct (mem (alias_of (e_rr p)) rset); reflexivity.
Qed.

(* what one accumulator of the loop over the browsed types holds: g of every visited entry that
   passes the test P *)
Definition ru_sel {B} (q : list (bytes * N)) (now : N) (updated : list bytes)
    (P : bytes -> entry -> bool) (g : bytes -> N -> entry -> B) (ptr : bmap) : list B :=
  flat_map (fun kb => match q_get (fst kb) q with
                      | Some ch => map (g (fst kb) ch) (filter (P (fst kb)) (filter (ru_hit now updated) (snd kb)))
                      | None => []
                      end) ptr.

Lemma In_ru_sel {B} q now updated P (g : bytes -> N -> entry -> B) ptr y :
  In y (ru_sel q now updated P g ptr) <->
  exists ty ch ptrs p, In (ty, ptrs) ptr /\ q_get ty q = Some ch /\ In p ptrs
                       /\ ru_hit now updated p = true /\ P ty p = true /\ y = g ty ch p.
Proof.
  unfold ru_sel. rewrite in_flat_map. split.
  - intros [[ty ptrs] [Hkb Hy]]. simpl in Hy. destruct (q_get ty q) as [ch|] eqn:Eq; [|destruct Hy].
    apply in_map_iff in Hy as [p [<- Hp]]. apply filter_In in Hp as [Hp HP]. apply filter_In in Hp as [Hp Hh].
    exists ty, ch, ptrs, p. repeat split; auto.
  - intros (ty & ch & ptrs & p & Hkb & Eq & Hp & Hh & HP & ->). exists (ty, ptrs). split; [exact Hkb|].
    simpl. rewrite Eq. apply in_map_iff. exists p. split; [reflexivity|].
    apply filter_In. split; [|exact HP]. apply filter_In. auto.
Qed.

Lemma ru_types_spec c now q updated rset : forall ptr,
  ru_types c now q updated ptr rset =
  (ru_sel q now updated (ru_valid c now) (ev_resolved c now) ptr,
   ru_sel q now updated (ru_valid c now) (fun _ _ p => alias_of (e_rr p)) ptr,
   ru_sel q now updated (fun ty p => negb (ru_valid c now ty p)) (fun _ _ p => alias_of (e_rr p)) ptr,
   ru_sel q now updated (fun ty p => negb (ru_valid c now ty p) && mem (alias_of (e_rr p)) rset)
          (fun ty _ p => (ty, alias_of (e_rr p))) ptr,
   rset).
Proof.
  induction ptr as [|[ty ptrs] rest IH]; simpl; [reflexivity|].
  destruct (q_get ty q) as [ch|]; [|exact IH].
  rewrite (ru_ptrs_spec c now ty ch updated rset ptrs). cbv beta iota zeta. rewrite IH. reflexivity.
Qed.

(* p is a PTR entry ty -> instance, ty browsed on ch, that resolve_updated_instances visits *)
Definition ru_entry (s : st) (now : N) (updated : list bytes) (ty : bytes) (ch : N) (p : entry) : Prop :=
  exists ptrs, In (ty, ptrs) (c_ptr (s_cache s)) /\ In p ptrs /\ q_get ty (s_q s) = Some ch
               /\ expires_soon p now = false /\ mem (alias_of (e_rr p)) updated = true.

Lemma ru_entry_hit s now updated ty ch p :
  ru_entry s now updated ty ch p <->
  exists ptrs, In (ty, ptrs) (c_ptr (s_cache s)) /\ q_get ty (s_q s) = Some ch /\ In p ptrs /\ ru_hit now updated p = true.
Proof.
  unfold ru_entry, ru_hit. split; intros (ptrs & H); exists ptrs.
  - destruct H as (A & B & C & D & E). rewrite D, E. auto.
  - destruct H as (A & B & C & D). apply andb_true_iff in D as [D E]. apply negb_true_iff in D. auto.
Qed.

Definition ru_res (s : st) (now : N) (updated : list bytes) (i : bytes) : Prop :=
  exists ty ch p, ru_entry s now updated ty ch p /\ ru_valid (s_cache s) now ty p = true /\ alias_of (e_rr p) = i.
Definition ru_unres (s : st) (now : N) (updated : list bytes) (i : bytes) : Prop :=
  exists ty ch p, ru_entry s now updated ty ch p /\ ru_valid (s_cache s) now ty p = false /\ alias_of (e_rr p) = i.
Definition ru_rem (s : st) (now : N) (updated : list bytes) (ty i : bytes) : Prop :=
  exists ch p, ru_entry s now updated ty ch p /\ ru_valid (s_cache s) now ty p = false
               /\ mem i (s_resolved s) = true /\ alias_of (e_rr p) = i.

Lemma notify_removal_iff q ex x :
  In x (notify_removal q ex) <-> exists ty ch i, In (ty, ch) q /\ In (ty, i) ex /\ x = OEvt ch (ERemoved ty i).
Proof.
  unfold notify_removal. rewrite in_flat_map. split.
  - intros [[ty ch] [Hq Hx]]. simpl in Hx. apply in_map_iff in Hx as [i [<- Hi]].
    apply (proj1 (dedup_In _ _)) in Hi. apply in_map_iff in Hi as [[t i0] [E Hi]]. simpl in E. subst i0.
    apply filter_In in Hi as [Hi Ht]. simpl in Ht. apply beq_eq in Ht. subst t. exists ty, ch, i. auto.
  - intros (ty & ch & i & Hq & Hi & ->). exists (ty, ch). split; [exact Hq|]. simpl. apply in_map_iff. exists i. split; [reflexivity|].
    apply In_dedup. apply in_map_iff. exists (ty, i). split; [reflexivity|]. apply filter_In. simpl.
    now rewrite beq_refl.
Qed.

Lemma notify_removal_In q ex ch t i : In (OEvt ch (ERemoved t i)) (notify_removal q ex) -> In (t, i) ex.
Proof. intros H. apply notify_removal_iff in H as (ty & c0 & j & _ & Hi & E). now inversion E; subst. Qed.

Lemma notify_removal_complete q ex ty ch i :
  In (ty, ch) q -> In (ty, i) ex -> In (OEvt ch (ERemoved ty i)) (notify_removal q ex).
Proof. intros Hq Hi. apply notify_removal_iff. exists ty, ch, i. auto. Qed.

Definition ru_res_list (s : st) (now : N) (updated : list bytes) : list bytes :=
  ru_sel (s_q s) now updated (ru_valid (s_cache s) now) (fun _ _ p => alias_of (e_rr p)) (c_ptr (s_cache s)).
Definition ru_unres_list (s : st) (now : N) (updated : list bytes) : list bytes :=
  ru_sel (s_q s) now updated (fun ty p => negb (ru_valid (s_cache s) now ty p)) (fun _ _ p => alias_of (e_rr p))
         (c_ptr (s_cache s)).
Definition ru_rem_list (s : st) (now : N) (updated : list bytes) : list (bytes * bytes) :=
  ru_sel (s_q s) now updated
         (fun ty p => negb (ru_valid (s_cache s) now ty p) && mem (alias_of (e_rr p)) (s_resolved s))
         (fun ty _ p => (ty, alias_of (e_rr p))) (c_ptr (s_cache s)).

Lemma resolve_updated_eq s now updated :
  updated <> [] ->
  resolve_updated s now updated =
  (fold_left (fun s0 i => add_pending s0 now i) (dedup (ru_unres_list s now updated))
     (fold_left mark_resolved (dedup (ru_res_list s now updated))
        (mkSt (s_cache s) (s_q s) (s_pending s)
              (fold_left (fun l i => set_remove i l) (map snd (ru_rem_list s now updated)) (s_resolved s))
              (s_retrans s))),
   ru_sel (s_q s) now updated (ru_valid (s_cache s) now) (ev_resolved (s_cache s) now) (c_ptr (s_cache s))
   ++ notify_removal (s_q s) (ru_rem_list s now updated)).
Proof.
  intros Hne. unfold resolve_updated. destruct updated as [|u us] eqn:Eu; [congruence|]. rewrite <- Eu.
  now rewrite ru_types_spec.
Qed.

Lemma ru_entry_nil s now ty ch p : ~ ru_entry s now [] ty ch p.
Proof. intros (ptrs & _ & _ & _ & _ & H). discriminate. Qed.

Lemma ru_nil s now :
  (forall i, ~ ru_res s now [] i) /\ (forall i, ~ ru_unres s now [] i) /\ (forall ty i, ~ ru_rem s now [] ty i).
Proof.
  repeat split; intros; intros H;
    [destruct H as (ty & ch & p & H & _)|destruct H as (ty0 & ch & p & H & _)|destruct H as (ch & p & H & _)];
    exact (ru_entry_nil _ _ _ _ _ H).
Qed.

Lemma In_ru_res s now updated i : In i (ru_res_list s now updated) <-> ru_res s now updated i.
Proof.
  unfold ru_res_list, ru_res. rewrite In_ru_sel. split.
  - intros (ty & ch & ptrs & p & A & B & C & D & E & ->). exists ty, ch, p. split; [|auto].
    apply ru_entry_hit. exists ptrs. auto.
  - intros (ty & ch & p & He & Hv & <-). apply ru_entry_hit in He as (ptrs & A & B & C & D).
    exists ty, ch, ptrs, p. repeat split; auto.
Qed.

Lemma In_ru_unres s now updated i : In i (ru_unres_list s now updated) <-> ru_unres s now updated i.
Proof.
  unfold ru_unres_list, ru_unres. rewrite In_ru_sel. split.
  - intros (ty & ch & ptrs & p & A & B & C & D & E & ->). apply negb_true_iff in E. exists ty, ch, p.
    split; [|auto]. apply ru_entry_hit. exists ptrs. auto.
  - intros (ty & ch & p & He & Hv & <-). apply ru_entry_hit in He as (ptrs & A & B & C & D).
    exists ty, ch, ptrs, p. rewrite Hv. repeat split; auto.
Qed.

Lemma In_ru_rem s now updated ty i : In (ty, i) (ru_rem_list s now updated) <-> ru_rem s now updated ty i.
Proof.
  unfold ru_rem_list, ru_rem. rewrite In_ru_sel. split.
  - intros (ty0 & ch & ptrs & p & A & B & C & D & E & F). inversion F; subst ty0 i.
    apply andb_true_iff in E as [E1 E2]. apply negb_true_iff in E1. exists ch, p.
    split; [|auto]. apply ru_entry_hit. exists ptrs. auto.
  - intros (ch & p & He & Hv & Hm & <-). apply ru_entry_hit in He as (ptrs & A & B & C & D).
    exists ty, ch, ptrs, p. rewrite Hv, Hm. repeat split; auto.
Qed.

Lemma resolve_updated_out s now updated x :
  In x (snd (resolve_updated s now updated)) <->
  (exists ty ch p, ru_entry s now updated ty ch p /\ ru_valid (s_cache s) now ty p = true
                   /\ x = ev_resolved (s_cache s) now ty ch p)
  \/ (exists ty ch i, In (ty, ch) (s_q s) /\ ru_rem s now updated ty i /\ x = OEvt ch (ERemoved ty i)).
Proof.
  destruct updated as [|u us] eqn:Eu.
  - simpl. split; [tauto|]. intros [(ty & ch & p & H & _)|(ty & ch & i & _ & (c0 & p & H & _) & _)];
      exact (ru_entry_nil _ _ _ _ _ H).
  - rewrite <- Eu. rewrite resolve_updated_eq by congruence. cbn [snd].
    rewrite in_app_iff, notify_removal_iff, In_ru_sel. split; intros [H|H]; [left|right|left|right].
    + destruct H as (ty & ch & ptrs & p & A & B & C & D & E & ->). exists ty, ch, p. split; [|auto].
      apply ru_entry_hit. exists ptrs. auto.
    + destruct H as (ty & ch & i & A & B & C). exists ty, ch, i. split; [exact A|]. split; [now apply In_ru_rem|exact C].
    + destruct H as (ty & ch & p & He & Hv & ->). apply ru_entry_hit in He as (ptrs & A & B & C & D).
      exists ty, ch, ptrs, p. repeat split; auto.
    + destruct H as (ty & ch & i & A & B & C). exists ty, ch, i. split; [exact A|]. split; [now apply In_ru_rem|exact C].
Qed.

Lemma fold_set_remove_In i : forall xs l, In i (fold_left (fun l0 x => set_remove x l0) xs l) <-> In i l /\ ~ In i xs.
Proof.
  induction xs as [|x xs IH]; intros l; simpl; [tauto|]. rewrite IH, set_remove_In. intuition congruence.
Qed.

(* new: the instances that become pending in this call, in the order in which their first try is queued *)
Lemma resolve_updated_fields s now updated :
  let s' := fst (resolve_updated s now updated) in
  s_cache s' = s_cache s /\ s_q s' = s_q s
  /\ (forall i, In i (s_resolved s') <->
                ru_res s now updated i \/ (In i (s_resolved s) /\ ~ In i (map snd (ru_rem_list s now updated))))
  /\ exists new,
       (forall i, In i (s_pending s') <-> (In i (s_pending s) /\ ~ ru_res s now updated i) \/ In i new)
       /\ s_retrans s' = s_retrans s ++ map (fun i => (now + pending_wait, RResolve i pending_first_try)) new
       /\ forall i, In i new <-> ru_unres s now updated i /\ ~ (In i (s_pending s) /\ ~ ru_res s now updated i).
Proof.
  destruct updated as [|u us] eqn:Eu.
  - destruct (ru_nil s now) as (N1 & N2 & N3). simpl. repeat (split; [reflexivity|]). split.
    + intros i. specialize (N1 i). split; [intros H; right; split; [exact H|]|tauto].
      intros Hin. apply in_map_iff in Hin as [[ty j] [_ Hin]]. apply In_ru_rem in Hin. exact (N3 _ _ Hin).
    + exists []. rewrite app_nil_r. split; [|split; [reflexivity|]]; intros i; specialize (N1 i); specialize (N2 i); simpl; tauto.
  - rewrite <- Eu. rewrite resolve_updated_eq by congruence. cbn [fst].
    match goal with |- context [fold_left mark_resolved ?l ?s1] =>
      destruct (fold_mark_spec l s1) as (A1 & A2 & A3 & A4 & A5); set (s2 := fold_left mark_resolved l s1) in * end.
    destruct (fold_pending_spec now (dedup (ru_unres_list s now updated)) s2) as (B1 & B2 & B3 & new & B4 & B5 & B6).
    cbv zeta in *. cbn [s_cache s_q s_pending s_resolved s_retrans] in *.
    split; [congruence|]. split; [congruence|]. split.
    + intros i. rewrite B3, A5, fold_set_remove_In, dedup_In, In_ru_res. apply or_comm.
    + exists new. split; [|split].
      * intros i. now rewrite B4, in_app_iff, A4, dedup_In, In_ru_res.
      * now rewrite B5, A3.
      * intros i. now rewrite B6, dedup_In, In_ru_unres, A4, dedup_In, In_ru_res.
Qed.

Lemma resolve_updated_state s now u :
  s_cache (fst (resolve_updated s now u)) = s_cache s /\ s_q (fst (resolve_updated s now u)) = s_q s.
Proof. destruct (resolve_updated_fields s now u) as (A & B & _). auto. Qed.

Lemma bookkeeping_keeps now l1 l2 s :
  let s' := fold_left (fun s0 i => add_pending s0 now i) l2 (fold_left mark_resolved l1 s) in
  s_cache s' = s_cache s /\ s_q s' = s_q s.
Proof.
  destruct (fold_pending_spec now l2 (fold_left mark_resolved l1 s)) as (A & B & _).
  destruct (fold_mark_spec l1 s) as (C & D & _). cbv zeta in *. split; congruence.
Qed.

Lemma resolve_hosts_state now names : forall s,
  s_cache (fst (resolve_hosts s now names)) = s_cache s /\ s_q (fst (resolve_hosts s now names)) = s_q s.
Proof.
  intros s. rewrite resolve_hosts_run.
  apply (run_cmds_inv resolve_host now (fun s' => s_cache s' = s_cache s /\ s_q s' = s_q s)); [|auto].
  intros s0 h [A B]. destruct (resolve_updated_state s0 now (dedup (get_instances_on_host (s_cache s0) h))) as [C D].
  unfold resolve_host. split; congruence.
Qed.

Definition ev_found (ty : bytes) (ch : N) (p : entry) : out := OEvt ch (EFound ty (alias_of (e_rr p))).

Lemma qc_ptrs_spec c now ty ch : forall ptrs,
  qc_ptrs c now ty ch ptrs =
  (let sel := filter (fun p => negb (expires_soon p now)) ptrs in
   (flat_map (fun p => ev_found ty ch p :: (if ru_valid c now ty p then [ev_resolved c now ty ch p] else [])) sel,
    map (fun p => alias_of (e_rr p)) (filter (ru_valid c now ty) sel),
    map (fun p => alias_of (e_rr p)) (filter (fun p => negb (ru_valid c now ty p)) sel))).
Proof.
  induction ptrs as [|p rest IH]; simpl; [reflexivity|]. rewrite IH. cbv zeta.
  destruct (expires_soon p now); simpl; [reflexivity|]. fold (ru_valid c now ty p).
  destruct (ru_valid c now ty p); reflexivity.
Qed.

Lemma exec_browse_eq s now ty ch :
  exec_browse s now ty ch =
  let s1 := mkSt (s_cache s) (q_set ty ch (s_q s)) (s_pending s) (s_resolved s) (s_retrans s) in
  match bm_get ty (c_ptr (s_cache s)) with
  | None => (s1, [])
  | Some ptrs =>
    let r := qc_ptrs (s_cache s) now ty ch ptrs in
    (fold_left (fun s0 i => add_pending s0 now i) (dedup (snd r)) (fold_left mark_resolved (dedup (snd (fst r))) s1),
     fst (fst r))
  end.
Proof.
  unfold exec_browse. destruct (bm_get ty (c_ptr (s_cache s))) as [ptrs|]; [|reflexivity].
  destruct (qc_ptrs (s_cache s) now ty ch ptrs) as [[o res] unres]. reflexivity.
Qed.

Lemma exec_browse_out s now ty ch x :
  In x (snd (exec_browse s now ty ch)) <->
  exists ptrs p, bm_get ty (c_ptr (s_cache s)) = Some ptrs /\ In p ptrs /\ expires_soon p now = false
                 /\ (x = ev_found ty ch p
                     \/ (ru_valid (s_cache s) now ty p = true /\ x = ev_resolved (s_cache s) now ty ch p)).
Proof.
  rewrite exec_browse_eq. cbv zeta. destruct (bm_get ty (c_ptr (s_cache s))) as [ptrs|].
  2:{ simpl. split; [tauto|]. intros (ptrs & p & H & _). discriminate. }
  cbn [snd]. rewrite qc_ptrs_spec. cbn [fst]. rewrite in_flat_map. split.
  - intros (p & Hp & Hx). apply filter_In in Hp as [Hp Hs]. apply negb_true_iff in Hs.
    exists ptrs, p. repeat (split; [auto|]). destruct Hx as [<-|Hx]; [now left|right].
    destruct (ru_valid (s_cache s) now ty p); [|destruct Hx]. destruct Hx as [<-|[]]. auto.
  - intros (ptrs0 & p & E & Hp & Hs & Hx). inversion E; subst ptrs0. exists p. split.
    + apply filter_In. now rewrite Hs.
    + destruct Hx as [->|[Hv ->]]; [now left|]. rewrite Hv. right. now left.
Qed.

Definition qc_res (s : st) (now : N) (ty : bytes) (valid : bool) (i : bytes) : Prop :=
  exists ptrs p, bm_get ty (c_ptr (s_cache s)) = Some ptrs /\ In p ptrs /\ expires_soon p now = false
                 /\ ru_valid (s_cache s) now ty p = valid /\ alias_of (e_rr p) = i.

Lemma In_qc_sel now (ptrs : bucket) (P : entry -> bool) i :
  In i (map (fun p => alias_of (e_rr p)) (filter P (filter (fun p => negb (expires_soon p now)) ptrs)))
  <-> exists p, In p ptrs /\ expires_soon p now = false /\ P p = true /\ alias_of (e_rr p) = i.
Proof.
  rewrite in_map_iff. split.
  - intros (p & <- & Hp). apply filter_In in Hp as [Hp HP]. apply filter_In in Hp as [Hp Hs].
    apply negb_true_iff in Hs. exists p. auto.
  - intros (p & Hp & Hs & HP & <-). exists p. split; [reflexivity|]. apply filter_In. split; [|exact HP].
    apply filter_In. now rewrite Hs.
Qed.

(* new: the instances that become pending in this call, in the order in which their first try is queued *)
Lemma exec_browse_fields s now ty ch :
  let s' := fst (exec_browse s now ty ch) in
  s_cache s' = s_cache s /\ s_q s' = q_set ty ch (s_q s)
  /\ (forall i, In i (s_resolved s') <-> In i (s_resolved s) \/ qc_res s now ty true i)
  /\ exists new,
       (forall i, In i (s_pending s') <-> (In i (s_pending s) /\ ~ qc_res s now ty true i) \/ In i new)
       /\ s_retrans s' = s_retrans s ++ map (fun i => (now + pending_wait, RResolve i pending_first_try)) new
       /\ forall i, In i new <-> qc_res s now ty false i /\ ~ (In i (s_pending s) /\ ~ qc_res s now ty true i).
Proof.
  rewrite exec_browse_eq. cbv zeta. destruct (bm_get ty (c_ptr (s_cache s))) as [ptrs|] eqn:E.
  2:{ assert (Hno : forall v i, ~ qc_res s now ty v i) by (intros v i (ptrs & p & E' & _); congruence).
      simpl. repeat (split; [reflexivity|]). split.
      - intros i. specialize (Hno true i). tauto.
      - exists []. rewrite app_nil_r. simpl. split; [|split; [reflexivity|]]; intros i;
          pose proof (Hno true i); pose proof (Hno false i); tauto. }
  cbn [fst]. rewrite qc_ptrs_spec. cbn [fst snd].
  assert (Ht : forall i, In i (map (fun p => alias_of (e_rr p)) (filter (ru_valid (s_cache s) now ty)
                               (filter (fun p => negb (expires_soon p now)) ptrs)))
                <-> qc_res s now ty true i).
  { intros i. rewrite In_qc_sel. unfold qc_res. rewrite E. split; [intros (p & H); exists ptrs, p; auto|].
    intros (ptrs0 & p & E0 & H). inversion E0; subst. eauto. }
  assert (Hf : forall i, In i (map (fun p => alias_of (e_rr p)) (filter (fun p => negb (ru_valid (s_cache s) now ty p))
                               (filter (fun p => negb (expires_soon p now)) ptrs)))
                <-> qc_res s now ty false i).
  { intros i. rewrite In_qc_sel. unfold qc_res. rewrite E. split.
    - intros (p & A & B & C & D). apply negb_true_iff in C. exists ptrs, p. auto.
    - intros (ptrs0 & p & E0 & A & B & C & D). inversion E0; subst ptrs0. exists p. rewrite C. auto. }
  match goal with |- context [fold_left mark_resolved ?l ?s1] =>
    destruct (fold_mark_spec l s1) as (A1 & A2 & A3 & A4 & A5); set (s2 := fold_left mark_resolved l s1) in * end.
  match goal with |- context [fold_left _ ?l s2] =>
    destruct (fold_pending_spec now l s2) as (B1 & B2 & B3 & new & B4 & B5 & B6) end.
  cbv zeta in *. cbn [s_cache s_q s_pending s_resolved s_retrans] in *.
  split; [congruence|]. split; [congruence|]. split.
  - intros i. now rewrite B3, A5, dedup_In, Ht.
  - exists new. split; [|split].
    + intros i. now rewrite B4, in_app_iff, A4, dedup_In, Ht.
    + now rewrite B5, A3.
    + intros i. now rewrite B6, dedup_In, Hf, A4, dedup_In, Ht.
Qed.

Definition is_found (x : out) : Prop := match x with OEvt _ (EFound _ _) => True | _ => False end.

Lemma hr_records_found now ifx q fu rs : forall c, Forall is_found (snd (fst (hr_records c now ifx q fu rs))).
Proof.
  induction rs as [|r rest IH]; intros c; simpl; [constructor|].
  destruct (add_or_update c now ifx r fu) as [c1 res].
  specialize (IH c1). destruct (hr_records c1 now ifx q fu rest) as [[c2 o2] ch2]. simpl in *.
  destruct res as [[e [|]]|]; simpl; try assumption.
  destruct ((e_type e =? TY_PTR) && found_ttl_guard (e_ttl e)); simpl; [|assumption].
  destruct (q_get (e_name e) q); simpl; [constructor; [exact I|assumption]|assumption].
Qed.

(* verify, the retransmission pass and refresh_active_services change the cache only by
   service_verify_queries and refresh_type steps, leave the querier table and `resolved` alone
   and emit no event *)

Inductive csteps : cache -> cache -> Prop :=
| cs_refl c : csteps c c
| cs_verify c inst at_ c' : csteps (fst (service_verify_queries c inst at_)) c' -> csteps c c'
| cs_refresh c ty now c' : csteps (fst (refresh_type c ty now)) c' -> csteps c c'.

Lemma csteps_trans a b c : csteps a b -> csteps b c -> csteps a c.
Proof. intros H. induction H; intros H2; [exact H2|eapply cs_verify; eauto|eapply cs_refresh; eauto]. Qed.

Lemma csteps_shr L c c' : csteps c c' -> Inv L c -> Inv L c' /\ cshr c c'.
Proof.
  intros H. induction H as [c|c inst at_ c' _ IH|c ty now c' _ IH]; intros HI.
  - split; [exact HI|eapply cshr_refl; eauto].
  - pose proof (cshr_verify L c inst at_ HI) as Hs. destruct (IH (Inv_shr _ _ _ HI Hs)) as [A B].
    split; [exact A|eapply cshr_trans; eauto].
  - pose proof (cshr_refresh_type L c ty now HI) as Hs. destruct (IH (Inv_shr _ _ _ HI Hs)) as [A B].
    split; [exact A|eapply cshr_trans; eauto].
Qed.

Definition no_event (x : out) : Prop := match x with OEvt _ _ => False | _ => True end.

Definition quiet (s : st) (o : list out) (s' : st) : Prop :=
  csteps (s_cache s) (s_cache s') /\ s_q s' = s_q s /\ s_resolved s' = s_resolved s /\ Forall no_event o.

Lemma quiet_nil s : quiet s [] s.
Proof. split; [apply cs_refl|]. auto. Qed.

Lemma quiet_app s o1 s1 o2 s2 : quiet s o1 s1 -> quiet s1 o2 s2 -> quiet s (o1 ++ o2) s2.
Proof.
  intros (A1 & A2 & A3 & A4) (B1 & B2 & B3 & B4). split; [eapply csteps_trans; eauto|].
  split; [congruence|]. split; [congruence|]. apply Forall_app. auto.
Qed.

Lemma exec_verify_quiet s now inst timeout rep :
  quiet s (snd (exec_verify s now inst timeout rep)) (fst (exec_verify s now inst timeout rep)).
Proof.
  unfold exec_verify. set (at_ := if rep then None else Some (now + timeout)).
  assert (Hc : csteps (s_cache s) (fst (service_verify_queries (s_cache s) inst at_))) by (eapply cs_verify, cs_refl).
  destruct (service_verify_queries (s_cache s) inst at_) as [c1 qs]. cbn [fst] in Hc.
  destruct qs; [split; [exact Hc|repeat split; constructor]|]. destruct rep; (split; [exact Hc|]); repeat split; repeat constructor.
Qed.

Lemma followup_no_event c inst :
  Forall no_event (snd (if has_ptr_to c inst then query_unresolved c inst else (false, []))).
Proof.
  destruct (has_ptr_to c inst); [|constructor]. unfold query_unresolved.
  destruct (negb (valid_instance_name inst)); [constructor|].
  destruct (bm_get inst (c_srv c)) as [recs|]; [|repeat constructor].
  destruct (find _ recs); repeat constructor.
Qed.

Lemma exec_rcmd_quiet s now c : quiet s (snd (exec_rcmd s now c)) (fst (exec_rcmd s now c)).
Proof.
  destruct c as [inst n|inst timeout]; [|apply exec_verify_quiet]. simpl. unfold exec_resolve.
  pose proof (followup_no_event (s_cache s) inst) as Hq.
  destruct (if has_ptr_to (s_cache s) inst then query_unresolved (s_cache s) inst else (false, [])) as [sent o].
  destruct (sent && retry_guard n max_try); (split; [apply cs_refl|auto]).
Qed.

Lemma run_cmds_quiet {C} (f : st -> N -> C -> st * list out) now :
  (forall s c, quiet s (snd (f s now c)) (fst (f s now c))) ->
  forall l s, quiet s (snd (run_cmds f s now l)) (fst (run_cmds f s now l)).
Proof.
  intros Hf. induction l as [|c t IH]; intros s; [apply quiet_nil|]. rewrite run_cmds_cons.
  eapply quiet_app; [apply Hf|apply IH].
Qed.

Lemma run_retrans_quiet s now : quiet s (snd (run_retrans s now)) (fst (run_retrans s now)).
Proof.
  unfold run_retrans. match goal with |- context [run_cmds exec_rcmd ?s1 now ?l] =>
    destruct (run_cmds_quiet exec_rcmd now (fun s c => exec_rcmd_quiet s now c) l s1) as (A & B & C & D) end.
  split; [exact A|]. auto.
Qed.

Lemma refresh_all_csteps now q : forall c,
  csteps c (fst (refresh_all c now q)) /\ Forall no_event (snd (refresh_all c now q)).
Proof.
  induction q as [|[ty ch] rest IH]; intros c; simpl; [split; [apply cs_refl|constructor]|].
  assert (H1 : csteps c (fst (refresh_type c ty now))) by (eapply cs_refresh, cs_refl).
  destruct (refresh_type c ty now) as [c1 qs]. destruct (IH c1) as [A B].
  destruct (refresh_all c1 now rest) as [c2 o]. cbn [fst snd] in *. split; [eapply csteps_trans; eauto|].
  apply Forall_app. split; [|exact B]. apply Forall_forall. intros x Hx. apply in_map_iff in Hx as [y [<- _]]. exact I.
Qed.

Lemma retrans_refresh_quiet s now :
  let r3 := run_retrans s now in
  let r4 := refresh_all (s_cache (fst r3)) now (s_q (fst r3)) in
  quiet s (snd r3 ++ snd r4) (with_cache (fst r3) (fst r4)).
Proof.
  cbv zeta. eapply quiet_app; [apply run_retrans_quiet|].
  destruct (refresh_all_csteps now (s_q (fst (run_retrans s now))) (s_cache (fst (run_retrans s now)))) as [A B].
  split; [exact A|]. auto.
Qed.

Lemma exec_call_quiet s now cl :
  match cl with CVerify _ _ | CMetrics _ => quiet s (snd (exec_call s now cl)) (fst (exec_call s now cl)) | _ => True end.
Proof.
  destruct cl as [ty ch|ty|inst timeout|ch]; simpl; auto; [apply exec_verify_quiet|].
  split; [apply cs_refl|]. repeat split. repeat constructor.
Qed.
