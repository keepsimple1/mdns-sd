(* C04, completeness clause, one iteration (over histories: C04HistoryProofs.complete_is_up):
   at the end of every iteration every instance that is strongly alive under a browsed name is "up" on that name's channel (a ServiceResolved was seen,
   no ServiceRemoved since) - so the checker's F04_complete never fires on the model's trace -
   outside the class "a delivery that is not reported as a new record turns a browsed instance
   strongly alive" (known_refresh_completes) and the classes of safe_class.

   Invariant AU: strongly alive under a browsed name => up on its channel.  Liveness rises only in
   add_or_update (everything else shrinks the cache, time only lowers it); a delivery that raises
   it concerns the instance (aou_frame); if it is reported as new the instance is in `updated` and
   the per-message theorem gives the ServiceResolved; ServiceRemoved is only emitted for
   instances that are not strongly alive (the C05 safety lemmas). *)
From Coq Require Import List NArith Bool Lia.
From Mdns Require Import Bytes ListFacts Rec Cache Browser C03Spec BrowserSpec BrowserKnown CacheProofs CacheInvProofs
  BrowserProofs BrowserLoopProofs C05SafetyProofs C04StepProofs AouCasesProofs C04OrderProofs C05AgainProofs
  C05TimelyProofs.
Import ListNotations.
Open Scope N_scope.

Lemma aou_res_rr c now ifx r fu e b :
  snd (add_or_update c now ifx r fu) = Some (e, b) ->
  r_name (e_rr e) = r_name r /\ r_type (e_rr e) = r_type r /\ r_data (e_rr e) = r_data r.
Proof.
  intros H. destruct (aou_shape c now ifx r fu) as [_ _ S|k0 B _ HB _ _]; [congruence|]. rewrite H in HB. inversion HB as [| |l1 e0 l2 _ _ Hm]; subst; [auto|].
  unfold entry_matches in Hm. apply rr_matches_spec in Hm as (M1 & M2 & _ & _ & M5 & _).
  destruct (flushed_fields r ifx now e0) as (F & _). unfold reset_ttl, set_ttl. simpl. rewrite F. auto.
Qed.

Lemma updated_of_app c a b : updated_of c (a ++ b) = updated_of c a ++ updated_of c b.
Proof. unfold updated_of. apply flat_map_app. Qed.

Lemma addr_type_not_others t : is_addr_type t = true -> (t =? TY_PTR) || (t =? TY_SRV) || (t =? TY_TXT) = false.
Proof.
  unfold is_addr_type. intros H. apply orb_true_iff in H as [H|H]; apply N.eqb_eq in H; subst; reflexivity.
Qed.

Section Complete.
  Variable Lf : list dlv.
  Hypothesis Hvar : known_ptr_variant Lf = false.
  Hypothesis Htgt : known_srv_targets Lf = false.
  Hypothesis Hnames : ptr_names_ok Lf = true.
  Variable now : N.

  (* a message in which the instance becomes strongly alive, outside the class: it is in `updated` *)
  Lemma hr_turned ifx q fu ty ch inst : forall rs L c,
    Inv L c -> incl (L ++ map (mkDlv now ifx) rs) Lf ->
    records_refresh_only c now ifx q fu rs = false ->
    q_get ty q = Some ch ->
    alive_strong (fst (fst (hr_records c now ifx q fu rs))) now ty inst = true ->
    alive_strong c now ty inst = false ->
    In inst (updated_of (fst (fst (hr_records c now ifx q fu rs))) (snd (hr_records c now ifx q fu rs))).
  Proof.
    induction rs as [|r rest IH]; intros L c HI Hsub Hcls Hq Ha1 Ha0; [simpl in *; congruence|].
    destruct (hr_records_cons c now ifx q fu r rest) as (E1 & _ & E2). cbv zeta in E1, E2. rewrite E1 in *. rewrite E2. clear E1 E2.
    simpl in Hcls.
    pose proof (add_or_update_inv L c now ifx r fu HI) as HI1.
    pose proof (aou_res_rr c now ifx r fu) as Hrr.
    pose proof (aou_frame Lf L c now ifx r fu now ty inst HI) as Hframe.
    destruct (add_or_update c now ifx r fu) as [c' res]. cbn [fst snd] in *.
    apply orb_false_iff in Hcls as [Hc1 Hc2].
    assert (Hsub0 : incl L Lf) by (intros x Hx; apply Hsub, in_app_iff; now left).
    assert (Hsub1 : incl ((L ++ [mkDlv now ifx r]) ++ map (mkDlv now ifx) rest) Lf)
      by (rewrite <- app_assoc; exact Hsub).
    destruct (hr_records_ok now ifx q fu rest _ _ HI1) as [HI2 _].
    specialize (IH (L ++ [mkDlv now ifx r]) c' HI1 Hsub1 Hc2 Hq Ha1).
    set (c2 := fst (fst (hr_records c' now ifx q fu rest))) in *.
    rewrite updated_of_app. apply in_app_iff.
    destruct (alive_strong c' now ty inst) eqn:Ea'; [left|right; now apply IH].
    (* the instance becomes strongly alive at this record *)
    assert (Hrel : relevantL Lf inst (mkDlv now ifx r) = true).
    { destruct (relevantL Lf inst (mkDlv now ifx r)) eqn:Er; [reflexivity|].
      rewrite (Hframe Hsub0 eq_refl eq_refl) in Ha0. discriminate. }
    assert (Hnew : reported_new res = true).
    { destruct (reported_new res) eqn:En; [reflexivity|]. exfalso. simpl in Hc1.
      assert (turned_alive c c' q now = true); [|congruence].
      destruct (alive_elim _ _ _ _ Ea') as (pb & p & sb & e & ab & a & Epb & Hp & Hal & _).
      unfold turned_alive. apply existsb_exists. exists (ty, ch). split; [now apply q_get_In|]. cbn [fst].
      rewrite Epb. apply existsb_exists. exists p. split; [exact Hp|]. rewrite Hal, Ea', Ha0. reflexivity. }
    destruct res as [[e [|]]|]; try discriminate. simpl in Hnew. apply negb_true_iff in Hnew.
    destruct (Hrr e true eq_refl) as (Rn & Rt & Rd).
    destruct (alive_elim _ _ _ _ Ha1) as (pb2 & p2 & sb2 & e2 & ab2 & a2 & _ & _ & _ & _ & Esb2 & He2 & _ & Hh2 & _).
    pose proof (relevantL_host Lf Htgt _ c2 inst sb2 e2 (mkDlv now ifx r) HI2 Hsub1 Esb2 He2 Hh2 Hrel) as Hr.
    unfold relevant in Hr. cbn [dl_rr] in Hr. unfold change_of, e_type, e_name in *. rewrite Rt, Rn in *.
    apply orb_true_iff in Hr as [Hr|Hr]; [apply orb_true_iff in Hr as [Hr|Hr]|].
    - (* a PTR record pointing to the instance *)
      apply andb_true_iff in Hr as [T A]. apply beq_eq in A. rewrite T in *. simpl in Hnew.
      apply negb_false_iff in Hnew. rewrite Hnew. simpl. left. unfold alias_of in *. now rewrite Rd.
    - (* its SRV / TXT record *)
      apply andb_true_iff in Hr as [T A]. apply beq_eq in A.
      assert (Hp : (r_type r =? TY_PTR) = false).
      { apply orb_true_iff in T as [T|T]; apply N.eqb_eq in T; rewrite T; reflexivity. }
      rewrite Hp. simpl. rewrite Hp. simpl. rewrite T. simpl. now left.
    - (* an address record of its host *)
      apply andb_true_iff in Hr as [Hr Hlow]. apply andb_true_iff in Hr as [Hat _]. apply beq_eq in Hlow.
      pose proof (addr_type_not_others _ Hat) as Hno.
      assert (Hp : (r_type r =? TY_PTR) = false) by (apply orb_false_iff in Hno as [Hno _]; now apply orb_false_iff in Hno).
      rewrite Hp. simpl. rewrite Hno, Hat. rewrite app_nil_r.
      unfold get_instances_on_host. apply in_flat_map. exists (inst, sb2). split; [now apply bm_get_In|]. simpl.
      destruct sb2 as [|e0 rest2]; [destruct He2|].
      rewrite (one_srv_target Lf Htgt _ c2 HI2 Hsub1 inst (e0 :: rest2) e0 e2 (bm_get_In _ _ _ Esb2) (or_introl eq_refl) He2).
      rewrite <- Hlow, beq_refl. now left.
  Qed.

  Definition upb (ch : N) (inst : bytes) (ups : list up_entry) : bool := existsb (up_is ch inst) ups.

  Definition AU (c : cache) (q : list (bytes * N)) (ups : list up_entry) : Prop :=
    forall ty ch inst, q_get ty q = Some ch -> alive_strong c now ty inst = true -> upb ch inst ups = true.

  (* the type recorded in an up entry is the type browsed on its channel *)
  Definition BI (q : list (bytes * N)) (ups : list up_entry) : Prop :=
    forall u ty, In u ups -> q_get ty q = Some (fst u) -> ty = fst (snd u).

  (* m bounds the channel numbers in use; channels are not shared between types (BI needs it) *)
  Definition sideC (q : list (bytes * N)) (ups : list up_entry) (m : N) : Prop :=
    NoDup (map snd q) /\ (forall tc, In tc q -> snd tc <= m) /\ (forall u, In u ups -> fst u <= m).

  Definition rm_ok (c : cache) (q : list (bytes * N)) (x : out) : Prop :=
    match x with OEvt ch (ERemoved ty i) => In (ty, ch) q /\ alive_strong c now ty i = false | _ => True end.

  Definition res_src (q : list (bytes * N)) (x : out) : Prop :=
    match x with OEvt ch (EResolved r) => q_get (rs_ty r) q = Some ch | _ => True end.

  Lemma upb_add ch inst ch' ty' i' ups :
    upb ch inst ups = true \/ (ch = ch' /\ inst = i') -> upb ch inst (ups_add ch' ty' i' ups) = true.
  Proof.
    unfold upb, ups_add. intros [H|[-> ->]].
    - destruct (existsb (up_is ch' i') ups); [exact H|]. rewrite existsb_app, H. reflexivity.
    - destruct (existsb (up_is ch' i') ups) eqn:E; [exact E|]. rewrite existsb_app. simpl.
      rewrite E. unfold up_is. cbn [existsb fst snd orb]. rewrite N.eqb_refl, beq_refl. reflexivity.
  Qed.

  Lemma upb_del ch inst ch' i' ups :
    upb ch inst ups = true -> (ch =? ch') && beq inst i' = false -> upb ch inst (ups_del ch' i' ups) = true.
  Proof.
    unfold upb, ups_del. intros H Hne. apply existsb_exists in H as [u [Hu Hup]].
    apply existsb_exists. exists u. split; [|exact Hup]. apply filter_In. split; [exact Hu|].
    unfold up_is in *. apply andb_true_iff in Hup as [A B]. apply N.eqb_eq in A. apply beq_eq in B.
    rewrite A, B, Hne. reflexivity.
  Qed.

  (* events emitted while cache and queriers stand still keep AU ... *)
  Lemma events_stepA c q : forall o ups,
    NoDup (map snd q) -> Forall (rm_ok c q) o ->
    (forall ty ch inst, q_get ty q = Some ch -> alive_strong c now ty inst = true ->
        upb ch inst ups = true \/ exists r, In (OEvt ch (EResolved r)) o /\ rs_name r = inst) ->
    AU c q (upsf ups o).
  Proof.
    induction o as [|x t IH]; intros ups ND Ho H.
    - intros ty ch inst Hq Ha. destruct (H ty ch inst Hq Ha) as [A|(r & [] & _)]. exact A.
    - inversion Ho as [|x0 t0 Hx Ht]; subst. unfold upsf. simpl. apply IH; [exact ND|exact Ht|].
      intros ty ch inst Hq Ha. destruct (H ty ch inst Hq Ha) as [A|(r & [E|Hin] & Hn)].
      + destruct x as [c0 [ty0 i0|r0|ty0 i0]|qs|c0 l]; simpl; auto.
        * left. apply upb_add. now left.
        * left. apply upb_del; [exact A|]. destruct ((ch =? c0) && beq inst i0) eqn:E; [|reflexivity]. exfalso.
          apply andb_true_iff in E as [E1 E2]. apply N.eqb_eq in E1. apply beq_eq in E2. subst c0 i0.
          destruct Hx as [Hin Hal]. apply q_get_In in Hq.
          rewrite (nodup_snd_inj q ty0 ty ch ND Hin Hq) in Hal. congruence.
      + subst x. simpl. left. apply upb_add. right. auto.
      + right. exists r. auto.
  Qed.

  (* ... and BI with the channel bound *)
  Lemma events_stepB q m : forall o ups,
    NoDup (map snd q) -> (forall tc, In tc q -> snd tc <= m) -> Forall (res_src q) o ->
    BI q ups -> (forall u, In u ups -> fst u <= m) ->
    BI q (upsf ups o) /\ (forall u, In u (upsf ups o) -> fst u <= m).
  Proof.
    intros o ups ND Hm Ho HB Hb.
    assert (G : forall u, In u (upsf ups o) ->
              In u ups \/ exists r, In (OEvt (fst u) (EResolved r)) o /\ snd u = (rs_ty r, rs_name r)).
    { intros u Hu. apply upsf_In in Hu as [[A _]|B]; auto. }
    rewrite Forall_forall in Ho. split.
    - intros u ty Hu Hq. destruct (G u Hu) as [A|(r & Hr & Hs)]; [now apply HB|].
      specialize (Ho _ Hr). simpl in Ho. rewrite Hs. simpl.
      apply q_get_In in Hq, Ho. apply (nodup_snd_inj q ty (rs_ty r) (fst u) ND Hq Ho).
    - intros u Hu. destruct (G u Hu) as [A|(r & Hr & Hs)]; [now apply Hb|].
      specialize (Ho _ Hr). simpl in Ho. apply q_get_In in Ho. exact (Hm _ Ho).
  Qed.

  (* the invariant for a state s, its log L, the up list and the channel bound m *)
  Definition goodC (L : list dlv) (s : st) (ups : list up_entry) (m : N) : Prop :=
    Inv L (s_cache s) /\ incl L Lf /\ AU (s_cache s) (s_q s) ups /\ BI (s_q s) ups /\ sideC (s_q s) ups m.

  (* events emitted while cache and queriers stand still *)
  Lemma still_stepC L s ups m s' o :
    goodC L s ups m -> s_cache s' = s_cache s -> s_q s' = s_q s ->
    Forall (rm_ok (s_cache s) (s_q s)) o -> Forall (res_src (s_q s)) o ->
    goodC L s' (upsf ups o) m.
  Proof.
    intros (HI & Hsub & HA & HB & (S1 & S2 & S3)) Ec Eq Hrm Hrs.
    destruct (events_stepB (s_q s) m o ups S1 S2 Hrs HB S3) as [HB' S3'].
    unfold goodC. rewrite Ec, Eq. split; [exact HI|]. split; [exact Hsub|]. split.
    - apply events_stepA; [exact S1|exact Hrm|]. intros ty ch inst Hq Ha. left. now apply (HA ty ch inst).
    - split; [exact HB'|]. split; [exact S1|]. split; [exact S2|exact S3'].
  Qed.

  Lemma silent_shrink_stepC L s ups m s' o :
    goodC L s ups m -> Inv L (s_cache s') -> shrinks_to (s_cache s) (s_cache s') -> s_q s' = s_q s ->
    Forall silent5 o -> goodC L s' (upsf ups o) m.
  Proof.
    intros (HI & Hsub & HA & HB & HS) HI' Hsh Eq Ho. rewrite (silent_upsf o ups Ho).
    unfold goodC. rewrite Eq. split; [exact HI'|]. split; [exact Hsub|]. split; [|split; assumption].
    intros ty ch inst Hq Ha. apply (HA ty ch inst Hq). eapply alive_shrinks; eauto.
  Qed.

  Lemma quiet_stepC L s ups m o s' : goodC L s ups m -> quiet s o s' -> goodC L s' (upsf ups o) m.
  Proof.
    intros Hg (Hc & Hq & _ & Ho). destruct (csteps_shr L _ _ Hc (proj1 Hg)) as [HI' Hs].
    apply (silent_shrink_stepC L s ups m); auto using cshr_shrinks, no_event_silent.
  Qed.

  Lemma evt_ok_rm c q x : evt_ok c q now x -> rm_ok c q x.
  Proof. destruct x as [ch [ty i|r|ty i]|qs|ch l]; simpl; auto. Qed.

  Lemma resolve_updated_src s updated :
    Forall (res_src (s_q s)) (snd (resolve_updated s now updated)).
  Proof.
    apply Forall_forall. intros x Hx. destruct x as [ch [ty i|r|ty i]|qs|ch l]; simpl; auto.
    destruct (resolve_updated_resolved_full s now updated ch r Hx) as (ty & ptrs & p & _ & B & _ & _ & F & _).
    subst r. exact B.
  Qed.

  Lemma resolve_updated_stepC L s ups m updated :
    goodC L s ups m ->
    goodC L (fst (resolve_updated s now updated)) (upsf ups (snd (resolve_updated s now updated))) m.
  Proof.
    intros Hg. pose proof Hg as (HI & Hsub & _).
    destruct (resolve_updated_state s now updated) as [E1 E2].
    apply (still_stepC L s ups m); auto.
    - eapply Forall_impl; [|apply (resolve_updated_evts Lf Htgt Hnames now L s updated HI Hsub)].
      intros x. apply evt_ok_rm.
    - apply resolve_updated_src.
  Qed.

  Lemma handle_read_stepC ifs L s d ups m :
    goodC L s ups m -> incl (L ++ dgram_dlvs ifs now d) Lf -> read_refresh_only ifs s now d = false ->
    goodC (L ++ dgram_dlvs ifs now d) (fst (handle_read ifs s now d)) (upsf ups (snd (handle_read ifs s now d))) m.
  Proof.
    intros Hg Hsub1 Hcls. pose proof Hg as (HI & Hsub & HA & HB & (S1 & S2 & S3)).
    unfold handle_read, read_refresh_only, dgram_dlvs in *. destruct (accepted_msg ifs d) as [msg|].
    2:{ simpl. rewrite app_nil_r. exact Hg. }
    fold (msg_records msg) in *.
    pose proof (fun ty ch => completing_response_resolves Lf Hvar Htgt Hnames L s now (d_if d) msg ty ch HI Hsub1) as Hcomp.
    pose proof (fun ty ch inst => hr_turned (d_if d) (s_q s) (for_us (s_q s) (m_answers msg)) ty ch inst
                                    (msg_records msg) L (s_cache s) HI Hsub1 Hcls) as Hturn.
    unfold handle_response in *. fold (msg_records msg) in *.
    destruct (hr_records_ok now (d_if d) (s_q s) (for_us (s_q s) (m_answers msg)) (msg_records msg) _ _ HI) as [HI1 _].
    pose proof (hr_records_found now (d_if d) (s_q s) (for_us (s_q s) (m_answers msg)) (msg_records msg) (s_cache s)) as Ho1.
    destruct (hr_records (s_cache s) now (d_if d) (s_q s) (for_us (s_q s) (m_answers msg)) (msg_records msg))
      as [[c1 o1] changes]. cbn [fst snd] in *.
    destruct (resolve_updated_state (with_cache s c1) now (updated_of c1 changes)) as [Ec Eq].
    pose proof (resolve_updated_evts Lf Htgt Hnames now _ (with_cache s c1) (updated_of c1 changes) HI1 Hsub1) as Hev.
    pose proof (resolve_updated_src (with_cache s c1) (updated_of c1 changes)) as Hsrc.
    destruct (resolve_updated (with_cache s c1) now (updated_of c1 changes)) as [s2 o2]. cbn [fst snd s_cache s_q with_cache] in *.
    rewrite upsf_app, (silent_upsf o1 ups (only_found_silent _ Ho1)).
    destruct (events_stepB (s_q s) m o2 ups S1 S2 Hsrc HB S3) as [HB' S3'].
    unfold goodC. rewrite Ec, Eq. split; [exact HI1|]. split; [exact Hsub1|]. split.
    - apply events_stepA; [exact S1| |].
      + eapply Forall_impl; [|exact Hev]. intros x. apply evt_ok_rm.
      + intros ty ch inst Hq Ha. destruct (alive_strong (s_cache s) now ty inst) eqn:Ea0; [left; now apply (HA ty ch inst)|right].
        pose proof (Hturn ty ch inst Hq Ha Ea0) as Hupd.
        destruct (alive_elim _ _ _ _ Ha) as (pb & p & sb & e & ab & a & Epb & Hp & Hal & Hps & _).
        destruct (Hcomp ty ch Hq pb p (bm_get_In _ _ _ Epb) Hp Hps) as [_ Hin]; [now rewrite Hal|now rewrite Hal|].
        exists (resolve_from_cache c1 now ty (alias_of (e_rr p))). split; [|now rewrite <- Hal].
        apply in_app_iff in Hin as [Hin|Hin]; [|exact Hin]. rewrite Forall_forall in Ho1. destruct (Ho1 _ Hin).
    - split; [exact HB'|]. split; [exact S1|]. split; [exact S2|exact S3'].
  Qed.

  Lemma reads_stepC ifs : forall ds L s ups m,
    goodC L s ups m -> incl (L ++ flat_map (dgram_dlvs ifs now) ds) Lf -> reads_refresh_only ifs s now ds = false ->
    goodC (L ++ flat_map (dgram_dlvs ifs now) ds) (fst (run_cmds (handle_read ifs) s now ds))
          (upsf ups (snd (run_cmds (handle_read ifs) s now ds))) m.
  Proof.
    induction ds as [|d rest IH]; intros L s ups m Hg Hsub Hcls; simpl in *.
    - rewrite app_nil_r. exact Hg.
    - apply orb_false_iff in Hcls as [Hh1 Hh2]. rewrite app_assoc in Hsub.
      assert (Hsub1 : incl (L ++ dgram_dlvs ifs now d) Lf)
        by (intros x Hx; apply Hsub, in_app_iff; now left).
      pose proof (handle_read_stepC ifs L s d ups m Hg Hsub1 Hh1) as H1.
      destruct (handle_read ifs s now d) as [s1 o1]. cbn [fst snd] in *.
      pose proof (IH _ s1 _ m H1 Hsub Hh2) as H2.
      destruct (run_cmds (handle_read ifs) s1 now rest) as [s2 o2]. cbn [fst snd] in *.
      rewrite upsf_app, app_assoc. exact H2.
  Qed.

  Lemma qc_ptrs_complete c ty ch : forall ptrs p,
    In p ptrs -> expires_soon p now = false -> is_valid (resolve_from_cache c now ty (alias_of (e_rr p))) = true ->
    In (OEvt ch (EResolved (resolve_from_cache c now ty (alias_of (e_rr p))))) (fst (fst (qc_ptrs c now ty ch ptrs))).
  Proof.
    induction ptrs as [|p0 rest IH]; intros p Hin Hs Hv; simpl; [destruct Hin|].
    specialize (IH p). destruct (qc_ptrs c now ty ch rest) as [[o res] unres]. simpl in *.
    destruct Hin as [->|Hin].
    - rewrite Hs, Hv. simpl. right. now left.
    - destruct (expires_soon p0 now); [now apply IH|].
      destruct (is_valid (resolve_from_cache c now ty (alias_of (e_rr p0)))); simpl; auto.
  Qed.

  Lemma exec_call_stepC L s ups m cl m' :
    goodC L s ups m -> call_fresh m cl = Some m' ->
    goodC L (fst (exec_call s now cl)) (upsf ups (snd (exec_call s now cl))) m'.
  Proof.
    intros Hg Hfr. pose proof Hg as (HI & Hsub & HA & HB & (S1 & S2 & S3)).
    destruct cl as [ty ch|ty2|inst timeout|ch]; simpl in *.
    - (* browse: a fresh channel *)
      destruct (m <? ch) eqn:Em; [|discriminate]. inversion Hfr; subst m'. apply N.ltb_lt in Em.
      destruct (exec_browse_fields s now ty ch) as (Ec & Eq & _). cbv zeta in Ec, Eq. set (q' := q_set ty ch (s_q s)) in *.
      assert (ND' : NoDup (map snd q')) by now apply (q_set_nodup ty ch (s_q s) m).
      assert (Hm' : forall tc, In tc q' -> snd tc <= ch) by (intros tc; now apply (q_set_bound ty ch (s_q s) m)).
      assert (HB0 : BI q' ups).
      { intros u ty0 Hu Hq. specialize (S3 _ Hu). apply q_get_q_set_old in Hq; [now apply HB|lia]. }
      assert (S3' : forall u, In u ups -> fst u <= ch) by (intros u Hu; specialize (S3 _ Hu); lia).
      assert (Hrm : Forall (rm_ok (s_cache s) q') (snd (exec_browse s now ty ch))).
      { apply Forall_forall. intros x Hx. apply exec_browse_out in Hx as (ptrs & p & _ & _ & _ & [->|[_ ->]]); exact I. }
      assert (Hrs : Forall (res_src q') (snd (exec_browse s now ty ch))).
      { apply Forall_forall. intros x Hx. apply exec_browse_out in Hx as (ptrs & p & _ & _ & _ & [->|[_ ->]]); [exact I|].
        simpl. unfold q'. now rewrite q_get_q_set, beq_refl. }
      destruct (events_stepB q' ch _ ups ND' Hm' Hrs HB0 S3') as [HB' S3''].
      unfold goodC. rewrite Ec, Eq. split; [exact HI|]. split; [exact Hsub|]. split.
      + apply events_stepA; [exact ND'|exact Hrm|]. intros ty0 ch0 inst Hq Ha.
        unfold q' in Hq. rewrite q_get_q_set in Hq. destruct (beq ty0 ty) eqn:Et; [|left; now apply (HA ty0 ch0 inst)].
        apply beq_eq in Et. subst ty0. inversion Hq; subst ch0. right.
        destruct (alive_elim _ _ _ _ Ha) as (pb & p & sb & e & ab & a & Epb & Hp & Hal & Hps & _).
        exists (resolve_from_cache (s_cache s) now ty (alias_of (e_rr p))). split; [|now rewrite <- Hal].
        apply exec_browse_out. exists pb, p. repeat (split; [assumption|]). right. split; [|reflexivity].
        apply (alive_is_valid Lf Htgt Hnames L (s_cache s) now ty pb p HI Hsub (bm_get_In _ _ _ Epb) Hp). now rewrite Hal.
      + split; [exact HB'|]. split; [exact ND'|]. split; [exact Hm'|exact S3''].
    - inversion Hfr; subst m'. unfold exec_stop. destruct (q_get ty2 (s_q s)) eqn:Eq; [|exact Hg].
      simpl. pose proof (cshr_remove_service_type L (s_cache s) ty2 HI) as Hs.
      split; [eapply Inv_shr; eauto|]. split; [exact Hsub|]. cbn [s_q s_cache]. split.
      + intros ty0 ch0 inst Hq Ha. apply q_get_q_remove in Hq as [Hq _]. apply (HA ty0 ch0 inst Hq).
        eapply alive_shrinks; eauto using cshr_shrinks.
      + split.
        * intros u ty0 Hu Hq. apply q_get_q_remove in Hq as [Hq _]. now apply HB.
        * split; [now apply NoDup_map_filter|]. split; [|exact S3].
          intros tc Hin. apply filter_In in Hin as [Hin _]. now apply S2.
    - inversion Hfr; subst m'. apply (quiet_stepC L s ups m); [exact Hg|]. apply (exec_call_quiet s now (CVerify inst timeout)).
    - inversion Hfr; subst m'. exact Hg.
  Qed.

  Lemma calls_stepC L : forall cls s ups m m',
    goodC L s ups m -> calls_fresh m cls = Some m' ->
    goodC L (fst (run_cmds exec_call s now cls)) (upsf ups (snd (run_cmds exec_call s now cls))) m'.
  Proof.
    induction cls as [|cl rest IH]; intros s ups m m' Hg Hfr; simpl in *.
    - inversion Hfr; subst. exact Hg.
    - destruct (call_fresh m cl) as [m1|] eqn:E1; [|discriminate].
      pose proof (exec_call_stepC L s ups m cl m1 Hg E1) as H1.
      destruct (exec_call s now cl) as [s1 o1]. cbn [fst snd] in *.
      pose proof (IH s1 _ m1 m' H1 Hfr) as H2.
      destruct (run_cmds exec_call s1 now rest) as [s2 o2]. cbn [fst snd] in *.
      rewrite upsf_app. exact H2.
  Qed.

  Lemma resolve_hosts_stepC L names : forall s ups m,
    goodC L s ups m -> goodC L (fst (resolve_hosts s now names)) (upsf ups (snd (resolve_hosts s now names))) m.
  Proof.
    induction names as [|h t IH]; intros s ups m Hg; simpl; [exact Hg|].
    pose proof (resolve_updated_stepC L s ups m (dedup (get_instances_on_host (s_cache s) h)) Hg) as H1.
    destruct (resolve_updated s now (dedup (get_instances_on_host (s_cache s) h))) as [s1 o1]. cbn [fst snd] in *.
    pose proof (IH s1 _ m H1) as H2. destruct (resolve_hosts s1 now t) as [s2 o2]. cbn [fst snd] in *.
    rewrite upsf_app. exact H2.
  Qed.

  Lemma evict_stepC L s ups m : goodC L s ups m -> goodC L (fst (evict s now)) (upsf ups (snd (evict s now))) m.
  Proof.
    intros (HI & Hsub & HA & HB & HS). unfold evict.
    pose proof (cshr_evict_services L (s_cache s) now HI) as Hs1.
    pose proof (evicted_not_alive Lf L (s_cache s) now) as Hev.
    destruct (evict_services (s_cache s) now) as [c1 expired]. cbn [fst snd] in *.
    assert (H1 : Inv L c1) by (eapply Inv_shr; eauto).
    pose proof (cshr_evict_addr L c1 now H1) as Hs2.
    destruct (evict_addr c1 now) as [c2 names]. cbn [fst] in *.
    assert (H2 : Inv L c2) by (eapply Inv_shr; eauto).
    assert (Hg2 : goodC L (with_cache s c2) ups m).
    { unfold goodC. cbn [s_cache s_q with_cache]. split; [exact H2|]. split; [exact Hsub|]. split; [|split; assumption].
      intros ty ch inst Hq Ha. apply (HA ty ch inst Hq). apply (alive_shrinks L (s_cache s) c2); [exact HI| |exact Ha].
      eapply shrinks_trans; apply cshr_shrinks; eassumption. }
    assert (Ho1 : Forall (rm_ok c2 (s_q s)) (notify_removal (s_q s) expired)).
    { apply Forall_forall. intros x Hx. apply notify_removal_shape in Hx as (ch & t & i & -> & Hq & Hin).
      simpl. split; [exact Hq|]. apply (Hev t i Hvar HI Hsub Hin). }
    assert (Ho1' : Forall (res_src (s_q s)) (notify_removal (s_q s) expired)).
    { apply Forall_forall. intros x Hx. apply notify_removal_shape in Hx as (ch & t & i & -> & _). exact I. }
    pose proof (still_stepC L (with_cache s c2) ups m (with_cache s c2) _ Hg2 eq_refl eq_refl Ho1 Ho1') as St1.
    pose proof (resolve_hosts_stepC L (dedup names) (with_cache s c2) _ m St1) as St2.
    destruct (resolve_hosts (with_cache s c2) now (dedup names)) as [s2 o2]. cbn [fst snd] in *.
    rewrite upsf_app. exact St2.
  Qed.

  Theorem iterate_complete ifs prev s it ups m m' :
    i_now it = now -> goodC prev s ups m -> incl (prev ++ iter_dlvs ifs it) Lf ->
    calls_fresh m (i_calls it) = Some m' ->
    reads_refresh_only ifs s now (deliveries_in_order (i_dgrams it)) = false ->
    goodC (prev ++ iter_dlvs ifs it) (fst (iterate ifs s it)) (upsf ups (snd (iterate ifs s it))) m'.
  Proof.
    intros Enow Hg Hsub Hfr Hcls. rewrite iterate_eq. unfold iter_dlvs in *. cbv zeta in *. cbn [fst snd]. rewrite Enow in *.
    set (dgs := deliveries_in_order (i_dgrams it)) in *.
    pose proof (reads_stepC ifs dgs prev s ups m Hg Hsub Hcls) as St1.
    set (r1 := run_cmds (handle_read ifs) s now dgs) in *.
    pose proof (calls_stepC _ (i_calls it) (fst r1) _ m m' St1 Hfr) as St2.
    set (r2 := run_cmds exec_call (fst r1) now (i_calls it)) in *.
    pose proof (retrans_refresh_quiet (fst r2) now) as Q3. cbv zeta in Q3.
    pose proof (evict_stepC _ _ _ m' (quiet_stepC _ _ _ _ _ _ St2 Q3)) as St5.
    rewrite upsf_app in St5. rewrite !upsf_app. exact St5.
  Qed.
End Complete.

Lemma upb_current q ups ch ty inst :
  BI q ups -> q_get ty q = Some ch -> upb ch inst ups = true -> upb ch inst (ups_current q ups) = true.
Proof.
  intros HB Hq H. unfold upb in *. apply existsb_exists in H as [u [Hu Hup]].
  apply existsb_exists. exists u. split; [|exact Hup]. unfold ups_current. apply filter_In. split; [exact Hu|].
  unfold up_is in Hup. apply andb_true_iff in Hup as [A _]. apply N.eqb_eq in A.
  rewrite <- A in Hq. rewrite <- (HB u ty Hu Hq). rewrite Hq. apply N.eqb_refl.
Qed.

Lemma q_set_keys ty ch q : forall t, In t (map fst (q_set ty ch q)) -> In t (map fst q) \/ t = ty.
Proof.
  induction q as [|[t0 c0] r IH]; simpl; intros t.
  - intros [<-|[]]. now right.
  - destruct (beq ty t0) eqn:E; simpl; intros [<-|H]; auto. destruct (IH t H); auto.
Qed.

Lemma q_set_nodup_fst ty ch q : NoDup (map fst q) -> NoDup (map fst (q_set ty ch q)).
Proof.
  induction q as [|[t0 c0] r IH]; simpl; intros ND; [constructor; [tauto|constructor]|].
  inversion ND as [|x l Hx ND']; subst. destruct (beq ty t0) eqn:E; simpl.
  - constructor; assumption.
  - constructor; [|now apply IH]. intros Hin. apply q_set_keys in Hin as [Hin|Hin]; [now apply Hx|].
    subst t0. now rewrite beq_refl in E.
Qed.

Lemma spec_dgram_q ifs now sp d : sp_q (spec_dgram ifs now sp d) = sp_q sp.
Proof.
  unfold spec_dgram. destruct (accepted_msg ifs d) as [m|]; [|reflexivity]. unfold spec_msg.
  destruct (hr_records (sp_c sp) now (d_if d) (sp_q sp) (for_us (sp_q sp) (m_answers m)) (msg_records m)) as [[c1 o1] ch1].
  reflexivity.
Qed.

Lemma last_scan_q ifs now : forall ds sp, sp_q (last (scan (spec_dgram ifs now) sp ds) sp) = sp_q sp.
Proof.
  induction ds as [|d rest IH]; intros sp; [reflexivity|]. simpl scan.
  destruct (scan (spec_dgram ifs now) (spec_dgram ifs now sp d) rest) as [|x xs] eqn:E.
  - simpl. apply spec_dgram_q.
  - specialize (IH (spec_dgram ifs now sp d)). rewrite E in IH.
    change (last (spec_dgram ifs now sp d :: x :: xs) sp) with (last (x :: xs) sp).
    assert (Hl : forall d0, last (x :: xs) d0 = last (x :: xs) (spec_dgram ifs now sp d)).
    { clear. generalize x. induction xs as [|y ys IHy]; intros x0 d0; [reflexivity|]. simpl. apply (IHy y). }
    rewrite (Hl sp), IH. apply spec_dgram_q.
Qed.

Lemma spec_call_nodup now sp cl : NoDup (map fst (sp_q sp)) -> NoDup (map fst (sp_q (spec_call now sp cl))).
Proof.
  intros H. destruct cl as [ty ch|ty|inst timeout|ch]; simpl; auto.
  - now apply q_set_nodup_fst.
  - destruct (q_get ty (sp_q sp)); simpl; [now apply NoDup_map_filter|exact H].
Qed.

Lemma iter_snaps_nodup ifs sp it :
  NoDup (map fst (sp_q sp)) -> NoDup (map fst (sp_q (snd (iter_snaps ifs sp it)))).
Proof.
  intros H. unfold iter_snaps. cbn [snd]. unfold spec_evict.
  match goal with |- context [evict_services ?c ?n] => destruct (evict_services c n) as [c1 ex] end.
  destruct (evict_addr c1 (i_now it)) as [c2 names]. cbn [sp_q].
  assert (G : forall cls sp0, NoDup (map fst (sp_q sp0)) -> NoDup (map fst (sp_q (fold_left (spec_call (i_now it)) cls sp0)))).
  { induction cls as [|cl rest IH]; intros sp0 H0; simpl; [exact H0|]. apply IH. now apply spec_call_nodup. }
  apply G. now rewrite last_scan_q.
Qed.
