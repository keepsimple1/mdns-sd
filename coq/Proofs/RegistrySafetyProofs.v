(* C07, safety on calm histories (any schedule): before T + 750 the service is not Announced on the interface
   and its SRV/TXT are not active there; an announcement attempt for it sends nothing. *)
From Coq Require Import List NArith Lia.
From Mdns Require Import Bytes Registry RegistryDaemon RegistryProofs RegistryDaemonProofs RegistryStepProofs
     RegistryHistoryProofs RegistrySilenceProofs RegistryLivenessProofs RegistryTimingProofs RegistryPersistProofs.
Import ListNotations.
Open Scope N_scope.

(* the probe for the instance name is in progress since T and nothing is active under that name *)
Definition Qp (n : bytes) (T : N) (rg : registry) : Prop :=
  clean rg /\ NoDup (keys (rg_probing rg)) /\ (exists p, aget n (rg_probing rg) = Some p /\ pb_start p = T) /\
  aget n (rg_active rg) = None.

Lemma Qp_ipd n T rg r svc start : p_new r = None -> Qp n T rg -> Qp n T (fst (is_probing_done rg r svc start)).
Proof.
  intros Hn (C & Hnd & (p & G & S) & A). split; [apply ipd_clean; assumption|]. split; [apply ipd_nodup; exact Hnd|].
  split; [|rewrite ipd_active; exact A].
  unfold is_probing_done. destruct (in_active rg r); [exists p; auto|]. cbv zeta. cbn [fst rg_probing]. rewrite aget_aset.
  destruct (beq n (p_name r)) eqn:B; [|exists p; auto].
  apply beq_eq in B. subst n. rewrite G. eexists. split; [reflexivity|exact S].
Qed.

Lemma Qp_clean n T rg : Qp n T rg -> rg_changes rg = [].
Proof. intros ((C & _) & _). exact C. Qed.

Lemma expire_one_active_other rg m n : n <> m -> aget n (rg_active (fst (fst (expire_one rg m)))) = aget n (rg_active rg).
Proof.
  intros Hne. unfold expire_one. destruct (aget m (rg_probing rg)) as [pb|]; [|reflexivity].
  destruct (pb_records pb); [reflexivity|]. cbn [fst rg_active]. destruct (aget m (rg_active rg)); apply aget_aset_other; exact Hne.
Qed.

Lemma expire_all_active_other n : forall names rg, ~ In n names -> aget n (rg_active (fst (fst (expire_all rg names)))) = aget n (rg_active rg).
Proof.
  induction names as [|m t IH]; intros rg Hn; [reflexivity|]. cbn [expire_all].
  pose proof (expire_one_active_other rg m n (fun E => Hn (or_introl (eq_sym E)))) as E1.
  destruct (expire_one rg m) as [[rg1 ev1] w1]. cbn [fst] in E1.
  pose proof (IH rg1 (fun H => Hn (or_intror H))) as E2. destruct (expire_all rg1 t) as [[rg2 ev2] w2]. cbn [fst] in *. congruence.
Qed.

(* a probing pass before T + 750 leaves the probe in progress and the name inactive *)
Lemma Qp_step n T rg now : now < T + 750 -> Qp n T rg -> Qp n T (fst (fst (fst (probe_step rg now)))).
Proof.
  intros Hlt (C & Hnd & (p & G & S) & A).
  destruct (probe_step_general rg now C Hnd) as (C1 & N1 & _).
  destruct (probe_step rg now) as [[[rg1 qs] evs] waiting] eqn:PS. cbn [fst] in *.
  destruct (probe_step_is_tick _ _ _ _ _ _ PS) as (ex & TK).
  pose proof (tick_names_aget rg now rg1 (map fst qs) ex n Hnd TK) as TA. rewrite G in TA.
  assert (Hx : expires now p = false).
  { destruct (expires now p) eqn:X; [|reflexivity]. apply expires_iff in X. lia. }
  split; [exact C1|]. split; [exact N1|]. split.
  - destruct (sends now p) eqn:Sd.
    + destruct TA as (_ & _ & TA). exists (tick_probe now p). split; [exact TA|]. rewrite (proj1 (hold_tick_probe now p)). exact S.
    + rewrite Hx in TA. destruct TA as (_ & _ & TA). exists p. auto.
  - assert (Hnex : ~ In n ex) by (destruct (sends now p); [exact (proj1 (proj2 TA))|rewrite Hx in TA; exact (proj1 (proj2 TA))]).
    unfold tick_names in TK. rewrite check_probes_spec in TK.
    match type of TK with context [expire_all ?r ?e] => pose proof (expire_all_active_other n e r) as EA; destruct (expire_all r e) as [[rg' ev'] w'] end.
    inversion TK; subst. cbn [fst rg_active] in EA. rewrite EA; [exact A|exact Hnex].
Qed.

Lemma probe_records_first_inactive s c rg r t :
  s_probe s = true -> in_active rg r = false -> snd (probe_records rg s c (r :: t)) = false.
Proof.
  intros Hp Hi. cbn [probe_records]. rewrite Hp. unfold is_probing_done. rewrite Hi. cbv zeta.
  match goal with |- context [probe_records ?r0 s c t] => destruct (probe_records r0 s c t) as [rg2 ok2] end. reflexivity.
Qed.

(* an announcement attempt for a probing service whose instance name has nothing active: nothing is
   sent, nothing is announced *)
Lemma announce_blocked s itf rg now js :
  s_probe s = true -> rg_changes rg = [] -> aget (s_full s) (rg_active rg) = None ->
  snd (fst (fst (announce_both s itf rg now js))) = [] /\ snd (fst (announce_both s itf rg now js)) = false.
Proof.
  intros Hp C A.
  assert (K : forall rg0 v4 js0, rg_changes rg0 = [] -> aget (s_full s) (rg_active rg0) = None ->
              snd (fst (prepare_announce s itf rg0 v4 now js0)) = None /\
              rg_changes (fst (fst (prepare_announce s itf rg0 v4 now js0))) = [] /\
              aget (s_full s) (rg_active (fst (fst (prepare_announce s itf rg0 v4 now js0)))) = None).
  { intros rg0 v4 js0 C0 A0. pose proof (prepare_announce_stable s itf rg0 v4 now js0) as [PA PC].
    split; [|split; [rewrite PC; exact C0|rewrite PA; exact A0]].
    unfold prepare_announce. destruct (addrs_on_intf s itf v4) as [|b l] eqn:EA; [reflexivity|]. destruct (draw js0) as [j js'].
    assert (Hin : in_active rg0 (srv_rec rg0 s) = false).
    { unfold in_active, srv_rec. rewrite p_name_with_change by reflexivity. unfold resolve_name. rewrite C0. cbn [aget]. rewrite A0. reflexivity. }
    pose proof (probe_records_first_inactive s (now + j) rg0 (srv_rec rg0 s) (txt_rec rg0 s :: map (addr_rec rg0 s itf) (addrs_on_intf s itf v4)) Hp Hin) as F.
    unfold announce_records.
    destruct (probe_records rg0 s (now + j) (srv_rec rg0 s :: txt_rec rg0 s :: map (addr_rec rg0 s itf) (addrs_on_intf s itf v4))) as [rg' ok]. cbn [snd] in F. subst ok. reflexivity. }
  unfold announce_both. destruct (K rg true js C A) as (M4 & C4 & A4). destruct (prepare_announce s itf rg true now js) as [[rg1 m4] js1]. cbn [fst snd] in *.
  destruct (K rg1 false js1 C4 A4) as (M6 & _ & _). destruct (prepare_announce s itf rg1 false now js1) as [[rg2 m6] js2]. cbn [fst snd] in *.
  subst m4 m6. split; reflexivity.
Qed.

(* the service under key is registered and not Announced on interface k *)
Definition UA (k : N) (key : bytes) (svcs : list (bytes * svc)) : Prop :=
  exists s, aget key svcs = Some s /\ announced_on k s = false.

Lemma UA_sput k key svcs k0 s1 i x :
  UA k key svcs -> aget k0 svcs = Some s1 -> (k0 = key -> i <> k) -> UA k key (sput k0 (set_status i x s1) svcs).
Proof.
  intros (s & G & A) G1 Hc. unfold UA, sput. rewrite aget_aset. destruct (beq key k0) eqn:B; [|exists s; auto].
  apply beq_eq in B. subst k0. eexists. split; [reflexivity|]. rewrite G in G1. inversion G1; subst.
  unfold announced_on, set_status in *. cbn [s_status]. rewrite nget_nset_other by (intros E; apply (Hc eq_refl); symmetry; exact E). exact A.
Qed.

Section Unann.
  Variables (s0 : svc) (itf : intf) (T : N).
  Let k := if_index itf.
  Let key := lower (s_full s0).
  Hypothesis Hprobe : s_probe s0 = true.
  (* QP: the instance name is being probed since T and nothing is active under it; KU: interface k in
     that state, and the service not Announced there *)
  Definition QP := Qp (s_full s0) T.
  Definition KU (st : dstate) : Prop := Kept QP k key s0 itf st /\ UA k key (d_svcs st).

  (* a registry in state QP blocks every announcement attempt for our service, on whatever interface *)
  Lemma blocked_for s itf' rg now js : svc_eqv s0 s -> QP rg ->
    snd (fst (fst (announce_both s itf' rg now js))) = [] /\ snd (fst (announce_both s itf' rg now js)) = false.
  Proof.
    intros [(A & B & C & _) P] (Cl & _ & _ & Ac). apply announce_blocked; [rewrite <- P; exact Hprobe|exact (proj1 Cl)|rewrite <- C; exact Ac].
  Qed.

  Lemma register_resend_UA st full i now js : KU st -> UA k key (d_svcs (fst (fst (register_resend st full i now js)))).
  Proof.
    intros [(D & F & (rg & G & HQ) & (s & GS & QS)) U]. unfold register_resend.
    destruct (aget (lower full) (d_svcs st)) as [s1|] eqn:G1; [|exact U].
    destruct (nget i (d_regs st)) as [rg0|] eqn:G0; [|exact U]. destruct (find_intf st i) as [itf'|]; [|exact U].
    destruct (announce_both s1 itf' rg0 now js) as [[[rg' os] ann] js'] eqn:AB. destruct ann; [|exact U]. cbn [fst d_svcs].
    apply UA_sput; [exact U|exact G1|]. intros Ek Ei. subst i. fold key in GS. rewrite Ek, GS in G1. inversion G1; subst s1.
    rewrite G in G0. inversion G0; subst rg0. destruct (blocked_for s itf' rg now js QS HQ) as [_ Hb]. rewrite AB in Hb. discriminate.
  Qed.

  Lemma run_due_KU now due st js : KU st -> KU (fst (fst (run_due st due now js))).
  Proof.
    apply (run_due_phase (keeps KU) (keeps_nil _) (keeps_app _)). intros st0 [t c] js0 _ H. destruct c; [|exact H].
    split; [apply (register_resend_Kept QP (Qp_ipd _ T) (Qp_clean _ T)); exact (proj1 H)|apply register_resend_UA; exact H].
  Qed.

  Lemma exec_calls_UA now cs st js : Forall (calm_call key) cs -> UA k key (d_svcs st) -> UA k key (d_svcs (fst (fst (exec_calls st cs now js)))).
  Proof.
    intros Hc. apply (exec_calls_phase (keeps (fun s => UA k key (d_svcs s))) (keeps_nil _) (keeps_app _)). intros st0 c js0 I H.
    pose proof (proj1 (Forall_forall _ _) Hc c I) as Hc1. destruct c; cbn [calm_call] in Hc1; try contradiction; cbn [exec_call]; try exact H.
    unfold register_service. destruct (register_intfs (d_intfs st0) (auto_addrs st0 s) (d_regs st0) now js0) as [[[[s' regs] os] anns] js']. cbn [fst d_svcs].
    destruct H as (s1 & G & A). exists s1. split; [|exact A]. rewrite aget_sput_other; [exact G|]. rewrite auto_addrs_full. intros X. apply Hc1. symmetry. exact X.
  Qed.

  (* announce_waiting on any interface: on k the registry blocks our service, elsewhere the status on k is not touched *)
  Lemma announce_waiting_UA itf' now m : forall waiting rg svcs js,
    (if_index itf' = k -> QP rg) -> svc_at key s0 svcs -> UA k key svcs ->
    UA k key (snd (fst (fst (fst (announce_waiting waiting itf' rg svcs now js m))))).
  Proof.
    induction waiting as [|w t IH]; intros rg svcs js HQ SA U; [exact U|]. cbn [announce_waiting].
    destruct (aget (lower w) svcs) as [s|] eqn:G; [|apply IH; assumption]. destruct (announced_on (if_index itf') s); [apply IH; assumption|].
    assert (HQ1 : if_index itf' = k -> QP (fst (fst (fst (announce_both s itf' rg now js))))).
    { intros E. apply (announce_both_Q QP (Qp_ipd _ T) (Qp_clean _ T)). exact (HQ E). }
    destruct (announce_both s itf' rg now js) as [[[rg1 os] ann] js1] eqn:AB. cbn [fst] in HQ1. destruct ann.
    - assert (U1 : UA k key (sput (lower w) (set_status (if_index itf') SAnnounced s) svcs)).
      { apply UA_sput; [exact U|exact G|]. intros Ek Ei. destruct SA as (s1 & G1 & Q1). rewrite Ek, G1 in G. inversion G; subst s1.
        destruct (blocked_for s itf' rg now js Q1 (HQ Ei)) as [_ Hb]. rewrite AB in Hb. discriminate. }
      specialize (IH rg1 _ js1 HQ1 (svc_at_sput key s0 svcs (lower w) s _ _ SA G) U1).
      destruct (announce_waiting t itf' rg1 _ now js1 m) as [[[[rg2 svcs2] os2] rt2] js2]. exact IH.
    - specialize (IH rg1 svcs js1 HQ1 SA U). destruct (announce_waiting t itf' rg1 svcs now js1 m) as [[[[rg2 svcs2] os2] rt2] js2]. exact IH.
  Qed.

  Lemma pass_KU now i0 st js : now < T + 750 -> KU st -> KU (fst (fst (pass i0 st now js))).
  Proof.
    intros Hlt H. split; [exact (pass_Kept QP (Qp_ipd _ T) (Qp_clean _ T) (fun n => n < T + 750) (fun rg n Hn HQ => Qp_step _ T rg n Hn HQ) k key s0 itf now Hlt i0 st js (proj1 H))|].
    unfold pass. destruct (nget (if_index i0) (d_regs st)) as [rg|] eqn:G; [|exact (proj2 H)].
    pose proof (Qp_step (s_full s0) T rg now Hlt) as HS. destruct (probe_step rg now) as [[[rg1 qs] evs] waiting]. cbn [fst] in HS.
    assert (HQ : if_index i0 = k -> QP rg1).
    { intros E. apply HS. destruct H as [(_ & _ & (r0 & G0 & H0) & _) _]. rewrite E in G. rewrite G0 in G. inversion G; subst. exact H0. }
    pose proof (announce_waiting_UA i0 now (d_mon st) waiting rg1 (d_svcs st) js HQ (proj2 (proj2 (proj2 (proj1 H)))) (proj2 H)) as UU.
    destruct (announce_waiting waiting i0 rg1 (d_svcs st) now js (d_mon st)) as [[[[rg2 svcs2] os2] rt2] js2]. exact UU.
  Qed.

  (* ONE CALM ITERATION before T + 750, at any time, late or not *)
  Lemma calm_iteration_KU st it st' os js :
    it_now it < T + 750 -> calm_iter key it -> iterate st it = (st', os, Running, js) -> KU st -> KU st'.
  Proof.
    intros Hlt Hc Hit [HK HU].
    destruct (calm_prefix QP (Qp_ipd _ T) (Qp_clean _ T) k key s0 itf st it st' os js Hc Hit HK)
      as (st1 & os1 & js1 & st2 & os2 & js2 & st3 & os3 & js3 & os4 & E1 & E2 & E3 & E4 & _ & _ & K2 & _ & _).
    destruct (handle_dgrams_frame (it_now it) (it_gs it) st (it_jitter it)) as (_ & S1 & _). rewrite E1 in S1. cbn [fst] in S1.
    assert (U1 : UA k key (d_svcs st1)) by (rewrite S1; exact HU).
    pose proof (exec_calls_UA (it_now it) (it_calls it) st1 js1 (proj2 Hc) U1) as U2. rewrite E2 in U2. cbn [fst] in U2.
    assert (KU3 : KU st3).
    { unfold retransmit in E3. match type of E3 with run_due ?s ?d _ _ = _ => pose proof (run_due_KU (it_now it) d s js2) as K end.
      rewrite E3 in K. apply K. destruct K2 as (D & F & R & S). split; [repeat split; assumption|exact U2]. }
    pose proof (probing_intfs_phase (keeps KU) (keeps_nil _) (keeps_app _) (it_now it) (d_intfs st3) (fun st0 i0 js0 _ => pass_KU (it_now it) i0 st0 js0 Hlt) st3 js3 KU3) as K4.
    rewrite E4 in K4. exact K4.
  Qed.

  (* SAFETY over calm histories, whatever the schedule: through every history of calm iterations before
     T + 750 the service is not Announced on the interface and nothing is active under its instance name *)
  Theorem unannounced_before_T750 : forall its st,
    KU st -> Forall (calm_iter key) its -> all_running st its -> Forall (fun it => it_now it < T + 750) its ->
    KU (run_state st its).
  Proof.
    induction its as [|it rest IH]; intros st H Hc Hr Ht; [exact H|].
    apply Forall_cons_iff in Hc as [Hc1 Hc2]. apply Forall_cons_iff in Ht as [Ht1 Ht2]. cbn [all_running] in Hr. destruct Hr as [Hr1 Hr2].
    cbn [run_state]. destruct (iterate st it) as [[[st1 os1] e1] js1] eqn:Hit. cbn [fst snd] in *. subst e1.
    apply IH; try assumption. exact (calm_iteration_KU st it st1 os1 js1 Ht1 Hc1 Hit H).
  Qed.
End Unann.
