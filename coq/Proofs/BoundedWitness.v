(* C20: concrete histories - the refutations of the literal property statements on the model
   of the code as it is, and a legitimate history that satisfies the checker.  The claims about
   them are evaluated in Props/C20.v, except for the longest history (w_repeat_run, w_repeat_ok
   below).  Names are byte strings in the crate's dotted presentation; SRV data is priority,
   weight, port (80) and host.  No axioms. *)
From Coq Require Import List NArith.
From Mdns Require Import BoundedModel BoundedSpec.
Import ListNotations.
Open Scope N_scope.

Definition reported (m : sample) : list N := [m_ptr m; m_srv m; m_txt m; m_addr m; m_nsec m; m_sub m; m_timer m].
Definition has_search (c : bcall) : bool :=
  match c with BBrowse _ | BResolveHost _ _ => true | _ => false end.
Definition t0 : N := 1000000.

(* nobody searches anything; one response without PTR carries SRV and TXT of
   "u1._junk._tcp.local." and A of "junk1.local." (10.0.0.1) *)
Definition w_unneeded : list biter :=
  [ mkBI 1000010 [] [mkBM 2 [mkBR true 33 [117; 49; 46; 95; 106; 117; 110; 107; 46; 95; 116; 99; 112; 46; 108; 111; 99; 97; 108; 46] 1 true 120 [0; 0; 0; 0; 0; 80; 106; 117; 110; 107; 49; 46; 108; 111; 99; 97; 108; 46] [106; 117; 110; 107; 49; 46; 108; 111; 99; 97; 108; 46]; mkBR true 16 [117; 49; 46; 95; 106; 117; 110; 107; 46; 95; 116; 99; 112; 46; 108; 111; 99; 97; 108; 46] 1 true 120 [3; 97; 61; 49] []; mkBR true 1 [106; 117; 110; 107; 49; 46; 108; 111; 99; 97; 108; 46] 1 true 120 [10; 0; 0; 1] []]];
    mkBI 1000020 [BMetrics] [] ].

(* browse "_printer._sub._http._tcp.local.", one PTR (TTL 10 s) to "alpha._http._tcp.local.", stop;
   more than an hour later *)
Definition w_subtype : list biter :=
  [ mkBI 1000000 [BSetIpInterval 0; BBrowse [95; 112; 114; 105; 110; 116; 101; 114; 46; 95; 115; 117; 98; 46; 95; 104; 116; 116; 112; 46; 95; 116; 99; 112; 46; 108; 111; 99; 97; 108; 46]] [];
    mkBI 1000010 [] [mkBM 2 [mkBR true 12 [95; 112; 114; 105; 110; 116; 101; 114; 46; 95; 115; 117; 98; 46; 95; 104; 116; 116; 112; 46; 95; 116; 99; 112; 46; 108; 111; 99; 97; 108; 46] 1 false 10 [97; 108; 112; 104; 97; 46; 95; 104; 116; 116; 112; 46; 95; 116; 99; 112; 46; 108; 111; 99; 97; 108; 46] [97; 108; 112; 104; 97; 46; 95; 104; 116; 116; 112; 46; 95; 116; 99; 112; 46; 108; 111; 99; 97; 108; 46]]];
    mkBI 1000020 [BMetrics; BStopBrowse [95; 112; 114; 105; 110; 116; 101; 114; 46; 95; 115; 117; 98; 46; 95; 104; 116; 116; 112; 46; 95; 116; 99; 112; 46; 108; 111; 99; 97; 108; 46]] [];
    mkBI 5000000 [BMetrics] [];
    mkBI 5001000 [BMetrics] [] ].

(* resolve "nas.local."; its address record (192.168.1.77) announced twelve times within 1.2 s *)
Definition w_repeat : list biter :=
  [ mkBI 1000000 [BSetIpInterval 0; BResolveHost [110; 97; 115; 46; 108; 111; 99; 97; 108; 46] None] [];
    mkBI 1000100 [] [mkBM 2 [mkBR true 1 [110; 97; 115; 46; 108; 111; 99; 97; 108; 46] 1 true 120 [192; 168; 1; 77] []]];
    mkBI 1000200 [] [mkBM 2 [mkBR true 1 [110; 97; 115; 46; 108; 111; 99; 97; 108; 46] 1 true 120 [192; 168; 1; 77] []]];
    mkBI 1000300 [] [mkBM 2 [mkBR true 1 [110; 97; 115; 46; 108; 111; 99; 97; 108; 46] 1 true 120 [192; 168; 1; 77] []]];
    mkBI 1000400 [] [mkBM 2 [mkBR true 1 [110; 97; 115; 46; 108; 111; 99; 97; 108; 46] 1 true 120 [192; 168; 1; 77] []]];
    mkBI 1000500 [] [mkBM 2 [mkBR true 1 [110; 97; 115; 46; 108; 111; 99; 97; 108; 46] 1 true 120 [192; 168; 1; 77] []]];
    mkBI 1000600 [] [mkBM 2 [mkBR true 1 [110; 97; 115; 46; 108; 111; 99; 97; 108; 46] 1 true 120 [192; 168; 1; 77] []]];
    mkBI 1000700 [] [mkBM 2 [mkBR true 1 [110; 97; 115; 46; 108; 111; 99; 97; 108; 46] 1 true 120 [192; 168; 1; 77] []]];
    mkBI 1000800 [] [mkBM 2 [mkBR true 1 [110; 97; 115; 46; 108; 111; 99; 97; 108; 46] 1 true 120 [192; 168; 1; 77] []]];
    mkBI 1000900 [] [mkBM 2 [mkBR true 1 [110; 97; 115; 46; 108; 111; 99; 97; 108; 46] 1 true 120 [192; 168; 1; 77] []]];
    mkBI 1001000 [] [mkBM 2 [mkBR true 1 [110; 97; 115; 46; 108; 111; 99; 97; 108; 46] 1 true 120 [192; 168; 1; 77] []]];
    mkBI 1001100 [] [mkBM 2 [mkBR true 1 [110; 97; 115; 46; 108; 111; 99; 97; 108; 46] 1 true 120 [192; 168; 1; 77] []]];
    mkBI 1001200 [] [mkBM 2 [mkBR true 1 [110; 97; 115; 46; 108; 111; 99; 97; 108; 46] 1 true 120 [192; 168; 1; 77] []]];
    mkBI 1001300 [BMetrics] [] ].

(* the run is evaluated once per rule; the claims below are read off its result *)
Lemma w_repeat_run pol : run pol t0 w_repeat = repeat [] 13 ++ [[mkSample 0 0 0 1 0 0 26 0 11]].
Proof. destruct pol; vm_compute; reflexivity. Qed.

Lemma w_repeat_ok :
  exists tm, map (map reported) (run PCode t0 w_repeat) = repeat [] 13 ++ [[[0; 0; 0; 1; 0; 0; tm]]]
  /\ 24 <= tm
  /\ map (map m_timer_allow) (run PNeed t0 w_repeat) = repeat [] 13 ++ [[11]]
  /\ run PNeed t0 w_repeat = run PCode t0 w_repeat
  /\ chk_timers t0 w_repeat (run PCode t0 w_repeat) = false.
Proof.
  unfold chk_timers, chk_with. rewrite !w_repeat_run. exists 26. vm_compute.
  repeat split; try reflexivity. intros H; discriminate H.
Qed.

(* resolve "nas.local." with a 1000 s timeout, stopped (as "NAS.local.") after 100 ms *)
Definition w_stale : list biter :=
  [ mkBI 1000000 [BSetIpInterval 0; BResolveHost [110; 97; 115; 46; 108; 111; 99; 97; 108; 46] (Some 1000000)] [];
    mkBI 1000100 [BStopHost [78; 65; 83; 46; 108; 111; 99; 97; 108; 46]] [];
    mkBI 1010000 [BMetrics] [];
    mkBI 1011000 [BMetrics] [] ].

(* a legitimate history: browse "_http._tcp.local."; one announcement of "alpha._http._tcp.local."
   on "alpha-host.local." (PTR + SRV + TXT + A 192.168.1.40); stop; wait *)
Definition w_legit : list biter :=
  [ mkBI 1000000 [BSetIpInterval 0; BBrowse [95; 104; 116; 116; 112; 46; 95; 116; 99; 112; 46; 108; 111; 99; 97; 108; 46]] [];
    mkBI 1000010 [] [mkBM 2 [mkBR true 12 [95; 104; 116; 116; 112; 46; 95; 116; 99; 112; 46; 108; 111; 99; 97; 108; 46] 1 false 4500 [97; 108; 112; 104; 97; 46; 95; 104; 116; 116; 112; 46; 95; 116; 99; 112; 46; 108; 111; 99; 97; 108; 46] [97; 108; 112; 104; 97; 46; 95; 104; 116; 116; 112; 46; 95; 116; 99; 112; 46; 108; 111; 99; 97; 108; 46]; mkBR false 33 [97; 108; 112; 104; 97; 46; 95; 104; 116; 116; 112; 46; 95; 116; 99; 112; 46; 108; 111; 99; 97; 108; 46] 1 true 120 [0; 0; 0; 0; 0; 80; 97; 108; 112; 104; 97; 45; 104; 111; 115; 116; 46; 108; 111; 99; 97; 108; 46] [97; 108; 112; 104; 97; 45; 104; 111; 115; 116; 46; 108; 111; 99; 97; 108; 46]; mkBR false 16 [97; 108; 112; 104; 97; 46; 95; 104; 116; 116; 112; 46; 95; 116; 99; 112; 46; 108; 111; 99; 97; 108; 46] 1 true 4500 [3; 97; 61; 49] []; mkBR false 1 [97; 108; 112; 104; 97; 45; 104; 111; 115; 116; 46; 108; 111; 99; 97; 108; 46] 1 true 120 [192; 168; 1; 40] []]];
    mkBI 1000020 [BMetrics] [];
    mkBI 1130000 [BMetrics; BStopBrowse [95; 104; 116; 116; 112; 46; 95; 116; 99; 112; 46; 108; 111; 99; 97; 108; 46]] [];
    mkBI 6000000 [BMetrics] [];
    mkBI 6001000 [BMetrics] [] ].

(* state that get_metrics does not show.  Browse "_http._tcp.local."; a PTR to
   "alpha._http._tcp.local." whose SRV never comes, and a PTR of "_foreign._tcp.local.", which nobody
   browses (refused, but its map key is created); stop.  The instance waits in pending_resolves
   until its first follow-up comes due; as stop_browse removed the PTR, the series ends there and
   the instance leaves pending_resolves; the foreign type keeps an (empty) bucket in the PTR map
   for ever *)
Definition w_hidden : list biter :=
  [ mkBI 1000000 [BSetIpInterval 0; BBrowse [95; 104; 116; 116; 112; 46; 95; 116; 99; 112; 46; 108; 111; 99; 97; 108; 46]] [];
    mkBI 1000010 [] [mkBM 2 [mkBR true 12 [95; 104; 116; 116; 112; 46; 95; 116; 99; 112; 46; 108; 111; 99; 97; 108; 46] 1 false 10 [97; 108; 112; 104; 97; 46; 95; 104; 116; 116; 112; 46; 95; 116; 99; 112; 46; 108; 111; 99; 97; 108; 46] [97; 108; 112; 104; 97; 46; 95; 104; 116; 116; 112; 46; 95; 116; 99; 112; 46; 108; 111; 99; 97; 108; 46]]; mkBM 2 [mkBR true 12 [95; 102; 111; 114; 101; 105; 103; 110; 46; 95; 116; 99; 112; 46; 108; 111; 99; 97; 108; 46] 1 false 10 [102; 49; 46; 95; 102; 111; 114; 101; 105; 103; 110; 46; 95; 116; 99; 112; 46; 108; 111; 99; 97; 108; 46] [102; 49; 46; 95; 102; 111; 114; 101; 105; 103; 110; 46; 95; 116; 99; 112; 46; 108; 111; 99; 97; 108; 46]]];
    mkBI 1000020 [BStopBrowse [95; 104; 116; 116; 112; 46; 95; 116; 99; 112; 46; 108; 111; 99; 97; 108; 46]] [];
    mkBI 1000100 [] [];
    mkBI 1000510 [] [];
    mkBI 1001010 [] [];
    mkBI 1001510 [] [];
    mkBI 5000000 [BMetrics] [] ].

(* an idle iteration after the stopped search: only popping, the stale deadline timer stays *)
Definition w_idle_iter : biter := mkBI 1012000 [] [].
