(* Daemon-level refinement for C11: the cache / refresh / evict layer of Model/LifeCache.v is one
   Gallina text, parametric in the record operations.  If two instances have related record
   operations (ops_rel), every history of loop iterations yields the same observations
   (refresh queries with their questions, ServiceRemoved / AddressesRemoved), answer sections
   of the queries aside.  Instantiated with the code's operations (trec_ops) and the property's
   literal ones (astate_ops) this is the monitor theorem of the simulated-daemon level. *)
From Coq Require Import List NArith Bool.
From Mdns Require Import Res Bytes ParamsLife Life LifeSpec LifeCache LifeProofs.
Import ListNotations.
Open Scope N_scope.

Definition res_rel {A B} (P : A -> B -> Prop) (x : res A) (y : res B) : Prop :=
  exists a b, x = Ok a /\ y = Ok b /\ P a b.

Lemma res_rel_ret {A B} (P : A -> B -> Prop) a b : P a b -> res_rel P (Ok a) (Ok b).
Proof. intros H. exists a, b. auto. Qed.

Lemma res_rel_bind {A A' B B'} (P : A -> A' -> Prop) (Q : B -> B' -> Prop) x x' f f' :
  res_rel P x x' -> (forall a a', P a a' -> res_rel Q (f a) (f' a')) ->
  res_rel Q (bind x f) (bind x' f').
Proof. intros (a & a' & -> & -> & H) Hf. exact (Hf a a' H). Qed.

Inductive prod_rel {A B C D} (P : A -> B -> Prop) (Q : C -> D -> Prop) : A * C -> B * D -> Prop :=
| prod_rel_intro a b c d : P a b -> Q c d -> prod_rel P Q (a, c) (b, d).

Definition opt_rel {A B} (R : A -> B -> Prop) (a : option A) (b : option B) : Prop :=
  match a, b with Some x, Some y => R x y | None, None => True | _, _ => False end.

Definition any_rel {A B} (_ : A) (_ : B) : Prop := True.

Lemma flat_map_Forall2 {A B C} (R : A -> B -> Prop) (f : A -> list C) (g : B -> list C) l1 l2 :
  Forall2 R l1 l2 -> (forall a b, R a b -> f a = g b) -> flat_map f l1 = flat_map g l2.
Proof.
  intros H Hfg. induction H as [|a b l1 l2 Hab Hl IH]; [reflexivity|].
  simpl. rewrite IH, (Hfg a b Hab). reflexivity.
Qed.

Section Rel.
Variables (T1 T2 : Type) (O1 : ops T1) (O2 : ops T2) (Rt : T1 -> T2 -> Prop).

Record ops_rel : Prop := mkRel {
  rel_new : forall now ttl, now < B63 -> 1 <= ttl -> ttl < U32 ->
    res_rel Rt (op_new O1 now ttl) (op_new O2 now ttl);
  rel_expired : forall t1 t2 now, Rt t1 t2 -> op_expired O1 t1 now = op_expired O2 t2 now;
  rel_refresh : forall t1 t2 now, Rt t1 t2 ->
    res_rel (prod_rel Rt eq) (op_refresh O1 t1 now) (op_refresh O2 t2 now);
  rel_refresh_once : forall t1 t2 now, Rt t1 t2 ->
    res_rel (prod_rel Rt eq) (op_refresh_once O1 t1 now) (op_refresh_once O2 t2 now);
  rel_reset : forall t1 t2 ttl now, Rt t1 t2 -> now < B63 -> 1 <= ttl -> ttl < U32 ->
    res_rel Rt (op_reset O1 t1 ttl now) (op_reset O2 t2 ttl now);
  rel_should_flush : forall inc id t1 t2 now, Rt t1 t2 -> now < B63 ->
    res_rel eq (op_should_flush O1 inc id t1 now) (op_should_flush O2 inc id t2 now);
  rel_shorten : forall inc id t1 t2 now, Rt t1 t2 -> now < B63 ->
    op_should_flush O2 inc id t2 now = Ok true ->
    Rt (fst (op_shorten O1 t1 now)) (fst (op_shorten O2 t2 now)) /\
    snd (op_shorten O1 t1 now) = snd (op_shorten O2 t2 now);
  rel_ka : forall t1 t2 now, Rt t1 t2 -> res_rel any_rel (op_ka_ttl O1 t1 now) (op_ka_ttl O2 t2 now);
  rel_ttl : forall t1 t2, Rt t1 t2 -> op_ttl O1 t1 = op_ttl O2 t2 }.

Hypothesis HR : ops_rel.

Definition Re (e1 : centry T1) (e2 : centry T2) : Prop := c_id e1 = c_id e2 /\ Rt (c_t e1) (c_t e2).
Definition Rb (b1 : bucket T1) (b2 : bucket T2) : Prop := Forall2 Re b1 b2.
Definition Rc (c1 : cache T1) (c2 : cache T2) : Prop :=
  Forall2 (fun x y => fst x = fst y /\ Rb (snd x) (snd y)) c1 c2.

Lemma Rb_is_nil b1 b2 : Rb b1 b2 -> is_nil b1 = is_nil b2.
Proof. intros H. destruct H; reflexivity. Qed.

Lemma flush_pass_rel inc now b1 b2 :
  Rb b1 b2 -> now < B63 ->
  res_rel (prod_rel Rb eq) (flush_pass T1 O1 inc now b1) (flush_pass T2 O2 inc now b2).
Proof.
  intros H Hn. induction H as [|e1 e2 b1 b2 [Hid Ht] Hb IH].
  { apply res_rel_ret. constructor; [constructor | reflexivity]. }
  (* the flush decision of the second instance is needed as an equation for rel_shorten *)
  destruct (rel_should_flush HR inc (c_id e2) _ _ now Ht Hn) as (f & ? & F1 & F2 & <-).
  simpl. rewrite Hid, F1, F2. simpl.
  eapply res_rel_bind; [exact IH|]. intros ? ? [r1 r2 ts ? Hr <-].
  destruct f.
  - destruct (rel_shorten HR inc (c_id e2) _ _ now Ht Hn F2) as [Hs Htm].
    destruct (op_shorten O1 (c_t e1) now) as [t1' tm1]. destruct (op_shorten O2 (c_t e2) now) as [t2' tm2].
    simpl in Hs, Htm. subst tm2. apply res_rel_ret.
    constructor; [|reflexivity]. constructor; [split; [reflexivity | exact Hs] | exact Hr].
  - apply res_rel_ret. constructor; [|reflexivity]. constructor; [split; assumption | exact Hr].
Qed.

Lemma reset_first_rel inc ttl now b1 b2 :
  Rb b1 b2 -> now < B63 -> 1 <= ttl -> ttl < U32 ->
  res_rel (opt_rel (prod_rel Rb eq)) (reset_first T1 O1 inc ttl now b1) (reset_first T2 O2 inc ttl now b2).
Proof.
  intros H Hn H1 H2. induction H as [|e1 e2 b1 b2 [Hid Ht] Hb IH]; [apply res_rel_ret; exact I|].
  simpl. rewrite Hid. destruct (matches (c_id e2) inc).
  - rewrite (rel_ttl HR _ _ Ht).
    eapply res_rel_bind; [apply (rel_reset HR); eassumption|]. intros t1' t2' Hr. apply res_rel_ret. simpl.
    constructor; [|reflexivity]. constructor; [split; [reflexivity | exact Hr] | exact Hb].
  - eapply res_rel_bind; [exact IH|]. intros [[x1 v1]|] [[x2 v2]|] Hr; try contradiction; apply res_rel_ret; [|exact I].
    simpl in *. inversion Hr; subst. constructor; [|reflexivity]. constructor; [split; assumption | assumption].
Qed.

Lemma add_or_update_rel b1 b2 inc ttl now ifu :
  Rb b1 b2 -> now < B63 -> 1 <= ttl -> ttl < U32 ->
  res_rel (opt_rel (prod_rel (prod_rel Rb eq) eq))
    (add_or_update T1 O1 b1 inc ttl now ifu) (add_or_update T2 O2 b2 inc ttl now ifu).
Proof.
  intros Hb Hn H1 H2. unfold add_or_update.
  eapply res_rel_bind; [apply (rel_new HR); assumption|]. intros t1 t2 Hnew.
  rewrite (Rb_is_nil _ _ Hb).
  destruct (is_nil b2 && negb ifu); [apply res_rel_ret; exact I|].
  eapply res_rel_bind with (P := prod_rel Rb eq).
  { destruct (i_flush inc); [apply flush_pass_rel; assumption|].
    apply res_rel_ret. constructor; [assumption | reflexivity]. }
  intros ? ? [b1' b2' ts ? Hb' <-]. simpl.
  eapply res_rel_bind; [apply reset_first_rel; eassumption|].
  intros [[x1 v1]|] [[x2 v2]|] Hr; try contradiction; apply res_rel_ret; simpl.
  - inversion Hr; subst. repeat constructor. assumption.
  - repeat constructor; assumption.
Qed.

Lemma filter_rel (f1 : centry T1 -> bool) (f2 : centry T2 -> bool) b1 b2 :
  Rb b1 b2 -> (forall e1 e2, Re e1 e2 -> f1 e1 = f2 e2) -> Rb (filter f1 b1) (filter f2 b2).
Proof.
  intros H Hf. induction H as [|e1 e2 b1 b2 He Hb IH]; [constructor|].
  simpl. rewrite (Hf _ _ He). destruct (f2 e2); [constructor; assumption | assumption].
Qed.

Lemma evict_rel b1 b2 now :
  Rb b1 b2 -> Rb (fst (evict T1 O1 b1 now)) (fst (evict T2 O2 b2 now)) /\
              Rb (snd (evict T1 O1 b1 now)) (snd (evict T2 O2 b2 now)).
Proof.
  intros H. unfold evict. simpl. split; apply filter_rel; auto; intros e1 e2 [_ Ht];
    rewrite (rel_expired HR _ _ now Ht); reflexivity.
Qed.

Lemma refresh_bucket_rel now b1 b2 :
  Rb b1 b2 -> res_rel (prod_rel Rb eq) (refresh_bucket T1 O1 b1 now) (refresh_bucket T2 O2 b2 now).
Proof.
  induction 1 as [|e1 e2 b1 b2 [Hid Ht] Hb IH]; [apply res_rel_ret; constructor; [constructor | reflexivity]|].
  simpl. eapply res_rel_bind; [apply (rel_refresh HR), Ht|]. intros ? ? [t1 t2 d ? Ht' <-].
  eapply res_rel_bind; [exact IH|]. intros ? ? [r1 r2 rest ? Hr <-].
  apply res_rel_ret. constructor; [|reflexivity]. constructor; [split; assumption | exact Hr].
Qed.

Lemma refresh_once_bucket_rel now b1 b2 :
  Rb b1 b2 -> res_rel (prod_rel Rb eq) (refresh_once_bucket T1 O1 b1 now) (refresh_once_bucket T2 O2 b2 now).
Proof.
  induction 1 as [|e1 e2 b1 b2 [Hid Ht] Hb IH]; [apply res_rel_ret; constructor; [constructor | reflexivity]|].
  simpl. eapply res_rel_bind; [apply (rel_refresh_once HR), Ht|]. intros ? ? [t1 t2 d ? Ht' <-].
  eapply res_rel_bind; [exact IH|]. intros ? ? [r1 r2 rest ? Hr <-].
  apply res_rel_ret. rewrite Hid. constructor; [|reflexivity]. constructor; [split; [reflexivity | assumption] | exact Hr].
Qed.

(* the answer sections may differ: only that both lists exist *)
Lemma known_answers_both_ok now b1 b2 :
  Rb b1 b2 -> res_rel any_rel (known_answers T1 O1 b1 now) (known_answers T2 O2 b2 now).
Proof.
  induction 1 as [|e1 e2 b1 b2 [Hid Ht] Hb IH]; [apply res_rel_ret; exact I|].
  simpl. rewrite Hid. eapply res_rel_bind with (P := any_rel).
  { destruct (ka_shared_filter _); [apply (rel_ka HR), Ht | apply res_rel_ret; exact I]. }
  intros k1 k2 _. eapply res_rel_bind; [exact IH|]. intros l1 l2 _. apply res_rel_ret. exact I.
Qed.

Lemma get_bucket_rel k : forall c1 c2, Rc c1 c2 -> Rb (get_bucket T1 c1 k) (get_bucket T2 c2 k).
Proof.
  intros c1 c2 H. induction H as [|[k1 b1] [k2 b2] c1 c2 [Hk Hb] Hc IH]; [constructor|].
  simpl in *. subst k2. destruct (key_eqb k k1); assumption.
Qed.

Lemma set_bucket_rel k b1 b2 : forall c1 c2,
  Rc c1 c2 -> Rb b1 b2 -> Rc (set_bucket T1 c1 k b1) (set_bucket T2 c2 k b2).
Proof.
  intros c1 c2 H Hb. induction H as [|[k1 x1] [k2 x2] c1 c2 [Hk Hx] Hc IH].
  - simpl. rewrite (Rb_is_nil _ _ Hb). destruct (is_nil b2); constructor; [split; [reflexivity | exact Hb] | constructor].
  - simpl in *. subst k2. destruct (key_eqb k k1).
    + rewrite (Rb_is_nil _ _ Hb). destruct (is_nil b2); [assumption|].
      constructor; [split; [reflexivity | exact Hb] | exact Hc].
    + constructor; [split; [reflexivity | exact Hx] | exact IH].
Qed.

Lemma ingest_rel now : forall recs c1 c2,
  Rc c1 c2 -> now < B63 -> Forall rec_ok recs ->
  res_rel Rc (ingest T1 O1 c1 now recs) (ingest T2 O2 c2 now recs).
Proof.
  induction recs as [|[id t] recs IH]; intros c1 c2 Hc Hn Hr; [apply res_rel_ret; assumption|].
  inversion Hr as [|? ? Hr1 Hr2]; subst. destruct (stored_ttl_bounds t Hr1) as [Hs1 Hs2].
  simpl. eapply res_rel_bind with (P := Rc); [|intros; apply IH; assumption].
  destruct (key_of id) as [k|]; [|apply res_rel_ret; assumption].
  eapply res_rel_bind; [apply add_or_update_rel; [apply get_bucket_rel; exact Hc | assumption..]|].
  intros [[[x1 ts1] n1]|] [[[x2 ts2] n2]|] Hrel; try contradiction; apply res_rel_ret; [|assumption].
  inversion Hrel as [? ? ? ? Hx _]; subst. inversion Hx; subst. apply set_bucket_rel; assumption.
Qed.

Lemma ka_of_questions_both_ok c1 c2 now qs :
  Rc c1 c2 -> res_rel any_rel (ka_of_questions T1 O1 c1 qs now) (ka_of_questions T2 O2 c2 qs now).
Proof.
  intros Hc. induction qs as [|[n t] qs IH]; [apply res_rel_ret; exact I|].
  simpl. eapply res_rel_bind with (P := any_rel).
  { unfold ka_of. destruct (kind_of_type t); [|apply res_rel_ret; exact I].
    apply known_answers_both_ok, get_bucket_rel, Hc. }
  intros a1 a2 _. eapply res_rel_bind; [exact IH|]. intros l1 l2 _. apply res_rel_ret. exact I.
Qed.

Lemma mk_query_rel c1 c2 qs now :
  Rc c1 c2 -> res_rel qd_eq (mk_query T1 O1 c1 qs now) (mk_query T2 O2 c2 qs now).
Proof.
  intros Hc. unfold mk_query. eapply res_rel_bind; [apply ka_of_questions_both_ok, Hc|].
  intros l1 l2 _. apply res_rel_ret. reflexivity.
Qed.

Lemma mk_queries_rel c1 c2 now qss :
  Rc c1 c2 -> res_rel (Forall2 qd_eq) (mk_queries T1 O1 c1 qss now) (mk_queries T2 O2 c2 qss now).
Proof.
  intros Hc. induction qss as [|qs qss IH]; [apply res_rel_ret; constructor|].
  simpl. eapply res_rel_bind; [apply mk_query_rel, Hc|]. intros q1 q2 Hq.
  eapply res_rel_bind; [exact IH|]. intros r1 r2 Hr. apply res_rel_ret. constructor; assumption.
Qed.

Lemma repeat_q_rel n q1 q2 : qd_eq q1 q2 -> Forall2 qd_eq (repeat_q n q1) (repeat_q n q2).
Proof. intros H. induction n; simpl; constructor; auto. Qed.

Lemma refresh_srv_txt_rel now : forall insts c1 c2 acc,
  Rc c1 c2 ->
  res_rel (prod_rel Rc eq) (refresh_srv_txt T1 O1 c1 now insts acc) (refresh_srv_txt T2 O2 c2 now insts acc).
Proof.
  induction insts as [|inst insts IH]; intros c1 c2 acc Hc; simpl.
  { apply res_rel_ret. constructor; [assumption | reflexivity]. }
  eapply res_rel_bind; [apply refresh_bucket_rel, get_bucket_rel, Hc|]. intros ? ? [bs1 bs2 ds ? Hbs <-]. simpl.
  pose proof (set_bucket_rel (1, inst) _ _ _ _ Hc Hbs) as Hc1.
  eapply res_rel_bind; [apply refresh_bucket_rel, get_bucket_rel, Hc1|]. intros ? ? [bt1 bt2 dt ? Hbt <-]. simpl.
  apply IH. apply set_bucket_rel; assumption.
Qed.

Lemma refresh_hosts_rel now : forall hosts c1 c2,
  Rc c1 c2 ->
  res_rel (prod_rel Rc eq) (refresh_hosts T1 O1 c1 now hosts) (refresh_hosts T2 O2 c2 now hosts).
Proof.
  induction hosts as [|h hosts IH]; intros c1 c2 Hc; simpl.
  { apply res_rel_ret. constructor; [assumption | reflexivity]. }
  eapply res_rel_bind; [apply refresh_bucket_rel, get_bucket_rel, Hc|]. intros ? ? [b1 b2 d ? Hb <-]. simpl.
  eapply res_rel_bind; [apply IH, set_bucket_rel; assumption|]. intros ? ? [c1' c2' qs ? Hc' <-].
  apply res_rel_ret. constructor; [assumption | reflexivity].
Qed.

Lemma live_instances_rel now b1 b2 :
  Rb b1 b2 -> live_instances T1 O1 b1 now = live_instances T2 O2 b2 now.
Proof.
  intros H. apply (flat_map_Forall2 _ _ _ _ _ H). intros e1 e2 [Hid Ht].
  rewrite Hid, (rel_expired HR _ _ now Ht). reflexivity.
Qed.

Lemma hosts_of_bucket_rel b1 b2 : Rb b1 b2 -> hosts_of_bucket T1 b1 = hosts_of_bucket T2 b2.
Proof. intros H. apply (flat_map_Forall2 _ _ _ _ _ H). intros e1 e2 [Hid _]. rewrite Hid. reflexivity. Qed.

Lemma flat_map_hosts_rel c1 c2 insts :
  Rc c1 c2 ->
  flat_map (fun i => hosts_of_bucket T1 (get_bucket T1 c1 (1, i))) insts =
  flat_map (fun i => hosts_of_bucket T2 (get_bucket T2 c2 (1, i))) insts.
Proof.
  intros Hc. induction insts as [|i insts IH]; [reflexivity|].
  simpl. rewrite IH. f_equal. apply hosts_of_bucket_rel. apply get_bucket_rel. assumption.
Qed.

Lemma refresh_browse_rel c1 c2 now ty :
  Rc c1 c2 ->
  res_rel (prod_rel Rc (Forall2 qd_eq)) (refresh_browse T1 O1 c1 now ty) (refresh_browse T2 O2 c2 now ty).
Proof.
  intros Hc. unfold refresh_browse.
  eapply res_rel_bind; [apply refresh_bucket_rel, get_bucket_rel, Hc|]. intros ? ? [bp1 bp2 dp ? Hbp <-]. simpl.
  pose proof (set_bucket_rel (0, ty) _ _ _ _ Hc Hbp) as Hc1.
  eapply res_rel_bind; [apply mk_queries_rel, Hc1|]. intros qp1 qp2 Hqp.
  rewrite (live_instances_rel now _ _ Hbp).
  eapply res_rel_bind; [apply refresh_srv_txt_rel, Hc1|]. intros ? ? [c21 c22 due ? Hc2 <-]. simpl.
  eapply res_rel_bind; [apply mk_queries_rel, Hc2|]. intros qi1 qi2 Hqi.
  rewrite (flat_map_hosts_rel _ _ _ Hc2).
  eapply res_rel_bind; [apply refresh_hosts_rel, Hc2|]. intros ? ? [c31 c32 hq ? Hc3 <-]. simpl.
  eapply res_rel_bind; [apply mk_queries_rel, Hc3|]. intros qh1 qh2 Hqh.
  apply res_rel_ret. constructor; [assumption|]. repeat apply Forall2_app; assumption.
Qed.

Lemma refresh_host_rel c1 c2 now h :
  Rc c1 c2 ->
  res_rel (prod_rel Rc (Forall2 qd_eq)) (refresh_host T1 O1 c1 now h) (refresh_host T2 O2 c2 now h).
Proof.
  intros Hc. unfold refresh_host.
  eapply res_rel_bind; [apply refresh_once_bucket_rel, get_bucket_rel, Hc|]. intros ? ? [b1 b2 due ? Hb <-]. simpl.
  eapply res_rel_bind; [apply mk_queries_rel, set_bucket_rel; assumption|]. intros q1 q2 Hq.
  apply res_rel_ret. constructor; [apply set_bucket_rel|]; assumption.
Qed.

Lemma sweep_srv_rel now c1 c2 :
  Rc c1 c2 -> prod_rel Rc eq (sweep_srv T1 O1 c1 now) (sweep_srv T2 O2 c2 now).
Proof.
  induction 1 as [|[k1 b1] [k2 b2] c1 c2 [Hk Hb] Hc IH]; [constructor; [constructor | reflexivity]|].
  simpl in Hk. subst k2. simpl. destruct IH as [r1 r2 g ? Hr <-].
  destruct (fst k1 =? 1).
  - destruct (evict_rel _ _ now Hb) as [Hkept _]. unfold evict in Hkept. simpl in Hkept.
    rewrite (Rb_is_nil _ _ Hkept). destruct (is_nil _); constructor; try reflexivity; [assumption|].
    constructor; [split; [reflexivity | assumption] | assumption].
  - constructor; [|reflexivity]. constructor; [split; [reflexivity | assumption] | assumption].
Qed.

Lemma evict_instance_rel now gone e1 e2 a1 a2 :
  Re e1 e2 -> prod_rel Rc eq a1 a2 ->
  prod_rel Rc eq (evict_instance T1 O1 now gone a1 e1) (evict_instance T2 O2 now gone a2 e2).
Proof.
  intros [Hid Ht] [c1 c2 rm ? Hc <-]. unfold evict_instance. rewrite Hid.
  destruct (alias_of (c_id e2)) as [inst|]; (constructor; [|reflexivity]); [|exact Hc].
  apply set_bucket_rel; [exact Hc|]. apply (evict_rel _ _ now (get_bucket_rel (2, inst) _ _ Hc)).
Qed.

Lemma fold_evict_instance_rel now gone b1 b2 :
  Rb b1 b2 -> forall a1 a2, prod_rel Rc eq a1 a2 ->
  prod_rel Rc eq (fold_left (evict_instance T1 O1 now gone) b1 a1) (fold_left (evict_instance T2 O2 now gone) b2 a2).
Proof.
  induction 1 as [|e1 e2 b1 b2 He Hb IH]; intros a1 a2 Ha; [exact Ha|].
  simpl. apply IH, evict_instance_rel; assumption.
Qed.

Lemma sweep_rel kinds now : forall c1 c2, Rc c1 c2 -> Rc (sweep T1 O1 kinds c1 now) (sweep T2 O2 kinds c2 now).
Proof.
  intros c1 c2 H. induction H as [|[k1 b1] [k2 b2] c1 c2 [Hk Hb] Hc IH]; [constructor|].
  simpl in *. subst k2. destruct (kinds (fst k1)).
  - destruct (evict_rel _ _ now Hb) as [Hkept _]. unfold evict in Hkept. simpl in Hkept.
    rewrite (Rb_is_nil _ _ Hkept). destruct (is_nil _); [assumption|].
    constructor; [split; [reflexivity | assumption] | assumption].
  - constructor; [split; [reflexivity | assumption] | assumption].
Qed.

Lemma removed_aliases_rel b1 b2 :
  Rb b1 b2 ->
  flat_map (fun e : centry T1 => match alias_of (c_id e) with Some a => [a] | None => [] end) b1 =
  flat_map (fun e : centry T2 => match alias_of (c_id e) with Some a => [a] | None => [] end) b2.
Proof. intros H. apply (flat_map_Forall2 _ _ _ _ _ H). intros e1 e2 [Hid _]. rewrite Hid. reflexivity. Qed.

Lemma evict_services_rel c1 c2 now browse :
  Rc c1 c2 -> prod_rel Rc eq (evict_services T1 O1 c1 now browse) (evict_services T2 O2 c2 now browse).
Proof.
  intros Hc. unfold evict_services. destruct (sweep_srv_rel now _ _ Hc) as [d1 d2 g ? Hc0 <-].
  destruct browse as [ty|]; [|constructor; [apply sweep_rel; assumption | reflexivity]].
  pose proof (get_bucket_rel (0, ty) _ _ Hc0) as Hp.
  destruct (fold_evict_instance_rel now g _ _ Hp (d1, []) (d2, [])) as [x1 x2 r ? Hc1 <-];
    [constructor; [exact Hc0 | reflexivity]|].
  destruct (evict_rel _ _ now Hp) as [Hkp Hxp].
  destruct (evict T1 O1 (get_bucket T1 d1 (0, ty)) now) as [kp1 xp1].
  destruct (evict T2 O2 (get_bucket T2 d2 (0, ty)) now) as [kp2 xp2]. simpl in Hkp, Hxp.
  constructor; [apply sweep_rel, set_bucket_rel; assumption|].
  rewrite (removed_aliases_rel _ _ Hxp). reflexivity.
Qed.

Lemma map_c_id_rel b1 b2 : Rb b1 b2 -> map (@c_id T1) b1 = map (@c_id T2) b2.
Proof. intros H. induction H as [|e1 e2 b1 b2 [Hid _] Hb IH]; [reflexivity|]. simpl. rewrite IH, Hid. reflexivity. Qed.

Lemma evict_addrs_rel c1 c2 now host :
  Rc c1 c2 ->
  Rc (fst (evict_addrs T1 O1 c1 now host)) (fst (evict_addrs T2 O2 c2 now host)) /\
  snd (evict_addrs T1 O1 c1 now host) = snd (evict_addrs T2 O2 c2 now host).
Proof.
  intros Hc. unfold evict_addrs. simpl. split; [apply sweep_rel; assumption|].
  destruct host as [h|]; [|reflexivity].
  destruct (evict_rel _ _ now (get_bucket_rel (3, lower h) _ _ Hc)) as [_ Hx].
  apply map_c_id_rel. assumption.
Qed.

Lemma sim_iter_rel cfg c1 c2 now nsb nsh recs :
  Rc c1 c2 -> now < B63 -> Forall rec_ok recs ->
  res_rel (prod_rel Rc io_eq) (sim_iter T1 O1 cfg c1 now nsb nsh recs) (sim_iter T2 O2 cfg c2 now nsb nsh recs).
Proof.
  intros Hc Hn Hr. unfold sim_iter.
  eapply res_rel_bind; [apply ingest_rel; assumption|]. intros x1 x2 Hc0.
  eapply res_rel_bind with (P := Forall2 qd_eq).
  { destruct (sc_browse cfg) as [ty|]; [|apply res_rel_ret; constructor].
    eapply res_rel_bind; [apply mk_query_rel, Hc0|]. intros q1 q2 Hq. apply res_rel_ret, repeat_q_rel, Hq. }
  intros qb1 qb2 Hqb.
  eapply res_rel_bind with (P := Forall2 qd_eq).
  { destruct (sc_host cfg) as [h|]; [|apply res_rel_ret; constructor].
    eapply res_rel_bind; [apply mk_query_rel, Hc0|]. intros q1 q2 Hq. apply res_rel_ret, repeat_q_rel, Hq. }
  intros qh1 qh2 Hqh.
  eapply res_rel_bind with (P := prod_rel Rc (Forall2 qd_eq)).
  { destruct (sc_browse cfg) as [ty|]; [apply refresh_browse_rel, Hc0|].
    apply res_rel_ret. constructor; [assumption | constructor]. }
  intros ? ? [y1 y2 qr1 qr2 Hc1 Hqr]. simpl.
  eapply res_rel_bind with (P := prod_rel Rc (Forall2 qd_eq)).
  { destruct (sc_host cfg) as [h|]; [apply refresh_host_rel, Hc1|].
    apply res_rel_ret. constructor; [assumption | constructor]. }
  intros ? ? [z1 z2 qa1 qa2 Hc2 Hqa]. simpl.
  destruct (evict_services_rel _ _ now (sc_browse cfg) Hc2) as [w1 w2 rs ? Hc3 <-].
  destruct (evict_addrs_rel _ _ now (sc_host cfg) Hc3) as [Hc4 Hra].
  unfold evict_addrs in *. simpl in *.
  apply res_rel_ret. constructor; [exact Hc4|].
  split; [repeat apply Forall2_app; assumption | split; [reflexivity | exact Hra]].
Qed.

Lemma sim_run_rel cfg : forall steps c1 c2,
  Rc c1 c2 -> Forall step_ok steps ->
  res_rel (Forall2 io_eq) (sim_run T1 O1 cfg c1 steps) (sim_run T2 O2 cfg c2 steps).
Proof.
  induction steps as [|s steps IH]; intros c1 c2 Hc Hs; [apply res_rel_ret; constructor|].
  inversion Hs as [|? ? [Hn Hr] Hs']; subst. simpl.
  eapply res_rel_bind; [apply sim_iter_rel; eassumption|]. intros ? ? [c1' c2' o1 o2 Hc' Ho].
  eapply res_rel_bind; [apply IH; assumption|]. intros os1 os2 Hos.
  apply res_rel_ret. constructor; assumption.
Qed.

End Rel.
