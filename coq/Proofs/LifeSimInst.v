(* The code's record operations (trec_ops) and the property's literal ones (astate_ops) are
   related by the refinement relation R of Proofs/LifeProofs.v: the instance of ops_rel
   (Proofs/LifeSimProofs.v) from which Props/C11.v draws the daemon-level refinement. *)
From Coq Require Import List NArith Bool Lia.
From Mdns Require Import ParamsLife Life LifeSpec LifeCache LifeCacheSpec LifeProofs LifeCacheProofs LifeSimProofs.
Import ListNotations.
Open Scope N_scope.

Lemma trec_astate_rel : ops_rel trec astate trec_ops astate_ops R.
Proof.
  constructor; simpl.
  - (* new *) intros now ttl Hn H1 H2. rewrite new_rec_ok by (apply expiry_fits_u64; assumption).
    apply res_rel_ret, R_init; assumption.
  - (* expired *) intros r s now HR. unfold is_expired, is_expired_g. rewrite (R_expires _ _ HR). reflexivity.
  - (* refresh *) intros r s now HR. destruct (refresh_maybe_spec r s now HR) as (r' & -> & HR').
    destruct (a_due s now); apply res_rel_ret; constructor; [exact HR' | reflexivity | exact HR' | reflexivity].
  - (* refresh once *) intros r s now HR. destruct (refresh_once_spec r s now HR) as (r' & -> & HR').
    destruct (a_due s now); apply res_rel_ret; constructor; [exact HR' | reflexivity | exact HR' | reflexivity].
  - (* reset *) intros r s ttl now _ Hn H1 H2. rewrite reset_ttl_ok by assumption.
    apply res_rel_ret, R_reset; assumption.
  - (* should_flush *) intros inc id r s now HR Hn.
    pose proof (should_flush_trec_ok inc (mkC id r) now) as F. simpl in F.
    rewrite F by (apply (R_within _ _ HR) || exact Hn). apply res_rel_ret.
    unfold flushable. simpl. rewrite (R_created _ _ HR), (R_expires _ _ HR). reflexivity.
  - (* shorten *) intros inc id r s now HR Hn Hf. unfold flush_new_expire. simpl. split; [|reflexivity].
    unfold should_flush_spec in Hf. inversion Hf as [Hf']. clear Hf.
    rewrite !andb_true_iff in Hf'. destruct Hf' as ((((_ & _) & _) & Hlt) & _). apply N.ltb_lt in Hlt.
    apply R_shorten; [exact HR | lia].
  - (* known answers *) intros r s now HR.
    rewrite ka_ttl_trec_ok by apply (R_within _ _ HR). apply res_rel_ret. exact I.
  - (* ttl *) exact R_ttl.
Qed.

