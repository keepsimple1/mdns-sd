(* C17: the query schedule and the deadline, as invariants of the reference machine
   (Model/HostresSpec.v) over arbitrary histories.  No axioms. *)
From Coq Require Import List NArith Bool Lia Arith.
From Mdns Require Import Bytes ParamsHostres HostresBase HostresModel HostresSpec HostresPinned HostresBaseFacts HostresSpecFacts.
Import ListNotations.
Open Scope N_scope.

(* the state the reference machine reaches by a history, and the time of its last iteration
   (prev when the history is empty) *)
Fixpoint sp_state_after (p : sst) (h : list iter) : sst :=
  match h with
  | [] => p
  | i :: t => sp_state_after (fst (sp_step p i)) t
  end.

Fixpoint last_time (prev : N) (h : list iter) : N :=
  match h with
  | [] => prev
  | i :: t => last_time (it_now i) t
  end.

(* the gap, in seconds, that follows the n-th retransmission: first_delay doubled n times,
   capped (exec_command_resolve_hostname) *)
Fixpoint delay_seq (n : nat) : N :=
  match n with
  | O => hp_host_first_delay
  | S m => N.min (hp_host_next_delay (delay_seq m) hp_host_max_delay) hp_host_max_delay
  end.

Lemma delay_seq_closed n : delay_seq n = N.min (2 ^ N.of_nat n) 3600.
Proof.
  induction n as [|m IH]; [reflexivity|].
  cbn [delay_seq]. rewrite IH, pin_host_next, pin_host_max, Nat2N.inj_succ, N.pow_succ_r'. lia.
Qed.

Lemma delay_seq_pos n : 1 <= delay_seq n.
Proof.
  rewrite delay_seq_closed.
  assert (1 <= 2 ^ N.of_nat n).
  { replace 1 with (2 ^ 0) by reflexivity. apply N.pow_le_mono_r; lia. }
  destruct (N.min_spec (2 ^ N.of_nat n) 3600) as [[_ H2]|[_ H2]]; rewrite H2; lia.
Qed.

(* what holds of an open search whatever the time: its bookkeeping (sk_sent queries, the last at
   sk_last) determines its next query *)
Record sk_ok (k : search) : Prop := mkSkOk {
  ok_key : sk_key k = lower (sk_host k);
  ok_deadline : sk_deadline k = option_map (sat_add (sk_start k)) (sk_timeout k);
  ok_sent : (1 <= sk_sent k)%nat;
  ok_start : sk_start k <= sk_last k;
  ok_next : forall t d, sk_next k = Some (t, d) ->
              t = sk_last k + delay_seq (sk_sent k - 1) * 1000
              /\ d = delay_seq (sk_sent k)
              /\ forall dl, sk_deadline k = Some dl -> t < dl;
  ok_no_next : sk_next k = None ->
              exists dl, sk_deadline k = Some dl /\ dl <= sk_last k + delay_seq (sk_sent k - 1) * 1000;
  ok_resent : (2 <= sk_sent k)%nat -> forall dl, sk_deadline k = Some dl -> sk_last k < dl }.

(* the deadline of k is still ahead *)
Definition sk_live (now : N) (k : search) : Prop := forall dl, sk_deadline k = Some dl -> now < dl.
(* k was started in an iteration at time now and has only sent its first query *)
Definition sk_fresh (now : N) (k : search) : Prop := sk_sent k = 1%nat /\ sk_last k = now /\ sk_start k = now.

(* after an iteration at time `now`: in order, and the deadline ahead unless started at `now` *)
Definition search_ok (now : N) (k : search) : Prop :=
  sk_ok k /\ sk_last k <= now /\ (sk_live now k \/ sk_fresh now k).
Definition searches_ok (now : N) (l : list search) : Prop := Forall (search_ok now) l.

Lemma next_after_spec now d dl :
  match next_after now d dl with
  | Some (t, d') => t = now + d * 1000 /\ d' = N.min (d * 2) 3600 /\ forall x, dl = Some x -> t < x
  | None => exists x, dl = Some x /\ x <= now + d * 1000
  end.
Proof.
  unfold next_after. rewrite pin_host_unit, pin_host_next, pin_host_max.
  destruct dl as [x|].
  - rewrite pin_host_rearm. destruct (now + d * 1000 <? x) eqn:E.
    + apply N.ltb_lt in E. repeat split. intros y Hy. inversion Hy; subst. exact E.
    + apply N.ltb_ge in E. exists x. split; [reflexivity|exact E].
  - repeat split. intros x Hx. discriminate.
Qed.

Lemma next_after_sched now n dl :
  (forall t d, next_after now (delay_seq n) dl = Some (t, d) ->
     t = now + delay_seq n * 1000 /\ d = delay_seq (S n) /\ forall x, dl = Some x -> t < x)
  /\ (next_after now (delay_seq n) dl = None -> exists x, dl = Some x /\ x <= now + delay_seq n * 1000).
Proof.
  pose proof (next_after_spec now (delay_seq n) dl) as Hs.
  destruct (next_after now (delay_seq n) dl) as [[t0 d0]|]; split; try discriminate.
  - intros t d E. inversion E; subst. destruct Hs as [Ht [Hd Hl]]. repeat split; assumption.
  - intros _. exact Hs.
Qed.

Lemma sk_ok_new now host timeout chan :
  sk_ok (mkSearch (lower host) host chan (option_map (sat_add now) timeout)
                  (next_after now hp_host_first_delay (option_map (sat_add now) timeout)) now timeout 1 now).
Proof.
  destruct (next_after_sched now 0 (option_map (sat_add now) timeout)) as [Hn Hnone].
  constructor; cbn [sk_key sk_host sk_deadline sk_start sk_timeout sk_sent sk_last sk_next Nat.sub];
    try reflexivity; try lia; [exact Hn|exact Hnone].
Qed.

Lemma sk_ok_fire now k :
  sk_ok k -> sk_last k <= now -> sk_live now k \/ sk_fresh now k ->
  sk_ok (sk_fire now k) /\ sk_last (sk_fire now k) <= now
  /\ (sk_live now (sk_fire now k) \/ sk_fresh now (sk_fire now k)).
Proof.
  intros Hok Hlast Hlf.
  destruct (sk_fire_cases now k) as [->|[t [d [En [Edue ->]]]]]; [auto|].
  rewrite pin_rerun_due in Edue. apply N.leb_le in Edue.
  destruct Hok as [Hkey Hdl Hsent Hstart Hnext Hnone Hre].
  destruct (Hnext t d En) as [Ht [Hd Hbefore]].
  (* a due search is not fresh: its query time would be now + 1000 *)
  assert (Hlive : sk_live now k).
  { destruct Hlf as [H|[Hs [Hl _]]]; [exact H|].
    rewrite Hs, Hl in Ht. change (delay_seq (1 - 1)) with 1 in Ht. exfalso. lia. }
  destruct (next_after_sched now (sk_sent k) (sk_deadline k)) as [Hn Hno]. subst d.
  split; [|split; [simpl; lia|left; exact Hlive]].
  constructor; cbn [sk_key sk_host sk_deadline sk_start sk_timeout sk_sent sk_last sk_next Nat.sub];
    rewrite ?Nat.sub_0_r; try assumption; try lia.
  intros _ dl Hdl'. apply Hlive. exact Hdl'.
Qed.

Lemma searches_ok_set now x l :
  search_ok now x -> searches_ok now l -> searches_ok now (set_search x l).
Proof.
  intros Hx. unfold searches_ok. induction l as [|y t IH]; simpl; intros H.
  - constructor; [exact Hx|constructor].
  - inversion H; subst. destruct (beq (sk_key x) (sk_key y)); constructor; auto.
Qed.

Lemma sp_call_ok now p c :
  searches_ok now (ss_searches p) ->
  searches_ok now (ss_searches (fst (fst (sp_call now p c)))).
Proof.
  intros H. destruct c as [host timeout chan|host]; simpl.
  - apply searches_ok_set; [|exact H]. split; [apply sk_ok_new|]. simpl. split; [lia|].
    right. unfold sk_fresh. simpl. auto.
  - destruct (find_search (lower host) (ss_searches p)); simpl; [|exact H].
    apply Forall_filter. exact H.
Qed.

Theorem sp_step_ok p i prev :
  searches_ok prev (ss_searches p) -> prev <= it_now i -> searches_ok (it_now i) (ss_searches (fst (sp_step p i))).
Proof.
  intros Hok Hle. rewrite sp_step_searches. unfold after_sends, after_calls.
  set (now := it_now i).
  (* after the deadlines phase every remaining search is live *)
  assert (H2 : searches_ok now (filter (fun k => negb (sk_timed_out now k)) (ss_searches p))).
  { unfold searches_ok in *. rewrite Forall_forall in *. intros k Hk. apply filter_In in Hk as [Hk Hnt].
    destruct (Hok k Hk) as [H1 [H1' _]]. split; [exact H1|]. split; [lia|].
    left. intros dl Hdl. unfold sk_timed_out in Hnt. rewrite Hdl, pin_deadline_reached in Hnt.
    apply negb_true_iff in Hnt. apply N.leb_gt in Hnt. exact Hnt. }
  assert (H3 : searches_ok now (ss_searches (fst (fst (sp_calls now
                 (mkSst (fst (after_resp p i)) (filter (fun k => negb (sk_timed_out now k)) (ss_searches p)) (ss_open p))
                 (it_calls i)))))).
  { apply (sp_calls_inv (fun p0 => searches_ok now (ss_searches p0))); [|exact H2]. intros p0 c _. apply sp_call_ok. }
  unfold searches_ok in *. rewrite Forall_forall in *. intros k Hk.
  apply in_map_iff in Hk as [k0 [<- Hk0]]. destruct (H3 k0 Hk0) as [Ha [Hb Hc]]. apply sk_ok_fire; assumption.
Qed.

Lemma sp_run_ok h : forall p prev,
  searches_ok prev (ss_searches p) -> times_ok prev h = true ->
  searches_ok (last_time prev h) (ss_searches (sp_state_after p h)).
Proof.
  induction h as [|i t IH]; intros p prev Hok Ht; simpl; [exact Hok|].
  simpl in Ht. apply andb_true_iff in Ht as [H1 H2]. apply N.leb_le in H1.
  apply IH; [|exact H2]. apply sp_step_ok with (prev := prev); assumption.
Qed.

(* every open search of a state reached from the initial one *)
Lemma reached_search_ok h k :
  times_ok 0 h = true -> In k (ss_searches (sp_state_after sst0 h)) -> search_ok (last_time 0 h) k.
Proof.
  intros Ht. pose proof (sp_run_ok h sst0 0 (Forall_nil _) Ht) as H.
  unfold searches_ok in H. rewrite Forall_forall in H. apply H.
Qed.

Theorem query_schedule : forall h k,
  times_ok 0 h = true -> In k (ss_searches (sp_state_after sst0 h)) ->
  (1 <= sk_sent k)%nat
  /\ (forall t d, sk_next k = Some (t, d) ->
        t = sk_last k + N.min (2 ^ N.of_nat (sk_sent k - 1)) 3600 * 1000
        /\ d = N.min (2 ^ N.of_nat (sk_sent k)) 3600
        /\ forall dl, sk_deadline k = Some dl -> t < dl)
  /\ (sk_next k = None ->
        exists dl, sk_deadline k = Some dl
                   /\ dl <= sk_last k + N.min (2 ^ N.of_nat (sk_sent k - 1)) 3600 * 1000)
  /\ ((2 <= sk_sent k)%nat -> forall dl, sk_deadline k = Some dl -> sk_last k < dl).
Proof.
  intros h k Ht Hin. destruct (reached_search_ok h k Ht Hin) as [Hok _].
  rewrite <- !delay_seq_closed.
  exact (conj (ok_sent k Hok) (conj (ok_next k Hok) (conj (ok_no_next k Hok) (ok_resent k Hok)))).
Qed.

Theorem deadline_and_liveness : forall h k,
  times_ok 0 h = true -> In k (ss_searches (sp_state_after sst0 h)) ->
  sk_deadline k = option_map (sat_add (sk_start k)) (sk_timeout k)
  /\ (forall dl, sk_deadline k = Some dl -> last_time 0 h < dl \/ sk_start k = last_time 0 h).
Proof.
  intros h k Ht Hin. destruct (reached_search_ok h k Ht Hin) as [Hok [_ Hlf]]. split; [exact (ok_deadline k Hok)|].
  intros dl Hdl. destruct Hlf as [Hl|[_ [_ Hs]]]; [left; apply Hl; exact Hdl|right; exact Hs].
Qed.

Theorem timeout_events : forall p i k,
  In k (ss_searches p) ->
  (exists dl, sk_deadline k = Some dl /\ dl <= it_now i) ->
  exists l1 l2,
    o_events (snd (sp_step p i))
    = l1 ++ [(sk_chan k, ETimeout (sk_key k)); (sk_chan k, EStopped (sk_key k))] ++ l2.
Proof.
  intros p i k Hin [dl [Hdl Hle]]. rewrite sp_step_eq. cbn [snd o_events].
  assert (Hf : In k (filter (sk_timed_out (it_now i)) (ss_searches p))).
  { apply filter_In. split; [exact Hin|]. unfold sk_timed_out. rewrite Hdl, pin_deadline_reached.
    apply N.leb_le. exact Hle. }
  apply in_split in Hf as [a [b ->]]. rewrite flat_map_app. simpl.
  exists (snd (after_resp p i) ++ flat_map (fun k0 => [(sk_chan k0, ETimeout (sk_key k0)); (sk_chan k0, EStopped (sk_key k0))]) a).
  eexists. rewrite <- !app_assoc. simpl. reflexivity.
Qed.

(* about the events of the deadline phase (the expression is that of sp_timeouts); no other
   phase of sp_step emits SearchTimeout *)
Theorem timeout_phase_at_deadline : forall p i c nm,
  In (c, ETimeout nm) (flat_map (fun k => [(sk_chan k, ETimeout (sk_key k)); (sk_chan k, EStopped (sk_key k))])
                                (filter (sk_timed_out (it_now i)) (ss_searches p))) ->
  exists k dl, In k (ss_searches p) /\ sk_chan k = c /\ sk_key k = nm
               /\ sk_deadline k = Some dl /\ dl <= it_now i.
Proof.
  intros p i c nm H. apply in_flat_map in H as [k [Hk H]].
  apply filter_In in Hk as [Hk Ht]. exists k.
  unfold sk_timed_out in Ht. destruct (sk_deadline k) as [dl|] eqn:E; [|discriminate].
  rewrite pin_deadline_reached in Ht. apply N.leb_le in Ht.
  exists dl. simpl in H. destruct H as [H|[H|[]]]; inversion H; subst. auto.
Qed.
