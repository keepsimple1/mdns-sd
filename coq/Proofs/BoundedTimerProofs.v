(* C20, the timer heap over all states of the size model, either rule: entries leave only by being
   popped; nothing is pushed without work (the C20_timers theorems of Props/C20.v).  No axioms. *)
From Coq Require Import List NArith Lia.
From Mdns Require Import ListFacts ParamsHostres BoundedModel HostresPinned BoundedProofs.
Import ListNotations.
Open Scope N_scope.

Lemma handle_response_ext pol now s m : ext (b_timers s) (b_timers (handle_response pol now s m)).
Proof.
  unfold handle_response.
  destruct (fold_left _ (bm_recs m) (b_cache s, [], [], b_excess s)) as [[[c tm] ch] ex].
  eapply ext_trans; [|apply (fr_timers _ _ (frame_resolve_updated _ _ _))]. simpl. apply ext_app.
Qed.

Theorem timers_step_shape pol s i :
  exists pushed_by_responses pushed_later,
    b_timers (fst (step pol s i))
    = filter (fun v => bi_now i <? v) (b_timers s ++ pushed_by_responses) ++ pushed_later.
Proof.
  unfold step. set (now := bi_now i).
  assert (H1 : ext (b_timers s) (b_timers (fold_left (handle_response pol now) (bi_msgs i) s))).
  { apply (fold_left_inv (fun a => ext (b_timers s) (b_timers a))); [|apply ext_refl].
    intros a m _ Ha. eapply ext_trans; [exact Ha|apply handle_response_ext]. }
  destruct H1 as [e1 E1].
  set (s2 := do_timeouts now (pop_timers now (fold_left (handle_response pol now) (bi_msgs i) s))).
  assert (E2 : b_timers s2 = filter (fun v => now <? v) (b_timers s ++ e1)).
  { unfold s2, do_timeouts, pop_timers. cbn [b_timers]. rewrite E1. reflexivity. }
  pose proof (keeps_fold_calls now (bi_calls i) (s2, [])) as [_ H3].
  destruct (fold_left (exec_call now) (bi_calls i) (s2, [])) as [s3 out]. cbn [fst] in *.
  destruct (ext_trans _ _ _ H3 (proj2 (keeps_after_calls now s3))) as [e2 E7].
  exists e1, e2. rewrite E7, E2. reflexivity.
Qed.

Corollary timers_kept_are_future pol s i :
  exists kept pushed_later,
    b_timers (fst (step pol s i)) = kept ++ pushed_later /\ Forall (fun v => bi_now i < v) kept
    /\ (forall v, In v (b_timers s) -> bi_now i < v -> In v kept)
    /\ (forall v, In v (b_timers s) -> v <= bi_now i -> ~ In v kept).
Proof.
  destruct (timers_step_shape pol s i) as [e1 [e2 E]].
  exists (filter (fun v => bi_now i <? v) (b_timers s ++ e1)), e2. split; [exact E|]. split; [|split].
  - apply Forall_forall. intros v Hv. apply filter_In in Hv as [_ Hv]. apply N.ltb_lt. exact Hv.
  - intros v Hv Hlt. apply filter_In. split; [apply in_or_app; left; exact Hv|apply N.ltb_lt; exact Hlt].
  - intros v _ Hle Hin. apply filter_In in Hin as [_ Hin]. apply N.ltb_lt in Hin. lia.
Qed.

Theorem timers_idle_step pol s i :
  bi_msgs i = [] -> bi_calls i = [] -> b_queriers s = [] ->
  Forall (fun x => hp_rerun_due (bi_now i) (fst x) = false) (b_retr s) ->
  (b_ip_interval s = 0 \/ (b_next_ip s <> 0 /\ bi_now i < b_next_ip s)) ->
  b_timers (fst (step pol s i)) = filter (fun v => bi_now i <? v) (b_timers s).
Proof.
  intros Hm Hc Hq Hr Hip.
  destruct (idle_step pol s i Hm Hc Hq Hr) as [s6 [-> [Et [En Ei]]]].
  unfold ip_check. rewrite En, Ei. destruct Hip as [Hz|[Hnz Hlt]].
  - rewrite Hz. cbn [N.eqb b_timers]. rewrite app_nil_r. exact Et.
  - destruct (b_ip_interval s =? 0); [cbn [b_timers]; rewrite app_nil_r; exact Et|].
    destruct (b_next_ip s =? 0) eqn:E0; [apply N.eqb_eq in E0; contradiction|].
    rewrite pin_ip_check_due. destruct (b_next_ip s <=? bi_now i) eqn:Ed; [apply N.leb_le in Ed; lia|exact Et].
Qed.
