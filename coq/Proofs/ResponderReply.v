(* What handle_query does with the outgoing message once the question loop has filled it: the
   guard, the legacy-unicast treatment and send_response, in closed form (`reply`).  The
   specification has the same form (spec_reply), so model and specification are compared section
   by section. *)
From Coq Require Import List NArith Bool Lia Permutation.
From Mdns Require Import Bytes Rec Intf Responder ResponderSpec ParamsResponder ParamsResponderPinned
     ListFacts.
Import ListNotations.
Open Scope N_scope.

(* the part of the outgoing message the question loop leaves alone *)
Definition og_head (og : outgoing) : N * N * bool * list (bytes * N) :=
  (og_flags og, og_id og, og_multicast og, og_questions og).

(* reply is written with the literals of the specification (33792, id 0, port 5353 inside legacy),
   so that spec k inp is a reply by conversion (spec_reply); the parameters read from the Rust
   source meet these literals in handle_query_reply. *)
Definition reply_packet (inp : hq_input) (A D : list rr) : packet :=
  mkPacket (if legacy inp then DUnicast (h_src_ip inp) (h_src_port inp) else DMulticast (is_v4 (h_src_ip inp)))
           (mi_index (h_intf inp)) (if legacy inp then m_id (h_msg inp) else 0) 33792
           (if legacy inp then map (fun q => (q_name q, q_type q)) (m_questions (h_msg inp)) else [])
           (if legacy inp then map clear_flush A else A)
           (if legacy inp then map clear_flush D else D).

Definition reply (inp : hq_input) (A D : list rr) : option packet :=
  if is_nil A then None
  else if negb (family_enabled (h_intf inp) (is_v4 (h_src_ip inp))) then None
  else Some (reply_packet inp A D).

Lemma reply_some inp A D p : reply inp A D = Some p ->
  family_enabled (h_intf inp) (is_v4 (h_src_ip inp)) = true /\ p = reply_packet inp A D.
Proof.
  unfold reply. destruct (is_nil A); [discriminate|].
  destruct (family_enabled (h_intf inp) (is_v4 (h_src_ip inp))); [|discriminate].
  intros H. injection H as <-. split; reflexivity.
Qed.

Lemma spec_reply k inp :
  spec k inp = reply inp (spec_answers k (h_name_changes inp) (h_intf inp) (h_msg inp) (is_v4 (h_src_ip inp)) (h_services inp))
                         (spec_additionals k (h_name_changes inp) (h_intf inp) (h_msg inp) (is_v4 (h_src_ip inp)) (h_services inp)).
Proof. reflexivity. Qed.

Lemma perm_is_nil {A} (l l' : list A) : Permutation l l' -> is_nil l = is_nil l'.
Proof.
  intros H. destruct l, l'; try reflexivity.
  - apply Permutation_nil in H. discriminate.
  - apply Permutation_sym, Permutation_nil in H. discriminate.
Qed.

Lemma reply_perm inp A A' D D' :
  Permutation A A' -> Permutation D D' -> reaction_equiv (reply inp A D) (reply inp A' D').
Proof.
  intros Ha Hd. unfold reply. rewrite (perm_is_nil _ _ Ha).
  destruct (is_nil A'); [exact I|]. destruct (negb _); [exact I|].
  unfold reaction_equiv, packet_equiv, reply_packet.
  cbn [p_dest p_if p_id p_flags p_questions p_answers p_additionals].
  destruct (legacy inp); repeat split; try apply Permutation_map; assumption.
Qed.

Lemma valid_family a x : valid_ip_on_intf a x = true -> is_v4 (ia_ip x) = is_v4 a.
Proof. unfold valid_ip_on_intf. destruct a, (ia_ip x); simpl; congruence. Qed.

Lemma family_enabled_existsb intf v4 :
  family_enabled intf v4 = existsb (fun x => Bool.eqb (is_v4 (ia_ip x)) v4) (mi_addrs intf).
Proof.
  unfold family_enabled, has_v4, has_v6, is_v6.
  destruct v4; apply existsb_ext; intros x; destruct (is_v4 (ia_ip x)); reflexivity.
Qed.

(* The source address is one matching the sender, else the first of the sender's family: either
   way one exists iff the family is enabled, and its family is the sender's. *)
Lemma send_response_shape og intf src udest :
  is_nil (og_answers og) = false ->
  send_response og intf (is_v4 src) (find (valid_ip_on_intf src) (mi_addrs intf)) udest
  = if family_enabled intf (is_v4 src)
    then Some (mkPacket (match udest with Some (d, p) => DUnicast d p | None => DMulticast (is_v4 src) end)
                 (mi_index intf) (wire_id og) (og_flags og) (og_questions og) (og_answers og)
                 (og_additionals og))
    else None.
Proof.
  intros Hne. unfold send_response.
  rewrite Hne, family_enabled_existsb, existsb_find. cbn [andb].
  destruct (find (valid_ip_on_intf src) (mi_addrs intf)) as [a|] eqn:Em.
  - apply find_some in Em as [Hin Hv]. pose proof (valid_family _ _ Hv) as Hf.
    destruct (find (fun x => Bool.eqb (is_v4 (ia_ip x)) (is_v4 src)) (mi_addrs intf)) eqn:Ef.
    + rewrite Hf. reflexivity.
    + exfalso. eapply find_none in Ef; [|exact Hin]. rewrite Hf, eqb_reflx in Ef. discriminate.
  - destruct (find (fun x => Bool.eqb (is_v4 (ia_ip x)) (is_v4 src)) (mi_addrs intf)) as [a|] eqn:Ef; [|reflexivity].
    apply find_some in Ef as [_ Hf]. apply eqb_prop in Hf. rewrite Hf. reflexivity.
Qed.

Lemma fold_add_question qs : forall og,
  fold_left (fun o q => add_question o (q_name q) (q_type q)) qs og
  = mkOut (og_flags og) (og_id og) (og_multicast og) (og_questions og ++ map (fun q => (q_name q, q_type q)) qs)
          (og_answers og) (og_additionals og) (og_known og).
Proof.
  induction qs as [|q qs IH]; intros og; simpl.
  - rewrite app_nil_r. destruct og; reflexivity.
  - rewrite IH. simpl. rewrite <- app_assoc. reflexivity.
Qed.

Lemma respond_guard_nil {A} (l : list A) : respond_guard (N.of_nat (length l)) = negb (is_nil l).
Proof. rewrite respond_guard_pinned. destruct l; [reflexivity|]. apply N.ltb_lt. simpl length. lia. Qed.

Definition hq_og0 : outgoing := og_new (N.lor flags_qr_response flags_aa).
Definition hq_out (inp : hq_input) : outgoing :=
  fold_left (question_step inp (is_v4 (h_src_ip inp))) (m_questions (h_msg inp)) hq_og0.

Lemma handle_query_reply inp :
  og_head (hq_out inp) = og_head hq_og0 ->
  handle_query inp = reply inp (og_answers (hq_out inp)) (og_additionals (hq_out inp)).
Proof.
  intros Hh. injection Hh as Hf Hi Hm Hq.
  rewrite outgoing_multicast_default_pinned in Hm.
  unfold handle_query, reply. fold hq_og0. fold (hq_out inp).
  rewrite respond_guard_nil, legacy_unicast_test_pinned. fold (legacy inp).
  destruct (is_nil (og_answers (hq_out inp))) eqn:En; [reflexivity|]. cbn [negb].
  unfold reply_packet. destruct (legacy inp).
  - rewrite fold_add_question, send_response_shape.
    2:{ cbn. destruct (og_answers (hq_out inp)); [discriminate En|reflexivity]. }
    unfold wire_id. cbn. rewrite Hf, Hq.
    destruct (family_enabled (h_intf inp) (is_v4 (h_src_ip inp))); reflexivity.
  - rewrite send_response_shape by exact En.
    unfold wire_id. cbn. rewrite Hf, Hm, Hq, wire_id_when_multicast_pinned.
    destruct (family_enabled (h_intf inp) (is_v4 (h_src_ip inp))); reflexivity.
Qed.
