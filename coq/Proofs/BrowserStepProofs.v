(* Component theorems about the browser model used by C04 and C05: the follow-up chain, the
   resolution step, the sources of ServiceRemoved. *)
From Coq Require Import List NArith Bool Lia.
From Mdns Require Import Bytes Rec ParamsBrowser ParamsBrowserPinned Cache Browser CacheProofs.
From Mdns Require Import BrowserLoopProofs.
Import ListNotations.
Open Scope N_scope.

Definition forget_pending (s : st) (inst : bytes) : st :=
  mkSt (s_cache s) (s_q s) (set_remove inst (s_pending s)) (s_resolved s) (s_retrans s).

Theorem followup_step_any s now inst n :
  has_ptr_to (s_cache s) inst = true ->
  valid_instance_name inst = true -> bm_get inst (c_srv (s_cache s)) = None ->
  exec_resolve s now inst n =
  (if n <? 3
   then mkSt (s_cache s) (s_q s) (s_pending s) (s_resolved s)
             (s_retrans s ++ [(now + 500, RResolve inst (n + 1))])
   else forget_pending s inst,
   [OQuery [(inst, TY_ANY)]]).
Proof.
  intros Hp Hv Hs. unfold exec_resolve, query_unresolved, forget_pending. rewrite Hp, Hv, Hs. simpl.
  destruct (followup_pinned n) as (_ & _ & _ & _ & _ & Hg & _). rewrite Hg.
  destruct (n <? 3); reflexivity.
Qed.

(* when the chain is over (third try done, or nothing missing) the instance is no longer
   pending: a later ServiceFound of it starts a new chain *)
Theorem followup_over_allows_new_round s now inst n :
  (n <? 3) = false \/ has_ptr_to (s_cache s) inst = false \/ fst (query_unresolved (s_cache s) inst) = false ->
  mem inst (s_pending (fst (exec_resolve s now inst n))) = false.
Proof.
  intros H. unfold exec_resolve.
  destruct (has_ptr_to (s_cache s) inst); [|simpl; apply mem_set_remove].
  assert (H' : (n <? 3) = false \/ fst (query_unresolved (s_cache s) inst) = false)
    by (destruct H as [H|[H|H]]; [now left|discriminate|now right]).
  clear H. rename H' into H.
  destruct (query_unresolved (s_cache s) inst) as [sent o]. simpl in H.
  assert (Hc : sent && retry_guard n max_try = false).
  { destruct (followup_pinned n) as (_ & _ & _ & _ & _ & Hg & _). rewrite Hg.
    destruct H as [H|H]; rewrite H; [apply andb_false_r|reflexivity]. }
  rewrite Hc. simpl. apply mem_set_remove.
Qed.

Theorem followup_three_tries s t inst :
  has_ptr_to (s_cache s) inst = true ->
  valid_instance_name inst = true -> bm_get inst (c_srv (s_cache s)) = None ->
  let s1 := fst (exec_resolve s (t + 500) inst 1) in
  let s2 := fst (exec_resolve s1 (t + 1000) inst 2) in
  let s3 := fst (exec_resolve s2 (t + 1500) inst 3) in
  s_retrans s1 = s_retrans s ++ [(t + 1000, RResolve inst 2)]
  /\ s_retrans s2 = s_retrans s1 ++ [(t + 1500, RResolve inst 3)]
  /\ s_retrans s3 = s_retrans s2
  /\ snd (exec_resolve s (t + 500) inst 1) = [OQuery [(inst, TY_ANY)]]
  /\ snd (exec_resolve s1 (t + 1000) inst 2) = [OQuery [(inst, TY_ANY)]]
  /\ snd (exec_resolve s2 (t + 1500) inst 3) = [OQuery [(inst, TY_ANY)]].
Proof.
  intros Hp Hv Hs. cbv zeta.
  rewrite (followup_step_any s (t + 500) inst 1 Hp Hv Hs). simpl.
  set (s1 := mkSt (s_cache s) (s_q s) (s_pending s) (s_resolved s)
                  (s_retrans s ++ [(t + 500 + 500, RResolve inst 2)])).
  rewrite (followup_step_any s1 (t + 1000) inst 2 Hp Hv Hs). simpl.
  set (s2 := mkSt (s_cache s) (s_q s) (s_pending s) (s_resolved s)
                  ((s_retrans s ++ [(t + 500 + 500, RResolve inst 2)]) ++ [(t + 1000 + 500, RResolve inst 3)])).
  rewrite (followup_step_any s2 (t + 1500) inst 3 Hp Hv Hs). simpl.
  repeat split; f_equal; f_equal; f_equal; lia.
Qed.

Lemma dedup_pairs_nonempty x l : dedup_pairs (x :: l) [] <> [].
Proof. simpl. destruct x. discriminate. Qed.

(* a cache that holds an SRV of the instance with more than 1 s left, naming a host, and an
   address of that host (filed under the lower-cased name) with more than 1 s left, resolves *)
Theorem valid_when_complete c now ty inst sb e ab a :
  ty <> [] -> inst <> [] ->
  bm_get inst (c_srv c) = Some sb -> find (fun e => negb (expires_soon e now)) sb = Some e ->
  srv_host e <> [] ->
  bm_get (lower (srv_host e)) (c_addr c) = Some ab -> In a ab -> expires_soon a now = false ->
  is_valid (resolve_from_cache c now ty inst) = true.
Proof.
  intros Hty Hinst Hsb Hfind Hhost Hab Hin Hsoon.
  unfold is_valid, resolve_from_cache. simpl. rewrite Hsb, Hfind. unfold get_addr. rewrite Hab.
  destruct ty; [congruence|]. destruct inst; [congruence|]. destruct (srv_host e) eqn:Eh; [congruence|].
  simpl.
  assert (Hne : filter (fun e0 => negb (expires_soon e0 now)) ab <> []).
  { intros Hf. assert (In a (filter (fun e0 => negb (expires_soon e0 now)) ab)).
    { apply filter_In. split; [assumption|]. now rewrite Hsoon. }
    rewrite Hf in H. destruct H. }
  destruct (filter (fun e0 => negb (expires_soon e0 now)) ab) as [|x xs]; [congruence|].
  simpl. destruct (dedup_pairs ((addr_octets x, e_if x) :: map (fun e0 => (addr_octets e0, e_if e0)) xs) []) eqn:Ed.
  - exfalso. revert Ed. apply dedup_pairs_nonempty.
  - reflexivity.
Qed.

Theorem resolve_complete s now updated ty ch ptrs p :
  In (ty, ptrs) (c_ptr (s_cache s)) -> q_get ty (s_q s) = Some ch ->
  In p ptrs -> expires_soon p now = false -> mem (alias_of (e_rr p)) updated = true ->
  is_valid (resolve_from_cache (s_cache s) now ty (alias_of (e_rr p))) = true ->
  In (OEvt ch (EResolved (resolve_from_cache (s_cache s) now ty (alias_of (e_rr p)))))
     (snd (resolve_updated s now updated)).
Proof.
  intros Hin Hq Hp Hsoon Hmem Hv. apply resolve_updated_out. left. exists ty, ch, p.
  split; [exists ptrs; auto|]. split; [exact Hv|reflexivity].
Qed.

(* C05, removal by the eviction: only for an instance some PTR of that type points to *)
Theorem evict_removed_has_ptr s now ch t i :
  In (OEvt ch (ERemoved t i)) (notify_removal (s_q s) (snd (evict_services (s_cache s) now))) ->
  exists ptrs p, In (t, ptrs) (c_ptr (s_cache s)) /\ In p ptrs /\ alias_of (e_rr p) = i.
Proof. intros H. apply notify_removal_In in H. now apply evict_reported_has_ptr in H. Qed.

Theorem invalid_reported_under_every_name s now updated ty ch ptrs p :
  In (ty, ptrs) (c_ptr (s_cache s)) -> q_get ty (s_q s) = Some ch ->
  In p ptrs -> expires_soon p now = false -> mem (alias_of (e_rr p)) updated = true ->
  is_valid (resolve_from_cache (s_cache s) now ty (alias_of (e_rr p))) = false ->
  mem (alias_of (e_rr p)) (s_resolved s) = true ->
  In (OEvt ch (ERemoved ty (alias_of (e_rr p)))) (snd (resolve_updated s now updated)).
Proof.
  intros Hin Hq Hp Hsoon Hmem Hv Hr. apply resolve_updated_out. right. exists ty, ch, (alias_of (e_rr p)).
  split; [now apply q_get_In|]. split; [|reflexivity]. exists ch, p. split; [exists ptrs; auto|auto].
Qed.
