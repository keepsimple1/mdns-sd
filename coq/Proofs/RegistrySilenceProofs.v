(* C09, silence: every live record of every response the daemon model emits is built from a service
   that is in the service map when the micro-step ends, under the names its interface's registry
   holds then. *)
From Coq Require Import List NArith Bool.
From Mdns Require Import Bytes Rec Registry RegistryDaemon RegistrySpec RegistryTrace RegistryProofs
     RegistryDaemonProofs RegistryStepProofs RegistryLiftProofs RegistryHistoryProofs.
Import ListNotations.
Open Scope N_scope.

Definition ok_msg (svcs : list (bytes * svc)) (ch : list (bytes * bytes)) (m : omsg) : Prop :=
  forall r, In r (o_an m ++ o_ar m) -> exists k s, In (k, s) svcs /\ rec_of ch s r.

(* an output is fine for the state after its micro-step *)
Definition ok_out (post : dstate) (o : out) : Prop :=
  match o with
  | OSend i _ _ m => o_resp m = true -> is_goodbye m = true \/ ok_msg (d_svcs post) (chg post i) m
  | _ => True
  end.

Definition same_data (s s' : svc) : Prop :=
  s_ty s = s_ty s' /\ s_sub s = s_sub s' /\ s_full s = s_full s' /\ s_host s = s_host s' /\
  s_port s = s_port s' /\ s_txt s = s_txt s' /\ s_addrs s = s_addrs s'.

Lemma same_data_refl s : same_data s s. Proof. repeat split. Qed.

Lemma same_data_trans a b c : same_data a b -> same_data b c -> same_data a c.
Proof. unfold same_data. intuition congruence. Qed.

Lemma same_data_status i x s : same_data s (set_status i x s). Proof. repeat split. Qed.

Lemma rec_of_same_data ch s s' r : same_data s s' -> rec_of ch s r -> rec_of ch s' r.
Proof.
  intros (A & B & C & D & E & F & G). unfold rec_of. rewrite A, B, C, D, E, F, G. exact (fun H => H).
Qed.

Lemma with_change_rr rg key p : p_rr (with_change rg key p) = p_rr p.
Proof. unfold with_change. destruct (aget key (rg_changes rg)); reflexivity. Qed.

Lemma addrs_on_intf_in s i v4 a : In a (addrs_on_intf s i v4) -> In a (s_addrs s).
Proof. unfold addrs_on_intf. intros H. apply filter_In in H. tauto. Qed.

Lemma ptr_rrs_rec ch s ttl r : In r (ptr_rrs s ttl (resolve ch (s_full s))) -> rec_of ch s r.
Proof.
  unfold ptr_rrs. intros [<-|H].
  - left. cbn. split; [reflexivity|left; reflexivity].
  - destruct (s_sub s) as [sb|] eqn:E; [|contradiction]. destruct H as [<-|[]]. left. cbn. split; [reflexivity|right; rewrite E; reflexivity].
Qed.

Lemma announce_records_rec rg s i v4 r :
  In r (map wire_rr (announce_records rg s i v4)) -> rec_of (rg_changes rg) s r.
Proof.
  unfold announce_records. intros H. apply in_map_iff in H as (p & <- & Hp). destruct Hp as [<-|[<-|Hp]].
  - right. right. left. unfold wire_rr, srv_rec. cbn [r_name r_data]. rewrite p_name_with_change by reflexivity.
    rewrite with_change_rr. cbn. split; reflexivity.
  - right. right. right. left. unfold wire_rr, txt_rec. cbn [r_name r_data]. rewrite p_name_with_change by reflexivity.
    rewrite with_change_rr. cbn. split; reflexivity.
  - apply in_map_iff in Hp as (a & <- & Ha). right. right. right. right. exists a. split; [exact (addrs_on_intf_in _ _ _ _ Ha)|].
    unfold wire_rr, addr_rec. cbn [r_name r_data]. rewrite p_name_with_change by reflexivity. rewrite with_change_rr. cbn. split; reflexivity.
Qed.

Lemma prepare_announce_ok s i rg v4 now js :
  let '(rg', m, _) := prepare_announce s i rg v4 now js in
  rg_changes rg' = rg_changes rg /\
  match m with Some msg => forall r, In r (o_an msg ++ o_ar msg) -> rec_of (rg_changes rg) s r | None => True end.
Proof.
  pose proof (proj2 (joins_stable _ _ _ _ (prepare_announce_Ops s i rg v4 now js))) as HC.
  destruct (prepare_announce s i rg v4 now js) as [[rg' m] js'] eqn:E. cbn [fst] in HC. split; [exact HC|].
  destruct m as [msg|]; [|exact I]. apply prepare_announce_some in E as (_ & _ & ->).
  cbn [o_an o_ar]. rewrite app_nil_r. intros r Hr. apply in_app_or in Hr as [Hr|Hr].
  - exact (ptr_rrs_rec _ _ _ _ Hr).
  - exact (announce_records_rec _ _ _ _ _ Hr).
Qed.

(* announce_both: the registry keeps its name changes; every packet is on the interface and its
   records are records of s *)
Definition sends_ok_for (idx : N) (ch : list (bytes * bytes)) (s : svc) (os : list out) : Prop :=
  forall o, In o os -> match o with OSend i _ _ m => i = idx /\ forall r, In r (o_an m ++ o_ar m) -> rec_of ch s r | _ => False end.

Lemma announce_both_ok s i rg now js :
  let '(rg', os, _, _) := announce_both s i rg now js in
  rg_changes rg' = rg_changes rg /\ sends_ok_for (if_index i) (rg_changes rg) s os.
Proof.
  unfold announce_both.
  pose proof (prepare_announce_ok s i rg true now js) as H1. destruct (prepare_announce s i rg true now js) as [[rg1 m4] js1].
  pose proof (prepare_announce_ok s i rg1 false now js1) as H2. destruct (prepare_announce s i rg1 false now js1) as [[rg2 m6] js2].
  destruct H1 as [C1 R1], H2 as [C2 R2]. split; [congruence|].
  intros o Ho. apply in_app_or in Ho as [Ho|Ho].
  - destruct m4; [|contradiction]. destruct Ho as [<-|[]]. split; [reflexivity|exact R1].
  - destruct m6; [|contradiction]. destruct Ho as [<-|[]]. split; [reflexivity|]. rewrite <- C1. exact R2.
Qed.

Definition from_svcs (svcs : list (bytes * svc)) (ch : list (bytes * bytes)) (rs : list rr) : Prop :=
  forall r, In r rs -> exists k s, In (k, s) svcs /\ rec_of ch s r.

Lemma from_svcs_app svcs ch a b : from_svcs svcs ch a -> from_svcs svcs ch b -> from_svcs svcs ch (a ++ b).
Proof. intros A B r Hr. apply in_app_or in Hr as [Hr|Hr]; auto. Qed.

Lemma from_svcs_nil svcs ch : from_svcs svcs ch []. Proof. intros r []. Qed.

Lemma add_all_in g recs r : In r (add_all g recs) -> In r (map wire_rr recs).
Proof. unfold add_all. intros H. apply in_map_iff in H as (p & <- & Hp). apply filter_In in Hp as [Hp _]. apply in_map. exact Hp. Qed.

Lemma answer_ptr_question_ok st g itf rg qn :
  from_svcs (d_svcs st) (rg_changes rg) (fst (answer_ptr_question st g itf rg qn) ++ snd (answer_ptr_question st g itf rg qn)).
Proof.
  unfold answer_ptr_question. set (ch := rg_changes rg).
  set (f := fun (accs : list rr * list rr * list bytes) (ks : bytes * svc) => _).
  set (Inv := fun accs : list rr * list rr * list bytes => from_svcs (d_svcs st) ch (fst (fst accs)) /\ from_svcs (d_svcs st) ch (snd (fst accs))).
  assert (Step : forall accs k s, In (k, s) (d_svcs st) -> Inv accs -> Inv (f accs (k, s))).
  { intros [[an ar] seen] k s Hin [A B]. unfold f, Inv. cbn [snd fst] in *.
    destruct (negb (announced_on (g_if g) s)); [split; assumption|].
    destruct (beq qn (s_ty s) || opt_beq (s_sub s) qn).
    - destruct (addrs_on_intf s itf (g_v4 g)) eqn:EA; [split; assumption|]. rewrite <- EA.
      match goal with |- context [suppressed g ?p] => destruct (suppressed g p) end; [split; assumption|]. cbn [fst snd]. split.
      + apply from_svcs_app; [exact A|]. intros r [<-|[]]. exists k, s. split; [exact Hin|]. left. cbn. split; [reflexivity|left; reflexivity].
      + apply from_svcs_app; [exact B|]. intros r Hr. exists k, s. split; [exact Hin|].
        apply in_app_or in Hr as [Hr|Hr]; [|apply in_app_or in Hr as [Hr|Hr]].
        * destruct (s_sub s) as [sb|] eqn:ES; [|contradiction]. destruct Hr as [<-|[]]. left. cbn. split; [reflexivity|right; rewrite ES; reflexivity].
        * destruct Hr as [<-|[<-|[]]]; [right; right; left|right; right; right; left]; cbn; split; reflexivity.
        * apply in_map_iff in Hr as (a & <- & Ha). right. right. right. right. exists a.
          split; [exact (addrs_on_intf_in _ _ _ _ Ha)|]. cbn. split; reflexivity.
    - destruct (beq qn META_QUERY) eqn:M; [|split; assumption]. destruct (mem (s_ty s) seen); [split; assumption|]. cbn [fst snd].
      split; [|exact B]. apply from_svcs_app; [exact A|]. intros r Hr. apply add_all_in in Hr. destruct Hr as [<-|[]].
      exists k, s. split; [exact Hin|]. right. left. cbn. apply beq_eq in M. split; [exact M|reflexivity]. }
  assert (G : forall l accs, incl l (d_svcs st) -> Inv accs -> Inv (fold_left f l accs)).
  { induction l as [|[k s] t IH]; intros accs Hincl H; [exact H|]. cbn [fold_left].
    apply IH; [intros x Hx; apply Hincl; right; exact Hx|]. apply Step; [apply Hincl; left; reflexivity|exact H]. }
  destruct (G (d_svcs st) (([], []), []) (incl_refl _) (conj (from_svcs_nil _ _) (from_svcs_nil _ _))) as [A B].
  apply from_svcs_app; assumption.
Qed.

Lemma answer_addr_question_ok st g itf rg qn qt :
  from_svcs (d_svcs st) (rg_changes rg) (answer_addr_question st g itf rg qn qt).
Proof.
  unfold answer_addr_question. intros r Hr. apply in_flat_map in Hr as ([k s] & Hin & Hr). cbn [snd] in Hr.
  destruct (negb (announced_on (g_if g) s)); [contradiction|].
  destruct (beq (lower (resolve_name rg (s_host s))) (lower qn)); [|contradiction].
  apply add_all_in in Hr. apply in_map_iff in Hr as (p & <- & Hp). apply in_map_iff in Hp as (a & <- & Ha).
  exists k, s. split; [exact Hin|]. right. right. right. right. exists a. split.
  - apply in_app_or in Ha as [Ha|Ha];
      match type of Ha with In _ (if ?c then _ else _) => destruct c end; try contradiction; exact (addrs_on_intf_in _ _ _ _ Ha).
  - cbn. split; reflexivity.
Qed.

Lemma answer_instance_question_ok st g itf rg qn qt :
  from_svcs (d_svcs st) (rg_changes rg)
            (fst (answer_instance_question st g itf rg qn qt) ++ snd (answer_instance_question st g itf rg qn qt)).
Proof.
  unfold answer_instance_question.
  destruct (find (fun ks => beq (lower (resolve_name rg (s_full (snd ks)))) (lower qn)) (d_svcs st)) as [[k s]|] eqn:F;
    [|apply from_svcs_nil].
  apply find_some in F as [Hin Hb]. cbn [snd] in Hb. apply beq_eq in Hb.
  destruct (negb (announced_on (g_if g) s)); [apply from_svcs_nil|].
  destruct (addrs_on_intf s itf (g_v4 g)) eqn:EA; [apply from_svcs_nil|]. rewrite <- EA. cbn [fst snd].
  intros r Hr. exists k, s. split; [exact Hin|].
  apply in_app_or in Hr as [Hr|Hr]; [apply in_app_or in Hr as [Hr|Hr]|].
  - match type of Hr with In _ (if ?c then _ else _) => destruct c end; [|contradiction]. destruct Hr as [<-|[]].
    right. right. left. cbn. split; [symmetry; exact Hb|reflexivity].
  - match type of Hr with In _ (if ?c then _ else _) => destruct c end; [|contradiction]. apply add_all_in in Hr. destruct Hr as [<-|[]].
    right. right. right. left. cbn. split; [symmetry; exact Hb|reflexivity].
  - match type of Hr with In _ (if ?c then _ else _) => destruct c end; [|contradiction].
    apply in_map_iff in Hr as (a & <- & Ha). right. right. right. right. exists a.
    split; [exact (addrs_on_intf_in _ _ _ _ Ha)|]. cbn. split; reflexivity.
Qed.

Lemma tiebreak_question_changes rg g qn qt now : rg_changes (tiebreak_question rg g qn qt now) = rg_changes rg.
Proof.
  unfold tiebreak_question. destruct ((qt =? TY_ANY) && negb match g_ns g with [] => true | _ => false end); [|reflexivity].
  unfold apply_tiebreak. destruct (aget qn (rg_probing rg)); reflexivity.
Qed.

Lemma handle_questions_ok st g itf now : forall qs rg,
  let '(rg', an, ar) := handle_questions st g itf rg qs now in
  rg_changes rg' = rg_changes rg /\ from_svcs (d_svcs st) (rg_changes rg) (an ++ ar).
Proof.
  induction qs as [|[qn qt] t IH]; intros rg; [split; [reflexivity|apply from_svcs_nil]|]. cbn [handle_questions].
  destruct (qt =? TY_PTR).
  - pose proof (answer_ptr_question_ok st g itf rg qn) as H1. destruct (answer_ptr_question st g itf rg qn) as [an ar].
    specialize (IH rg). destruct (handle_questions st g itf rg t now) as [[rg' an2] ar2]. destruct IH as [C F]. split; [exact C|].
    cbn [fst snd] in H1. intros r Hr. apply in_app_or in Hr as [Hr|Hr]; apply in_app_or in Hr as [Hr|Hr].
    + apply H1. apply in_or_app. left. exact Hr.
    + apply F. apply in_or_app. left. exact Hr.
    + apply H1. apply in_or_app. right. exact Hr.
    + apply F. apply in_or_app. right. exact Hr.
  - set (rg1 := tiebreak_question rg g qn qt now). pose proof (tiebreak_question_changes rg g qn qt now) as C1. fold rg1 in C1.
    pose proof (answer_addr_question_ok st g itf rg1 qn qt) as HA.
    pose proof (answer_instance_question_ok st g itf rg1 qn qt) as HI.
    destruct (answer_instance_question st g itf rg1 qn qt) as [an_i ar_i]. cbn [fst snd] in HI.
    specialize (IH rg1). destruct (handle_questions st g itf rg1 t now) as [[rg' an2] ar2]. destruct IH as [C F].
    rewrite C1 in *. split; [exact C|].
    intros r Hr. apply in_app_or in Hr as [Hr|Hr].
    + apply in_app_or in Hr as [Hr|Hr].
      * match type of Hr with In _ (if ?c then _ else _) => destruct c end; [exact (HA r Hr)|contradiction].
      * apply in_app_or in Hr as [Hr|Hr]; [apply HI; apply in_or_app; left; exact Hr|apply F; apply in_or_app; left; exact Hr].
    + apply in_app_or in Hr as [Hr|Hr]; [apply HI; apply in_or_app; right; exact Hr|apply F; apply in_or_app; right; exact Hr].
Qed.

Lemma rec_of_clear_flush ch s r : rec_of ch s r -> rec_of ch s (clear_flush r).
Proof. unfold rec_of, clear_flush. cbn [r_name r_data]. tauto. Qed.

Lemma from_svcs_clear svcs ch rs : from_svcs svcs ch rs -> from_svcs svcs ch (map clear_flush rs).
Proof. intros H r Hr. apply in_map_iff in Hr as (r0 & <- & H0). destruct (H r0 H0) as (k & s & I & R). exists k, s. split; [exact I|apply rec_of_clear_flush; exact R]. Qed.

Lemma rec_clear_ex (svcs : list (bytes * svc)) ch r : (exists k s, In (k, s) svcs /\ rec_of ch s r) -> exists k s, In (k, s) svcs /\ rec_of ch s (clear_flush r).
Proof. intros (k & s & I & R). exists k, s. split; [exact I|apply rec_of_clear_flush; exact R]. Qed.

Lemma chg_nset st i rg' svcs rt m d o sel intfs :
  chg (mkD intfs (nset i rg' (d_regs st)) svcs rt m d o sel) i = rg_changes rg'.
Proof. unfold chg, get_reg. cbn [d_regs]. rewrite nget_nset_same. reflexivity. Qed.

Lemma handle_query_ok st g now : Forall (ok_out (fst (handle_query st g now))) (snd (handle_query st g now)).
Proof.
  unfold handle_query. destruct (nget (g_if g) (d_regs st)) as [rg|] eqn:G; [|constructor].
  destruct (find_intf st (g_if g)) as [itf|]; [|constructor].
  pose proof (handle_questions_ok st g itf now (g_q g) rg) as H.
  destruct (handle_questions st g itf rg (g_q g) now) as [[rg' an] ar]. destruct H as [C F].
  destruct an as [|a an'] eqn:EA; [constructor|]. rewrite <- EA in *. clear EA. cbn [fst snd]. constructor.
  - cbn [ok_out]. intros _. right. rewrite chg_nset, C. cbn [d_svcs].
    destruct (g_port g =? MDNS_PORT); cbn [o_an o_ar]; intros r Hr.
    + exact (F r Hr).
    + apply in_app_or in Hr as [Hr|Hr]; apply in_map_iff in Hr as (r0 & <- & H0); apply rec_clear_ex;
        apply F; apply in_or_app; [left|right]; exact H0.
  - unfold mon. destruct (d_mon st); repeat constructor.
Qed.

Lemma handle_dgram_ok st g now js :
  Forall (ok_out (fst (fst (handle_dgram st g now js)))) (snd (fst (handle_dgram st g now js))).
Proof.
  unfold handle_dgram. destruct (find_intf st (g_if g)); [|constructor].
  destruct (negb (intf_has_family i (g_v4 g))); [constructor|]. destruct (g_resp g).
  - destruct (handle_response st g now js). constructor.
  - pose proof (handle_query_ok st g now) as H. destruct (handle_query st g now). exact H.
Qed.

Definition svcs_le (a b : list (bytes * svc)) : Prop :=
  forall k s, In (k, s) a -> exists s', In (k, s') b /\ same_data s s'.

Lemma svcs_le_refl a : svcs_le a a. Proof. intros k s H. exists s. split; [exact H|apply same_data_refl]. Qed.

Lemma svcs_le_trans a b c : svcs_le a b -> svcs_le b c -> svcs_le a c.
Proof. intros A B k s H. destruct (A k s H) as (s1 & I1 & D1). destruct (B k s1 I1) as (s2 & I2 & D2). exists s2. split; [exact I2|eapply same_data_trans; eassumption]. Qed.

Lemma svcs_le_sput k0 s0 v l : aget k0 l = Some s0 -> same_data s0 v -> svcs_le l (sput k0 v l).
Proof.
  intros G D k s H. unfold sput. destruct (In_aset_cases k0 v k s l H) as [I|[-> G']].
  - exists s. split; [exact I|apply same_data_refl].
  - exists v. split; [apply In_aset_same|]. congruence.
Qed.

Lemma from_svcs_le a b ch rs : svcs_le a b -> from_svcs a ch rs -> from_svcs b ch rs.
Proof.
  intros L F r Hr. destruct (F r Hr) as (k & s & I & R). destruct (L k s I) as (s' & I' & D).
  exists k, s'. split; [exact I'|exact (rec_of_same_data _ _ _ _ D R)].
Qed.

Lemma reg_of_changes_nset regs idx rg' k :
  rg_changes rg' = rg_changes (reg_of regs idx) -> rg_changes (reg_of (nset idx rg' regs) k) = rg_changes (reg_of regs k).
Proof.
  intros E. destruct (N.eq_dec k idx) as [->|Hne]; [rewrite reg_of_nset_same; exact E|rewrite reg_of_nset_other by exact Hne; reflexivity].
Qed.

(* sends of os: on the interface they name, records of s' under the name changes regs has there *)
Definition sends_ok_regs (regs : list (N * registry)) (s' : svc) (os : list out) : Prop :=
  forall o, In o os -> match o with OSend i _ _ m => forall r, In r (o_an m ++ o_ar m) -> rec_of (rg_changes (reg_of regs i)) s' r | _ => False end.

Lemma register_intfs_ok now : forall ifs s regs js,
  let '(s', regs', os, _, _) := register_intfs ifs s regs now js in
  same_data s s' /\ (forall k, rg_changes (reg_of regs' k) = rg_changes (reg_of regs k)) /\ sends_ok_regs regs s' os.
Proof.
  induction ifs as [|itf t IH]; intros s regs js; [split; [apply same_data_refl|split; [reflexivity|intros o []]]|].
  cbn [register_intfs]. fold (reg_of regs (if_index itf)).
  pose proof (announce_both_ok s itf (reg_of regs (if_index itf)) now js) as H1.
  destruct (announce_both s itf (reg_of regs (if_index itf)) now js) as [[[rg' os] ann] js1]. destruct H1 as [C1 S1].
  match goal with |- context [register_intfs t ?a ?b now js1] => specialize (IH a b js1); destruct (register_intfs t a b now js1) as [[[[s2 regs2] os2] anns] js2] end.
  destruct IH as (D & CH & S2).
  assert (D0 : same_data s s2) by (eapply same_data_trans; [apply same_data_status|exact D]).
  split; [exact D0|]. split.
  - intros k. rewrite CH. apply reg_of_changes_nset. exact C1.
  - intros o Ho. apply in_app_or in Ho as [Ho|Ho].
    + specialize (S1 o Ho). destruct o; try contradiction. destruct S1 as [-> R]. intros r Hr.
      exact (rec_of_same_data _ _ _ _ D0 (R r Hr)).
    + specialize (S2 o Ho). destruct o; try contradiction. intros r Hr. specialize (S2 r Hr).
      rewrite reg_of_changes_nset in S2 by exact C1. exact S2.
Qed.

Lemma chg_reg_of st i : chg st i = rg_changes (reg_of (d_regs st) i).
Proof. unfold chg. rewrite get_reg_reg_of. reflexivity. Qed.

Lemma register_service_ok st s now js :
  Forall (ok_out (fst (fst (register_service st s now js)))) (snd (fst (register_service st s now js))).
Proof.
  unfold register_service.
  pose proof (register_intfs_ok now (d_intfs st) (auto_addrs st s) (d_regs st) js) as H.
  destruct (register_intfs (d_intfs st) (auto_addrs st s) (d_regs st) now js) as [[[[s' regs] os] anns] js'].
  destruct H as (D & CH & S). cbn [fst snd]. apply Forall_app. split.
  - apply Forall_forall. intros o Ho. specialize (S o Ho). destruct o; try contradiction. cbn [ok_out]. intros _. right.
    intros r Hr. exists (lower (s_full (auto_addrs st s))), s'. split; [cbn [d_svcs]; apply In_aset_same|].
    rewrite chg_reg_of. cbn [d_regs]. rewrite CH. exact (S r Hr).
  - destruct anns; [constructor|]. unfold mon. destruct (d_mon st); repeat constructor.
Qed.

Lemma goodbyes_ok post st s : Forall (ok_out post) (map send_of (goodbyes_of st s)).
Proof.
  apply Forall_forall. intros o Ho. apply in_map_iff in Ho as ([[i v4] m] & <- & Hin). intros _. left. exact (goodbyes_are_goodbyes st s i v4 m Hin).
Qed.

Lemma unregister_ok st k ch now : Forall (ok_out (fst (unregister st k ch now))) (snd (unregister st k ch now)).
Proof.
  unfold unregister. destruct (aget k (d_svcs st)) as [s|]; cbn [fst snd]; [|repeat constructor].
  apply Forall_app. split; [apply goodbyes_ok|repeat constructor].
Qed.

Lemma cleanup_ok st : Forall (ok_out (fst (cleanup st))) (snd (cleanup st)).
Proof.
  unfold cleanup. cbn [fst snd]. apply Forall_app. split; [|repeat constructor].
  apply Forall_forall. intros o Ho. apply in_flat_map in Ho as (ks & _ & Ho).
  exact (proj1 (Forall_forall _ _) (goodbyes_ok _ st (snd ks)) o Ho).
Qed.

(* every packet among os goes out on interface idx and its records are records of services in svcs
   under the name changes ch *)
Definition sends_from (idx : N) (svcs : list (bytes * svc)) (ch : list (bytes * bytes)) (os : list out) : Prop :=
  forall o, In o os -> match o with
                       | OSend i _ _ m => i = idx /\ from_svcs svcs ch (o_an m ++ o_ar m)
                       | _ => True end.

Lemma add_row_services_ok now svcs itf rg ip js :
  let '(svcs', rg', os, _, _) := add_row_services svcs itf rg ip now js in
  rg_changes rg' = rg_changes rg /\ sends_from (if_index itf) svcs' (rg_changes rg) os.
Proof.
  destruct (add_row_services svcs itf rg ip now js) as [[[[svcs' rg'] os] rt] js'] eqn:E.
  refine (add_row_services_loop (fun a b _ out os _ => rg_changes b = rg_changes a /\ sends_from (if_index itf) out (rg_changes a) os)
            _ _ itf ip now svcs _ _ rg js svcs' rg' os rt js' E).
  - intros a. split; [reflexivity|intros o []].
  - intros a b c i1 i2 s1 s2 o1 o2 r1 r2 [C1 S1] [C2 S2]. split; [congruence|]. intros o Ho.
    apply in_app_or in Ho as [Ho|Ho]; [specialize (S1 o Ho)|specialize (S2 o Ho); rewrite C1 in S2]; destruct o; try exact I.
    + destruct S1 as [Ei F]. split; [exact Ei|]. intros r Hr. destruct (F r Hr) as (k1 & v1 & I1 & Rr). exists k1, v1. split; [apply in_or_app; left; exact I1|exact Rr].
    + destruct S2 as [Ei F]. split; [exact Ei|]. intros r Hr. destruct (F r Hr) as (k1 & v1 & I1 & Rr). exists k1, v1. split; [apply in_or_app; right; exact I1|exact Rr].
  - intros k s a _ _. split; [reflexivity|intros o []].
  - intros k s a js0 rg1 mo js1 _ _ s1 EP. pose proof (prepare_announce_ok s1 itf a (is_v4 ip) now js0) as H1. rewrite EP in H1. destruct H1 as [C1 R1].
    split; [exact C1|]. intros o Ho. destruct mo as [msg|]; [|contradiction]. destruct Ho as [<-|[]]. split; [reflexivity|]. intros r Hr.
    eexists k, _. split; [left; reflexivity|]. eapply rec_of_same_data; [apply same_data_status|exact (R1 r Hr)].
Qed.

Lemma add_interface_ok st r now js :
  Forall (ok_out (fst (fst (add_interface st r now js)))) (snd (fst (add_interface st r now js))).
Proof.
  destruct (add_interface_cases st r now js) as [E|(itf & intfs & Ei & _ & H)]; [rewrite E; constructor|].
  pose proof (add_row_services_ok now (d_svcs st) itf (get_reg st (os_index r)) (os_ip r) js) as K.
  destruct (add_row_services (d_svcs st) itf (get_reg st (os_index r)) (os_ip r) now js) as [[[[svcs rg] os] rt] js']. rewrite (H _ _ _ _ _ eq_refl).
  destruct K as [C S]. cbn [fst snd]. apply Forall_app. split; [|unfold mon; destruct (d_mon st); repeat constructor].
  apply Forall_forall. intros o Ho. specialize (S o Ho). destruct o; try exact I. destruct S as [E F]. intros _. right.
  rewrite Ei in E. subst ifidx. rewrite chg_nset, C. exact F.
Qed.

Lemma del_interface_addr_ok st r : Forall (ok_out (fst (del_interface_addr st r))) (snd (del_interface_addr st r)).
Proof.
  unfold del_interface_addr. destruct (find_intf st (os_index r)) as [itf0|]; [|constructor].
  destruct (negb (has_addr itf0 (os_ip r))); [constructor|]. cbn [fst snd].
  match goal with |- Forall _ (if ?c then _ else _) => destruct c end; [constructor|]. unfold mon. destruct (d_mon st); repeat constructor.
Qed.

Lemma sends_ok_to_ok_out post idx ch s os k :
  sends_ok_for idx ch s os -> chg post idx = ch -> In (k, s) (d_svcs post) -> Forall (ok_out post) os.
Proof.
  intros S C I. apply Forall_forall. intros o Ho. specialize (S o Ho). destruct o; try contradiction. destruct S as [-> R].
  cbn [ok_out]. intros _. right. rewrite C. intros r Hr. exists k, s. split; [exact I|exact (R r Hr)].
Qed.

Lemma sends_ok_same_data idx ch s s' os : same_data s s' -> sends_ok_for idx ch s os -> sends_ok_for idx ch s' os.
Proof.
  intros D S o Ho. specialize (S o Ho). destruct o; try contradiction. destruct S as [E R]. split; [exact E|].
  intros r Hr. exact (rec_of_same_data _ _ _ _ D (R r Hr)).
Qed.

Lemma register_resend_ok st full i now js :
  Forall (ok_out (fst (fst (register_resend st full i now js)))) (snd (fst (register_resend st full i now js))).
Proof.
  unfold register_resend. destruct (aget (lower full) (d_svcs st)) as [s|] eqn:G; [|constructor].
  destruct (nget i (d_regs st)) as [rg|] eqn:GR; [|constructor]. destruct (find_intf st i) as [itf|] eqn:F; [|constructor].
  assert (Ei : if_index itf = i) by (unfold find_intf in F; apply find_some in F as [_ F]; apply N.eqb_eq in F; exact F).
  pose proof (announce_both_ok s itf rg now js) as H. destruct (announce_both s itf rg now js) as [[[rg' os] ann] js']. destruct H as [C S].
  rewrite Ei in S. destruct ann; cbn [fst snd].
  - apply Forall_app. split; [|unfold mon; destruct (d_mon st); repeat constructor].
    apply (sends_ok_to_ok_out _ i (rg_changes rg) (set_status i SAnnounced s) os (lower full)).
    + exact (sends_ok_same_data _ _ _ _ _ (same_data_status _ _ _) S).
    + rewrite chg_nset. exact C.
    + cbn [d_svcs]. apply In_aset_same.
  - apply (sends_ok_to_ok_out _ i (rg_changes rg) s os (lower full)); [exact S|rewrite chg_nset; exact C|cbn [d_svcs]; apply aget_In; exact G].
Qed.

Definition waiting_ok (idx : N) (x y : registry * list (bytes * svc)) (os : list out) (_ : list (N * cmd)) : Prop :=
  rg_changes (fst y) = rg_changes (fst x) /\ svcs_le (snd x) (snd y) /\ sends_from idx (snd y) (rg_changes (fst x)) os.

Lemma announce_waiting_ok itf now m waiting rg svcs js :
  let '(rg2, svcs2, os, _, _) := announce_waiting waiting itf rg svcs now js m in
  rg_changes rg2 = rg_changes rg /\ svcs_le svcs svcs2 /\ sends_from (if_index itf) svcs2 (rg_changes rg) os.
Proof.
  destruct (announce_waiting waiting itf rg svcs now js m) as [[[[rg2 svcs2] os] rt] js2] eqn:E.
  refine (announce_waiting_loop (waiting_ok (if_index itf)) _ _ itf now m waiting _ rg svcs js rg2 svcs2 os rt js2 E).
  - intros x. split; [reflexivity|]. split; [apply svcs_le_refl|intros o []].
  - (* records of services in the map stay so when the map grows and the name changes stand *)
    intros x y z o1 o2 r1 r2 (C1 & L1 & S1) (C2 & L2 & S2). split; [congruence|]. split; [eapply svcs_le_trans; eassumption|].
    intros o Ho. apply in_app_or in Ho as [Ho|Ho].
    + specialize (S1 o Ho). destruct o; try exact I. destruct S1 as [Ei F]. split; [exact Ei|exact (from_svcs_le _ _ _ _ L2 F)].
    + specialize (S2 o Ho). destruct o; try exact I. rewrite C1 in S2. exact S2.
  - intros w s rg0 svcs0 js0 rg1 os1 ann js1 _ G _ EB. pose proof (announce_both_ok s itf rg0 now js0) as H1. rewrite EB in H1. destruct H1 as [C1 S1].
    assert (K : forall svcs1, svcs_le svcs0 svcs1 -> sends_from (if_index itf) svcs1 (rg_changes rg0) os1).
    { intros svcs1 L o Ho. specialize (S1 o Ho). destruct o; try exact I. destruct S1 as [Ei R]. split; [exact Ei|].
      apply (from_svcs_le svcs0 svcs1); [exact L|]. intros r Hr. exists (lower w), s. split; [apply aget_In; exact G|exact (R r Hr)]. }
    destruct ann; (split; [exact C1|]).
    + pose proof (svcs_le_sput _ _ _ _ G (same_data_status (if_index itf) SAnnounced s)) as L. split; [exact L|]. intros o Ho.
      apply in_app_or in Ho as [Ho|Ho]; [exact (K _ L o Ho)|]. unfold mon in Ho. destruct m; [|contradiction]. destruct Ho as [<-|[]]. exact I.
    + split; [apply svcs_le_refl|exact (K _ (svcs_le_refl _))].
Qed.

Lemma pass_ok itf st now js : Forall (ok_out (fst (fst (pass itf st now js)))) (snd (fst (pass itf st now js))).
Proof.
  unfold pass. destruct (nget (if_index itf) (d_regs st)) as [rg|]; [|constructor].
  destruct (probe_step rg now) as [[[rg1 qs] evs] waiting].
  pose proof (announce_waiting_ok itf now (d_mon st) waiting rg1 (d_svcs st) js) as H1.
  destruct (announce_waiting waiting itf rg1 (d_svcs st) now js (d_mon st)) as [[[[rg2 svcs2] os2] rt2] js2].
  destruct H1 as (C & L & S). cbn [fst snd]. apply Forall_app. split; [|apply Forall_app; split].
  - destruct qs; [constructor|]. apply Forall_app.
    split; [destruct (intf_has_family itf true)|destruct (intf_has_family itf false)]; repeat constructor; cbn; discriminate.
  - unfold mon. destruct (d_mon st); [|constructor]. apply Forall_forall. intros o Ho. apply in_map_iff in Ho as ([[a b] c] & <- & _). exact I.
  - apply Forall_forall. intros o Ho. specialize (S o Ho). destruct o; try exact I. destruct S as [-> F]. cbn [ok_out]. intros _. right.
    rewrite chg_nset, C. exact F.
Qed.

Lemma saved_adds now a b : adds_or_new now a b -> saved_goodbyes a -> saved_goodbyes b.
Proof.
  intros [(l & E & N)|N] H; unfold saved_goodbyes; [rewrite E; apply Forall_app; split; [exact H|]|]; (eapply Forall_impl; [|exact N]); apply new_entry_gb.
Qed.

Lemma ok_step now st st1 os1 : adds_or_new now st st1 -> Forall (ok_out st1) os1 -> step_fine saved_goodbyes ok_out st st1 os1.
Proof. intros A F H. split; [exact (saved_adds now st st1 A H)|exact F]. Qed.

(* every output of an iteration from a state whose queued goodbye repeats are goodbyes is fine for the
   state after its own micro-step *)
Theorem iterate_outputs_ok st it : saved_goodbyes st ->
  forall o, In o (snd (fst (fst (iterate st it)))) -> exists mid, In mid (iter_states st it) /\ ok_out mid o.
Proof.
  intros HG. apply (iter_states_fine saved_goodbyes ok_out it); [| | | |exact HG]; set (now := it_now it).
  - apply st_dgrams_fine. intros st0 g js _. apply (ok_step now); [|apply handle_dgram_ok].
    left. apply adds_same. exact (proj1 (proj2 (proj2 (handle_dgram_frame st0 g now js)))).
  - apply st_calls_fine. intros st0 c js _. apply st_call_fine.
    + intros st1 en kinds H. exact H.
    + intros st1 r js1. unfold row_step. destruct (row_selected (d_sel st1) r).
      * apply (ok_step now); [left; apply add_interface_adds|apply add_interface_ok].
      * pose proof (del_interface_addr_retrans st1 r) as E. pose proof (del_interface_addr_ok st1 r) as F.
        destruct (del_interface_addr st1 r) as [st2 os2]. apply (ok_step now); [left; apply adds_same; exact E|exact F].
    + intros Hn. apply (ok_step now); [apply exec_call_retrans|]. destruct c; cbn [exec_call]; try constructor.
      * pose proof (register_service_ok st0 s now js) as F. destruct (register_service st0 s now js) as [[st1 os1] js1]. exact F.
      * pose proof (unregister_ok st0 (lower name) ch now) as F. destruct (unregister st0 (lower name) ch now) as [st1 os1]. exact F.
      * pose proof (cleanup_ok st0) as F. destruct (cleanup st0) as [st1 os1]. exact F.
      * contradiction.
  - intros st0 js H. assert (H' : saved_goodbyes (requeue st0 (filter (fun e => negb (fst e <=? now)) (d_retrans st0)))).
    { apply Forall_forall. intros e He. apply filter_In in He as [He _]. exact (proj1 (Forall_forall _ _) H e He). }
    split; [exact H'|]. apply st_due_fine. intros st1 [t c] js1 Hin. apply filter_In in Hin as [Hin _]. cbn [snd]. destruct c as [full i|m i v4].
    + apply (ok_step now); [left; apply adds_same; exact (proj1 (proj2 (register_resend_frame st1 full i now js1)))|apply register_resend_ok].
    + apply (ok_step now); [left; apply adds_same; reflexivity|]. cbn [due_step fst snd]. unfold unregister_resend.
      destruct (find_intf st1 i) as [itf|]; [|constructor]. destruct (intf_has_family itf v4); [|constructor].
      constructor; [|constructor]. intros _. left. exact (proj1 (Forall_forall _ _) H _ Hin).
  - intros st0 js. apply st_probing_fine. intros st1 itf js1 _. apply (ok_step now); [left; apply pass_adds|apply pass_ok].
Qed.

(* every key of the service map is in base *)
Definition KS (base : list bytes) (st : dstate) : Prop := forall k s, In (k, s) (d_svcs st) -> In k base.

Lemma KS_svcs base st st' : d_svcs st' = d_svcs st -> KS base st -> KS base st'.
Proof. intros E H k s I. rewrite E in I. exact (H k s I). Qed.

Lemma sput_keys k0 v l k s : In (k, s) (sput k0 v l) -> k = k0 \/ In k (keys l).
Proof. intros H. apply In_keys in H. unfold sput in H. apply keys_aset in H. exact H. Qed.

Lemma handle_dgram_svcs st g now js : d_svcs (fst (fst (handle_dgram st g now js))) = d_svcs st.
Proof. exact (proj1 (proj2 (handle_dgram_frame st g now js))). Qed.

Lemma auto_addrs_full st s : s_full (auto_addrs st s) = s_full s.
Proof. unfold auto_addrs. destruct (s_auto s); reflexivity. Qed.

Lemma register_service_KS base st s now js : KS base st -> In (lower (s_full s)) base ->
  KS base (fst (fst (register_service st s now js))).
Proof.
  intros H Hb. unfold register_service.
  destruct (register_intfs (d_intfs st) (auto_addrs st s) (d_regs st) now js) as [[[[s' regs] os] anns] js']. cbn [fst].
  intros k v I. cbn [d_svcs] in I. apply sput_keys in I as [->|I]; [rewrite auto_addrs_full; exact Hb|].
  unfold keys in I. apply in_map_iff in I as ([k1 v1] & <- & I). exact (H k1 v1 I).
Qed.

Lemma add_row_services_keys now svcs itf rg ip js :
  map fst (fst (fst (fst (fst (add_row_services svcs itf rg ip now js))))) = map fst svcs.
Proof.
  destruct (add_row_services svcs itf rg ip now js) as [[[[svcs' rg'] os] rt] js'] eqn:E.
  refine (add_row_services_loop (fun _ _ inp out _ _ => map fst out = map fst inp) (fun _ => eq_refl) _ itf ip now svcs _ _ rg js svcs' rg' os rt js' E).
  - intros a b c i1 i2 s1 s2 o1 o2 r1 r2 H1 H2. rewrite !map_app. congruence.
  - reflexivity.
  - reflexivity.
Qed.

Lemma KS_keys base st st' : map fst (d_svcs st') = map fst (d_svcs st) -> KS base st -> KS base st'.
Proof.
  intros E H k s I. apply In_keys in I. unfold keys in I. rewrite E in I. apply in_map_iff in I as ([k1 v1] & <- & I). exact (H k1 v1 I).
Qed.

Lemma add_interface_KS base st r now js : KS base st -> KS base (fst (fst (add_interface st r now js))).
Proof.
  intros Hk. destruct (add_interface_cases st r now js) as [E|(itf & intfs & _ & _ & H)]; [rewrite E; exact Hk|].
  pose proof (add_row_services_keys now (d_svcs st) itf (get_reg st (os_index r)) (os_ip r) js) as E.
  destruct (add_row_services (d_svcs st) itf (get_reg st (os_index r)) (os_ip r) now js) as [[[[svcs rg] os] rt] js']. rewrite (H _ _ _ _ _ eq_refl).
  cbn [fst] in *. apply (KS_keys base st); [exact E|exact Hk].
Qed.

Lemma del_interface_addr_KS base st r : KS base st -> KS base (fst (del_interface_addr st r)).
Proof.
  intros H. unfold del_interface_addr. destruct (find_intf st (os_index r)) as [itf0|]; [|exact H].
  destruct (negb (has_addr itf0 (os_ip r))); [exact H|]. cbn [fst]. apply (KS_keys base st); [|exact H]. cbn [d_svcs].
  match goal with |- context [if ?c then d_svcs st else _] => destruct c end; [reflexivity|]. rewrite map_map. reflexivity.
Qed.

Lemma KS_sput_existing base st k0 s0 v intfs regs rt m d o sel :
  KS base st -> aget k0 (d_svcs st) = Some s0 -> KS base (mkD intfs regs (sput k0 v (d_svcs st)) rt m d o sel).
Proof.
  intros H G k s I. cbn [d_svcs] in I. apply sput_keys in I as [->|I].
  - exact (H k0 s0 (aget_In _ _ _ G)).
  - unfold keys in I. apply in_map_iff in I as ([k1 v1] & <- & I). exact (H k1 v1 I).
Qed.

Lemma register_resend_KS base st full i now js : KS base st -> KS base (fst (fst (register_resend st full i now js))).
Proof.
  intros H. unfold register_resend. destruct (aget (lower full) (d_svcs st)) as [s|] eqn:G; [|exact H].
  destruct (nget i (d_regs st)); [|exact H]. destruct (find_intf st i); [|exact H].
  destruct (announce_both s i0 r now js) as [[[rg' os] ann] js']. destruct ann; cbn [fst].
  - exact (KS_sput_existing base st _ _ _ _ _ _ _ _ _ _ H G).
  - intros k v I. exact (H k v I).
Qed.

Lemma announce_waiting_keys itf now m waiting rg svcs js k s :
  In (k, s) (snd (fst (fst (fst (announce_waiting waiting itf rg svcs now js m))))) -> In k (keys svcs).
Proof.
  apply (announce_waiting_svcs itf now m (fun l => forall k s, In (k, s) l -> In k (keys svcs))); [|intros k0 s0; apply In_keys].
  intros l k0 s1 H G k1 s2 I. apply sput_keys in I as [->|I]; [|unfold keys in I; apply in_map_iff in I as ([k2 v2] & <- & I); exact (H k2 v2 I)].
  exact (H k0 s1 (aget_In _ _ _ G)).
Qed.

Lemma pass_KS base itf st now js : KS base st -> KS base (fst (fst (pass itf st now js))).
Proof.
  intros H. unfold pass. destruct (nget (if_index itf) (d_regs st)) as [rg|]; [|exact H].
  destruct (probe_step rg now) as [[[rg1 qs] evs] waiting].
  pose proof (announce_waiting_keys itf now (d_mon st) waiting rg1 (d_svcs st) js) as K.
  destruct (announce_waiting waiting itf rg1 (d_svcs st) now js (d_mon st)) as [[[[rg2 svcs2] os2] rt2] js2]. cbn [fst snd] in *.
  intros k s Hin. cbn [d_svcs] in Hin. specialize (K k s Hin). unfold keys in K. apply in_map_iff in K as ([k1 v1] & <- & K). exact (H k1 v1 K).
Qed.

(* the keys present in the service map at any micro-step of an iteration were there before it or are
   registered by one of its calls *)
Lemma iter_states_KS st it :
  forall mid, In mid (iter_states st it) -> KS (keys (d_svcs st) ++ registered_keys (it_calls it)) mid.
Proof.
  set (base := keys (d_svcs st) ++ registered_keys (it_calls it)).
  assert (K : forall st0 st1 (os1 : list out), (KS base st0 -> KS base st1) -> step_fine (KS base) (fun _ _ => True) st0 st1 os1)
    by (intros st0 st1 os1 H H0; split; [exact (H H0)|apply Forall_forall; intros; exact I]).
  apply Forall_forall. apply (iter_states_fine (KS base) (fun _ _ => True) it).
  - apply st_dgrams_fine. intros st0 g js _. apply K, KS_svcs, handle_dgram_svcs.
  - apply st_calls_fine. intros st0 c js Hc. apply st_call_fine.
    + intros st1 en kinds H. exact H.
    + intros st1 r js1. apply K. unfold row_step. destruct (row_selected (d_sel st1) r); [apply add_interface_KS|].
      intros H. pose proof (del_interface_addr_KS base st1 r H) as H1. destruct (del_interface_addr st1 r). exact H1.
    + intros Hn. apply K. intros H. destruct c; cbn [exec_call]; try exact H.
      * assert (Hb : In (lower (s_full s)) base) by (apply in_or_app; right; unfold registered_keys; apply in_flat_map; exists (CRegister s); split; [exact Hc|left; reflexivity]).
        pose proof (register_service_KS base st0 s (it_now it) js H Hb) as H1. destruct (register_service st0 s (it_now it) js) as [[st1 os1] js1]. exact H1.
      * unfold unregister. destruct (aget (lower name) (d_svcs st0)); [|exact H]. intros k0 s0 I0. cbn [fst d_svcs] in I0.
        apply adel_entries in I0. exact (H k0 s0 I0).
      * intros k0 s0 [].
      * contradiction.
  - intros st0 js H. split; [exact H|]. apply st_due_fine. intros st1 [t c] js1 _. apply K. destruct c; [apply register_resend_KS|exact (fun H1 => H1)].
  - intros st0 js. apply st_probing_fine. intros st1 itf js1 _. apply K, pass_KS.
  - intros k0 s0 I0. apply in_or_app. left. exact (In_keys _ _ _ I0).
Qed.

Theorem iter_states_keys st it mid k s :
  In mid (iter_states st it) -> In (k, s) (d_svcs mid) ->
  In k (keys (d_svcs st)) \/ In k (registered_keys (it_calls it)).
Proof. intros Hm Hk. apply in_app_or. exact (iter_states_KS st it mid Hm k s Hk). Qed.

(* Every response the daemon model ever sends is a goodbye (all TTL 0), or each of its records is a
   record (rec_of) of a service that is in the service map when the micro-step that sends it ends -
   under the names the interface's registry holds at that moment - and whose key was in the map
   before the iteration or is registered by a call of the iteration. *)
Theorem responses_only_for_registered_services ifs os its it i v4 d m :
  let st := run_state (d_init_os ifs os) its in
  In (OSend i v4 d m) (snd (fst (fst (iterate st it)))) -> o_resp m = true ->
  is_goodbye m = true \/
  forall r, In r (o_an m ++ o_ar m) ->
  exists mid k s, In mid (iter_states st it) /\ In (k, s) (d_svcs mid) /\ rec_of (chg mid i) s r /\
                  (In k (keys (d_svcs st)) \/ In k (registered_keys (it_calls it))).
Proof.
  intros st Hin Hr.
  destruct (iterate_outputs_ok st it (saved_goodbyes_all_histories ifs os its) _ Hin) as (mid & Hm & Hok).
  cbn [ok_out] in Hok. destruct (Hok Hr) as [G|K]; [left; exact G|right].
  intros r Hr'. destruct (K r Hr') as (k & s & I & R). exists mid, k, s. split; [exact Hm|]. split; [exact I|]. split; [exact R|].
  exact (iter_states_keys st it mid k s Hm I).
Qed.

(* After the unregister: a key that is not in the service map (the service was unregistered, or never
   registered) and is not registered by a call of the iteration: no live record of any response of
   the iteration is built from a service stored under that key. *)
Corollary no_live_record_of_unregistered ifs os its it k0 i v4 d m :
  let st := run_state (d_init_os ifs os) its in
  aget k0 (d_svcs st) = None -> ~ In k0 (registered_keys (it_calls it)) ->
  In (OSend i v4 d m) (snd (fst (fst (iterate st it)))) -> o_resp m = true -> is_goodbye m = false ->
  forall r, In r (o_an m ++ o_ar m) ->
  exists mid k s, In mid (iter_states st it) /\ In (k, s) (d_svcs mid) /\ rec_of (chg mid i) s r /\ k <> k0.
Proof.
  intros st G NR Hin Hr NG r Hr'.
  destruct (responses_only_for_registered_services ifs os its it i v4 d m Hin Hr) as [GB|K]; [fold st in GB; congruence|].
  destruct (K r Hr') as (mid & k & s & Hm & I & R & [Hk|Hk]); exists mid, k, s; repeat split; try assumption.
  - intros ->. apply aget_none_notin in G. contradiction.
  - intros ->. contradiction.
Qed.
