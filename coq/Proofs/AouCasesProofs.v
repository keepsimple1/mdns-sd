(* What add_or_update does to the buckets, entry by entry: every record of the new cache is
   (A) a record of the old cache, possibly with a lowered expiry (cache-flush), or
   (B) the incoming record, inserted as new, or
   (C) the incoming record written over a matching old one (reset_ttl), reported as new exactly
       when it was revived (old TTL <= 1, new TTL > 1);
   and the same relation between two caches when nothing was added (`shrinks_to`). *)
From Coq Require Import List NArith.
From Mdns Require Import Rec ParamsBrowser Cache CacheProofs CacheInvProofs.
Import ListNotations.
Open Scope N_scope.

Definition fl (r : rr) (ifx now : N) (e : entry) : entry := if r_flush r then flush_one r ifx now e else e.

Lemma fl_eshr r ifx now e : eshr e (fl r ifx now e).
Proof. exact (flushed_fields r ifx now e). Qed.

Lemma fl_map r ifx now (b : bucket) :
  (if r_flush r then map (flush_one r ifx now) b else b) = map (fl r ifx now) b.
Proof. exact (flushed_map r ifx now b). Qed.

Theorem aou_cases c now ifx r fu k key b' e' :
  In (key, b') (get_map (fst (add_or_update c now ifx r fu)) k) -> In e' b' ->
  (exists b e, In (key, b) (get_map c k) /\ In e b /\ eshr e e')
  \/ (kind_of_type (r_type r) = Some k /\ key = key_of k (r_name r) /\
      ((e' = new_entry r now ifx /\ snd (add_or_update c now ifx r fu) = Some (e', true))
       \/ (exists b e, In (key, b) (get_map c k) /\ In e b /\ entry_matches e r ifx = true
             /\ e' = reset_ttl (fl r ifx now e) r now
             /\ snd (add_or_update c now ifx r fu) = Some (e', revived_guard (e_ttl e) (r_ttl r))))).
Proof.
  intros Hin He. destruct (aou_shape c now ifx r fu) as [_ Hmaps _|k0 B Ek HB Hk0 Hmaps].
  { rewrite Hmaps in Hin. left. exists b', e'. auto using eshr_refl. }
  destruct (kind_dec k k0) as [->|Hne]; [rewrite Hk0 in Hin|rewrite (Hmaps k Hne) in Hin; left; exists b', e'; auto using eshr_refl].
  apply bm_set_In in Hin as [[-> ->]|Hin]; [|left; exists b', e'; auto using eshr_refl].
  (* e' is in the bucket written back: an old record (flushed), the new one, or the rewritten match *)
  set (key := key_of k0 (r_name r)) in *.
  remember (match bm_get key (get_map c k0) with Some b => b | None => [] end) as bb eqn:Ebb.
  assert (Hbb : forall x, In x bb -> In (key, bb) (get_map c k0)).
  { intros x Hx. subst bb. destruct (bm_get key (get_map c k0)) as [b|] eqn:Eg; [now apply bm_get_In|destruct Hx]. }
  assert (Hold : forall x, In x bb -> exists b e, In (key, b) (get_map c k0) /\ In e b /\ eshr e (flushed r ifx now x)).
  { intros x Hx. exists bb, x. split; [now apply (Hbb x)|]. split; [exact Hx|apply flushed_fields]. }
  destruct HB as [_ _|_ _|l1 e0 l2 Hb Hl1 Hm].
  - destruct He.
  - destruct He as [<-|He]; [right; auto|]. left. apply in_map_iff in He as [x [<- Hx]]. now apply Hold.
  - assert (H0 : In e0 bb) by (rewrite Hb; apply in_app_iff; right; now left).
    apply in_app_iff in He as [He|[<-|He]].
    + left. apply in_map_iff in He as [x [<- Hx]]. apply Hold. rewrite Hb. apply in_app_iff. now left.
    + right. split; [exact Ek|]. split; [reflexivity|]. right. exists bb, e0. split; [now apply (Hbb e0)|auto].
    + left. apply in_map_iff in He as [x [<- Hx]]. apply Hold. rewrite Hb. apply in_app_iff. right. now right.
Qed.

(* the pure-shrink relation between caches, as a statement about entries *)
Definition shrinks_to (c c' : cache) : Prop :=
  forall k key b' e', In (key, b') (get_map c' k) -> In e' b' ->
    exists b e, In (key, b) (get_map c k) /\ In e b /\ eshr e e'.

Lemma cshr_shrinks c c' : cshr c c' -> shrinks_to c c'.
Proof.
  intros H k key b' e' Hb He. destruct (H k) as [_ Hm]. destruct (Hm key b' Hb) as [->|[b [Hb0 Hs]]]; [destruct He|].
  destruct (bshr_in _ _ _ Hs He) as [e [A B]]. exists b, e. auto.
Qed.

Lemma shrinks_trans a b c : shrinks_to a b -> shrinks_to b c -> shrinks_to a c.
Proof.
  intros H1 H2 k key b' e' Hb He. destruct (H2 k key b' e' Hb He) as (b1 & e1 & A & B & C).
  destruct (H1 k key b1 e1 A B) as (b0 & e0 & D & E & G). exists b0, e0. split; [exact D|]. split; [exact E|]. eapply eshr_trans; eauto.
Qed.
