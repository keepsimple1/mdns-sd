(* C06 under wf_input: the question loop of the model appends what the specification with the
   code's deviations prescribes (ext, loop_ext), hence model_is_spec_code; that specification is the
   text outside the deviation classes (spec_code_is_text_when_clean); the executable checker
   accepts equivalent reactions; legacy-unicast and multicast replies; when a question adds
   nothing; and, for C18, that the address records of a response are on the link. *)
From Coq Require Import List NArith Bool Permutation PeanoNat.
From Mdns Require Import Bytes Rec Intf Responder ResponderSpec ParamsResponderPinned ListFacts ResponderReply
     ResponderJustProofs ResponderAddrProofs.
Import ListNotations.
Open Scope N_scope.

Lemma is_nil_true {A} (l : list A) : is_nil l = true <-> l = [].
Proof. destruct l; simpl; split; congruence. Qed.

Lemma flat_map_app2 {A B} (f g : A -> list B) (l : list A) :
  Permutation (flat_map (fun x => f x ++ g x) l) (flat_map f l ++ flat_map g l).
Proof.
  induction l as [|x l IH]; simpl; [constructor|].
  rewrite <- !app_assoc.
  apply Permutation_app_head.
  eapply Permutation_trans; [apply Permutation_app_head; exact IH|].
  apply Permutation_app_swap_app.
Qed.

Lemma wf_service_fields s : wf_service s = true ->
  s_host_ttl s = 120 /\ s_other_ttl s = 4500 /\ s_priority s = 0 /\ s_weight s = 0.
Proof.
  unfold wf_service. intros H.
  apply andb_true_iff in H as [H H4]. apply andb_true_iff in H as [H H3]. apply andb_true_iff in H as [H1 H2].
  apply N.eqb_eq in H1, H2, H3, H4. auto.
Qed.

Lemma ptr_record_sp s n a : wf_service s = true -> ptr_record n (s_other_ttl s) a = sp_ptr n a.
Proof. intros H. apply wf_service_fields in H as (_ & H & _). rewrite H. reflexivity. Qed.

Lemma srv_record_sp s n h : wf_service s = true -> srv_record n s h = sp_srv n (s_port s) h.
Proof.
  intros H. apply wf_service_fields in H as (H1 & _ & H3 & H4).
  unfold srv_record. rewrite H1, H3, H4. reflexivity.
Qed.

Lemma txt_record_sp s n : wf_service s = true -> txt_record n s = sp_txt n (s_txt s).
Proof.
  intros H. apply wf_service_fields in H as (_ & H2 & _). unfold txt_record. rewrite H2. reflexivity.
Qed.

Lemma addr_record_sp s n a : wf_service s = true -> addr_record n s a = sp_addr n a.
Proof.
  intros H. apply wf_service_fields in H as (H1 & _). unfold addr_record. rewrite H1. reflexivity.
Qed.

Lemma same_record_matches mine other :
  (if Bool.eqb (r_flush other) (r_flush mine) then rr_matches mine other
   else rr_matches mine (with_flush other (r_flush mine))) = same_record mine other.
Proof.
  unfold rr_matches, same_record, with_flush. simpl.
  destruct (Bool.eqb (r_flush other) (r_flush mine)) eqn:E.
  - rewrite eqb_sym_bool, E, andb_true_r. reflexivity.
  - rewrite eqb_reflx, andb_true_r. reflexivity.
Qed.

Lemma suppressed_known r m : suppressed_by r m = known m r.
Proof.
  unfold suppressed_by, known. induction (m_answers m) as [|t l IH]; simpl; [reflexivity|].
  rewrite IH. unfold suppressed_by_answer. rewrite same_record_matches, suppress_ttl_test_pinned. reflexivity.
Qed.

(* ext og a d og': og' is og with the answers a and the additionals d appended.  The order of the
   answers is left open: the code interleaves the meta-query PTRs with the other answers, and
   reaction_equiv compares the sections as multisets anyway. *)
Definition ext (og : outgoing) (a d : list rr) (og' : outgoing) : Prop :=
  Permutation (og_answers og') (og_answers og ++ a) /\ og_additionals og' = og_additionals og ++ d.

Lemma ext_intro og a d og' :
  og_answers og' = og_answers og ++ a -> og_additionals og' = og_additionals og ++ d -> ext og a d og'.
Proof. intros H1 H2. split; [rewrite H1; apply Permutation_refl|exact H2]. Qed.

Lemma ext_refl og : ext og [] [] og.
Proof. apply ext_intro; rewrite app_nil_r; reflexivity. Qed.

Lemma ext_trans og a d og1 a' d' og2 :
  ext og a d og1 -> ext og1 a' d' og2 -> ext og (a ++ a') (d ++ d') og2.
Proof.
  intros (H2 & H3) (K2 & K3). split.
  - eapply Permutation_trans; [exact K2|]. rewrite app_assoc. apply Permutation_app_tail. exact H2.
  - rewrite K3, H3, app_assoc. reflexivity.
Qed.

Lemma ext_trans_answers og a og1 a' d og2 : ext og a [] og1 -> ext og1 a' d og2 -> ext og (a ++ a') d og2.
Proof. exact (ext_trans og a [] og1 a' d og2). Qed.

Lemma ext_perm og a a' d og' : ext og a d og' -> Permutation a a' -> ext og a' d og'.
Proof.
  intros (H2 & H3) Hp. split; [|exact H3].
  eapply Permutation_trans; [exact H2|]. apply Permutation_app_head. exact Hp.
Qed.

Lemma ext_eq og a d og' a' d' : ext og a d og' -> a = a' -> d = d' -> ext og a' d' og'.
Proof. intros H -> ->. exact H. Qed.

Lemma ext_add_additional og r : ext og [] [r] (add_additional og r).
Proof. apply ext_intro; simpl; rewrite ?app_nil_r; reflexivity. Qed.

Lemma ext_add_answer og m r :
  ext og (unknown m [r]) [] (fst (add_answer og m r)) /\
  snd (add_answer og m r) = negb (known m r).
Proof.
  unfold add_answer, unknown. simpl. rewrite suppressed_known.
  destruct (known m r); (split; [|reflexivity]); apply ext_intro; simpl; rewrite ?app_nil_r; reflexivity.
Qed.

Lemma ext_fold {A} (step : outgoing -> A -> outgoing) (fa fd : A -> list rr) (l : list A) :
  (forall og x, In x l -> ext og (fa x) (fd x) (step og x)) ->
  forall og, ext og (flat_map fa l) (flat_map fd l) (fold_left step l og).
Proof.
  induction l as [|x l IH]; simpl; intros H og; [apply ext_refl|].
  eapply ext_trans; [apply H; left; reflexivity|].
  apply IH. intros og' y Hy. apply H. right. exact Hy.
Qed.

Lemma ext_fold_additional {A} (f : A -> rr) (l : list A) og :
  ext og [] (map f l) (fold_left (fun o a => add_additional o (f a)) l og).
Proof.
  eapply ext_eq; [apply (ext_fold (fun o a => add_additional o (f a)) (fun _ => []) (fun a => [f a]))| |].
  - intros og' x _. apply ext_add_additional.
  - apply flat_map_nil. reflexivity.
  - apply flat_map_single.
Qed.

Lemma unknown_cons m r l : unknown m (r :: l) = unknown m [r] ++ unknown m l.
Proof. apply (filter_app _ [r] l). Qed.

Lemma ext_fold_answer {A} m (f : A -> rr) (l : list A) og :
  ext og (unknown m (map f l)) [] (fold_left (fun o a => fst (add_answer o m (f a))) l og).
Proof.
  eapply ext_eq; [apply (ext_fold (fun o a => fst (add_answer o m (f a))) (fun a => unknown m [f a]) (fun _ => []))| |].
  - intros og' x _. apply ext_add_answer.
  - induction l as [|x l IH]; [reflexivity|].
    cbn [map flat_map]. rewrite IH. symmetry. apply unknown_cons.
  - apply flat_map_nil. reflexivity.
Qed.

Lemma link_addrs_code intf v4t s :
  link_addrs code_quirks intf v4t s = intf_addrs_of v4t s intf.
Proof.
  unfold link_addrs, intf_addrs_of, addrs_on_intf_v4, addrs_on_intf_v6. simpl.
  destruct v4t; apply filter_ext; intros a; unfold is_v6; destruct (is_v4 a); reflexivity.
Qed.

Lemma ext_sub_ptr og nc s : wf_service s = true ->
  ext og [] (sub_ptr nc s)
      (match s_sub s with
       | Some sub => add_additional og (ptr_record sub (s_other_ttl s) (cur_inst nc s))
       | None => og
       end).
Proof.
  intros Hwf. unfold sub_ptr. destruct (s_sub s); [|apply ext_refl].
  rewrite (ptr_record_sp s _ _ Hwf). apply ext_add_additional.
Qed.

Lemma add_answer_with_additionals_ext og m s intf nc v4 : wf_service s = true ->
  let ia := intf_addrs_of v4 s intf in
  let c := if is_nil ia then ([], [])
           else with_additionals m (sp_ptr (s_ty s) (cur_inst nc s))
                  (sub_ptr nc s ++ svc_additionals code_quirks nc intf v4 s) in
  ext og (fst c) (snd c) (add_answer_with_additionals og m s intf nc v4).
Proof.
  intros Hwf ia c. subst c. unfold add_answer_with_additionals. fold ia.
  destruct (is_nil ia); [apply ext_refl|].
  rewrite (ptr_record_sp s _ _ Hwf). fold (cur_inst nc s).
  destruct (ext_add_answer og m (sp_ptr (s_ty s) (cur_inst nc s))) as [Ha Hb].
  destruct (add_answer og m (sp_ptr (s_ty s) (cur_inst nc s))) as [og1 added].
  cbn [fst snd] in Ha, Hb. subst added. unfold with_additionals, unknown in *. cbn [filter] in Ha.
  destruct (known m (sp_ptr (s_ty s) (cur_inst nc s))); cbn [negb fst snd] in *; [exact Ha|].
  (* the PTR was added: the additionals follow in the order of svc_additionals *)
  eapply ext_eq.
  - eapply ext_trans; [exact Ha|].
    eapply ext_trans; [apply (ext_sub_ptr og1 nc s Hwf)|].
    eapply ext_trans; [apply ext_add_additional|].
    eapply ext_trans; [apply ext_add_additional|].
    apply ext_fold_additional.
  - reflexivity.
  - unfold svc_additionals, cur_host. fold (cur_inst nc s).
    rewrite (srv_record_sp s _ _ Hwf), (txt_record_sp s _ Hwf), link_addrs_code. fold ia.
    rewrite (map_ext _ _ (fun a => addr_record_sp s (resolve_name nc (s_host s)) a Hwf)). reflexivity.
Qed.

(* the meta-query PTR a single entry contributes in the code, given the set of types already
   listed for this question *)
Definition meta_new (q : question) (seen : list bytes) (e : entry) : bool :=
  meta_entry e && beq (q_name q) META_QUERY && negb (mem (s_ty (e_svc e)) seen).
Definition seen_after (q : question) (seen : list bytes) (e : entry) : list bytes :=
  if meta_new q seen e then s_ty (e_svc e) :: seen else seen.
Definition meta_part (m : msg) (q : question) (seen : list bytes) (e : entry) : list rr :=
  if meta_new q seen e then unknown m [sp_ptr (q_name q) (s_ty (e_svc e))] else [].

Lemma answerable_code intf v4 e :
  answerable code_quirks intf v4 e
  = is_announced (e_status e) && negb (is_nil (intf_addrs_of v4 (e_svc e) intf)).
Proof. unfold answerable. rewrite link_addrs_code. reflexivity. Qed.

(* for an announced entry the test of the spec (not of the meta type itself) and the test of the
   code (not of the type asked for) agree, because both only matter when the meta query is asked *)
Lemma meta_new_announced q seen e : is_announced (e_status e) = true ->
  meta_new q seen e
  = negb (matches_type_or_subtype (e_svc e) (q_name q)) && beq (q_name q) META_QUERY
    && negb (mem (s_ty (e_svc e)) seen).
Proof.
  intros Ha. unfold meta_new, meta_entry. rewrite Ha. cbn [andb].
  destruct (beq (q_name q) META_QUERY) eqn:Eq.
  - apply beq_eq in Eq. rewrite Eq. reflexivity.
  - rewrite !andb_false_r. reflexivity.
Qed.

Lemma spec_ptr_entry_code nc intf m v4 q e :
  spec_ptr_entry code_quirks nc intf m v4 q e
  = if is_announced (e_status e) && matches_type_or_subtype (e_svc e) (q_name q)
    then (if is_nil (intf_addrs_of v4 (e_svc e) intf) then ([], [])
          else with_additionals m (sp_ptr (s_ty (e_svc e)) (cur_inst nc (e_svc e)))
                 (sub_ptr nc (e_svc e) ++ svc_additionals code_quirks nc intf v4 (e_svc e)))
    else ([], []).
Proof.
  unfold spec_ptr_entry. rewrite answerable_code. unfold matches_type_or_subtype, is_sub.
  cbn [k_sub_answer code_quirks].
  destruct (is_announced (e_status e)); cbn [andb]; [|reflexivity].
  destruct (is_nil (intf_addrs_of v4 (e_svc e) intf)); cbn [negb].
  - destruct (beq (q_name q) (s_ty (e_svc e)) || _); reflexivity.
  - destruct (beq (q_name q) (s_ty (e_svc e))); cbn [orb]; [reflexivity|].
    destruct (s_sub (e_svc e)); [|reflexivity]. destruct (beq b (q_name q)); reflexivity.
Qed.

Lemma ptr_step_ext inp q v4 og seen e : wf_service (e_svc e) = true ->
  let c := spec_ptr_entry code_quirks (h_name_changes inp) (h_intf inp) (h_msg inp) v4 q e in
  ext og (fst c ++ meta_part (h_msg inp) q seen e) (snd c) (fst (ptr_step inp q v4 (og, seen) e)) /\
  snd (ptr_step inp q v4 (og, seen) e) = seen_after q seen e.
Proof.
  intros Hwf c. subst c. unfold ptr_step, meta_part, seen_after. rewrite spec_ptr_entry_code.
  destruct (is_announced (e_status e)) eqn:Ea; cbn [negb andb].
  2:{ unfold meta_new, meta_entry. rewrite Ea. cbn [andb fst snd app]. split; [apply ext_refl|reflexivity]. }
  rewrite (meta_new_announced q seen e Ea).
  destruct (matches_type_or_subtype (e_svc e) (q_name q)); cbn [negb andb fst snd].
  - rewrite app_nil_r. split; [|reflexivity].
    exact (add_answer_with_additionals_ext og (h_msg inp) (e_svc e) (h_intf inp) (h_name_changes inp) v4 Hwf).
  - cbn [app]. destruct (beq (q_name q) META_QUERY); cbn [andb]; [|split; [apply ext_refl|reflexivity]].
    destruct (mem (s_ty (e_svc e)) seen); cbn [negb fst snd]; [split; [apply ext_refl|reflexivity]|].
    split; [|reflexivity]. rewrite (ptr_record_sp _ _ _ Hwf). apply ext_add_answer.
Qed.

(* The types the code lists: first occurrences, not yet seen.  The specification lists
   nodup meta_types, which keeps last occurrences; both are the same set without repetition
   (in_metas, NoDup_metas), hence equal up to order (metas_perm). *)
Fixpoint metas (q : question) (seen : list bytes) (l : list entry) : list bytes :=
  match l with
  | [] => []
  | e :: t => if meta_new q seen e then s_ty (e_svc e) :: metas q (s_ty (e_svc e) :: seen) t else metas q seen t
  end.

Lemma ptr_fold_ext inp q v4 l : (forall e, In e l -> wf_service (e_svc e) = true) ->
  forall og seen,
  ext og (flat_map (fun e => fst (spec_ptr_entry code_quirks (h_name_changes inp) (h_intf inp) (h_msg inp) v4 q e)) l
          ++ unknown (h_msg inp) (map (sp_ptr (q_name q)) (metas q seen l)))
      (flat_map (fun e => snd (spec_ptr_entry code_quirks (h_name_changes inp) (h_intf inp) (h_msg inp) v4 q e)) l)
      (fst (fold_left (ptr_step inp q v4) l (og, seen))).
Proof.
  induction l as [|e l IH]; intros Hwf og seen; [apply ext_refl|].
  cbn [fold_left flat_map metas].
  destruct (ptr_step_ext inp q v4 og seen e (Hwf e (or_introl eq_refl))) as [H1 H2].
  destruct (ptr_step inp q v4 (og, seen) e) as [og' seen']. cbn [fst snd] in H1, H2. subst seen'.
  eapply ext_perm; [eapply ext_trans; [exact H1|apply IH; intros e' He'; apply Hwf; right; exact He']|].
  (* the meta PTR of this entry moves behind the answers of the later entries *)
  unfold meta_part, seen_after. destruct (meta_new q seen e).
  - cbn [map]. rewrite (unknown_cons (h_msg inp) _ (map _ (metas q _ l))).
    rewrite <- !app_assoc. apply Permutation_app_head, Permutation_app_swap_app.
  - rewrite app_nil_r, app_assoc. apply Permutation_refl.
Qed.

Lemma in_metas q l : forall seen x,
  In x (metas q seen l) <->
  beq (q_name q) META_QUERY = true /\ ~ In x seen /\ In x (map (fun e => s_ty (e_svc e)) (filter meta_entry l)).
Proof.
  induction l as [|e l IH]; intros seen x; cbn [metas filter map]; [simpl; tauto|].
  unfold meta_new. destruct (meta_entry e); cbn [andb map]; [|apply IH].
  destruct (beq (q_name q) META_QUERY) eqn:Eq; cbn [andb].
  2:{ rewrite IH. split; intros (H1 & _); discriminate. }
  destruct (mem (s_ty (e_svc e)) seen) eqn:Es; cbn [negb In]; rewrite IH; cbn [In].
  - apply mem_In in Es. split; [intros (H1 & H2 & H3); auto|].
    intros (H1 & H2 & [H3|H3]); [subst x; contradiction|auto].
  - (* listed now: x is this type, or a later one that is not this type *)
    split.
    + intros [H|(H1 & H2 & H3)]; [subst x|]; repeat split; auto.
      intros Hin. apply mem_In in Hin. congruence.
    + intros (H1 & H2 & [H3|H3]); [left; exact H3|].
      destruct (list_eq_dec N.eq_dec (s_ty (e_svc e)) x) as [E|E]; [left; exact E|].
      right. repeat split; auto. intros [H|H]; contradiction.
Qed.

Lemma NoDup_metas q l : forall seen, NoDup (metas q seen l).
Proof.
  induction l as [|e l IH]; intros seen; cbn [metas]; [constructor|].
  destruct (meta_new q seen e); [|apply IH]. constructor; [|apply IH].
  intros H. apply in_metas in H as (_ & H & _). apply H. left. reflexivity.
Qed.

Lemma metas_perm m entries q :
  Permutation (unknown m (map (sp_ptr (q_name q)) (metas q [] entries))) (spec_meta m entries q).
Proof.
  unfold spec_meta. destruct (beq (q_name q) META_QUERY) eqn:Eq.
  - apply Permutation_filter, Permutation_map. apply NoDup_Permutation.
    + apply NoDup_metas.
    + apply NoDup_nodup.
    + intros x. rewrite in_metas, nodup_In. unfold meta_types. rewrite Eq. simpl. tauto.
  - assert (E : metas q [] entries = []).
    { destruct (metas q [] entries) as [|x t] eqn:E; [reflexivity|].
      assert (H : In x (metas q [] entries)) by (rewrite E; left; reflexivity).
      apply in_metas in H as (H & _). congruence. }
    rewrite E. constructor.
Qed.

Lemma addr_step_ext inp q og e : wf_service (e_svc e) = true ->
  ext og (spec_addr_entry (h_name_changes inp) (h_intf inp) (h_msg inp) q e) [] (addr_step inp q og e).
Proof.
  intros Hwf. unfold addr_step, spec_addr_entry, ci_eq, cur_host.
  destruct (is_announced (e_status e)); cbn [negb andb]; [|apply ext_refl].
  rewrite (beq_sym (lower (q_name q))).
  destruct (beq (lower (resolve_name (h_name_changes inp) (s_host (e_svc e)))) (lower (q_name q)));
    [|apply ext_refl].
  eapply ext_eq; [apply ext_fold_answer| |reflexivity].
  f_equal. erewrite map_ext; [reflexivity|]. intros a. apply addr_record_sp. exact Hwf.
Qed.

Lemma addr_arm_ext inp q og : (forall e, In e (h_services inp) -> wf_service (e_svc e) = true) ->
  ext og (flat_map (spec_addr_entry (h_name_changes inp) (h_intf inp) (h_msg inp) q) (h_services inp)) []
      (if (q_type q =? TY_A) || (q_type q =? TY_AAAA) || (q_type q =? TY_ANY)
       then fold_left (addr_step inp q) (h_services inp) og else og).
Proof.
  intros Hwf. destruct ((q_type q =? TY_A) || (q_type q =? TY_AAAA) || (q_type q =? TY_ANY)) eqn:Et.
  - eapply ext_eq; [apply (ext_fold (addr_step inp q)
                             (spec_addr_entry (h_name_changes inp) (h_intf inp) (h_msg inp) q) (fun _ => []))
                   |reflexivity|].
    + intros og' e He. apply addr_step_ext. apply Hwf. exact He.
    + apply flat_map_nil. reflexivity.
  - (* other types: the address clause of the specification is empty as well *)
    eapply ext_eq; [apply ext_refl| |reflexivity].
    symmetry. apply flat_map_nil. intros e _. unfold spec_addr_entry.
    unfold TY_A, TY_AAAA, TY_ANY in Et. apply orb_false_iff in Et as [Et E255]. apply orb_false_iff in Et as [E1 E28].
    rewrite E1, E28, E255. cbn [orb app map].
    destruct (_ && _); reflexivity.
Qed.

Lemma add_answer_of_service_as_ext og m name s host qtype ia : wf_service s = true ->
  ext og
    (unknown m ((if (qtype =? TY_SRV) || (qtype =? TY_ANY) then [sp_srv name (s_port s) host] else [])
                ++ (if (qtype =? TY_TXT) || (qtype =? TY_ANY) then [sp_txt name (s_txt s)] else [])))
    (if (qtype =? TY_SRV) && negb (known m (sp_srv name (s_port s) host)) then map (sp_addr host) ia else [])
    (add_answer_of_service_as og m name s host qtype ia).
Proof.
  intros Hwf. unfold add_answer_of_service_as.
  unfold unknown at 1. rewrite filter_app, (srv_record_sp _ _ _ Hwf), (txt_record_sp _ _ Hwf).
  set (srv := sp_srv name (s_port s) host).
  assert (H1 : let pr := if (qtype =? TY_SRV) || (qtype =? TY_ANY) then add_answer og m srv else (og, false) in
               ext og (unknown m (if (qtype =? TY_SRV) || (qtype =? TY_ANY) then [srv] else [])) [] (fst pr) /\
               (qtype =? TY_SRV) && snd pr = (qtype =? TY_SRV) && negb (known m srv)).
  { destruct (ext_add_answer og m srv) as [Hs1 Hs2].
    destruct (qtype =? TY_SRV); cbn [orb andb]; [split; assumption|].
    split; [|reflexivity]. destruct (qtype =? TY_ANY); [exact Hs1|apply ext_refl]. }
  destruct (if (qtype =? TY_SRV) || (qtype =? TY_ANY) then add_answer og m srv else (og, false)) as [og1 srv_added].
  cbn [fst snd] in H1. destruct H1 as [H1 ->].
  assert (H2 : ext og1 (unknown m (if (qtype =? TY_TXT) || (qtype =? TY_ANY) then [sp_txt name (s_txt s)] else [])) []
                   (if (qtype =? TY_TXT) || (qtype =? TY_ANY) then fst (add_answer og1 m (sp_txt name (s_txt s))) else og1)).
  { destruct ((qtype =? TY_TXT) || (qtype =? TY_ANY)); [apply ext_add_answer|apply ext_refl]. }
  destruct ((qtype =? TY_SRV) && negb (known m srv)).
  - eapply ext_eq; [eapply ext_trans; [exact H1|eapply ext_trans; [exact H2|apply ext_fold_additional]]| |].
    + rewrite app_nil_r. reflexivity.
    + apply map_ext. intros a. apply addr_record_sp. exact Hwf.
  - eapply ext_eq; [eapply ext_trans; [exact H1|exact H2]|reflexivity|reflexivity].
Qed.

(* at most one entry answers to a (renamed) key *)
Lemma find_unique_flat_map {B} (g : entry -> bytes) (x : bytes) (f : entry -> list B) (l : list entry) :
  nodup_b (map g l) = true -> (forall e, beq (g e) x = false -> f e = []) ->
  flat_map f l = match find (fun e => beq (g e) x) l with Some e => f e | None => [] end.
Proof.
  intros Hnd Hf. induction l as [|e l IH]; simpl; [reflexivity|].
  simpl in Hnd. apply andb_true_iff in Hnd as [H1 H2].
  destruct (beq (g e) x) eqn:E.
  - rewrite flat_map_nil; [apply app_nil_r|].
    intros y Hy. apply Hf. destruct (beq (g y) x) eqn:Ey; [|reflexivity].
    apply beq_eq in E, Ey. exfalso.
    apply negb_true_iff in H1. assert (mem (g e) (map g l) = true); [|congruence].
    apply mem_In. rewrite E, <- Ey. apply in_map. exact Hy.
  - rewrite (Hf e E). apply IH. exact H2.
Qed.

Lemma question_step_ext inp v4 og q : wf_input inp = true ->
  ext og (fst (spec_question code_quirks (h_name_changes inp) (h_intf inp) (h_msg inp) v4 (h_services inp) q))
      (snd (spec_question code_quirks (h_name_changes inp) (h_intf inp) (h_msg inp) v4 (h_services inp) q))
      (question_step inp v4 og q).
Proof.
  intros H. apply andb_true_iff in H as [Hwf Hnd]. rewrite forallb_forall in Hwf.
  unfold question_step, spec_question, TY_PTR.
  destruct (q_type q =? 12).
  { cbn [fst snd]. eapply ext_perm; [apply ptr_fold_ext; exact Hwf|]. apply Permutation_app_head, metas_perm. }
  cbn [fst snd]. eapply ext_trans_answers; [apply addr_arm_ext; exact Hwf|].
  (* the instance: only the entry found has the key asked for *)
  set (c := spec_inst_entry code_quirks (h_name_changes inp) (h_intf inp) (h_msg inp) v4 q).
  assert (Hc : forall e, beq (lower (resolve_name (h_name_changes inp) (s_fullname (e_svc e)))) (lower (q_name q))
                         = false -> c e = ([], [])).
  { intros e He. subst c. unfold spec_inst_entry, inst_match, ci_eq, cur_inst.
    rewrite (beq_sym (lower (q_name q))), He. reflexivity. }
  pose proof (fun B f => find_unique_flat_map (B:=B)
                (fun e => lower (resolve_name (h_name_changes inp) (s_fullname (e_svc e))))
                (lower (q_name q)) f _ Hnd) as Hfind. cbv beta in Hfind.
  rewrite (Hfind _ (fun e => fst (c e)) (fun e He => f_equal fst (Hc e He))),
          (Hfind _ (fun e => snd (c e)) (fun e He => f_equal snd (Hc e He))).
  destruct (find _ (h_services inp)) as [e|] eqn:Ef; [|apply ext_refl].
  apply find_some in Ef as [Hin Hk]. subst c. unfold spec_inst_entry, inst_match, ci_eq, cur_inst, cur_host.
  rewrite (beq_sym (lower (q_name q))), Hk, answerable_code, link_addrs_code.
  destruct (is_announced (e_status e)); cbn [negb andb]; [|apply ext_refl].
  cbv zeta. destruct (is_nil (intf_addrs_of v4 (e_svc e) (h_intf inp))); [apply ext_refl|].
  cbn [negb fst snd]. apply add_answer_of_service_as_ext, Hwf, Hin.
Qed.

Lemma loop_ext inp v4 og : wf_input inp = true ->
  ext og (spec_answers code_quirks (h_name_changes inp) (h_intf inp) (h_msg inp) v4 (h_services inp))
      (spec_additionals code_quirks (h_name_changes inp) (h_intf inp) (h_msg inp) v4 (h_services inp))
      (fold_left (question_step inp v4) (m_questions (h_msg inp)) og).
Proof.
  intros Hwf. apply ext_fold. intros og' q _. apply question_step_ext. exact Hwf.
Qed.

Theorem model_is_spec_code inp : wf_input inp = true ->
  reaction_equiv (handle_query inp) (spec code_quirks inp).
Proof.
  intros Hwf. rewrite handle_query_closed, spec_reply.
  destruct (loop_ext inp (is_v4 (h_src_ip inp)) hq_og0 Hwf) as (Ha & Hd).
  fold (hq_out inp) in Ha, Hd. rewrite Hd. apply reply_perm; [exact Ha|apply Permutation_refl].
Qed.

Lemma nodup_b_NoDup l : nodup_b l = true -> NoDup l.
Proof.
  induction l as [|x l IH]; simpl; intros H; [constructor|].
  apply andb_true_iff in H as [H1 H2]. constructor; [|apply IH; exact H2].
  intros Hin. apply mem_In in Hin. rewrite Hin in H1. discriminate.
Qed.

Section Clean.
Variable nc : list (bytes * bytes).
Variable intf : myintf.
Variable m : msg.
Variable v4 : bool.

Definition fam_ok (e : entry) : Prop :=
  is_announced (e_status e) = true ->
  forall a, In a (s_addrs (e_svc e)) -> addr_on_intf intf a = false \/ is_v4 a = v4.
Definition sub_ok (q : question) (e : entry) : Prop :=
  is_announced (e_status e) = true -> is_sub (e_svc e) (q_name q) = false.

Lemma link_addrs_clean e : fam_ok e -> is_announced (e_status e) = true ->
  link_addrs code_quirks intf v4 (e_svc e) = link_addrs text_quirks intf v4 (e_svc e).
Proof.
  intros Hf Ha. unfold link_addrs. cbn [k_family code_quirks text_quirks].
  apply filter_ext_in. intros a Hin. destruct (Hf Ha a Hin) as [H|H].
  - rewrite H, !andb_false_r. reflexivity.
  - rewrite H, eqb_reflx. reflexivity.
Qed.

Lemma answerable_clean e : fam_ok e ->
  answerable code_quirks intf v4 e = answerable text_quirks intf v4 e.
Proof.
  intros Hf. unfold answerable. destruct (is_announced (e_status e)) eqn:Ha; [|reflexivity].
  rewrite (link_addrs_clean e Hf Ha). reflexivity.
Qed.

Lemma answerable_announced k e : answerable k intf v4 e = true -> is_announced (e_status e) = true.
Proof. unfold answerable. intros H. apply andb_true_iff in H as [H _]. exact H. Qed.

Lemma spec_ptr_entry_clean q e : fam_ok e -> sub_ok q e ->
  spec_ptr_entry code_quirks nc intf m v4 q e = spec_ptr_entry text_quirks nc intf m v4 q e.
Proof.
  intros Hf Hs. unfold spec_ptr_entry. rewrite (answerable_clean e Hf).
  destruct (answerable text_quirks intf v4 e) eqn:Ea; [|reflexivity].
  apply answerable_announced in Ea.
  unfold svc_additionals. rewrite (link_addrs_clean e Hf Ea), (Hs Ea).
  destruct (beq (q_name q) (s_ty (e_svc e))); reflexivity.
Qed.

Lemma spec_inst_entry_clean q e : fam_ok e ->
  spec_inst_entry code_quirks nc intf m v4 q e = spec_inst_entry text_quirks nc intf m v4 q e.
Proof.
  intros Hf. unfold spec_inst_entry. rewrite (answerable_clean e Hf).
  destruct (inst_match nc q e); [|reflexivity]. cbn [andb].
  destruct (answerable text_quirks intf v4 e) eqn:Ea; [|reflexivity].
  apply answerable_announced in Ea. rewrite (link_addrs_clean e Hf Ea). reflexivity.
Qed.

Lemma spec_question_clean entries q :
  (forall e, In e entries -> fam_ok e) ->
  (q_type q =? 12 = true -> forall e, In e entries -> sub_ok q e) ->
  spec_question code_quirks nc intf m v4 entries q = spec_question text_quirks nc intf m v4 entries q.
Proof.
  intros He Hs. unfold spec_question. destruct (q_type q =? 12) eqn:Et.
  - assert (Hp : forall e, In e entries ->
              spec_ptr_entry code_quirks nc intf m v4 q e = spec_ptr_entry text_quirks nc intf m v4 q e).
    { intros e Hin. apply spec_ptr_entry_clean; [apply He|apply Hs]; auto. }
    f_equal; [f_equal|]; apply flat_map_ext_in; intros e Hin; rewrite (Hp e Hin); reflexivity.
  - assert (Hi : forall e, In e entries ->
              spec_inst_entry code_quirks nc intf m v4 q e = spec_inst_entry text_quirks nc intf m v4 q e).
    { intros e Hin. apply spec_inst_entry_clean, He, Hin. }
    f_equal; [f_equal|]; apply flat_map_ext_in; intros e Hin; rewrite (Hi e Hin); reflexivity.
Qed.
End Clean.

Lemma clean_components inp : clean inp = true ->
  let v4 := is_v4 (h_src_ip inp) in
  (forall e, In e (h_services inp) -> fam_ok (h_intf inp) v4 e) /\
  (forall q, In q (m_questions (h_msg inp)) -> q_type q =? 12 = true ->
             forall e, In e (h_services inp) -> sub_ok q e).
Proof.
  unfold clean. rewrite !andb_true_iff. intros (C2 & C3). cbv zeta.
  rewrite forallb_forall in C2, C3.
  assert (Hann : forall e, In e (h_services inp) -> is_announced (e_status e) = true ->
                 In e (filter (fun e => is_announced (e_status e)) (h_services inp))).
  { intros e Hin Ha. apply filter_In. split; assumption. }
  split.
  - intros e H Ha a Hina. specialize (C3 e (Hann e H Ha)). rewrite forallb_forall in C3.
    specialize (C3 a Hina). apply orb_true_iff in C3 as [C3|C3].
    + left. apply negb_true_iff in C3. exact C3.
    + right. apply eqb_prop in C3. exact C3.
  - intros q Hq Ht e He Ha. specialize (C2 q Hq). rewrite Ht in C2. cbn [negb orb] in C2.
    rewrite forallb_forall in C2. specialize (C2 e (Hann e He Ha)). apply negb_true_iff in C2. exact C2.
Qed.

Theorem spec_code_is_text_when_clean inp : clean inp = true ->
  spec code_quirks inp = spec text_quirks inp.
Proof.
  intros Hc. apply clean_components in Hc. cbv zeta in Hc. destruct Hc as (He & Hs).
  rewrite !spec_reply. unfold spec_answers, spec_additionals.
  f_equal; apply flat_map_ext_in; intros q Hin;
    rewrite (spec_question_clean _ _ _ _ _ q He (fun Ht => Hs q Hin Ht)); reflexivity.
Qed.

Lemma mset_eqb_perm a b : Permutation a b -> mset_eqb a b = true.
Proof.
  intros H. unfold mset_eqb. apply forallb_forall. intros x _.
  apply Nat.eqb_eq. apply (Permutation_count_occ rr_eq_dec). exact H.
Qed.

Lemma ip_eqb_refl a : ip_eqb a a = true.
Proof. destruct a; simpl; apply N.eqb_refl. Qed.

Lemma dest_eqb_refl d : dest_eqb d d = true.
Proof. destruct d; simpl; [apply eqb_reflx|rewrite ip_eqb_refl, N.eqb_refl; reflexivity]. Qed.

Lemma questions_eqb_refl l : questions_eqb l l = true.
Proof.
  induction l as [|[n t] l IH]; simpl; [reflexivity|].
  unfold ci_eq. rewrite beq_refl, N.eqb_refl, IH. reflexivity.
Qed.

Lemma reaction_equiv_eqb a b : reaction_equiv a b -> opt_packet_eqb a b = true.
Proof.
  destruct a as [p|], b as [q|]; simpl; try tauto.
  intros (H1 & H2 & H3 & H4 & H5 & H6 & H7). unfold packet_eqb.
  rewrite H1, H2, H3, H4, H5, dest_eqb_refl, !N.eqb_refl, questions_eqb_refl.
  rewrite !mset_eqb_perm; [reflexivity| |]; apply Permutation_map; assumption.
Qed.

Lemma Forall_clear_flush l : Forall (fun r => r_flush r = false) (map clear_flush l).
Proof. induction l; simpl; constructor; auto. Qed.

Theorem legacy_unicast inp p :
  wf_input inp = true -> handle_query inp = Some p -> h_src_port inp <> 5353 ->
  p_dest p = DUnicast (h_src_ip inp) (h_src_port inp) /\
  p_questions p = map (fun q => (q_name q, q_type q)) (m_questions (h_msg inp)) /\
  Forall (fun r => r_flush r = false) (p_answers p ++ p_additionals p) /\
  p_id p = m_id (h_msg inp).
Proof.
  intros _ Hq Hport. rewrite handle_query_closed in Hq. apply reply_some in Hq as [_ ->].
  assert (Hl : legacy inp = true).
  { unfold legacy. apply negb_true_iff. apply N.eqb_neq. exact Hport. }
  unfold reply_packet. rewrite Hl. cbn [p_dest p_questions p_answers p_additionals p_id].
  repeat split. apply Forall_app. split; apply Forall_clear_flush.
Qed.

Theorem multicast_reply inp p :
  wf_input inp = true -> handle_query inp = Some p -> h_src_port inp = 5353 ->
  p_dest p = DMulticast (is_v4 (h_src_ip inp)) /\ p_questions p = [] /\ p_id p = 0.
Proof.
  intros _ Hq Hport. rewrite handle_query_closed in Hq. apply reply_some in Hq as [_ ->].
  assert (Hl : legacy inp = false) by (unfold legacy; rewrite Hport; reflexivity).
  unfold reply_packet. rewrite Hl. repeat split.
Qed.

Lemma handle_query_silent inp :
  (forall og q, In q (m_questions (h_msg inp)) -> question_step inp (is_v4 (h_src_ip inp)) og q = og) ->
  handle_query inp = None.
Proof. intros H. rewrite handle_query_closed. unfold hq_out. rewrite (fold_left_id _ _ _ H). reflexivity. Qed.

Definition no_address_on_link (intf : myintf) (s : service) : Prop :=
  forall a, In a (s_addrs s) -> addr_on_intf intf a = false.

Lemma no_address_intf_addrs intf s : no_address_on_link intf s ->
  addrs_on_intf_v4 (s_addrs s) intf = [] /\ addrs_on_intf_v6 (s_addrs s) intf = [].
Proof. intros H. split; apply filter_none; intros a Ha; rewrite (H a Ha); apply andb_false_r. Qed.

Lemma question_step_silent inp v4 og q :
  (forall e, In e (h_services inp) -> is_announced (e_status e) = true ->
             no_address_on_link (h_intf inp) (e_svc e) /\ (q_type q = TY_PTR -> q_name q <> META_QUERY)) ->
  question_step inp v4 og q = og.
Proof.
  intros Hno. unfold question_step.
  assert (Hia : forall e v, In e (h_services inp) -> is_announced (e_status e) = true ->
                intf_addrs_of v (e_svc e) (h_intf inp) = []).
  { intros e v He Ha. destruct (Hno e He Ha) as [Hn _]. apply no_address_intf_addrs in Hn.
    unfold intf_addrs_of. destruct Hn as [H4 H6]. destruct v; assumption. }
  destruct (q_type q =? TY_PTR) eqn:Et.
  - rewrite fold_left_id; [reflexivity|]. intros [og' seen] e He. unfold ptr_step.
    destruct (is_announced (e_status e)) eqn:Ea; [|reflexivity]. cbn [negb].
    destruct (matches_type_or_subtype (e_svc e) (q_name q)).
    + unfold add_answer_with_additionals. rewrite (Hia e _ He Ea). reflexivity.
    + destruct (beq (q_name q) META_QUERY) eqn:Em; [|reflexivity].
      exfalso. apply beq_eq in Em. apply N.eqb_eq in Et. destruct (Hno e He Ea) as [_ Hm].
      exact (Hm Et Em).
  - rewrite (fold_left_id (addr_step inp q)).
    2:{ intros og' e He. unfold addr_step.
        destruct (is_announced (e_status e)) eqn:Ea; [|reflexivity]. cbn [negb].
        destruct (beq _ _); [|reflexivity].
        destruct (Hno e He Ea) as [Hn _]. apply no_address_intf_addrs in Hn as [H4 H6]. rewrite H4, H6.
        destruct (_ || _), (_ || _); reflexivity. }
    replace (if (q_type q =? TY_A) || (q_type q =? TY_AAAA) || (q_type q =? TY_ANY) then og else og) with og
      by (destruct (_ || _); reflexivity).
    destruct (find _ (h_services inp)) as [e|] eqn:Ef; [|reflexivity].
    apply find_some in Ef as [He _].
    destruct (is_announced (e_status e)) eqn:Ea; [|reflexivity]. cbn [negb].
    rewrite (Hia e _ He Ea). reflexivity.
Qed.

(* C18: the only address records sent on an interface are addresses of a registered service that
   lie in one of its subnets *)
Definition addr_rec_on_link (inp : hq_input) (r : rr) : Prop :=
  match r_data r with
  | RAddr o => exists e a, In e (h_services inp) /\ In a (s_addrs (e_svc e)) /\
                           addr_on_intf (h_intf inp) a = true /\ o = ip_octets a
  | _ => True
  end.

Lemma link_addr_rec inp r : link_rec (map e_svc (h_services inp)) (h_intf inp) r -> addr_rec_on_link inp r.
Proof.
  unfold link_rec, addr_rec_on_link. destruct (r_data r); auto.
  intros (s & a & Hs & Ha & Ho & Hon). apply in_map_iff in Hs as (e & <- & He). exists e, a. auto.
Qed.

Theorem response_carries_link_addresses inp p :
  wf_input inp = true -> handle_query inp = Some p ->
  Forall (addr_rec_on_link inp) (p_answers p ++ p_additionals p).
Proof.
  intros _ H. destruct (handle_query_packet inp p H) as [Hl _].
  eapply Forall_impl; [|exact Hl]. apply link_addr_rec.
Qed.
