(* C10 querier side over histories: every query the daemon-level model sends in any reachable
   history lists as known answers exactly what the property prescribes for the cache as it is
   after the records of that iteration have been taken in. *)
From Coq Require Import List NArith.
From Mdns Require Import Res Bytes Rec Life LifeSpec LifeCache LifeCacheSpec LifeProofs LifeCacheProofs LifeSimProofs
  LifeSimInst LifeMapProofs.
Import ListNotations.
Open Scope N_scope.

Notation tcache := (cache trec).

(* what refreshing a record keeps and all the known-answer list reads: identity, TTL, time of
   receipt *)
Definition ka_same (e e' : tentry) : Prop :=
  c_id e = c_id e' /\ t_ttl (c_t e) = t_ttl (c_t e') /\ t_created (c_t e) = t_created (c_t e').

Definition ka_same_cache : tcache -> tcache -> Prop := lift trec (Forall2 ka_same).

Lemma ka_same_refl (b : tbucket) : Forall2 ka_same b b.
Proof. apply Forall2_diag. repeat split. Qed.

Lemma ka_same_trans (a b c : tbucket) : Forall2 ka_same a b -> Forall2 ka_same b c -> Forall2 ka_same a c.
Proof. apply Forall2_compose. intros x y z (? & ? & ?) (? & ? & ?). repeat split; congruence. Qed.

Lemma refresh_bucket_same now (b b' : tbucket) any :
  refresh_bucket trec trec_ops b now = Ok (b', any) -> Forall2 ka_same b b'.
Proof.
  apply refresh_bucket_Forall2. intros e t d H. destruct (refresh_maybe_frame _ _ _ _ H) as [x ->]. repeat split.
Qed.

Lemma refresh_once_bucket_same now (b b' : tbucket) due :
  refresh_once_bucket trec trec_ops b now = Ok (b', due) -> Forall2 ka_same b b'.
Proof.
  apply refresh_once_bucket_Forall2. intros e t d H. destruct (refresh_once_frame _ _ _ _ H) as [x ->]. repeat split.
Qed.

Definition cache_ok (c : tcache) : Prop := forall k, Forall entry_ok (get_bucket trec c k).

Lemma Rc_cache_ok c c2 : Rc trec astate R c c2 -> cache_ok c.
Proof.
  intros H k. pose proof (get_bucket_rel trec astate R k c c2 H) as Hb.
  induction Hb as [|e1 e2 b1 b2 [_ HR] Hb IH]; constructor; auto.
  exact (R_within _ _ HR).
Qed.

Lemma cache_ok_same c0 c : cache_ok c0 -> ka_same_cache c0 c -> cache_ok c.
Proof.
  intros Hok HE k. specialize (Hok k). induction (HE k) as [|e e' b b' (_ & Ht & Hc) Hb IH]; [constructor|].
  inversion Hok as [|? ? [H1 H2] Hok']; subst. constructor; [|apply IH, Hok'].
  split; [rewrite <- Hc; exact H1 | rewrite <- Ht; exact H2].
Qed.

Lemma ka_of_spec_same c0 c qs now : ka_same_cache c0 c -> ka_of_spec c0 qs now = ka_of_spec c qs now.
Proof.
  intros HE. apply flat_map_ext. intros q. destruct (question_key q) as [k|]; [|reflexivity].
  apply (flat_map_Forall2 _ _ _ _ _ (HE k)). intros e e' (Hid & Ht & Hc). rewrite Hid, Ht, Hc. reflexivity.
Qed.

Lemma ka_of_questions_spec c now : forall qs,
  cache_ok c -> ka_of_questions trec trec_ops c qs now = Ok (ka_of_spec c qs now).
Proof.
  intros qs Hok. induction qs as [|[n t] qs IH]; [reflexivity|].
  simpl. rewrite IH. unfold ka_of, ka_of_spec at 2, question_key. simpl.
  destruct (kind_of_type t) as [k|]; simpl.
  - rewrite known_answers_spec by apply Hok. reflexivity.
  - reflexivity.
Qed.

Definition good_query (c0 : tcache) (now : N) (q : qdesc) : Prop :=
  qd_answers q = ka_of_spec c0 (qd_questions q) now.

Lemma mk_query_good c0 qs now q :
  cache_ok c0 -> mk_query trec trec_ops c0 qs now = Ok q -> good_query c0 now q.
Proof.
  intros Hok. unfold mk_query. rewrite (ka_of_questions_spec c0 now qs Hok). simpl.
  intros H. inversion H. reflexivity.
Qed.

Lemma mk_queries_good c0 c now : forall qss qs,
  cache_ok c0 -> ka_same_cache c0 c -> mk_queries trec trec_ops c qss now = Ok qs -> Forall (good_query c0 now) qs.
Proof.
  induction qss as [|x qss IH]; intros qs Hok HE H; simpl in H.
  - inversion H; constructor.
  - apply bind_ok_inv in H as (q & H1 & H). apply bind_ok_inv in H as (r & H2 & H). inversion H; subst.
    constructor; [|eapply IH; eauto].
    apply (mk_query_good c _ _ _ (cache_ok_same _ _ Hok HE)) in H1. unfold good_query in *.
    rewrite H1. symmetry. apply ka_of_spec_same, HE.
Qed.

Lemma retransmit_good c0 now (x : option bytes) (questions : bytes -> list (bytes * N)) n qs :
  cache_ok c0 ->
  match x with
  | Some t => let? q := mk_query trec trec_ops c0 (questions t) now in Ok (repeat_q n q)
  | None => Ok [] end = Ok qs ->
  Forall (good_query c0 now) qs.
Proof.
  intros Hok H. destruct x as [t|]; [|inversion H; constructor].
  apply bind_ok_inv in H as (q & Hq & H). inversion H; subst.
  apply mk_query_good in Hq; [|exact Hok]. induction n; simpl; constructor; auto.
Qed.

Lemma refresh_phase_good cfg c0 now c' qs :
  wf trec c0 -> cache_ok c0 -> refresh_phase trec trec_ops cfg c0 now = Ok (c', qs) ->
  Forall (good_query c0 now) qs.
Proof.
  intros Hw Hok H.
  apply (refresh_phase_inv trec trec_ops now (fun c => wf trec c /\ ka_same_cache c0 c) (good_query c0 now)) in H.
  - apply H.
  - intros c k b d [W HE] Hb. split; [apply set_wf, W|].
    eapply lift_trans; [exact ka_same_trans | exact HE|].
    apply lift_set; [exact ka_same_refl | exact W | eapply refresh_bucket_same, Hb].
  - intros c k b d [W HE] Hb. split; [apply set_wf, W|].
    eapply lift_trans; [exact ka_same_trans | exact HE|].
    apply lift_set; [exact ka_same_refl | exact W | eapply refresh_once_bucket_same, Hb].
  - intros c qss qs' [_ HE] Hq. eapply mk_queries_good; eauto.
  - split; [exact Hw | apply lift_refl, ka_same_refl].
Qed.

Lemma sim_iter_queries_good cfg c c2 now nsb nsh recs c' o :
  wf trec c -> Rc trec astate R c c2 -> now < B63 -> Forall rec_ok recs ->
  sim_iter trec trec_ops cfg c now nsb nsh recs = Ok (c', o) ->
  exists c0, ingest trec trec_ops c now recs = Ok c0 /\ Forall (good_query c0 now) (io_queries o).
Proof.
  intros Hw HRc Hn Hr H.
  apply sim_iter_inv in H as (c0 & qb & qh & c3 & qr & I1 & Hqb & Hqh & H2 & _ & ->).
  exists c0. split; [exact I1|].
  destruct (ingest_rel trec astate trec_ops astate_ops R trec_astate_rel now recs c c2 HRc Hn Hr)
    as (c0' & c0s & I1' & _ & HRc0).
  rewrite I1 in I1'. inversion I1'; subst c0'.
  pose proof (Rc_cache_ok _ _ HRc0) as Hok.
  pose proof (ingest_wf trec trec_ops now recs c c0 Hw I1) as W0.
  repeat (apply Forall_app; split).
  - exact (retransmit_good c0 now _ (fun ty => [(ty, TY_PTR)]) nsb qb Hok Hqb).
  - exact (retransmit_good c0 now _ (fun h => [(h, TY_A); (h, TY_AAAA)]) nsh qh Hok Hqh).
  - eapply refresh_phase_good; eauto.
Qed.

Lemma reach_inv cfg c : reach cfg c -> wf trec c /\ exists c2, Rc trec astate R c c2.
Proof.
  induction 1 as [|c s c' o Hr [Hw (c2 & HRc)] [Hn Hrec] Hs].
  - split; [constructor | exists []; constructor].
  - split; [eapply sim_iter_wf; eauto|].
    destruct (sim_iter_rel trec astate trec_ops astate_ops R trec_astate_rel cfg c c2 _ (ss_nsb s) (ss_nsh s) _ HRc Hn Hrec)
      as (x1 & [c2' o2] & E1 & _ & Hrel).
    rewrite Hs in E1. inversion E1; subst. inversion Hrel; subst. exists c2'. assumption.
Qed.

Theorem reach_queries_good cfg c s c' o :
  reach cfg c -> step_ok s ->
  sim_iter trec trec_ops cfg c (ss_now s) (ss_nsb s) (ss_nsh s) (ss_recs s) = Ok (c', o) ->
  exists c0, ingest trec trec_ops c (ss_now s) (ss_recs s) = Ok c0 /\
             Forall (fun q => qd_answers q = ka_of_spec c0 (qd_questions q) (ss_now s)) (io_queries o).
Proof.
  intros Hr [Hn Hrec] H. destruct (reach_inv cfg c Hr) as [Hw (c2 & HRc)].
  eapply sim_iter_queries_good; eauto.
Qed.

Lemma sim_run_good cfg : forall steps c obs,
  reach cfg c -> Forall step_ok steps -> sim_run trec trec_ops cfg c steps = Ok obs ->
  Forall2 (fun s o => exists c c0, reach cfg c /\ ingest trec trec_ops c (ss_now s) (ss_recs s) = Ok c0 /\
             Forall (fun q => qd_answers q = ka_of_spec c0 (qd_questions q) (ss_now s)) (io_queries o)) steps obs.
Proof.
  induction steps as [|s steps IH]; intros c obs Hr Hs H; simpl in H.
  - inversion H; constructor.
  - inversion Hs as [|? ? Hs1 Hs2]; subst.
    apply bind_ok_inv in H as ([c' o] & H1 & H). apply bind_ok_inv in H as (os & H2 & H). inversion H; subst.
    constructor.
    + destruct (reach_queries_good cfg c s c' o Hr Hs1 H1) as (c0 & I & G). exists c, c0. auto.
    + apply (IH c' os); [eapply reach_step; eauto | assumption | assumption].
Qed.

