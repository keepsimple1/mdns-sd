(* Facts about lists, booleans, byte strings and results that the proofs of several parts share;
   nothing here mentions the model. *)
From Coq Require Import List Bool Arith Lia Permutation.
From Mdns Require Import Res Bytes.
Import ListNotations.

Lemma firstn_exact {A} (a b : list A) : firstn (length a) (a ++ b) = a.
Proof. rewrite firstn_app, firstn_all, Nat.sub_diag. cbn [firstn]. apply app_nil_r. Qed.

Lemma skipn_exact {A} (a b : list A) : skipn (length a) (a ++ b) = b.
Proof. rewrite skipn_app, skipn_all, Nat.sub_diag. reflexivity. Qed.

Lemma skipn_app_le {A} n (d x : list A) :
  (n <= length d)%nat -> skipn n (d ++ x) = skipn n d ++ x.
Proof.
  intros H. rewrite skipn_app. replace (n - length d)%nat with O by lia. reflexivity.
Qed.

Lemma nth_error_skipn_cons {A} : forall k (d : list A) a,
  nth_error d k = Some a -> skipn k d = a :: skipn (S k) d.
Proof.
  induction k as [|k IH]; intros [|x d] a H; cbn [nth_error] in H; try discriminate.
  - injection H as Hx. subst x. reflexivity.
  - cbn [skipn]. apply IH in H. exact H.
Qed.

Lemma safe_ok {A} (a : A) : safe (Ok a).
Proof. split; discriminate. Qed.

Lemma safe_err {A} : safe (@Err A).
Proof. split; discriminate. Qed.

Lemma eqb_sym_bool a b : Bool.eqb a b = Bool.eqb b a.
Proof. destruct a, b; reflexivity. Qed.

Lemma beq_sym a b : beq a b = beq b a.
Proof.
  destruct (beq a b) eqn:E.
  - apply beq_eq in E. subst. symmetry. apply beq_refl.
  - destruct (beq b a) eqn:E'; [|reflexivity]. apply beq_eq in E'. subst. rewrite beq_refl in E. discriminate.
Qed.

Lemma mem_false_iff a l : mem a l = false <-> ~ In a l.
Proof. rewrite <- mem_In. destruct (mem a l); split; congruence. Qed.

Lemma fold_left_inv {A B} (P : A -> Prop) (f : A -> B -> A) l :
  (forall a x, In x l -> P a -> P (f a x)) -> forall a, P a -> P (fold_left f l a).
Proof.
  induction l as [|x t IH]; intros H a Ha; simpl; [exact Ha|].
  apply IH; [intros a' y Hy; apply H; right; exact Hy|]. apply H; [left; reflexivity|exact Ha].
Qed.

Lemma fold_left_id {A B} (f : A -> B -> A) l a :
  (forall a x, In x l -> f a x = a) -> fold_left f l a = a.
Proof.
  intros H. apply (fold_left_inv (fun a' => a' = a)); [|reflexivity].
  intros a' x Hx ->. apply H. exact Hx.
Qed.

Lemma fold_left_out3 {X A B C} (f : list A * list B * list C -> X -> list A * list B * list C)
    (ga : X -> list A) (gb : X -> list B) (gc : X -> list C) l :
  (forall a b c x, f (a, b, c) x = (a ++ ga x, b ++ gb x, c ++ gc x)) ->
  forall a b c, fold_left f l (a, b, c) = (a ++ flat_map ga l, b ++ flat_map gb l, c ++ flat_map gc l).
Proof.
  intros H. induction l as [|x l IH]; intros a b c; simpl; [rewrite !app_nil_r; reflexivity|].
  rewrite H, IH, !app_assoc. reflexivity.
Qed.

Lemma Forall_snoc {A} (P : A -> Prop) (l : list A) (x : A) : Forall P l -> P x -> Forall P (l ++ [x]).
Proof. intros Hl Hx. apply Forall_app. split; [exact Hl|constructor; [exact Hx|constructor]]. Qed.

Lemma NoDup_snoc {A} (l : list A) x : NoDup l -> ~ In x l -> NoDup (l ++ [x]).
Proof.
  intros ND Hn. apply (NoDup_Add (Add_app x l [])). rewrite app_nil_r. split; assumption.
Qed.

Lemma NoDup_map_filter {A B} (f : A -> B) (p : A -> bool) l :
  NoDup (map f l) -> NoDup (map f (filter p l)).
Proof.
  induction l as [|x t IH]; simpl; [auto|].
  intros ND. inversion ND as [|y ys Hn ND']; subst.
  destruct (p x); simpl; [|auto].
  constructor; [|auto]. intros H. apply Hn. apply in_map_iff in H as [z [H1 H2]].
  apply filter_In in H2 as [H2 _]. apply in_map_iff. eauto.
Qed.

Lemma flat_map_ext_in {A B} (f g : A -> list B) (l : list A) :
  (forall x, In x l -> f x = g x) -> flat_map f l = flat_map g l.
Proof.
  induction l as [|x l IH]; simpl; intros H; [reflexivity|].
  rewrite (H x (or_introl eq_refl)), IH; [reflexivity|]. intros y Hy. apply H. right. exact Hy.
Qed.

Lemma flat_map_nil {A B} (f : A -> list B) (l : list A) :
  (forall x, In x l -> f x = []) -> flat_map f l = [].
Proof.
  intros H. rewrite (flat_map_ext_in f (fun _ => []) l H). clear H.
  induction l as [|x l IH]; [reflexivity|exact IH].
Qed.

Lemma flat_map_single {A B} (f : A -> B) (l : list A) : flat_map (fun x => [f x]) l = map f l.
Proof. induction l; simpl; congruence. Qed.

Lemma filter_all {A} (p : A -> bool) (b : bool) l :
  (forall y, In y l -> p y = b) -> filter p l = if b then l else [].
Proof.
  induction l as [|x t IH]; simpl; intros H.
  - destruct b; reflexivity.
  - rewrite (H x (or_introl eq_refl)). rewrite IH by (intros y Hy; apply H; right; exact Hy).
    destruct b; reflexivity.
Qed.

Lemma filter_true {A} (p : A -> bool) l : (forall x, In x l -> p x = true) -> filter p l = l.
Proof. apply (filter_all p true). Qed.

Lemma filter_none {A} (p : A -> bool) l : (forall x, In x l -> p x = false) -> filter p l = [].
Proof. apply (filter_all p false). Qed.

Lemma Permutation_filter {A} (f : A -> bool) l l' : Permutation l l' -> Permutation (filter f l) (filter f l').
Proof.
  induction 1; simpl.
  - constructor.
  - destruct (f x); [constructor|]; assumption.
  - destruct (f x), (f y); try apply perm_swap; try apply Permutation_refl.
  - eapply Permutation_trans; eassumption.
Qed.

Lemma find_app {A} (p : A -> bool) (a b : list A) :
  find p (a ++ b) = match find p a with Some x => Some x | None => find p b end.
Proof. induction a as [|x a IH]; simpl; [reflexivity|]. destruct (p x); auto. Qed.

Lemma existsb_find {A} (p : A -> bool) l :
  existsb p l = match find p l with Some _ => true | None => false end.
Proof. induction l as [|x l IH]; simpl; [reflexivity|]. destruct (p x); simpl; auto. Qed.

Lemma existsb_find_rev {A} (p : A -> bool) l :
  existsb p l = match find p (rev l) with Some _ => true | None => false end.
Proof.
  induction l as [|x l IH]; simpl; [reflexivity|].
  rewrite find_app. simpl. rewrite IH.
  destruct (find p (rev l)); [apply orb_true_r|]. destruct (p x); reflexivity.
Qed.

Lemma existsb_ext {A} (p q : A -> bool) l : (forall x, p x = q x) -> existsb p l = existsb q l.
Proof. intros H. induction l; simpl; [reflexivity|]. rewrite H, IHl. reflexivity. Qed.
