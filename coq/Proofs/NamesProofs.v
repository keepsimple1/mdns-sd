(* What name_change / hostname_change (Model/Names.v) do, on all byte strings. *)
From Coq Require Import List NArith Bool Lia PeanoNat.
From Mdns Require Import Bytes ParamsRegistry Names RegistryParamsPinned.
Import ListNotations.
Open Scope N_scope.

Definition no_byte (c : N) (s : bytes) : Prop := Forall (fun x => x <> c) s.
Definition starts_dot_or_empty (r : bytes) : Prop := r = [] \/ exists t, r = C_DOT :: t.

Lemma split_first_app x rest :
  no_byte C_DOT x -> starts_dot_or_empty rest -> split_first (x ++ rest) = (x, rest).
Proof.
  intros Hx Hr. induction x as [|c x IH]; simpl.
  - destruct Hr as [->|[t ->]]; reflexivity.
  - inversion Hx; subst. destruct (c =? C_DOT) eqn:E; [apply N.eqb_eq in E; contradiction|].
    rewrite IH by assumption. reflexivity.
Qed.

Lemma rsplit2_last a b x q :
  rsplit2 a b (b :: q) = None -> rsplit2 a b (x ++ a :: b :: q) = Some (x, q).
Proof.
  intros H. induction x as [|c x IH]; simpl.
  - simpl in H. rewrite H. rewrite !N.eqb_refl. reflexivity.
  - rewrite IH. reflexivity.
Qed.

Lemma rsplit2_none_cons a b c s :
  c <> a -> rsplit2 a b s = None -> rsplit2 a b (c :: s) = None.
Proof.
  intros Hc H. simpl. rewrite H. destruct s; [reflexivity|]. rewrite (proj2 (N.eqb_neq c a) Hc). reflexivity.
Qed.

Lemma rsplit2_none a b s : Forall (fun x => x <> a) s -> rsplit2 a b s = None.
Proof. induction 1 as [|c s Hc _ IH]; [reflexivity|]. apply rsplit2_none_cons; assumption. Qed.

Lemma rsplit1_none a s : no_byte a s -> rsplit1 a s = None.
Proof.
  induction 1 as [|d q Hd _ IH]; simpl; [reflexivity|]. rewrite IH, (proj2 (N.eqb_neq d a) Hd). reflexivity.
Qed.

Lemma rsplit1_last a x q : no_byte a q -> rsplit1 a (x ++ a :: q) = Some (x, q).
Proof.
  intros H. induction x as [|c x IH]; simpl; [rewrite (rsplit1_none a q H), N.eqb_refl|rewrite IH]; reflexivity.
Qed.

Lemma find1_end a s : no_byte a s -> find1 a (s ++ [a]) = Some (s, []).
Proof.
  induction s as [|d q IH]; simpl; intros H.
  - rewrite N.eqb_refl. reflexivity.
  - inversion H; subst. destruct (d =? a) eqn:E; [apply N.eqb_eq in E; contradiction|].
    rewrite IH by assumption. reflexivity.
Qed.

Lemma rsplit2_sound a b s : forall p q, rsplit2 a b s = Some (p, q) -> s = p ++ a :: b :: q.
Proof.
  induction s as [|x t IH]; intros p q H; [discriminate|].
  cbn [rsplit2] in H. destruct (rsplit2 a b t) as [[p' q']|].
  - inversion H; subst. rewrite (IH p' q eq_refl). reflexivity.
  - destruct t as [|y t']; [discriminate|]. destruct ((x =? a) && (y =? b)) eqn:E; [|discriminate].
    apply andb_true_iff in E as [E1 E2]. apply N.eqb_eq in E1, E2. inversion H; subst. reflexivity.
Qed.

Lemma rsplit1_sound a s : forall p q, rsplit1 a s = Some (p, q) -> s = p ++ a :: q.
Proof.
  induction s as [|x t IH]; intros p q H; [discriminate|].
  cbn [rsplit1] in H. destruct (rsplit1 a t) as [[p' q']|].
  - inversion H; subst. rewrite (IH p' q eq_refl). reflexivity.
  - destruct (x =? a) eqn:E; [|discriminate]. apply N.eqb_eq in E. inversion H; subst. reflexivity.
Qed.

Definition all_digits (ds : bytes) : Prop := forallb is_digit ds = true.

Lemma is_digit_range c : is_digit c = true <-> 48 <= c <= 57.
Proof. unfold is_digit. rewrite andb_true_iff, !N.leb_le. reflexivity. Qed.

Lemma digits_no_byte c ds : all_digits ds -> (c < 48 \/ 57 < c) -> no_byte c ds.
Proof.
  unfold all_digits, no_byte. intros H Hc. rewrite forallb_forall in H. apply Forall_forall.
  intros x Hx E. subst. apply H in Hx. apply is_digit_range in Hx. lia.
Qed.

Lemma digits_val_snoc l d : digits_val (l ++ [d]) = digits_val l * 10 + (d - 48).
Proof. unfold digits_val. rewrite fold_left_app. reflexivity. Qed.

Lemma parse_u32_all_digits ds :
  ds <> [] -> all_digits ds ->
  parse_u32 ds = if digits_val ds <=? 4294967295 then Some (digits_val ds) else None.
Proof.
  intros Hne Hd. unfold parse_u32. destruct ds as [|c t]; [contradiction|].
  assert (c =? C_PLUS = false) as ->.
  { apply N.eqb_neq. unfold all_digits in Hd. simpl in Hd. apply andb_true_iff in Hd as [Hc _].
    apply is_digit_range in Hc. unfold C_PLUS. lia. }
  unfold all_digits in Hd. rewrite Hd. reflexivity.
Qed.

Lemma parse_u32_digits ds :
  ds <> [] -> all_digits ds -> digits_val ds <= 4294967295 -> parse_u32 ds = Some (digits_val ds).
Proof. intros Hne Hd Hv. rewrite parse_u32_all_digits by assumption. apply N.leb_le in Hv. rewrite Hv. reflexivity. Qed.

Lemma parse_u32_overflow ds :
  ds <> [] -> all_digits ds -> 4294967295 < digits_val ds -> parse_u32 ds = None.
Proof. intros Hne Hd Hv. rewrite parse_u32_all_digits by assumption. apply N.leb_gt in Hv. rewrite Hv. reflexivity. Qed.

Lemma single_digit n : n < 10 -> all_digits [48 + n].
Proof. intros H. unfold all_digits. cbn [forallb]. rewrite andb_true_r. apply is_digit_range. lia. Qed.

Lemma single_digit_val n : digits_val [48 + n] = n.
Proof. unfold digits_val. cbn [fold_left]. lia. Qed.

Lemma dec_fuel_step f n acc :
  dec_fuel (S f) n acc = if n <? 10 then (48 + n mod 10) :: acc else dec_fuel f (n / 10) ((48 + n mod 10) :: acc).
Proof. reflexivity. Qed.

Lemma dec_fuel_spec f : forall n acc,
  n < 10 ^ N.of_nat (S f) ->
  exists ds, dec_fuel (S f) n acc = ds ++ acc /\ all_digits ds /\ ds <> [] /\ digits_val ds = n.
Proof.
  induction f as [|f IH]; intros n acc Hn; rewrite dec_fuel_step; destruct (n <? 10) eqn:E.
  1,3: apply N.ltb_lt in E; exists [48 + n mod 10]; rewrite N.mod_small by exact E;
       repeat split; [apply single_digit, E|discriminate|apply single_digit_val].
  - apply N.ltb_ge in E. change (10 ^ N.of_nat 1) with 10 in Hn. lia.
  - apply N.ltb_ge in E.
    assert (Hdiv : n / 10 < 10 ^ N.of_nat (S f)).
    { apply N.div_lt_upper_bound; [lia|].
      replace (N.of_nat (S (S f))) with (N.succ (N.of_nat (S f))) in Hn by lia.
      rewrite N.pow_succ_r' in Hn. exact Hn. }
    destruct (IH (n / 10) ((48 + n mod 10) :: acc) Hdiv) as (ds & Hds & Hdig & Hne & Hval).
    exists (ds ++ [48 + n mod 10]). rewrite Hds, <- app_assoc. repeat split.
    + unfold all_digits in *. rewrite forallb_app, Hdig.
      apply (single_digit (n mod 10)). apply N.mod_upper_bound. discriminate.
    + destruct ds; discriminate.
    + rewrite digits_val_snoc, Hval. pose proof (N.div_mod n 10 ltac:(lia)) as Hdm.
      clear -Hdm. generalize dependent (n mod 10). generalize dependent (n / 10). intros. lia.
Qed.

Lemma dec_spec n :
  n <= 4294967296 -> exists ds, dec n = ds /\ all_digits ds /\ ds <> [] /\ digits_val ds = n.
Proof.
  intros Hn. unfold dec.
  assert (H : n < 10 ^ N.of_nat 40).
  { assert (E : 10 ^ N.of_nat 40 = 10000000000000000000000000000000000000000) by (vm_compute; reflexivity).
    rewrite E. lia. }
  destruct (dec_fuel_spec 39 n [] H) as (ds & Hds & Hd & Hne & Hv).
  exists ds. rewrite Hds, app_nil_r. auto.
Qed.

Definition plain (x : bytes) : Prop := no_byte C_DOT x /\ no_byte C_BSL x.

Lemma digits_plain ds : all_digits ds -> plain ds.
Proof. intros H. split; apply (digits_no_byte _ ds H); unfold C_DOT, C_BSL; lia. Qed.

Lemma plain_app a b : plain a -> plain b -> plain (a ++ b).
Proof. intros [A1 A2] [B1 B2]. split; apply Forall_app; split; assumption. Qed.

Lemma plain_of_list l : forallb (fun c => negb (c =? C_DOT) && negb (c =? C_BSL)) l = true -> plain l.
Proof.
  induction l as [|c t IH]; intros H; [split; constructor|].
  cbn [forallb] in H. apply andb_true_iff in H as [H1 H2]. apply andb_true_iff in H1 as [Hd Hb].
  apply negb_true_iff in Hd, Hb. apply N.eqb_neq in Hd, Hb.
  destruct (IH H2) as [A B]. split; constructor; assumption.
Qed.

(* no unescaped dot in l and no escape left open at its end: l is a whole label text *)
Fixpoint closed (l : bytes) : bool :=
  match l with
  | [] => true
  | c :: t => if c =? C_DOT then false
              else if c =? C_BSL then match t with _ :: t' => closed t' | [] => false end
              else closed t
  end.

Lemma bytes_ind2 (P : list N -> Prop) :
  P [] -> (forall c, P [c]) ->
  (forall c n t, P t -> P (n :: t) -> P (c :: n :: t)) -> forall l : list N, P l.
Proof.
  intros H0 H1 H2 l. assert (H : P l /\ forall c, P (c :: l)).
  { induction l as [|a l [IH1 IH2]]; [split; [exact H0|exact H1]|].
    split; [apply IH2|]. intros c. apply H2; [exact IH1|apply IH2]. }
  apply H.
Qed.

Lemma split_first_label_cons2 c n t :
  split_first_label (c :: n :: t) =
  if c =? C_DOT then ([], c :: n :: t)
  else if c =? C_BSL then let (a, r) := split_first_label t in (c :: n :: a, r)
  else let (a, r) := split_first_label (n :: t) in (c :: a, r).
Proof. reflexivity. Qed.

Lemma closed_plain s : plain s -> closed s = true.
Proof.
  intros [Hd Hb]. induction s as [|c t IH]; [reflexivity|].
  inversion Hd; inversion Hb; subst. cbn [closed].
  destruct (c =? C_DOT) eqn:D; [apply N.eqb_eq in D; contradiction|].
  destruct (c =? C_BSL) eqn:B; [apply N.eqb_eq in B; contradiction|]. apply IH; assumption.
Qed.

Lemma split_closed a : forall rest,
  closed a = true -> starts_dot_or_empty rest -> split_first_label (a ++ rest) = (a, rest).
Proof.
  induction a as [| c | c n t IHt IHn] using bytes_ind2; intros rest Ha Hr.
  - destruct Hr as [->|[t ->]]; reflexivity.
  - cbn [closed] in Ha. destruct (c =? C_DOT) eqn:D; [discriminate|]. destruct (c =? C_BSL) eqn:B; [discriminate|].
    cbn [app split_first_label]. rewrite D, B.
    destruct Hr as [->|[t ->]]; cbn [split_first_label]; [reflexivity|]. rewrite N.eqb_refl. reflexivity.
  - change ((c :: n :: t) ++ rest) with (c :: n :: (t ++ rest)). rewrite split_first_label_cons2.
    cbn [closed] in Ha. destruct (c =? C_DOT); [discriminate|]. destruct (c =? C_BSL).
    + rewrite (IHt rest Ha Hr). reflexivity.
    + change (n :: (t ++ rest)) with ((n :: t) ++ rest). rewrite (IHn rest Ha Hr). reflexivity.
Qed.

Lemma split_first_label_app x rest :
  plain x -> starts_dot_or_empty rest -> split_first_label (x ++ rest) = (x, rest).
Proof. intros Hx Hr. apply split_closed; [apply closed_plain; exact Hx|exact Hr]. Qed.

Lemma back_boundary_le f base : forall e, (back_boundary f base e <= e)%nat.
Proof.
  induction f as [|f IH]; intros e; simpl; [lia|].
  destruct (Nat.eqb e (length base)); [lia|]. destruct e as [|e']; [lia|].
  destruct (nth_error base (S e')); [|lia]. destruct (is_cont n); [|lia].
  specialize (IH e'). lia.
Qed.

Lemma removelast_length {A} (l : list A) : (length (removelast l) <= length l)%nat.
Proof. induction l as [|a [|b t] IH]; simpl in *; lia. Qed.

Lemma label_with_suffix_len base suffix :
  (length suffix <= 63)%nat -> (length (label_with_suffix base suffix) <= 63)%nat.
Proof.
  intros Hs. unfold label_with_suffix.
  set (e0 := Nat.min (length base) (63 - length suffix)).
  pose proof (back_boundary_le e0 base e0) as Hb.
  set (e := back_boundary e0 base e0) in *.
  assert (Hk : (length (firstn e base) <= e)%nat) by apply firstn_le_length.
  rewrite app_length.
  destruct (Nat.ltb e (length base) && Nat.odd (lead_bsl (rev (firstn e base)))).
  - pose proof (removelast_length (firstn e base)). unfold e0 in *. lia.
  - unfold e0 in *. lia.
Qed.

Lemma label_with_suffix_fits base suffix :
  (length base + length suffix <= 63)%nat -> label_with_suffix base suffix = base ++ suffix.
Proof.
  intros H. unfold label_with_suffix.
  assert (E : Nat.min (length base) (63 - length suffix) = length base) by lia. rewrite E.
  assert (B : forall f, back_boundary f base (length base) = length base).
  { intros f. destruct f; simpl; [reflexivity|]. rewrite Nat.eqb_refl. reflexivity. }
  rewrite B, firstn_all, Nat.ltb_irrefl. reflexivity.
Qed.

Lemma dec_fuel_length f : forall n acc, (length (dec_fuel f n acc) <= f + length acc)%nat.
Proof.
  induction f as [|f IH]; intros n acc; simpl; [lia|].
  destruct (n <? 10); simpl; [lia|]. specialize (IH (n / 10) ((48 + n mod 10) :: acc)). simpl in IH. lia.
Qed.

Lemma dec_length n : (length (dec n) <= 40)%nat.
Proof. unfold dec. pose proof (dec_fuel_length 40 n []) as H. cbn [length] in H. lia. Qed.

Ltac assoc_refl := repeat (rewrite <- app_assoc); cbn [app]; repeat (rewrite <- app_assoc); cbn [app]; reflexivity.

Definition SUFFIX2 : bytes := [C_SP; C_LP; 50; C_RP].      (* " (2)" *)

Lemma name_change_fresh x rest :
  plain x -> starts_dot_or_empty rest -> rsplit2 C_SP C_LP x = None -> (length x + 4 <= 63)%nat ->
  name_change (x ++ rest) = x ++ SUFFIX2 ++ rest.
Proof.
  intros Hx Hr Hp Hl. unfold name_change. rewrite split_first_label_app by assumption.
  rewrite Hp. rewrite label_with_suffix_fits by (simpl; lia). unfold SUFFIX2. assoc_refl.
Qed.

Lemma paren_tail_none ds : all_digits ds -> rsplit2 C_SP C_LP (C_LP :: ds ++ [C_RP]) = None.
Proof.
  intros Hd. apply rsplit2_none. constructor; [unfold C_LP, C_SP; lia|].
  apply Forall_app. split.
  - apply (digits_no_byte C_SP ds Hd). unfold C_SP. lia.
  - constructor; [unfold C_RP, C_SP; lia|constructor].
Qed.

Lemma plain_with_paren x ds : plain x -> all_digits ds -> plain (x ++ [C_SP; C_LP] ++ ds ++ [C_RP]).
Proof.
  intros Hx Hds. repeat apply plain_app; [exact Hx| |apply digits_plain, Hds|]; apply plain_of_list; reflexivity.
Qed.

(* x may itself contain " (": rsplit2 finds the last one *)
Lemma name_change_numbered x ds rest :
  plain x -> starts_dot_or_empty rest -> ds <> [] -> all_digits ds -> digits_val ds <= 4294967295 ->
  name_change (x ++ [C_SP; C_LP] ++ ds ++ [C_RP] ++ rest)
  = (if digits_val ds + 1 <=? 4294967295
     then label_with_suffix x ([C_SP; C_LP] ++ dec (digits_val ds + 1) ++ [C_RP])
     else label_with_suffix (x ++ [C_SP; C_LP] ++ ds ++ [C_RP]) [C_SP; C_LP; 50; C_RP]) ++ rest.
Proof.
  intros Hx Hr Hne Hd Hv. unfold name_change.
  replace (x ++ [C_SP; C_LP] ++ ds ++ [C_RP] ++ rest) with ((x ++ [C_SP; C_LP] ++ ds ++ [C_RP]) ++ rest)
    by (rewrite <- !app_assoc; reflexivity).
  rewrite split_first_label_app; [|apply plain_with_paren; assumption|assumption].
  change (x ++ [C_SP; C_LP] ++ ds ++ [C_RP]) with (x ++ C_SP :: C_LP :: (ds ++ [C_RP])).
  rewrite rsplit2_last by (apply paren_tail_none; assumption).
  rewrite find1_end by (apply (digits_no_byte C_RP ds Hd); unfold C_RP; lia).
  rewrite parse_u32_digits by assumption.
  unfold name_suffix_can_increment. destruct suffix_step_pinned as [-> _].
  destruct (digits_val ds + 1 <=? 4294967295); reflexivity.
Qed.

Lemma name_change_increment x ds rest :
  plain x -> starts_dot_or_empty rest ->
  ds <> [] -> all_digits ds -> digits_val ds < 4294967295 -> (length x <= 20)%nat ->
  name_change (x ++ [C_SP; C_LP] ++ ds ++ [C_RP] ++ rest)
  = x ++ [C_SP; C_LP] ++ dec (digits_val ds + 1) ++ [C_RP] ++ rest.
Proof.
  intros Hx Hr Hne Hd Hv Hl. rewrite name_change_numbered by (assumption || lia).
  assert (digits_val ds + 1 <=? 4294967295 = true) as -> by (apply N.leb_le; lia).
  rewrite label_with_suffix_fits.
  - assoc_refl.
  - pose proof (dec_length (digits_val ds + 1)). rewrite !app_length. cbn [length]. lia.
Qed.

Lemma name_change_at_max x ds rest :
  plain x -> starts_dot_or_empty rest ->
  ds <> [] -> all_digits ds -> digits_val ds = 4294967295 -> (length x + length ds + 7 <= 63)%nat ->
  name_change (x ++ [C_SP; C_LP] ++ ds ++ [C_RP] ++ rest)
  = x ++ [C_SP; C_LP] ++ ds ++ [C_RP] ++ SUFFIX2 ++ rest.
Proof.
  intros Hx Hr Hne Hd Hv Hl. rewrite name_change_numbered by (assumption || lia). rewrite Hv.
  change (4294967295 + 1 <=? 4294967295) with false. cbv iota.
  rewrite label_with_suffix_fits.
  - unfold SUFFIX2. assoc_refl.
  - rewrite !app_length. cbn [length]. lia.
Qed.

Lemma name_change_twice x rest :
  plain x -> starts_dot_or_empty rest -> rsplit2 C_SP C_LP x = None -> (length x <= 20)%nat ->
  name_change (name_change (x ++ rest)) = x ++ [C_SP; C_LP; 51; C_RP] ++ rest.
Proof.
  intros Hx Hr Hp Hl. rewrite name_change_fresh by (try assumption; lia).
  change (x ++ SUFFIX2 ++ rest) with (x ++ [C_SP; C_LP] ++ [50] ++ [C_RP] ++ rest).
  rewrite name_change_increment; try assumption; try discriminate; try reflexivity.
Qed.

Lemma hostname_change_fresh x rest :
  plain x -> starts_dot_or_empty rest -> no_byte C_HY x -> (length x + 2 <= 63)%nat ->
  hostname_change (x ++ rest) = x ++ [C_HY; 50] ++ rest.
Proof.
  intros Hx Hr Hh Hl. unfold hostname_change. rewrite split_first_label_app by assumption.
  rewrite rsplit1_none by assumption. rewrite label_with_suffix_fits by (simpl; lia). assoc_refl.
Qed.

Lemma plain_with_hyphen x ds : plain x -> all_digits ds -> plain (x ++ [C_HY] ++ ds).
Proof.
  intros Hx Hds. repeat apply plain_app; [exact Hx| |apply digits_plain, Hds]. apply plain_of_list. reflexivity.
Qed.

Lemma hostname_change_numbered x ds rest :
  plain x -> starts_dot_or_empty rest -> ds <> [] -> all_digits ds -> digits_val ds <= 4294967295 ->
  hostname_change (x ++ [C_HY] ++ ds ++ rest)
  = (if digits_val ds + 1 <=? 4294967295
     then label_with_suffix x ([C_HY] ++ dec (digits_val ds + 1))
     else label_with_suffix (x ++ [C_HY] ++ ds) [C_HY; 50]) ++ rest.
Proof.
  intros Hx Hr Hne Hd Hv. unfold hostname_change.
  replace (x ++ [C_HY] ++ ds ++ rest) with ((x ++ [C_HY] ++ ds) ++ rest) by (rewrite <- !app_assoc; reflexivity).
  rewrite split_first_label_app; [|apply plain_with_hyphen; assumption|assumption].
  change (x ++ [C_HY] ++ ds) with (x ++ C_HY :: ds).
  rewrite rsplit1_last by (apply (digits_no_byte C_HY ds Hd); unfold C_HY; lia).
  rewrite parse_u32_digits by assumption.
  unfold host_suffix_can_increment. destruct suffix_step_pinned as [_ ->].
  destruct (digits_val ds + 1 <=? 4294967295); reflexivity.
Qed.

Lemma hostname_change_increment x ds rest :
  plain x -> starts_dot_or_empty rest ->
  ds <> [] -> all_digits ds -> digits_val ds < 4294967295 -> (length x <= 20)%nat ->
  hostname_change (x ++ [C_HY] ++ ds ++ rest) = x ++ [C_HY] ++ dec (digits_val ds + 1) ++ rest.
Proof.
  intros Hx Hr Hne Hd Hv Hl. rewrite hostname_change_numbered by (assumption || lia).
  assert (digits_val ds + 1 <=? 4294967295 = true) as -> by (apply N.leb_le; lia).
  rewrite label_with_suffix_fits.
  - assoc_refl.
  - pose proof (dec_length (digits_val ds + 1)). rewrite !app_length. cbn [length]. lia.
Qed.

Lemma hostname_change_at_max x ds rest :
  plain x -> starts_dot_or_empty rest ->
  ds <> [] -> all_digits ds -> digits_val ds = 4294967295 -> (length x + length ds + 3 <= 63)%nat ->
  hostname_change (x ++ [C_HY] ++ ds ++ rest) = x ++ [C_HY] ++ ds ++ [C_HY; 50] ++ rest.
Proof.
  intros Hx Hr Hne Hd Hv Hl. rewrite hostname_change_numbered by (assumption || lia). rewrite Hv.
  change (4294967295 + 1 <=? 4294967295) with false. cbv iota.
  rewrite label_with_suffix_fits.
  - assoc_refl.
  - rewrite !app_length. simpl. lia.
Qed.

Lemma hostname_change_twice x rest :
  plain x -> starts_dot_or_empty rest -> no_byte C_HY x -> (length x <= 20)%nat ->
  hostname_change (hostname_change (x ++ rest)) = x ++ [C_HY; 51] ++ rest.
Proof.
  intros Hx Hr Hh Hl. rewrite hostname_change_fresh by (try assumption; lia).
  change (x ++ [C_HY; 50] ++ rest) with (x ++ [C_HY] ++ [50] ++ rest).
  rewrite hostname_change_increment; try assumption; try discriminate; try reflexivity.
Qed.

(* no unescaped dot in l (an escape may be left open at the end) *)
Fixpoint nud (l : bytes) : bool :=
  match l with
  | [] => true
  | c :: t => if c =? C_DOT then false
              else if c =? C_BSL then match t with _ :: t' => nud t' | [] => true end
              else nud t
  end.

Lemma split_first_label_spec s :
  nud (fst (split_first_label s)) = true /\ starts_dot_or_empty (snd (split_first_label s)).
Proof.
  induction s as [| c | c n t IHt IHn] using bytes_ind2.
  - split; [reflexivity|left; reflexivity].
  - cbn [split_first_label]. destruct (c =? C_DOT) eqn:D.
    + apply N.eqb_eq in D. subst. split; [reflexivity|right; exists []; reflexivity].
    + destruct (c =? C_BSL) eqn:B; cbn [fst snd nud]; rewrite ?D, ?B; split; try reflexivity; left; reflexivity.
  - rewrite split_first_label_cons2. destruct (c =? C_DOT) eqn:D.
    + apply N.eqb_eq in D. subst. split; [reflexivity|right; eexists; reflexivity].
    + destruct (c =? C_BSL) eqn:B.
      * destruct (split_first_label t) as [a r]. cbn [fst snd nud] in *. rewrite D, B. exact IHt.
      * destruct (split_first_label (n :: t)) as [a r]. cbn [fst snd nud] in *. rewrite D, B. exact IHn.
Qed.

Lemma nud_prefix a : forall b, nud (a ++ b) = true -> nud a = true.
Proof.
  induction a as [| c | c n t IHt IHn] using bytes_ind2; intros b H; try reflexivity.
  - cbn [app nud] in *. destruct (c =? C_DOT); [discriminate|]. destruct (c =? C_BSL); reflexivity.
  - change ((c :: n :: t) ++ b) with (c :: n :: (t ++ b)) in H.
    cbn [nud] in H |- *. destruct (c =? C_DOT); [discriminate|]. destruct (c =? C_BSL).
    + apply (IHt b). exact H.
    + apply (IHn b). exact H.
Qed.

Lemma nud_firstn e l : nud l = true -> nud (firstn e l) = true.
Proof. intros H. apply (nud_prefix _ (skipn e l)). rewrite firstn_skipn. exact H. Qed.

Lemma nud_removelast l : nud l = true -> nud (removelast l) = true.
Proof.
  intros H. destruct l as [|a l]; [reflexivity|].
  apply (nud_prefix _ [last (a :: l) 0]). rewrite <- app_removelast_last by discriminate. exact H.
Qed.

Lemma closed_with_suffix a : forall suf, nud a = true -> plain suf -> suf <> [] -> closed (a ++ suf) = true.
Proof.
  induction a as [| c | c n t IHt IHn] using bytes_ind2; intros suf Ha Hs Hne.
  - apply closed_plain. exact Hs.
  - cbn [app]. cbn [nud] in Ha. cbn [closed]. destruct (c =? C_DOT); [discriminate|].
    destruct suf as [|x suf']; [contradiction|].
    assert (Hs' : plain suf') by (destruct Hs as [A B]; inversion A; inversion B; split; assumption).
    destruct (c =? C_BSL); [apply closed_plain; exact Hs'|apply closed_plain; exact Hs].
  - change ((c :: n :: t) ++ suf) with (c :: n :: (t ++ suf)).
    cbn [nud] in Ha. cbn [closed]. destruct (c =? C_DOT); [discriminate|]. destruct (c =? C_BSL).
    + apply IHt; assumption.
    + apply IHn; assumption.
Qed.

Lemma unescaped_len_le l : unescaped_len l <= N.of_nat (length l).
Proof.
  induction l as [| c | c n t IHt IHn] using bytes_ind2.
  - reflexivity.
  - cbn [unescaped_len length]. destruct (c =? C_BSL); cbn [unescaped_len]; lia.
  - change (unescaped_len (c :: n :: t)) with
      (if c =? C_BSL then (if (n =? C_DOT) || (n =? C_BSL) then 1 + unescaped_len t else 1 + unescaped_len (n :: t))
       else 1 + unescaped_len (n :: t)).
    cbn [length] in *. destruct (c =? C_BSL); [destruct ((n =? C_DOT) || (n =? C_BSL))|]; lia.
Qed.

(* cutting the base keeps `nud`; the non-empty plain suffix closes an escape the cut may have left open *)
Lemma label_with_suffix_closed base suf :
  nud base = true -> plain suf -> suf <> [] -> closed (label_with_suffix base suf) = true.
Proof.
  intros Hb Hs Hne. unfold label_with_suffix. cbv zeta.
  apply closed_with_suffix; [|assumption|assumption].
  match goal with |- nud (if ?c then _ else _) = true => destruct c end;
    [apply nud_removelast|]; apply nud_firstn; exact Hb.
Qed.

Lemma rename_shape_ok s nf :
  closed nf = true -> (length nf <= 63)%nat ->
  rename_keeps_rest s (nf ++ snd (split_first_label s)) = true /\
  first_label_encodable (nf ++ snd (split_first_label s)) = true.
Proof.
  intros Hc Hl. unfold rename_keeps_rest, first_label_encodable.
  rewrite (split_closed nf _ Hc (proj2 (split_first_label_spec s))). cbn [fst snd]. split.
  - apply beq_refl.
  - apply N.ltb_lt. pose proof (unescaped_len_le nf). lia.
Qed.

(* Both renames put a new label text in front of the old rest: a beginning of the old first label,
   shortened by label_with_suffix, followed by a suffix without dots and backslashes. *)
Definition renamed_with (s new : bytes) : Prop :=
  exists base suf, new = label_with_suffix base suf ++ snd (split_first_label s) /\
    (exists q, fst (split_first_label s) = base ++ q) /\ plain suf /\ suf <> [] /\ (length suf <= 63)%nat.

Lemma renamed_with_default s suf :
  plain suf -> suf <> [] -> (length suf <= 63)%nat ->
  renamed_with s (label_with_suffix (fst (split_first_label s)) suf ++ snd (split_first_label s)).
Proof.
  intros Hp Hne Hl. exists (fst (split_first_label s)), suf. split; [reflexivity|]. split; [|auto].
  exists []. symmetry. apply app_nil_r.
Qed.

Lemma name_change_renamed s : renamed_with s (name_change s).
Proof.
  pose proof (renamed_with_default s [C_SP; C_LP; 50; C_RP] ltac:(apply plain_of_list; reflexivity)
                ltac:(discriminate) ltac:(cbn [length]; lia)) as D.
  unfold renamed_with, name_change in *. destruct (split_first_label s) as [first rest]. cbn [fst snd] in *.
  destruct (rsplit2 C_SP C_LP first) as [[base q]|] eqn:R; [|exact D].
  destruct (find1 C_RP q) as [[num [|a t]]|]; try exact D.
  destruct (parse_u32 num) as [n|]; [|exact D].
  destruct (name_suffix_can_increment n) eqn:CI; [|exact D].
  unfold name_suffix_can_increment in CI. apply N.leb_le in CI.
  destruct (dec_spec (n + name_suffix_step)) as (ds & Eds & Hd & Hne & _); [lia|].
  pose proof (dec_length (n + name_suffix_step)) as Hl. rewrite Eds in *.
  exists base, ([C_SP; C_LP] ++ ds ++ [C_RP]). split; [reflexivity|]. split; [|split; [|split]].
  - exists (C_SP :: C_LP :: q). apply rsplit2_sound, R.
  - apply (plain_with_paren [] ds); [split; constructor|exact Hd].
  - discriminate.
  - cbn [app length]. rewrite app_length. cbn [length]. lia.
Qed.

Lemma hostname_change_renamed s : renamed_with s (hostname_change s).
Proof.
  pose proof (renamed_with_default s [C_HY; 50] ltac:(apply plain_of_list; reflexivity)
                ltac:(discriminate) ltac:(cbn [length]; lia)) as D.
  unfold renamed_with, hostname_change in *. destruct (split_first_label s) as [first rest]. cbn [fst snd] in *.
  destruct (rsplit1 C_HY first) as [[base num]|] eqn:R; [|exact D].
  destruct (parse_u32 num) as [n|]; [|exact D].
  destruct (host_suffix_can_increment n) eqn:CI; [|exact D].
  unfold host_suffix_can_increment in CI. apply N.leb_le in CI.
  destruct (dec_spec (n + host_suffix_step)) as (ds & Eds & Hd & Hne & _); [lia|].
  pose proof (dec_length (n + host_suffix_step)) as Hl. rewrite Eds in *.
  exists base, ([C_HY] ++ ds). split; [reflexivity|]. split; [|split; [|split]].
  - exists (C_HY :: num). apply rsplit1_sound, R.
  - apply (plain_with_hyphen [] ds); [split; constructor|exact Hd].
  - discriminate.
  - cbn [app length]. lia.
Qed.

Lemma renamed_with_fits s new :
  renamed_with s new -> exists nf, new = nf ++ snd (split_first_label s) /\ (length nf <= 63)%nat.
Proof.
  intros (base & suf & -> & _ & _ & _ & Hl). exists (label_with_suffix base suf).
  split; [reflexivity|apply label_with_suffix_len, Hl].
Qed.

Lemma renamed_with_encodable s new :
  renamed_with s new -> rename_keeps_rest s new = true /\ first_label_encodable new = true.
Proof.
  intros (base & suf & -> & [q Hq] & Hp & Hne & Hl). apply rename_shape_ok.
  - apply label_with_suffix_closed; [|exact Hp|exact Hne].
    apply (nud_prefix _ q). rewrite <- Hq. apply split_first_label_spec.
  - apply label_with_suffix_len, Hl.
Qed.

Theorem name_change_encodable s :
  rename_keeps_rest s (name_change s) = true /\ first_label_encodable (name_change s) = true.
Proof. apply renamed_with_encodable, name_change_renamed. Qed.

Theorem hostname_change_encodable s :
  rename_keeps_rest s (hostname_change s) = true /\ first_label_encodable (hostname_change s) = true.
Proof. apply renamed_with_encodable, hostname_change_renamed. Qed.
