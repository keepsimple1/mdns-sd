(* Responder side of C10: the answer assembly of the code (Model/LifeResp.v: resp_predict)
   against the property text (resp_spec); the example service ex_svc that Props/C10.v evaluates. *)
From Coq Require Import List NArith Bool.
From Mdns Require Import Bytes Rec Life LifeProofs LifeResp.
Import ListNotations.
Open Scope N_scope.

Definition cand_wf (c : cand) : Prop := cd_is_ptr c = false -> cd_has_addrs c = true.

Lemma question_cands_wf svcs q : Forall cand_wf (question_cands svcs q).
Proof.
  destruct q as [qname qtype]. unfold question_cands.
  destruct (qtype =? TY_PTR).
  - unfold ptr_cands. apply Forall_forall. intros c Hc. apply in_flat_map in Hc as (s & _ & Hc).
    destruct (names_type_or_sub qname s); [|contradiction]. destruct Hc as [<-|[]]. intros H; discriminate H.
  - apply Forall_app. split.
    + unfold addr_cands. destruct (_ || _); [|constructor].
      apply Forall_forall. intros c Hc. apply in_flat_map in Hc as (s & _ & Hc).
      destruct (beq _ _); [|contradiction]. apply in_map_iff in Hc as (a & <- & _). intros _; reflexivity.
    + unfold inst_cands. destruct (find_svc qname svcs); [|constructor].
      destruct (no_addrs s); [constructor|].
      apply Forall_app. split.
      * destruct (_ || _); [|constructor]. constructor; [intros _; reflexivity|constructor].
      * destruct (_ || _); [|constructor]. constructor; [intros _; reflexivity|constructor].
Qed.

Lemma cands_wf svcs qs : Forall cand_wf (flat_map (question_cands svcs) qs).
Proof.
  induction qs as [|q qs IH]; simpl; [constructor|].
  apply Forall_app. split; [apply question_cands_wf | exact IH].
Qed.

Lemma suppressed_by_eq_spec a kas : suppressed_by (o_id a) (o_ttl a) kas = suppressed_spec a kas.
Proof.
  unfold suppressed_by, suppressed_spec. induction kas as [|k kas IH]; [reflexivity|].
  simpl. rewrite IH, suppress_eq_spec. reflexivity.
Qed.

Lemma step_code_eq kas out c : cand_wf c -> step_code kas out c = step_spec kas out c.
Proof.
  intros Hwf. unfold step_code, step_spec. rewrite <- suppressed_by_eq_spec.
  destruct (cd_is_ptr c) eqn:Ep.
  - unfold add_answer_with_additionals, add_answer.
    destruct (cd_has_addrs c); simpl; [|reflexivity].
    destruct (suppressed_by _ _ _); simpl; reflexivity.
  - rewrite (Hwf Ep). simpl. unfold add_answer.
    destruct (suppressed_by _ _ _); simpl; reflexivity.
Qed.

Lemma fold_left_ext_in {A B} (f g : A -> B -> A) l : forall a,
  Forall (fun x => forall a, f a x = g a x) l -> fold_left f l a = fold_left g l a.
Proof.
  induction l as [|x l IH]; intros a H; [reflexivity|].
  inversion H; subst. simpl. rewrite H2. apply IH. assumption.
Qed.

Definition ex_name : bytes := [105; 46].      (* "i." *)
Definition ex_host : bytes := [104; 46].      (* "h." *)
Definition ex_ty : bytes := [116; 46].        (* "t." *)
Definition ex_sub : bytes := [115; 46; 116; 46].   (* "s.t." *)
Definition ex_svc : svc :=
  mkSvc (mkO (mkId ex_ty TY_PTR 1 false (RPtr ex_name) 2) 4500)
        (Some (mkO (mkId ex_sub TY_PTR 1 false (RPtr ex_name) 2) 4500))
        (mkO (mkId ex_name TY_SRV 1 true (RSrv 0 0 80 ex_host) 2) 120)
        (mkO (mkId ex_name TY_TXT 1 true (RTxt [0]) 2) 4500)
        [mkO (mkId ex_host TY_A 1 true (RAddr [10; 0; 0; 1]) 2) 120].

