(* Order laws of DnsRecordExt::compare (Model/Registry.v: compare_rr, compare_rdata) and of the
   tie-break comparison of two record lists (tb_cmp, tiebreak). *)
From Coq Require Import List NArith Lia.
From Mdns Require Import Rec Registry RegistryParamsPinned.
Import ListNotations.
Open Scope N_scope.

Definition cmp_ok {A} (c : A -> A -> comparison) : Prop :=
  (forall x y, c x y = Eq <-> x = y) /\
  (forall x y, c x y = CompOpp (c y x)) /\
  (forall x y z, c x y = Lt -> c y z = Lt -> c x z = Lt).

Lemma N_cmp_ok : cmp_ok N.compare.
Proof.
  split; [|split].
  - intros x y. apply N.compare_eq_iff.
  - intros x y. apply N.compare_antisym.
  - intros x y z H1 H2. rewrite N.compare_lt_iff in *. lia.
Qed.

(* lex c1 c2 where c1 compares by a total order: the three laws reduce to those of c2 on equal
   first components *)
Section Lex.
  Context {A} (ca : A -> A -> comparison) (Hca : cmp_ok ca).

  Lemma lex_eq x y c : lex (ca x y) c = Eq <-> x = y /\ c = Eq.
  Proof. destruct Hca as (E & _ & _). rewrite <- E. destruct (ca x y); simpl; intuition congruence. Qed.

  Lemma lex_antisym x y c c' : (x = y -> c = CompOpp c') -> lex (ca x y) c = CompOpp (lex (ca y x) c').
  Proof.
    destruct Hca as (E & An & _). intros H. rewrite (An x y).
    destruct (ca y x) eqn:C; simpl; [|reflexivity..]. apply H. symmetry. apply E, C.
  Qed.

  Lemma lex_trans x y z c c' c'' :
    (x = y -> y = z -> c = Lt -> c' = Lt -> c'' = Lt) ->
    lex (ca x y) c = Lt -> lex (ca y z) c' = Lt -> lex (ca x z) c'' = Lt.
  Proof.
    destruct Hca as (E & _ & T). intros H.
    destruct (ca x y) eqn:E1; destruct (ca y z) eqn:E2; simpl; intros H1 H2; try discriminate.
    - apply E in E1, E2. subst. rewrite (proj2 (E z z) eq_refl). simpl. auto.
    - apply E in E1. subst. rewrite E2. reflexivity.
    - apply E in E2. subst. rewrite E1. reflexivity.
    - rewrite (T _ _ _ E1 E2). reflexivity.
  Qed.
End Lex.

Lemma cmp_bytes_cons x a y b : cmp_bytes (x :: a) (y :: b) = lex (x ?= y) (cmp_bytes a b).
Proof. simpl. destruct (x ?= y); reflexivity. Qed.

Lemma cmp_bytes_eq a b : cmp_bytes a b = Eq <-> a = b.
Proof.
  revert b. induction a as [|x a IH]; destruct b as [|y b]; try (simpl; split; intros H; (reflexivity || discriminate)).
  rewrite cmp_bytes_cons, (lex_eq _ N_cmp_ok), IH. split; [intros [-> ->]; reflexivity|intros H; inversion H; auto].
Qed.

Lemma cmp_bytes_antisym a b : cmp_bytes a b = CompOpp (cmp_bytes b a).
Proof.
  revert b. induction a as [|x a IH]; destruct b as [|y b]; try reflexivity.
  rewrite !cmp_bytes_cons. apply (lex_antisym _ N_cmp_ok). intros _. apply IH.
Qed.

Lemma cmp_bytes_trans a b c : cmp_bytes a b = Lt -> cmp_bytes b c = Lt -> cmp_bytes a c = Lt.
Proof.
  revert b c. induction a as [|x a IH]; destruct b as [|y b]; destruct c as [|z c];
    try (simpl; intros H1 H2; (reflexivity || discriminate)).
  rewrite !cmp_bytes_cons. apply (lex_trans _ N_cmp_ok). intros _ _. apply IH.
Qed.

Lemma bytes_cmp_ok : cmp_ok cmp_bytes.
Proof. split; [|split]; [apply cmp_bytes_eq | apply cmp_bytes_antisym | apply cmp_bytes_trans]. Qed.

Lemma cmp_addr_ok : cmp_ok cmp_addr.
Proof.
  unfold cmp_addr. split; [|split].
  - intros x y. destruct (is_v4 x) eqn:Ex; destruct (is_v4 y) eqn:Ey;
      try apply cmp_bytes_eq; split; intros H; try discriminate; subst; congruence.
  - intros x y. destruct (is_v4 x), (is_v4 y); simpl; try reflexivity; apply cmp_bytes_antisym.
  - intros x y z. destruct (is_v4 x), (is_v4 y), (is_v4 z); intros H1 H2;
      try discriminate; try reflexivity; eapply cmp_bytes_trans; eauto.
Qed.

Lemma kind_eqb_eq a b : kind_eqb a b = true <-> a = b.
Proof. destruct a, b; simpl; split; intros H; try reflexivity; try discriminate. Qed.

Lemma compare_rdata_eq d d' : compare_rdata d d' = Eq <-> d = d'.
Proof.
  destruct bytes_cmp_ok as (Eb & _ & _). destruct cmp_addr_ok as (Ea & _ & _).
  destruct d, d'; simpl; try (split; intros H; discriminate).
  - rewrite Ea. split; congruence.
  - rewrite Eb. split; congruence.
  - rewrite !(lex_eq _ N_cmp_ok), Eb. split; [intros (-> & -> & -> & ->); reflexivity|intros H; inversion H; auto].
  - rewrite Eb. split; congruence.
  - rewrite (lex_eq _ bytes_cmp_ok), Eb. split; [intros (-> & ->); reflexivity|intros H; inversion H; auto].
  - rewrite (lex_eq _ bytes_cmp_ok), Eb. split; [intros (-> & ->); reflexivity|intros H; inversion H; auto].
Qed.

Lemma compare_rdata_antisym d d' :
  kind_of d = kind_of d' -> compare_rdata d d' = CompOpp (compare_rdata d' d).
Proof.
  destruct d, d'; simpl; intros K; try discriminate.
  - apply cmp_addr_ok.
  - apply cmp_bytes_antisym.
  - repeat (apply (lex_antisym _ N_cmp_ok); intros _). apply cmp_bytes_antisym.
  - apply cmp_bytes_antisym.
  - apply (lex_antisym _ bytes_cmp_ok). intros _. apply cmp_bytes_antisym.
  - apply (lex_antisym _ bytes_cmp_ok). intros _. apply cmp_bytes_antisym.
Qed.

Lemma compare_rdata_trans d d' d'' :
  kind_of d = kind_of d' -> kind_of d' = kind_of d'' ->
  compare_rdata d d' = Lt -> compare_rdata d' d'' = Lt -> compare_rdata d d'' = Lt.
Proof.
  destruct d, d'; simpl; intros K1; try discriminate; destruct d''; simpl; intros K2; try discriminate.
  - apply cmp_addr_ok.
  - apply cmp_bytes_trans.
  - repeat (apply (lex_trans _ N_cmp_ok); intros _ _). apply cmp_bytes_trans.
  - apply cmp_bytes_trans.
  - apply (lex_trans _ bytes_cmp_ok). intros _ _. apply cmp_bytes_trans.
  - apply (lex_trans _ bytes_cmp_ok). intros _ _. apply cmp_bytes_trans.
Qed.

Lemma well_typed_kind a b :
  well_typed a = true -> well_typed b = true -> r_type a = r_type b ->
  kind_of (r_data a) = kind_of (r_data b).
Proof.
  unfold well_typed. intros Ha Hb E. rewrite E in Ha.
  destruct (kind_of_type (r_type b)); try discriminate.
  apply kind_eqb_eq in Ha, Hb. congruence.
Qed.

Lemma compare_rr_eq a b :
  compare_rr a b = Eq <-> r_class a = r_class b /\ r_type a = r_type b /\ r_data a = r_data b.
Proof. unfold compare_rr. rewrite !(lex_eq _ N_cmp_ok), compare_rdata_eq. reflexivity. Qed.

Lemma compare_rr_antisym a b :
  well_typed a = true -> well_typed b = true -> compare_rr a b = CompOpp (compare_rr b a).
Proof.
  intros Ha Hb. unfold compare_rr. apply (lex_antisym _ N_cmp_ok). intros _.
  apply (lex_antisym _ N_cmp_ok). intros E. apply compare_rdata_antisym, well_typed_kind; auto.
Qed.

Definition all_typed (l : list rr) : Prop := Forall (fun r => well_typed r = true) l.

Lemma tb_cmp_antisym mine theirs :
  all_typed mine -> all_typed theirs -> tb_cmp mine theirs = CompOpp (tb_cmp theirs mine).
Proof.
  revert theirs. induction mine as [|a m IH]; destruct theirs as [|b t]; simpl; intros Hm Ht; try reflexivity.
  inversion Hm; inversion Ht; subst.
  rewrite (compare_rr_antisym b a) by assumption.
  destruct (compare_rr a b); simpl; auto.
Qed.

(* record data that the comparison looks at *)
Definition rr_key (r : rr) : N * N * rdata := (r_class r, r_type r, r_data r).

Lemma tb_cmp_eq mine theirs : tb_cmp mine theirs = Eq <-> map rr_key mine = map rr_key theirs.
Proof.
  revert theirs. induction mine as [|a m IH]; destruct theirs as [|b t]; simpl; split; intros H;
    try reflexivity; try discriminate.
  - destruct (compare_rr a b) eqn:E; try discriminate.
    apply compare_rr_eq in E as (E1 & E2 & E3). apply IH in H. unfold rr_key at 1 3. congruence.
  - inversion H. unfold rr_key in H1. inversion H1.
    assert (compare_rr a b = Eq) as -> by (apply compare_rr_eq; auto). apply IH. assumption.
Qed.

Lemma tiebreak_spec p incoming now :
  tiebreak p incoming now =
  match tb_cmp (map p_rr (pb_records p)) incoming with
  | Lt => if now <=? pb_start p then p else mkProbe (pb_records p) (pb_waiting p) (now + 1000) (now + 1000)
  | _ => p
  end.
Proof.
  unfold tiebreak. rewrite tiebreak_not_started_pinned.
  destruct (now <=? pb_start p), (tb_cmp (map p_rr (pb_records p)) incoming); reflexivity.
Qed.

Lemma tiebreak_keeps_records p incoming now :
  pb_records (tiebreak p incoming now) = pb_records p /\ pb_waiting (tiebreak p incoming now) = pb_waiting p.
Proof.
  rewrite tiebreak_spec. destruct (tb_cmp (map p_rr (pb_records p)) incoming); auto.
  destruct (now <=? pb_start p); auto.
Qed.
