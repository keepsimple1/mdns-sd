(* The loop of the daemon model (Model/RegistryDaemon.v) taken apart once: an iteration is four phases,
   each phase a list of steps (one datagram, one call, one row of the interface table, one due
   retransmission, the probing pass over one interface).  A property of the state, or a relation
   between the state before, the state after and the outputs, is carried through a phase by the
   combinators below from what it does on one step.
   In order: maps keyed by interface index and by name (nset, aset, sput); cut_at_panic; the steps and the phase combinators;
   iterate_cases / iterate_running / iterate_keeps; the walks of the probing pass, register_service and
   add_interface as loop lemmas; the registry machine's operations performed by daemon functions (Ops);
   what the steps leave alone (frames); the micro-steps of Model/RegistryTrace.v. *)
From Coq Require Import List NArith Bool.
From Mdns Require Import Bytes Rec ParamsRegistry Registry RegistryDaemon RegistrySpec RegistryTrace RegistryProofs
     RegistryDaemonProofs.
Import ListNotations.
Open Scope N_scope.

Lemma nget_nset {V} k k1 (v : V) l : nget k1 (nset k v l) = if k1 =? k then Some v else nget k1 l.
Proof.
  induction l as [|[k' v'] t IH]; cbn [nset nget]; [reflexivity|].
  destruct (k =? k') eqn:E; cbn [nget].
  - apply N.eqb_eq in E. subst k'. destruct (k1 =? k); reflexivity.
  - rewrite IH. destruct (k1 =? k') eqn:E1; [|reflexivity].
    apply N.eqb_eq in E1. subst k'. rewrite N.eqb_sym, E. reflexivity.
Qed.

Lemma nget_nset_same {V} k (v : V) l : nget k (nset k v l) = Some v.
Proof. rewrite nget_nset, N.eqb_refl. reflexivity. Qed.

Lemma nget_nset_other {V} k k1 (v : V) l : k1 <> k -> nget k1 (nset k v l) = nget k1 l.
Proof. intros H. apply N.eqb_neq in H. rewrite nget_nset, H. reflexivity. Qed.

Lemma nget_nset_id {V} i (v : V) l j : nget i l = Some v -> nget j (nset i v l) = nget j l.
Proof.
  intros G. rewrite nget_nset. destruct (j =? i) eqn:E; [|reflexivity]. apply N.eqb_eq in E. subst j. symmetry. exact G.
Qed.

Lemma nget_In {V} k (v : V) : forall l, nget k l = Some v -> In (k, v) l.
Proof.
  induction l as [|[k' v'] t IH]; intros G; [discriminate|]. cbn [nget] in G.
  destruct (k =? k') eqn:E; [apply N.eqb_eq in E; inversion G; subst; left; reflexivity|right; auto].
Qed.

Lemma Forall_nset {V} (Q : V -> Prop) k v : forall l : list (N * V),
  Q v -> Forall (fun kr => Q (snd kr)) l -> Forall (fun kr => Q (snd kr)) (nset k v l).
Proof.
  induction l as [|[k' v'] t IH]; intros Hv H; cbn [nset]; [repeat constructor; exact Hv|].
  apply Forall_cons_iff in H as [H1 H2]. destruct (k =? k'); constructor; auto.
Qed.

Lemma Forall_nremove {V} (Q : V -> Prop) k : forall l : list (N * V),
  Forall (fun kr => Q (snd kr)) l -> Forall (fun kr => Q (snd kr)) (nremove k l).
Proof.
  induction l as [|[k' v'] t IH]; intros H; cbn [nremove]; [constructor|].
  apply Forall_cons_iff in H as [H1 H2]. destruct (k =? k'); [assumption|constructor; auto].
Qed.

Lemma nget_Forall {V} (Q : V -> Prop) k v (l : list (N * V)) :
  Forall (fun kr => Q (snd kr)) l -> nget k l = Some v -> Q v.
Proof. intros H G. exact (proj1 (Forall_forall _ _) H _ (nget_In _ _ _ G)). Qed.

Lemma aget_aset {V} n k (v : V) l : aget n (aset k v l) = if beq n k then Some v else aget n l.
Proof.
  destruct (beq n k) eqn:B.
  - apply beq_eq in B. subst n. apply aget_aset_same.
  - apply aget_aset_other. intros ->. rewrite beq_refl in B. discriminate.
Qed.

Lemma Forall_aset {V} (Q : V -> Prop) k v : forall l : list (bytes * V),
  Q v -> Forall (fun kv => Q (snd kv)) l -> Forall (fun kv => Q (snd kv)) (aset k v l).
Proof.
  induction l as [|[k' v'] t IH]; intros Hv H; cbn [aset]; [repeat constructor; exact Hv|].
  inversion H; subst. destruct (beq k k'); constructor; auto.
Qed.

Lemma In_aset_same {V} k (v : V) l : In (k, v) (aset k v l).
Proof. apply aget_In. apply aget_aset_same. Qed.

Lemma In_aset_cases {V} k0 (v : V) k s : forall l,
  In (k, s) l -> In (k, s) (aset k0 v l) \/ (k = k0 /\ aget k0 l = Some s).
Proof.
  induction l as [|[k' v'] t IH]; intros H; [contradiction|]. cbn [aset aget]. destruct (beq k0 k') eqn:B.
  - apply beq_eq in B. subst k'. destruct H as [E|H]; [inversion E; subst; right; split; reflexivity|left; right; exact H].
  - destruct H as [E|H]; [left; left; exact E|]. destruct (IH H) as [I|[E G]]; [left; right; exact I|right; split; assumption].
Qed.

Lemma In_aset_cases_gen {V} k0 (v : V) k x : forall l, In (k, x) (aset k0 v l) -> In (k, x) l \/ (k = k0 /\ x = v).
Proof.
  induction l as [|[k' v'] t IH]; cbn [aset]; [intros [E|[]]; inversion E; auto|]. destruct (beq k0 k').
  - intros [E|H]; [inversion E; auto|left; right; exact H].
  - intros [E|H]; [left; left; exact E|]. destruct (IH H) as [I|I]; [left; right; exact I|right; exact I].
Qed.

Lemma In_keys {V} k (v : V) l : In (k, v) l -> In k (keys l).
Proof. intros H. unfold keys. change k with (fst (k, v)). apply in_map. exact H. Qed.

Lemma aget_sput_other k k0 v (l : list (bytes * svc)) : k <> k0 -> aget k (sput k0 v l) = aget k l.
Proof. intros H. unfold sput. apply aget_aset_other. exact H. Qed.

Lemma find_intf_index st i itf : find_intf st i = Some itf -> if_index itf = i.
Proof. unfold find_intf. intros F. apply find_some in F as [_ F]. apply N.eqb_eq in F. exact F. Qed.

Lemma cut_in os : forall o, In o (fst (cut_at_panic os)) -> In o os.
Proof.
  induction os as [|x t IH]; intros o H; [contradiction|]. cbn [cut_at_panic] in H.
  assert (K : In o (x :: fst (cut_at_panic t)) -> In o (x :: t)) by (intros [E|I]; [left; exact E|right; apply IH; exact I]).
  destruct x; try (destruct (cut_at_panic t) as [r p]; exact (K H)).
  destruct (msg_ok m); [|contradiction]. destruct (cut_at_panic t) as [r p]. exact (K H).
Qed.

Lemma cut_full : forall l r, cut_at_panic l = (r, false) -> r = l.
Proof.
  induction l as [|x t IH]; intros r H; [inversion H; reflexivity|]. cbn [cut_at_panic] in H.
  assert (K : forall r0 p0, cut_at_panic t = (r0, p0) -> (x :: r0, p0) = (r, false) -> r = x :: t)
    by (intros r0 p0 E E1; inversion E1; subst; f_equal; apply IH; exact E).
  destruct x; try (destruct (cut_at_panic t) as [r0 p0] eqn:E; exact (K _ _ eq_refl H)).
  destruct (msg_ok m); [|discriminate]. destruct (cut_at_panic t) as [r0 p0] eqn:E. exact (K _ _ eq_refl H).
Qed.

(* one row of the OS interface table in apply_intf_selections: bound if selected, unbound if not *)
Definition row_step (st : dstate) (r : osrow) (now : N) (js : list N) : dstate * list out * list N :=
  if row_selected (d_sel st) r then add_interface st r now js
  else let (st', os') := del_interface_addr st r in (st', os', js).

(* one due entry of `retransmissions` *)
Definition due_step (st : dstate) (c : cmd) (now : N) (js : list N) : dstate * list out * list N :=
  match c with
  | RegisterResend full i => register_resend st full i now js
  | UnregisterResend m i v4 => (st, unregister_resend st m i v4, js)
  end.

(* the probing pass over one interface *)
Definition pass (itf : intf) (st : dstate) (now : N) (js : list N) : dstate * list out * list N :=
  match nget (if_index itf) (d_regs st) with
  | None => (st, [], js)
  | Some rg =>
    let '(rg1, qs, evs, waiting) := probe_step rg now in
    let sends :=
      match qs with
      | [] => []
      | _ => (if intf_has_family itf true then [OSend (if_index itf) true Mcast (probe_query qs)] else [])
             ++ (if intf_has_family itf false then [OSend (if_index itf) false Mcast (probe_query qs)] else [])
      end in
    let nev := mon (d_mon st) (map (fun e => let '(o, n, ty) := e in ONameChange o n ty (if_name itf)) evs) in
    let '(rg2, svcs2, os2, rt2, js2) := announce_waiting waiting itf rg1 (d_svcs st) now js (d_mon st) in
    (mkD (d_intfs st) (nset (if_index itf) rg2 (d_regs st)) svcs2 (d_retrans st ++ rt2)
         (d_mon st) (d_dead st) (d_os st) (d_sel st), sends ++ nev ++ os2, js2)
  end.

Lemma probing_intfs_cons itf t st now js :
  probing_intfs (itf :: t) st now js =
  let '(st1, os1, js1) := pass itf st now js in
  let '(st2, os2, js2) := probing_intfs t st1 now js1 in (st2, os1 ++ os2, js2).
Proof.
  cbn [probing_intfs]. unfold pass. destruct (nget (if_index itf) (d_regs st)) as [rg|].
  - destruct (probe_step rg now) as [[[rg1 qs] evs] waiting].
    destruct (announce_waiting waiting itf rg1 (d_svcs st) now js (d_mon st)) as [[[[rg2 svcs2] os2] rt2] js2].
    match goal with |- context [probing_intfs t ?s now js2] => destruct (probing_intfs t s now js2) as [[st2 os3] js3] end.
    rewrite <- !app_assoc. reflexivity.
  - destruct (probing_intfs t st now js) as [[st2 os2] js2]. reflexivity.
Qed.

(* the datagrams in the order the loop handles them: the IPv4 sockets are read before the IPv6 ones *)
Definition it_gs (it : iter) : list dgram :=
  filter (fun g => g_v4 g) (it_dgrams it) ++ filter (fun g => negb (g_v4 g)) (it_dgrams it).

Lemma In_it_gs it g : In g (it_gs it) -> In g (it_dgrams it).
Proof. unfold it_gs. intros H. apply in_app_or in H as [H|H]; apply filter_In in H; tauto. Qed.

Section Phase.
  Variable Q : dstate -> dstate -> list out -> Prop.
  Hypothesis Q_nil : forall st, Q st st [].
  Hypothesis Q_app : forall a b c o1 o2, Q a b o1 -> Q b c o2 -> Q a c (o1 ++ o2).
  Variable now : N.

  Lemma handle_dgrams_phase gs :
    (forall st g js, In g gs -> Q st (fst (fst (handle_dgram st g now js))) (snd (fst (handle_dgram st g now js)))) ->
    forall st js, Q st (fst (fst (handle_dgrams st gs now js))) (snd (fst (handle_dgrams st gs now js))).
  Proof.
    induction gs as [|g t IH]; intros S st js; [apply Q_nil|]. cbn [handle_dgrams].
    pose proof (S st g js (or_introl eq_refl)) as H1. destruct (handle_dgram st g now js) as [[st1 os1] js1].
    pose proof (IH (fun st0 g0 js0 I => S st0 g0 js0 (or_intror I)) st1 js1) as H2.
    destruct (handle_dgrams st1 t now js1) as [[st2 os2] js2]. exact (Q_app _ _ _ _ _ H1 H2).
  Qed.

  Lemma exec_calls_phase cs :
    (forall st c js, In c cs -> Q st (fst (fst (fst (exec_call st c now js)))) (snd (fst (fst (exec_call st c now js))))) ->
    forall st js, Q st (fst (fst (exec_calls st cs now js))) (snd (fst (exec_calls st cs now js))).
  Proof.
    induction cs as [|c t IH]; intros S st js; [apply Q_nil|]. cbn [exec_calls].
    pose proof (S st c js (or_introl eq_refl)) as H1. destruct (exec_call st c now js) as [[[st1 os1] js1] stop].
    destruct stop; [exact H1|].
    pose proof (IH (fun st0 c0 js0 I => S st0 c0 js0 (or_intror I)) st1 js1) as H2.
    destruct (exec_calls st1 t now js1) as [[st2 os2] js2]. exact (Q_app _ _ _ _ _ H1 H2).
  Qed.

  Lemma apply_rows_phase :
    (forall st r js, Q st (fst (fst (row_step st r now js))) (snd (fst (row_step st r now js)))) ->
    forall rows st js, Q st (fst (fst (apply_rows st rows now js))) (snd (fst (apply_rows st rows now js))).
  Proof.
    intros S. induction rows as [|r t IH]; intros st js; [apply Q_nil|]. cbn [apply_rows]. fold (row_step st r now js).
    pose proof (S st r js) as H1. destruct (row_step st r now js) as [[st1 os1] js1].
    pose proof (IH st1 js1) as H2. destruct (apply_rows st1 t now js1) as [[st2 os2] js2]. exact (Q_app _ _ _ _ _ H1 H2).
  Qed.

  Lemma run_due_phase due :
    (forall st e js, In e due -> Q st (fst (fst (due_step st (snd e) now js))) (snd (fst (due_step st (snd e) now js)))) ->
    forall st js, Q st (fst (fst (run_due st due now js))) (snd (fst (run_due st due now js))).
  Proof.
    induction due as [|[t0 c] t IH]; intros S st js; [apply Q_nil|]. cbn [run_due]. fold (due_step st c now js).
    pose proof (S st (t0, c) js (or_introl eq_refl)) as H1. cbn [snd] in H1. destruct (due_step st c now js) as [[st1 os1] js1].
    pose proof (IH (fun st0 e0 js0 I => S st0 e0 js0 (or_intror I)) st1 js1) as H2.
    destruct (run_due st1 t now js1) as [[st2 os2] js2]. exact (Q_app _ _ _ _ _ H1 H2).
  Qed.

  Lemma probing_intfs_phase ifs :
    (forall st itf js, In itf ifs -> Q st (fst (fst (pass itf st now js))) (snd (fst (pass itf st now js)))) ->
    forall st js, Q st (fst (fst (probing_intfs ifs st now js))) (snd (fst (probing_intfs ifs st now js))).
  Proof.
    induction ifs as [|itf t IH]; intros S st js; [apply Q_nil|]. rewrite probing_intfs_cons.
    pose proof (S st itf js (or_introl eq_refl)) as H1. destruct (pass itf st now js) as [[st1 os1] js1].
    pose proof (IH (fun st0 i0 js0 I => S st0 i0 js0 (or_intror I)) st1 js1) as H2.
    destruct (probing_intfs t st1 now js1) as [[st2 os2] js2]. exact (Q_app _ _ _ _ _ H1 H2).
  Qed.
End Phase.

(* the phase relation for a property of the state: if it holds before, it holds after *)
Definition keeps (I : dstate -> Prop) : dstate -> dstate -> list out -> Prop := fun a b _ => I a -> I b.
Lemma keeps_nil I st : keeps I st st []. Proof. intros H. exact H. Qed.
Lemma keeps_app I a b c o1 o2 : keeps I a b o1 -> keeps I b c o2 -> keeps I a c (o1 ++ o2).
Proof. intros H1 H2 H. exact (H2 (H1 H)). Qed.

(* the daemon thread died at a send it could not write (Panicked): the state with d_dead set *)
Definition kill (st : dstate) : dstate :=
  mkD (d_intfs st) (d_regs st) (d_svcs st) (d_retrans st) (d_mon st) true (d_os st) (d_sel st).

Lemma iterate_cases st it :
  d_dead st = false ->
  exists st1 os1 js1 st2 os2 js2,
    handle_dgrams st (it_gs it) (it_now it) (it_jitter it) = (st1, os1, js1) /\
    exec_calls st1 (it_calls it) (it_now it) js1 = (st2, os2, js2) /\
    ((d_dead st2 = true /\ exists p : bool,
        iterate st it = (st2, fst (cut_at_panic (os1 ++ os2)), if p then Panicked else Exited, js2))
     \/
     (d_dead st2 = false /\ exists st3 os3 js3 st4 os4 js4 os (p : bool),
        retransmit st2 (it_now it) js2 = (st3, os3, js3) /\
        probing_intfs (d_intfs st3) st3 (it_now it) js3 = (st4, os4, js4) /\
        cut_at_panic (os1 ++ os2 ++ os3 ++ os4) = (os, p) /\
        iterate st it = (if p then kill st4 else st4, os, if p then Panicked else Running, js4))).
Proof.
  intros D. unfold iterate, probing_handler. fold (it_gs it). rewrite D.
  destruct (handle_dgrams st (it_gs it) (it_now it) (it_jitter it)) as [[st1 os1] js1].
  destruct (exec_calls st1 (it_calls it) (it_now it) js1) as [[st2 os2] js2] eqn:E2.
  exists st1, os1, js1, st2, os2, js2. split; [reflexivity|]. split; [exact E2|].
  destruct (d_dead st2) eqn:D2.
  - left. split; [reflexivity|]. destruct (cut_at_panic (os1 ++ os2)) as [os p]. exists p. reflexivity.
  - right. split; [reflexivity|].
    destruct (retransmit st2 (it_now it) js2) as [[st3 os3] js3] eqn:E3.
    destruct (probing_intfs (d_intfs st3) st3 (it_now it) js3) as [[st4 os4] js4] eqn:E4.
    destruct (cut_at_panic (os1 ++ os2 ++ os3 ++ os4)) as [os p] eqn:EC.
    exists st3, os3, js3, st4, os4, js4, os, p. destruct p; auto.
Qed.

(* the Running branch of iterate_cases, proved from the definition: taking the ten-fold existential
   of iterate_cases apart costs more to check *)
Lemma iterate_running st it st' os js :
  iterate st it = (st', os, Running, js) ->
  d_dead st = false /\
  exists st1 os1 js1 st2 os2 js2 st3 os3 js3 os4,
    handle_dgrams st (it_gs it) (it_now it) (it_jitter it) = (st1, os1, js1) /\
    exec_calls st1 (it_calls it) (it_now it) js1 = (st2, os2, js2) /\ d_dead st2 = false /\
    retransmit st2 (it_now it) js2 = (st3, os3, js3) /\
    probing_intfs (d_intfs st3) st3 (it_now it) js3 = (st', os4, js) /\ os = os1 ++ os2 ++ os3 ++ os4.
Proof.
  unfold iterate, probing_handler. fold (it_gs it). destruct (d_dead st); [discriminate|]. intros H. split; [reflexivity|]. revert H.
  destruct (handle_dgrams st (it_gs it) (it_now it) (it_jitter it)) as [[st1 os1] js1].
  destruct (exec_calls st1 (it_calls it) (it_now it) js1) as [[st2 os2] js2] eqn:E2.
  destruct (d_dead st2) eqn:D2; [destruct (cut_at_panic (os1 ++ os2)) as [o p]; destruct p; discriminate|].
  destruct (retransmit st2 (it_now it) js2) as [[st3 os3] js3] eqn:E3.
  destruct (probing_intfs (d_intfs st3) st3 (it_now it) js3) as [[st4 os4] js4] eqn:E4.
  destruct (cut_at_panic (os1 ++ os2 ++ os3 ++ os4)) as [o p] eqn:EC. destruct p; [discriminate|]. intros H. injection H as <- <- <-.
  rewrite (cut_full _ _ EC). exists st1, os1, js1, st2, os2, js2, st3, os3, js3, os4. auto 10.
Qed.

(* a property of the state that the four phases keep (and that does not look at d_dead) is kept by
   every iteration *)
Lemma iterate_keeps (I : dstate -> Prop) it :
  (forall st, I st -> I (kill st)) ->
  (forall st js, I st -> I (fst (fst (handle_dgrams st (it_gs it) (it_now it) js)))) ->
  (forall st js, I st -> I (fst (fst (exec_calls st (it_calls it) (it_now it) js)))) ->
  (forall st js, I st -> I (fst (fst (retransmit st (it_now it) js)))) ->
  (forall st js, I st -> I (fst (fst (probing_intfs (d_intfs st) st (it_now it) js)))) ->
  forall st, I st -> I (fst (fst (fst (iterate st it)))).
Proof.
  intros K H1 H2 H3 H4 st H. destruct (d_dead st) eqn:D; [unfold iterate; rewrite D; exact H|].
  destruct (iterate_cases st it D) as (st1 & os1 & js1 & st2 & os2 & js2 & E1 & E2 & [(_ & p & E)|(D2 & st3 & os3 & js3 & st4 & os4 & js4 & os' & p & E3 & E4 & EC & E)]);
    rewrite E; cbn [fst];
    specialize (H1 st (it_jitter it) H); rewrite E1 in H1; specialize (H2 st1 js1 H1); rewrite E2 in H2; [exact H2|].
  specialize (H3 st2 js2 H2). rewrite E3 in H3. specialize (H4 st3 js3 H3). rewrite E4 in H4. destruct p; [apply K|]; exact H4.
Qed.

(* The announcements the probing pass makes for the services waiting on finished probes: a relation
   between (registry, service map) before and after, the outputs and the queue entries, carried through
   the waiting list from what the announcement of one service does. *)
Section Waiting.
  Variable Q : registry * list (bytes * svc) -> registry * list (bytes * svc) -> list out -> list (N * cmd) -> Prop.
  Hypothesis Q_nil : forall x, Q x x [] [].
  Hypothesis Q_app : forall x y z o1 o2 r1 r2, Q x y o1 r1 -> Q y z o2 r2 -> Q x z (o1 ++ o2) (r1 ++ r2).
  Variables (itf : intf) (now : N) (m : bool).

  Lemma announce_waiting_loop waiting :
    (forall w s rg svcs js rg1 os ann js1,
       In w waiting -> aget (lower w) svcs = Some s -> announced_on (if_index itf) s = false ->
       announce_both s itf rg now js = (rg1, os, ann, js1) ->
       if ann then
         Q (rg, svcs) (rg1, sput (lower w) (set_status (if_index itf) SAnnounced s) svcs)
           (os ++ mon m [OAnnounce (resolve_name rg1 w) (Some (resolve_name rg1 (s_host s), if_name itf))])
           [(announce_repeat_probing now, RegisterResend (s_full s) (if_index itf))]
       else Q (rg, svcs) (rg1, svcs) os []) ->
    forall rg svcs js rg2 svcs2 os rt js2,
    announce_waiting waiting itf rg svcs now js m = (rg2, svcs2, os, rt, js2) -> Q (rg, svcs) (rg2, svcs2) os rt.
  Proof.
    induction waiting as [|w t IH]; intros S rg svcs js rg2 svcs2 os rt js2 E; cbn [announce_waiting] in E.
    - injection E as <- <- <- <- <-. apply Q_nil.
    - specialize (IH (fun w0 s0 rg0 svcs0 js0 rg1 os1 ann js1 I0 => S w0 s0 rg0 svcs0 js0 rg1 os1 ann js1 (or_intror I0))).
      destruct (aget (lower w) svcs) as [s|] eqn:G; [|exact (IH _ _ _ _ _ _ _ _ E)].
      destruct (announced_on (if_index itf) s) eqn:A; [exact (IH _ _ _ _ _ _ _ _ E)|].
      destruct (announce_both s itf rg now js) as [[[rg1 os1] ann] js1] eqn:EB.
      specialize (S w s rg svcs js rg1 os1 ann js1 (or_introl eq_refl) G A EB). destruct ann.
      + destruct (announce_waiting t itf rg1 _ now js1 m) as [[[[rg3 svcs3] os3] rt3] js3] eqn:E3. injection E as <- <- <- <- <-.
        rewrite app_assoc. exact (Q_app _ _ _ _ _ _ _ S (IH _ _ _ _ _ _ _ _ E3)).
      + destruct (announce_waiting t itf rg1 svcs now js1 m) as [[[[rg3 svcs3] os3] rt3] js3] eqn:E3. injection E as <- <- <- <- <-.
        exact (Q_app _ _ _ _ _ _ _ S (IH _ _ _ _ _ _ _ _ E3)).
  Qed.
End Waiting.

(* a property of the service map that marking a registered service Announced keeps *)
Lemma announce_waiting_svcs itf now m (P : list (bytes * svc) -> Prop) :
  (forall svcs k0 s1, P svcs -> aget k0 svcs = Some s1 -> P (sput k0 (set_status (if_index itf) SAnnounced s1) svcs)) ->
  forall waiting rg svcs js, P svcs -> P (snd (fst (fst (fst (announce_waiting waiting itf rg svcs now js m))))).
Proof.
  intros HP waiting rg svcs js. destruct (announce_waiting waiting itf rg svcs now js m) as [[[[rg2 svcs2] os] rt] js2] eqn:E.
  refine (announce_waiting_loop (fun x y _ _ => P (snd x) -> P (snd y)) (fun _ H => H) (fun _ _ _ _ _ _ _ H1 H2 H => H2 (H1 H)) itf now m waiting _ rg svcs js rg2 svcs2 os rt js2 E).
  intros w s rg0 svcs0 js0 rg1 os1 ann js1 _ G _ _. destruct ann; [intros H; exact (HP svcs0 (lower w) s H G)|exact (fun H => H)].
Qed.

(* register_service's walk over the interfaces *)
Section Registering.
  Variable Q : svc * list (N * registry) -> svc * list (N * registry) -> list out -> list N -> Prop.
  Hypothesis Q_nil : forall x, Q x x [] [].
  Hypothesis Q_app : forall x y z o1 o2 a1 a2, Q x y o1 a1 -> Q y z o2 a2 -> Q x z (o1 ++ o2) (a1 ++ a2).
  Variable now : N.

  Lemma register_intfs_loop ifs :
    (forall i s regs js rg' os ann js1, In i ifs ->
       announce_both s i (match nget (if_index i) regs with Some r => r | None => reg_new end) now js = (rg', os, ann, js1) ->
       Q (s, regs) (set_status (if_index i) (if ann then SAnnounced else SProbing) s, nset (if_index i) rg' regs) os
         (if ann then [if_index i] else [])) ->
    forall s regs js s' regs' os anns js',
    register_intfs ifs s regs now js = (s', regs', os, anns, js') -> Q (s, regs) (s', regs') os anns.
  Proof.
    induction ifs as [|i t IH]; intros S s regs js s' regs' os anns js' E; cbn [register_intfs] in E.
    - injection E as <- <- <- <- <-. apply Q_nil.
    - destruct (announce_both s i _ now js) as [[[rg' os1] ann] js1] eqn:EB.
      pose proof (S i s regs js rg' os1 ann js1 (or_introl eq_refl) EB) as H1.
      destruct (register_intfs t _ _ now js1) as [[[[s2 regs2] os2] anns2] js2] eqn:E2. injection E as <- <- <- <- <-.
      exact (Q_app _ _ _ _ _ _ _ H1 (IH (fun i0 s0 regs0 js0 rg0 os0 ann0 js3 I0 => S i0 s0 regs0 js0 rg0 os0 ann0 js3 (or_intror I0)) _ _ _ _ _ _ _ _ E2)).
  Qed.
End Registering.

(* add_interface's walk over the service map: addr_auto services get the address and are announced *)
Section AddRow.
  Variable Q : registry -> registry -> list (bytes * svc) -> list (bytes * svc) -> list out -> list (N * cmd) -> Prop.
  Hypothesis Q_nil : forall rg, Q rg rg [] [] [] [].
  Hypothesis Q_app : forall a b c i1 i2 s1 s2 o1 o2 r1 r2,
    Q a b i1 s1 o1 r1 -> Q b c i2 s2 o2 r2 -> Q a c (i1 ++ i2) (s1 ++ s2) (o1 ++ o2) (r1 ++ r2).
  Variables (itf : intf) (ip : bytes) (now : N).

  Lemma add_row_services_loop svcs :
    (forall k s rg, In (k, s) svcs -> s_auto s = false -> Q rg rg [(k, s)] [(k, s)] [] []) ->
    (forall k s rg js rg1 mo js1, In (k, s) svcs -> s_auto s = true ->
       let s1 := set_addrs (add_ip ip (s_addrs s)) s in
       prepare_announce s1 itf rg (is_v4 ip) now js = (rg1, mo, js1) ->
       Q rg rg1 [(k, s)] [(k, set_status (if_index itf) (match mo with Some _ => SAnnounced | None => SProbing end) s1)]
         (match mo with Some msg => [OSend (if_index itf) (is_v4 ip) Mcast msg] | None => [] end)
         (match mo with Some _ => [(now + announce_repeat_add_interface, RegisterResend (s_full s) (if_index itf))] | None => [] end)) ->
    forall rg js svcs' rg' os rt js',
    add_row_services svcs itf rg ip now js = (svcs', rg', os, rt, js') -> Q rg rg' svcs svcs' os rt.
  Proof.
    induction svcs as [|[k s] t IH]; intros Sk Sa rg js svcs' rg' os rt js' E; cbn [add_row_services] in E.
    - injection E as <- <- <- <- <-. apply Q_nil.
    - specialize (IH (fun k0 s0 rg0 I0 => Sk k0 s0 rg0 (or_intror I0)) (fun k0 s0 rg0 js0 rg1 mo js1 I0 => Sa k0 s0 rg0 js0 rg1 mo js1 (or_intror I0))).
      destruct (s_auto s) eqn:A.
      + destruct (prepare_announce (set_addrs (add_ip ip (s_addrs s)) s) itf rg (is_v4 ip) now js) as [[rg1 mo] js1] eqn:EP.
        specialize (Sa k s rg js rg1 mo js1 (or_introl eq_refl) A EP).
        destruct (add_row_services t itf rg1 ip now js1) as [[[[t' rg2] os2] rt2] js2] eqn:E2. injection E as <- <- <- <- <-.
        exact (Q_app _ _ _ [(k, s)] t [_] t' _ _ _ _ Sa (IH _ _ _ _ _ _ _ E2)).
      + destruct (add_row_services t itf rg ip now js) as [[[[t' rg2] os2] rt2] js2] eqn:E2. injection E as <- <- <- <- <-.
        exact (Q_app _ _ _ [(k, s)] t [(k, s)] t' [] _ [] _ (Sk k s rg (or_introl eq_refl) A) (IH _ _ _ _ _ _ _ E2)).
  Qed.
End AddRow.

Lemma final_reg_app ops1 : forall rg ops2, final_reg rg (ops1 ++ ops2) = final_reg (final_reg rg ops1) ops2.
Proof. induction ops1 as [|[t o] r IH]; intros rg ops2; simpl; [reflexivity|apply IH]. Qed.

(* rg' is reached from rg by operations of the registry machine (Model/Registry.v, apply_op), all at
   time now and all of kind A *)
Definition Ops (A : rop -> Prop) (now : N) (rg rg' : registry) : Prop :=
  exists ops, Forall (fun o => fst o = now /\ A (snd o)) ops /\ rg' = final_reg rg ops.

Lemma Ops_refl (A : rop -> Prop) now rg : Ops A now rg rg.
Proof. exists []. split; [constructor|reflexivity]. Qed.

Lemma Ops_trans (A : rop -> Prop) now a b c : Ops A now a b -> Ops A now b c -> Ops A now a c.
Proof.
  intros (o1 & Q1 & ->) (o2 & Q2 & ->). exists (o1 ++ o2). split; [apply Forall_app; split; assumption|symmetry; apply final_reg_app].
Qed.

Lemma Ops_one (A : rop -> Prop) now rg o : A o -> Ops A now rg (fst (fst (apply_op rg now o))).
Proof. intros H. exists [(now, o)]. split; [repeat constructor; exact H|reflexivity]. Qed.

Lemma Ops_mono (A B : rop -> Prop) now a b : (forall o, A o -> B o) -> Ops A now a b -> Ops B now a b.
Proof. intros H (ops & Q & E). exists ops. split; [|exact E]. eapply Forall_impl; [|exact Q]. intros o [E1 Ao]. auto. Qed.

Lemma Ops_keeps (A : rop -> Prop) now (P : registry -> Prop) :
  (forall rg o, A o -> P rg -> P (fst (fst (apply_op rg now o)))) ->
  forall rg rg', Ops A now rg rg' -> P rg -> P rg'.
Proof.
  intros H rg rg' (ops & Q & ->). revert rg. induction ops as [|[t o] r IH]; intros rg HP; [exact HP|].
  apply Forall_cons_iff in Q as [[Et Ao] Q]. cbn [fst snd] in Et, Ao. subst t. cbn [final_reg]. apply IH; [exact Q|]. apply H; assumption.
Qed.

(* kinds of operation: is_probing_done for a record with property R; a tie-break *)
Definition joins (R : prec -> Prop) (o : rop) : Prop := exists r svc j, o = OJoin r svc j /\ R r.
Definition tiebreaks (o : rop) : Prop := exists qn incoming, o = OTiebreak qn incoming.

(* the active records and the name changes are what they were (the probes may differ) *)
Definition reg_stable (rg rg' : registry) : Prop := rg_active rg' = rg_active rg /\ rg_changes rg' = rg_changes rg.

Lemma reg_stable_refl rg : reg_stable rg rg. Proof. split; reflexivity. Qed.
Lemma reg_stable_trans a b c : reg_stable a b -> reg_stable b c -> reg_stable a c.
Proof. intros [A1 A2] [B1 B2]. split; congruence. Qed.

Lemma ipd_stable rg r svc start : reg_stable rg (fst (is_probing_done rg r svc start)).
Proof. unfold is_probing_done. destruct (in_active rg r); split; reflexivity. Qed.

Lemma joins_stable R now rg rg' : Ops (joins R) now rg rg' -> reg_stable rg rg'.
Proof.
  intros H. apply (Ops_keeps _ now (reg_stable rg)) with (2 := H); [|apply reg_stable_refl].
  intros rg0 o (r & svc & j & -> & _) S. exact (reg_stable_trans _ _ _ S (ipd_stable rg0 r svc (now + j))).
Qed.

Lemma announce_records_stable rg rg' s itf v4 : rg_changes rg' = rg_changes rg -> announce_records rg' s itf v4 = announce_records rg s itf v4.
Proof.
  intros E. unfold announce_records, srv_rec, txt_rec, addr_rec, with_change, resolve_name. rewrite E. reflexivity.
Qed.

Lemma probe_records_Ops s now j recs rg :
  Ops (joins (fun r => In r recs)) now rg (fst (probe_records rg s (now + j) recs)).
Proof.
  destruct (s_probe s) eqn:P.
  - rewrite probe_records_ops by assumption. eexists. split; [|reflexivity].
    apply Forall_forall. intros o Ho. apply in_map_iff in Ho as (r & <- & Hr). split; [reflexivity|]. exists r, (s_full s), j. auto.
  - assert (H : forall recs rg, probe_records rg s (now + j) recs = (rg, true)).
    { induction recs0 as [|r t IH]; intros rg0; cbn [probe_records]; [reflexivity|]. rewrite P. apply IH. }
    rewrite H. apply Ops_refl.
Qed.

(* r is one of the records s announces on i (SRV, TXT, addresses of either family) under the names of rg *)
Definition ann_rec (rg : registry) (s : svc) (i : intf) (r : prec) : Prop := exists v4, In r (announce_records rg s i v4).

Lemma prepare_announce_Ops s i rg v4 now js :
  Ops (joins (ann_rec rg s i)) now rg (fst (fst (prepare_announce s i rg v4 now js))).
Proof.
  unfold prepare_announce. destruct (addrs_on_intf s i v4); [apply Ops_refl|]. destruct (draw js) as [j js1].
  pose proof (probe_records_Ops s now j (announce_records rg s i v4) rg) as H.
  destruct (probe_records rg s (now + j) (announce_records rg s i v4)) as [rg1 ok].
  assert (H' : Ops (joins (ann_rec rg s i)) now rg rg1).
  { eapply Ops_mono; [|exact H]. intros o (r & svc & j0 & -> & Hr). exists r, svc, j0. split; [reflexivity|exists v4; exact Hr]. }
  destruct ok; exact H'.
Qed.

Lemma ann_rec_stable rg rg' s i r : rg_changes rg' = rg_changes rg -> ann_rec rg' s i r -> ann_rec rg s i r.
Proof. intros E [v4 H]. exists v4. rewrite (announce_records_stable rg rg' s i v4 E) in H. exact H. Qed.

Lemma announce_both_Ops s i rg now js :
  Ops (joins (ann_rec rg s i)) now rg (fst (fst (fst (announce_both s i rg now js)))).
Proof.
  unfold announce_both.
  pose proof (prepare_announce_Ops s i rg true now js) as H1. destruct (prepare_announce s i rg true now js) as [[rg1 m4] js1]. cbn [fst] in H1.
  pose proof (prepare_announce_Ops s i rg1 false now js1) as H2. destruct (prepare_announce s i rg1 false now js1) as [[rg2 m6] js2]. cbn [fst] in *.
  apply (Ops_trans _ _ _ _ _ H1). eapply Ops_mono; [|exact H2].
  intros o (r & svc & j & -> & Hr). exists r, svc, j. split; [reflexivity|]. exact (ann_rec_stable _ _ _ _ _ (proj2 (joins_stable _ _ _ _ H1)) Hr).
Qed.

Lemma announce_waiting_Ops itf now m waiting rg svcs js :
  Ops (joins (fun r => exists s, ann_rec rg s itf r)) now rg (fst (fst (fst (fst (announce_waiting waiting itf rg svcs now js m))))).
Proof.
  destruct (announce_waiting waiting itf rg svcs now js m) as [[[[rg2 svcs2] os] rt] js2] eqn:E.
  (* name changes do not move, so the records joined later are still records under rg *)
  refine (proj2 (announce_waiting_loop (fun x y _ _ => rg_changes (fst x) = rg_changes rg ->
           rg_changes (fst y) = rg_changes rg /\ Ops (joins (fun r => exists s, ann_rec rg s itf r)) now (fst x) (fst y))
           _ _ itf now m waiting _ rg svcs js rg2 svcs2 os rt js2 E eq_refl)).
  - intros x C. split; [exact C|apply Ops_refl].
  - intros x y z _ _ _ _ H1 H2 C. destruct (H1 C) as [C1 O1]. destruct (H2 C1) as [C2 O2]. split; [exact C2|exact (Ops_trans _ _ _ _ _ O1 O2)].
  - intros w s rg0 svcs0 js0 rg1 os1 ann js1 _ _ _ EB. pose proof (announce_both_Ops s itf rg0 now js0) as H1. rewrite EB in H1. cbn [fst] in H1.
    assert (K : rg_changes rg0 = rg_changes rg -> rg_changes rg1 = rg_changes rg /\ Ops (joins (fun r => exists s, ann_rec rg s itf r)) now rg0 rg1).
    { intros C. split; [rewrite (proj2 (joins_stable _ _ _ _ H1)); exact C|]. eapply Ops_mono; [|exact H1].
      intros o (r & svc & j & -> & Hr). exists r, svc, j. split; [reflexivity|]. exists s. exact (ann_rec_stable _ _ _ _ _ C Hr). }
    destruct ann; exact K.
Qed.

Lemma add_row_services_Ops now svcs itf rg ip js :
  Ops (joins (fun r => exists s, ann_rec rg s itf r)) now rg (snd (fst (fst (fst (add_row_services svcs itf rg ip now js))))).
Proof.
  destruct (add_row_services svcs itf rg ip now js) as [[[[svcs' rg'] os] rt] js'] eqn:E.
  refine (proj2 (add_row_services_loop (fun a b _ _ _ _ => rg_changes a = rg_changes rg ->
            rg_changes b = rg_changes rg /\ Ops (joins (fun r => exists s, ann_rec rg s itf r)) now a b)
            _ _ itf ip now svcs _ _ rg js svcs' rg' os rt js' E eq_refl)).
  - intros a C. split; [exact C|apply Ops_refl].
  - intros a b c _ _ _ _ _ _ _ _ H1 H2 C. destruct (H1 C) as [C1 O1]. destruct (H2 C1) as [C2 O2]. split; [exact C2|exact (Ops_trans _ _ _ _ _ O1 O2)].
  - intros k s a _ _ C. split; [exact C|apply Ops_refl].
  - intros k s a js0 rg1 mo js1 _ _ s1 EP C. pose proof (prepare_announce_Ops s1 itf a (is_v4 ip) now js0) as H1. rewrite EP in H1. cbn [fst] in H1.
    split; [rewrite (proj2 (joins_stable _ _ _ _ H1)); exact C|]. eapply Ops_mono; [|exact H1].
    intros o (r & svc & j & -> & Hr). exists r, svc, j. split; [reflexivity|]. exists s1. exact (ann_rec_stable _ _ _ _ _ C Hr).
Qed.

Lemma handle_questions_Ops st g itf now : forall qs rg,
  Ops tiebreaks now rg (fst (fst (handle_questions st g itf rg qs now))).
Proof.
  induction qs as [|[qn qt] t IH]; intros rg; [apply Ops_refl|]. cbn [handle_questions]. destruct (qt =? TY_PTR).
  - destruct (answer_ptr_question st g itf rg qn) as [an ar].
    specialize (IH rg). destruct (handle_questions st g itf rg t now) as [[rg' an2] ar2]. exact IH.
  - destruct (answer_instance_question st g itf (tiebreak_question rg g qn qt now) qn qt) as [an_i ar_i].
    specialize (IH (tiebreak_question rg g qn qt now)).
    destruct (handle_questions st g itf (tiebreak_question rg g qn qt now) t now) as [[rg' an2] ar2]. cbn [fst] in *.
    eapply Ops_trans; [|exact IH]. unfold tiebreak_question.
    destruct ((qt =? TY_ANY) && negb match g_ns g with [] => true | _ :: _ => false end); [|apply Ops_refl].
    apply (Ops_one tiebreaks now rg (OTiebreak qn (filter (fun r => beq (r_name r) qn) (g_ns g)))). eexists _, _. reflexivity.
Qed.

Lemma probe_step_tick rg now : fst (fst (fst (probe_step rg now))) = fst (fst (tick_names rg now)).
Proof.
  unfold probe_step, tick_names. destruct (check_probes (rg_probing rg) now) as [[ps qs0] ex0].
  destruct (expire_all (mkReg ps (rg_active rg) (rg_changes rg)) ex0) as [[rg' evs'] w']. reflexivity.
Qed.

Lemma probe_step_names rg now : map fst (snd (fst (fst (probe_step rg now)))) = snd (fst (tick_names rg now)).
Proof.
  unfold probe_step, tick_names. destruct (check_probes (rg_probing rg) now) as [[ps qs0] ex0].
  destruct (expire_all (mkReg ps (rg_active rg) (rg_changes rg)) ex0) as [[rg' evs'] w']. reflexivity.
Qed.

Lemma probe_step_is_tick rg now rg1 qs evs w :
  probe_step rg now = (rg1, qs, evs, w) -> exists ex, tick_names rg now = (rg1, map fst qs, ex).
Proof.
  intros H. pose proof (probe_step_tick rg now) as T1. pose proof (probe_step_names rg now) as T2. rewrite H in T1, T2.
  destruct (tick_names rg now) as [[a b] c]. cbn [fst snd] in T1, T2. subst. eauto.
Qed.

(* frames: what a step leaves alone.  They speak of the components named; d_mon, d_os and d_sel are
   not mentioned by any of them *)
Definition only_regs (a b : dstate) : Prop :=
  d_intfs b = d_intfs a /\ d_svcs b = d_svcs a /\ d_retrans b = d_retrans a /\ d_dead b = d_dead a.

Lemma handle_dgram_frame st g now js : only_regs st (fst (fst (handle_dgram st g now js))).
Proof.
  unfold handle_dgram. destruct (find_intf st (g_if g)); [|repeat split].
  destruct (negb (intf_has_family i (g_v4 g))); [repeat split|]. destruct (g_resp g).
  - unfold handle_response. destruct (find_intf st (g_if g)); [|repeat split].
    destruct (nget (g_if g) (d_regs st)); [|repeat split]. destruct (conflict_answers r (g_an g) now js). repeat split.
  - unfold handle_query. destruct (nget (g_if g) (d_regs st)); [|repeat split].
    destruct (find_intf st (g_if g)); [|repeat split].
    destruct (handle_questions st g i0 r (g_q g) now) as [[rg' an] ar]. destruct an; repeat split.
Qed.

Lemma handle_dgrams_frame now gs st js : only_regs st (fst (fst (handle_dgrams st gs now js))).
Proof.
  apply (handle_dgrams_phase (fun a b _ => only_regs a b)).
  - repeat split.
  - intros a b c _ _ (A1 & A2 & A3 & A4) (B1 & B2 & B3 & B4). repeat split; congruence.
  - intros st0 g js0 _. apply handle_dgram_frame.
Qed.

Definition same_frame (a b : dstate) : Prop :=
  d_intfs b = d_intfs a /\ d_retrans b = d_retrans a /\ d_dead b = d_dead a.

Lemma register_resend_frame st full i now js : same_frame st (fst (fst (register_resend st full i now js))).
Proof.
  unfold register_resend. destruct (aget (lower full) (d_svcs st)); [|repeat split].
  destruct (nget i (d_regs st)); [|repeat split]. destruct (find_intf st i); [|repeat split].
  destruct (announce_both s i0 r now js) as [[[rg' os] ann] js']. destruct ann; repeat split.
Qed.

Lemma due_step_frame st c now js : same_frame st (fst (fst (due_step st c now js))).
Proof. destruct c; [apply register_resend_frame|repeat split]. Qed.

Lemma run_due_frame now due st js : same_frame st (fst (fst (run_due st due now js))).
Proof.
  apply (run_due_phase (fun a b _ => same_frame a b)).
  - repeat split.
  - intros a b c _ _ (A1 & A2 & A3) (B1 & B2 & B3). repeat split; congruence.
  - intros st0 e js0 _. apply due_step_frame.
Qed.

Lemma retransmit_frame st now js :
  let st' := fst (fst (retransmit st now js)) in
  d_intfs st' = d_intfs st /\ d_retrans st' = filter (fun e => negb (fst e <=? now)) (d_retrans st) /\ d_dead st' = d_dead st.
Proof. unfold retransmit. match goal with |- context [run_due ?s ?d now js] => destruct (run_due_frame now d s js) as (A & B & C) end. auto. Qed.

(* interface table and life unchanged, the queue only gets longer *)
Definition grows (a b : dstate) : Prop :=
  d_intfs b = d_intfs a /\ d_dead b = d_dead a /\ exists l, d_retrans b = d_retrans a ++ l.

Lemma grows_refl a : grows a a.
Proof. split; [reflexivity|]. split; [reflexivity|]. exists []. symmetry. apply app_nil_r. Qed.
Lemma grows_trans a b c : grows a b -> grows b c -> grows a c.
Proof.
  intros (A1 & A2 & l1 & A3) (B1 & B2 & l2 & B3). split; [congruence|]. split; [congruence|].
  exists (l1 ++ l2). rewrite B3, A3, app_assoc. reflexivity.
Qed.

Lemma pass_grows itf st now js : grows st (fst (fst (pass itf st now js))).
Proof.
  unfold pass. destruct (nget (if_index itf) (d_regs st)) as [rg|]; [|apply grows_refl].
  destruct (probe_step rg now) as [[[rg1 qs] evs] waiting].
  destruct (announce_waiting waiting itf rg1 (d_svcs st) now js (d_mon st)) as [[[[rg2 svcs2] os2] rt2] js2].
  split; [reflexivity|]. split; [reflexivity|]. exists rt2. reflexivity.
Qed.

Lemma probing_intfs_grows now ifs st js : grows st (fst (fst (probing_intfs ifs st now js))).
Proof.
  apply (probing_intfs_phase (fun a b _ => grows a b)).
  - apply grows_refl.
  - intros a b c _ _. apply grows_trans.
  - intros st0 itf js0 _. apply pass_grows.
Qed.

Lemma register_service_frame st s now js :
  let st' := fst (fst (register_service st s now js)) in d_intfs st' = d_intfs st /\ d_dead st' = d_dead st.
Proof.
  unfold register_service.
  destruct (register_intfs (d_intfs st) (auto_addrs st s) (d_regs st) now js) as [[[[s' regs] os] anns] js']. split; reflexivity.
Qed.

Lemma unregister_dead st k ch now : d_dead (fst (unregister st k ch now)) = d_dead st.
Proof. unfold unregister. destruct (aget k (d_svcs st)); reflexivity. Qed.

(* add_interface: nothing (the address is known), or the row's interface - extended, or new at the
   end of the table - on which the addr_auto services are announced *)
Lemma add_interface_cases st r now js :
  add_interface st r now js = (st, [], js) \/
  exists itf intfs,
    if_index itf = os_index r /\
    ((exists itf0, find_intf st (os_index r) = Some itf0 /\
                   intfs = map (fun i => if if_index i =? os_index r then itf else i) (d_intfs st)) \/
     (find_intf st (os_index r) = None /\ intfs = d_intfs st ++ [itf])) /\
    forall svcs rg os rt js',
      add_row_services (d_svcs st) itf (get_reg st (os_index r)) (os_ip r) now js = (svcs, rg, os, rt, js') ->
      add_interface st r now js =
      (mkD intfs (nset (os_index r) rg (d_regs st)) svcs (d_retrans st ++ rt) (d_mon st) (d_dead st) (d_os st) (d_sel st),
       os ++ mon (d_mon st) [OIp true (os_ip r)], js').
Proof.
  unfold add_interface. destruct (find_intf st (os_index r)) as [itf0|] eqn:F.
  - destruct (has_addr itf0 (os_ip r)); [left; reflexivity|]. right.
    exists (mkIntf (os_index r) (if_name itf0) (if_addrs itf0 ++ [mkIA (os_ip r) (os_mask r)])). eexists. split; [reflexivity|].
    split; [left; exists itf0; split; reflexivity|]. intros svcs rg os rt js' E. rewrite E. reflexivity.
  - right. exists (mkIntf (os_index r) (os_name r) [mkIA (os_ip r) (os_mask r)]). eexists. split; [reflexivity|].
    split; [right; split; reflexivity|]. intros svcs rg os rt js' E. rewrite E. reflexivity.
Qed.

Lemma add_interface_dead st r now js : d_dead (fst (fst (add_interface st r now js))) = d_dead st.
Proof.
  destruct (add_interface_cases st r now js) as [E|(itf & intfs & _ & _ & H)]; [rewrite E; reflexivity|].
  destruct (add_row_services (d_svcs st) itf (get_reg st (os_index r)) (os_ip r) now js) as [[[[svcs rg] os] rt] js'].
  rewrite (H _ _ _ _ _ eq_refl). reflexivity.
Qed.

Lemma del_interface_addr_dead st r : d_dead (fst (del_interface_addr st r)) = d_dead st.
Proof.
  unfold del_interface_addr. destruct (find_intf st (os_index r)); [|reflexivity]. destruct (negb (has_addr i (os_ip r))); reflexivity.
Qed.

Lemma row_step_dead st r now js : d_dead (fst (fst (row_step st r now js))) = d_dead st.
Proof.
  unfold row_step. destruct (row_selected (d_sel st) r); [apply add_interface_dead|].
  pose proof (del_interface_addr_dead st r) as E. destruct (del_interface_addr st r) as [st1 os1]. exact E.
Qed.

Lemma apply_rows_dead now rows st js : d_dead (fst (fst (apply_rows st rows now js))) = d_dead st.
Proof.
  apply (apply_rows_phase (fun a b _ => d_dead b = d_dead a)); [reflexivity|intros; congruence|intros; apply row_step_dead].
Qed.

Definition not_ifsel (c : call) : Prop := match c with CIfSel _ _ => False | _ => True end.

Lemma exec_call_intfs st c now js : not_ifsel c -> d_intfs (fst (fst (fst (exec_call st c now js)))) = d_intfs st.
Proof.
  intros Hc. destruct c; cbn [exec_call]; try reflexivity; try contradiction.
  - pose proof (register_service_frame st s now js) as [E _]. destruct (register_service st s now js) as [[st1 os1] js1]. exact E.
  - pose proof (unregister_frame st (lower name) ch now) as (_ & _ & E & _). destruct (unregister st (lower name) ch now) as [st1 os1]. exact E.
Qed.

Lemma exec_calls_intfs now cs st js :
  Forall not_ifsel cs -> d_intfs (fst (fst (exec_calls st cs now js))) = d_intfs st.
Proof.
  intros Hc. apply (exec_calls_phase (fun a b _ => d_intfs b = d_intfs a)); [reflexivity|intros; congruence|].
  intros st0 c js0 I. apply exec_call_intfs. exact (proj1 (Forall_forall _ _) Hc c I).
Qed.

Lemma exec_call_dead st c now js :
  d_dead (fst (fst (fst (exec_call st c now js)))) = d_dead st \/ d_dead (fst (fst (fst (exec_call st c now js)))) = true.
Proof.
  destruct c; cbn [exec_call]; try (left; reflexivity).
  - left. pose proof (register_service_frame st s now js) as [_ E]. destruct (register_service st s now js) as [[st1 os1] js1]. exact E.
  - left. pose proof (unregister_dead st (lower name) ch now) as E. destruct (unregister st (lower name) ch now) as [st1 os1]. exact E.
  - right. reflexivity.
  - left. unfold select_interfaces.
    match goal with |- context [apply_rows ?a ?b now js] => pose proof (apply_rows_dead now b a js) as E; destruct (apply_rows a b now js) as [[st1 os1] js1] end.
    exact E.
Qed.

(* The micro-steps of an iteration (Model/RegistryTrace.v).
   I: a property of the state that every micro-step keeps; P mid o: the output o is fine for the state mid
   after the micro-step that emitted it *)
Section Micro.
  Variables (I : dstate -> Prop) (P : dstate -> out -> Prop).

  Definition step_fine (st st1 : dstate) (os1 : list out) : Prop := I st -> I st1 /\ Forall (P st1) os1.

  Definition fine (st : dstate) (mids : list dstate) (st' : dstate) (os : list out) : Prop :=
    I st -> Forall I mids /\ I st' /\ forall o, In o os -> exists mid, In mid mids /\ P mid o.

  Lemma fine_nil st : fine st [] st [].
  Proof. intros H. split; [constructor|]. split; [exact H|intros o []]. Qed.

  Lemma fine_step st st1 os1 : step_fine st st1 os1 -> fine st [st1] st1 os1.
  Proof.
    intros S H. destruct (S H) as [H1 F]. split; [repeat constructor; exact H1|]. split; [exact H1|].
    intros o Ho. exists st1. split; [left; reflexivity|exact (proj1 (Forall_forall _ _) F o Ho)].
  Qed.

  Lemma fine_app st m1 st1 o1 m2 st2 o2 : fine st m1 st1 o1 -> fine st1 m2 st2 o2 -> fine st (m1 ++ m2) st2 (o1 ++ o2).
  Proof.
    intros A B H. destruct (A H) as (A1 & A2 & A3). destruct (B A2) as (B1 & B2 & B3).
    split; [apply Forall_app; split; assumption|]. split; [exact B2|]. intros o Ho.
    apply in_app_or in Ho as [Ho|Ho]; [destruct (A3 o Ho) as (m & Im & Pm)|destruct (B3 o Ho) as (m & Im & Pm)];
      exists m; (split; [apply in_or_app; auto|exact Pm]).
  Qed.

  Variable now : N.

  Lemma st_dgrams_fine gs :
    (forall st g js, In g gs -> step_fine st (fst (fst (handle_dgram st g now js))) (snd (fst (handle_dgram st g now js)))) ->
    forall st js, fine st (st_dgrams st gs now js) (fst (fst (handle_dgrams st gs now js))) (snd (fst (handle_dgrams st gs now js))).
  Proof.
    induction gs as [|g t IH]; intros S st js; [apply fine_nil|]. cbn [handle_dgrams st_dgrams].
    pose proof (fine_step _ _ _ (S st g js (or_introl eq_refl))) as H1. destruct (handle_dgram st g now js) as [[st1 os1] js1].
    pose proof (IH (fun st0 g0 js0 I0 => S st0 g0 js0 (or_intror I0)) st1 js1) as H2.
    destruct (handle_dgrams st1 t now js1) as [[st2 os2] js2]. exact (fine_app _ _ _ _ _ _ _ H1 H2).
  Qed.

  Lemma st_rows_fine :
    (forall st r js, step_fine st (fst (fst (row_step st r now js))) (snd (fst (row_step st r now js)))) ->
    forall rows st js, fine st (st_rows st rows now js) (fst (fst (apply_rows st rows now js))) (snd (fst (apply_rows st rows now js))).
  Proof.
    intros S. induction rows as [|r t IH]; intros st js; [apply fine_nil|]. cbn [apply_rows st_rows]. fold (row_step st r now js).
    pose proof (fine_step _ _ _ (S st r js)) as H1. destruct (row_step st r now js) as [[st1 os1] js1].
    pose proof (IH st1 js1) as H2. destruct (apply_rows st1 t now js1) as [[st2 os2] js2]. exact (fine_app _ _ _ _ _ _ _ H1 H2).
  Qed.

  Lemma st_calls_fine cs :
    (forall st c js, In c cs -> fine st (st_call st c now js) (fst (fst (fst (exec_call st c now js)))) (snd (fst (fst (exec_call st c now js))))) ->
    forall st js, fine st (st_calls st cs now js) (fst (fst (exec_calls st cs now js))) (snd (fst (exec_calls st cs now js))).
  Proof.
    induction cs as [|c t IH]; intros S st js; [apply fine_nil|]. cbn [exec_calls st_calls].
    pose proof (S st c js (or_introl eq_refl)) as H1. destruct (exec_call st c now js) as [[[st1 os1] js1] stop].
    destruct stop; [rewrite app_nil_r; exact H1|].
    pose proof (IH (fun st0 c0 js0 I0 => S st0 c0 js0 (or_intror I0)) st1 js1) as H2.
    destruct (exec_calls st1 t now js1) as [[st2 os2] js2]. exact (fine_app _ _ _ _ _ _ _ H1 H2).
  Qed.

  Lemma st_due_fine due :
    (forall st e js, In e due -> step_fine st (fst (fst (due_step st (snd e) now js))) (snd (fst (due_step st (snd e) now js)))) ->
    forall st js, fine st (st_due st due now js) (fst (fst (run_due st due now js))) (snd (fst (run_due st due now js))).
  Proof.
    induction due as [|[t0 c] t IH]; intros S st js; [apply fine_nil|]. cbn [run_due st_due]. fold (due_step st c now js).
    pose proof (fine_step _ _ _ (S st (t0, c) js (or_introl eq_refl))) as H1. cbn [snd] in H1. destruct (due_step st c now js) as [[st1 os1] js1].
    pose proof (IH (fun st0 e0 js0 I0 => S st0 e0 js0 (or_intror I0)) st1 js1) as H2.
    destruct (run_due st1 t now js1) as [[st2 os2] js2]. exact (fine_app _ _ _ _ _ _ _ H1 H2).
  Qed.

  Lemma st_probing_fine ifs :
    (forall st itf js, In itf ifs -> step_fine st (fst (fst (pass itf st now js))) (snd (fst (pass itf st now js)))) ->
    forall st js, fine st (st_probing ifs st now js) (fst (fst (probing_intfs ifs st now js))) (snd (fst (probing_intfs ifs st now js))).
  Proof.
    induction ifs as [|itf t IH]; intros S st js; [apply fine_nil|]. rewrite probing_intfs_cons. cbn [st_probing].
    pose proof (S st itf js (or_introl eq_refl)) as H1. specialize (IH (fun st0 i0 js0 I0 => S st0 i0 js0 (or_intror I0))). unfold pass in *.
    destruct (nget (if_index itf) (d_regs st)) as [rg|].
    - destruct (probe_step rg now) as [[[rg1 qs] evs] waiting].
      destruct (announce_waiting waiting itf rg1 (d_svcs st) now js (d_mon st)) as [[[[rg2 svcs2] os2] rt2] js2]. cbn [fst snd] in H1.
      match goal with |- context [probing_intfs t ?s now js2] => specialize (IH s js2); destruct (probing_intfs t s now js2) as [[st2 os3] js3] end.
      exact (fine_app _ _ _ _ _ _ _ (fine_step _ _ _ H1) IH).
    - specialize (IH st js). destruct (probing_intfs t st now js) as [[st2 os3] js3]. exact IH.
  Qed.

  Lemma st_call_fine :
    (forall st en kinds, I st -> I (mkD (d_intfs st) (d_regs st) (d_svcs st) (d_retrans st) (d_mon st) (d_dead st) (d_os st)
                                       (d_sel st ++ map (fun k => (k, en)) kinds))) ->
    (forall st r js, step_fine st (fst (fst (row_step st r now js))) (snd (fst (row_step st r now js)))) ->
    forall st c js,
    (not_ifsel c -> step_fine st (fst (fst (fst (exec_call st c now js)))) (snd (fst (fst (exec_call st c now js))))) ->
    fine st (st_call st c now js) (fst (fst (fst (exec_call st c now js)))) (snd (fst (fst (exec_call st c now js)))).
  Proof.
    intros Hsel Hrow st c js Hc. destruct c; try (apply fine_step, Hc; exact Logic.I).
    cbn [st_call exec_call]. unfold select_interfaces.
    match goal with |- context [apply_rows ?a ?b now js] => pose proof (st_rows_fine Hrow b a js) as H; destruct (apply_rows a b now js) as [[st1 os1] js1] end.
    cbn [fst snd] in *. intros H0. specialize (Hsel st enable kinds H0). destruct (H Hsel) as (A1 & A2 & A3).
    split; [constructor; assumption|]. split; [exact A2|]. intros o Ho. destruct (A3 o Ho) as (m & Im & Pm). exists m. split; [right; exact Im|exact Pm].
  Qed.
End Micro.

(* st with the queue q: retransmit runs the due entries on the state that keeps only the others *)
Definition requeue (st : dstate) (q : list (N * cmd)) : dstate :=
  mkD (d_intfs st) (d_regs st) (d_svcs st) q (d_mon st) (d_dead st) (d_os st) (d_sel st).

Lemma iter_states_fine (I : dstate -> Prop) (P : dstate -> out -> Prop) it :
  (forall st js, fine I P st (st_dgrams st (it_gs it) (it_now it) js)
                   (fst (fst (handle_dgrams st (it_gs it) (it_now it) js))) (snd (fst (handle_dgrams st (it_gs it) (it_now it) js)))) ->
  (forall st js, fine I P st (st_calls st (it_calls it) (it_now it) js)
                   (fst (fst (exec_calls st (it_calls it) (it_now it) js))) (snd (fst (exec_calls st (it_calls it) (it_now it) js)))) ->
  (forall st js, I st ->
     let due := filter (fun e => fst e <=? it_now it) (d_retrans st) in
     let st' := requeue st (filter (fun e => negb (fst e <=? it_now it)) (d_retrans st)) in
     I st' /\ fine I P st' (st_due st' due (it_now it) js) (fst (fst (run_due st' due (it_now it) js))) (snd (fst (run_due st' due (it_now it) js)))) ->
  (forall st js, fine I P st (st_probing (d_intfs st) st (it_now it) js)
                   (fst (fst (probing_intfs (d_intfs st) st (it_now it) js))) (snd (fst (probing_intfs (d_intfs st) st (it_now it) js)))) ->
  forall st, I st ->
  Forall I (iter_states st it) /\
  forall o, In o (snd (fst (fst (iterate st it)))) -> exists mid, In mid (iter_states st it) /\ P mid o.
Proof.
  intros H1 H2 H3 H4 st H. unfold iter_states. fold (it_gs it).
  destruct (d_dead st) eqn:D; [unfold iterate; rewrite D; split; [constructor|intros o []]|].
  destruct (iterate_cases st it D) as (st1 & os1 & js1 & st2 & os2 & js2 & E1 & E2 & C).
  specialize (H1 st (it_jitter it)). specialize (H2 st1 js1). rewrite E1 in *. rewrite E2 in *. cbn [fst snd] in H1, H2.
  pose proof (fine_app I P _ _ _ _ _ _ _ H1 H2) as F12.
  destruct C as [(D2 & p & E)|(D2 & st3 & os3 & js3 & st4 & os4 & js4 & os & p & E3 & E4 & EC & E)]; rewrite E, D2; cbn [fst snd].
  - rewrite app_nil_r. destruct (F12 H) as (A1 & _ & A3). split; [exact A1|]. intros o Ho. exact (A3 o (cut_in _ o Ho)).
  - destruct (F12 H) as (_ & I2 & _). destruct (H3 st2 js2 I2) as [I2' F3]. cbv zeta in F3. specialize (H4 st3 js3).
    rewrite E3. cbn [fst]. unfold retransmit in E3. unfold requeue in F3. rewrite E3 in F3. rewrite E4 in H4. cbn [fst snd] in F3, H4.
    pose proof (fine_app I P _ _ _ _ _ _ _ H1 (fine_app I P _ _ _ _ _ _ _ H2 (fun _ => fine_app I P _ _ _ _ _ _ _ F3 H4 I2'))) as F.
    destruct (F H) as (A1 & _ & A3). rewrite D2 in A1, A3. split; [exact A1|].
    intros o Ho. apply A3. assert (Ho' : In o (fst (cut_at_panic (os1 ++ os2 ++ os3 ++ os4)))) by (rewrite EC; destruct p; exact Ho).
    exact (cut_in _ o Ho').
Qed.

Lemma goodbyes_are_goodbyes st s i v4 m : In (i, v4, m) (goodbyes_of st s) -> is_goodbye m = true.
Proof.
  unfold goodbyes_of. intros Hin. apply in_flat_map in Hin as (itf & _ & Hin).
  destruct (announced_on (if_index itf) s); [|contradiction]. unfold goodbye_on in Hin.
  apply in_app_or in Hin as [Hin|Hin];
    match type of Hin with In _ (match (match ?a with _ => _ end) with _ => _ end) => destruct a end;
    try contradiction; destruct Hin as [Hin|[]]; inversion Hin; subst; apply goodbye_all_ttl0.
Qed.

Lemma goodbye_is_response m : is_goodbye m = true -> o_resp m = true.
Proof. unfold is_goodbye. intros G. apply andb_true_iff in G as [G _]. apply andb_true_iff in G as [G _]. exact G. Qed.

