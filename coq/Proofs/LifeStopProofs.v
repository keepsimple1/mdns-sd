(* C13 for the cache layer: after stop_browse (DnsCache::remove_service_type; what it removes and
   leaves: Proofs/LifeRemoveProofs.v) nothing comes back from nowhere: every cached record was
   cached before or arrived since, under its key.  Model: Model/LifeTimers.v (t_iter with ts_stop). *)
From Coq Require Import List NArith.
From Mdns Require Import Res Bytes Rec LifeCache LifeTimers LifeMapProofs LifeRemoveProofs LifeTimerProofs.
Import ListNotations.
Open Scope N_scope.

Lemma Forall2_S2_in_r (b b' : bucket lrec) e' :
  Forall2 S2 b b' -> In e' b' -> exists e, In e b /\ c_id e = c_id e'.
Proof.
  intros H. induction H as [|x y b b' [Hid _] Hb IH]; intros Hin; [contradiction|].
  destruct Hin as [<-|Hin]; [exists x; split; [left; reflexivity | symmetry; exact Hid]|].
  destruct (IH Hin) as (e & He & Hi). exists e. split; [right; exact He | exact Hi].
Qed.

Lemma sim_iter_from (cfg : simcfg) (c c' : lcache) n a b o k e' :
  wf lrec c -> AP n c -> sim_iter lrec log_ops cfg c n a b [] = Ok (c', o) ->
  In e' (getl c' k) -> exists e, In e (getl c k) /\ c_id e = c_id e'.
Proof.
  intros Hw HP H Hin. destruct (sim_iter_iter_inv cfg c n a b c' o Hw HP H) as [_ (cm & HE & HS)].
  apply HS in Hin. apply (Forall2_S2_in_r _ _ e' (HE k) Hin).
Qed.

Lemma add_or_update_ids (b : bucket lrec) inc ttl n ifu b' ts isnew e' :
  add_or_update lrec log_ops b inc ttl n ifu = Ok (Some (b', ts, isnew)) -> In e' b' ->
  (exists e, In e b /\ c_id e = c_id e') \/ c_id e' = inc.
Proof.
  intros H. revert e'. apply Forall_forall.
  eapply (add_or_update_Forall lrec log_ops
            (fun e' => (exists e, In e b /\ c_id e = c_id e') \/ c_id e' = inc)); [| | | |exact H]; auto.
  apply Forall_forall. intros e He. left. eauto.
Qed.

Lemma ingest_from n recs (c c' : lcache) k e' :
  wf lrec c -> ingest lrec log_ops c n recs = Ok c' -> In e' (getl c' k) ->
  (exists e, In e (getl c k) /\ c_id e = c_id e') \/
  (exists r, In r recs /\ key_of (fst r) = Some k /\ fst r = c_id e').
Proof.
  intros Hw H. revert k e'.
  apply (ingest_inv lrec log_ops (fun c1 => wf lrec c1 /\ forall k e', In e' (getl c1 k) ->
           (exists e, In e (getl c k) /\ c_id e = c_id e') \/
           (exists r, In r recs /\ key_of (fst r) = Some k /\ fst r = c_id e'))) in H; [apply H | | eauto].
  intros c1 id t k0 b ts nw Hin [W1 F1] Ek Ha. split; [apply set_wf, W1|].
  intros k e' He. rewrite get_set in He by exact W1. destruct (key_eqb k k0) eqn:Ekk; [|apply F1, He].
  apply key_eqb_eq in Ekk. subst k0.
  destruct (add_or_update_ids _ _ _ _ _ _ _ _ e' Ha He) as [(e1 & He1 & Hi) | Hi].
  - destruct (F1 k e1 He1) as [(e & Hx & Hy) | (r & Hx & Hy & Hz)].
    + left. exists e. split; [exact Hx | congruence].
    + right. exists r. split; [exact Hx|]. split; [exact Hy | congruence].
  - right. exists (id, t). auto.
Qed.

Theorem t_iter_from s c n0 c' o :
  wf lrec c -> AP n0 c -> tstep_ok n0 s -> t_iter s c = Ok (c', o) ->
  exists c0, after_ingest s c = Ok c0 /\
  (forall k e', In e' (getl c' k) ->
     (exists e, In e (getl c k) /\ c_id e = c_id e') \/
     (exists r, In r (ts_recs s) /\ key_of (fst r) = Some k /\ fst r = c_id e')) /\
  (forall ty k, ts_stop s = Some ty -> removed_key ty c0 k = true -> getl c' k = []).
Proof.
  intros Hw HP (Hle & Hn & Hr) H. unfold t_iter in H.
  apply bind_ok_inv in H as (c0 & Hi & H). exists c0. split; [exact Hi|].
  destruct (ingest_P (ts_now s) _ _ _ Hn Hr (pop_wf _ c Hw) (AP_pop n0 _ c Hle HP) Hi) as [P0 W0].
  set (c0' := match ts_stop s with Some ty => remove_service_type lrec ty c0 | None => c0 end) in *.
  assert (L : wf lrec c0' /\ AP (ts_now s) c0' /\ forall k, getl c0' k = [] \/ getl c0' k = getl c0 k).
  { unfold c0'. destruct (ts_stop s) as [ty|]; [|auto].
    destruct (remove_P (ts_now s) ty c0 W0 P0) as [W P']. split; [exact W|]. split; [exact P'|].
    intros k. destruct (remove_service_type_look ty c0 k W0) as [_ ->]. destruct (removed_key ty c0 k); auto. }
  destruct L as (W0' & P0' & Hsh).
  split.
  - intros k e' Hin. destruct (sim_iter_from _ _ _ _ _ _ _ k e' W0' P0' H Hin) as (e1 & He1 & Hi1).
    destruct (Hsh k) as [Hk|Hk]; rewrite Hk in He1; [contradiction|].
    destruct (ingest_from _ _ _ _ k e1 (pop_wf _ c Hw) Hi He1) as [(e & He & Hid) | (r & Hr' & Hk' & Hid)].
    + rewrite get_pop in He. apply in_map_iff in He as (e0 & <- & He0). left. exists e0. split; [exact He0 | simpl in Hid; congruence].
    + right. exists r. split; [exact Hr'|]. split; [exact Hk' | congruence].
  - intros ty k Hst Hrk. unfold c0' in *. rewrite Hst in *.
    destruct (remove_service_type_look ty c0 k W0) as [_ G]. rewrite Hrk in G.
    destruct (getl c' k) as [|e' l] eqn:Eg; [reflexivity|].
    assert (Hin : In e' (getl c' k)) by (rewrite Eg; left; reflexivity).
    destruct (sim_iter_from _ _ _ _ _ _ _ k e' W0' P0' H Hin) as (e1 & He1 & _). rewrite G in He1. contradiction.
Qed.

Theorem truns_from : forall c n steps c' n',
  truns c n steps c' n' -> wf lrec c -> AP n c ->
  forall k e', In e' (getl c' k) ->
    (exists e, In e (getl c k) /\ c_id e = c_id e') \/
    (exists s r, In s steps /\ In r (ts_recs s) /\ key_of (fst r) = Some k /\ fst r = c_id e').
Proof.
  induction 1 as [c n | c n s c1 o steps c' n' Hs Hi Hrun IH]; intros Hw HP k e' Hin.
  - left. eauto.
  - destruct (t_iter_iter_inv s c n c1 o Hw HP Hs Hi) as (W1 & P1 & _).
    destruct (IH W1 P1 k e' Hin) as [(e1 & He1 & Hid1) | (s' & r & Hs' & Hr & Hk & Hid)].
    2:{ right. exists s', r. split; [right; exact Hs' | auto]. }
    destruct (t_iter_from s c n c1 o Hw HP Hs Hi) as (c0 & _ & Hfrom & _).
    destruct (Hfrom k e1 He1) as [(e & He & Hid) | (r & Hr & Hk & Hid)].
    + left. exists e. split; [exact He | congruence].
    + right. exists s, r. split; [left; reflexivity|]. split; [exact Hr|]. split; [exact Hk | congruence].
Qed.

Definition addr_question (qu : bytes * N) : Prop := snd qu = TY_A \/ snd qu = TY_AAAA.

Theorem stop_removes c n cfg s c' o ty :
  treach c n cfg -> tstep_ok n s -> ts_stop s = Some ty -> t_iter s c = Ok (c', o) ->
  exists c0, after_ingest s c = Ok c0 /\
    getl c' (0, ty) = [] /\
    (forall i, In i (stop_instances ty c0) -> getl c' (1, i) = [] /\ getl c' (2, i) = []) /\
    (forall h, In h (stop_hosts ty c0) -> names_host lrec h (stop_core ty c0) = false -> getl c' (3, h) = []).
Proof.
  intros Hr Hs Hst Hi. destruct (treach_iter_inv c n cfg Hr) as (Hw & HP & _).
  destruct (t_iter_from s c n c' o Hw HP Hs Hi) as (c0 & Ha & _ & Hrm). exists c0. split; [exact Ha|].
  split; [apply (Hrm ty _ Hst), removed_ptr|]. split.
  - intros i Hin. destruct (removed_srv_txt ty c0 i Hin) as [H1 H2]. split; apply (Hrm ty _ Hst); assumption.
  - intros h Hin Hn. apply (Hrm ty _ Hst). apply removed_addr; assumption.
Qed.

