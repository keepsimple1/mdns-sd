(* C18 over ALL histories of the daemon model (Model/IntfDaemon.v): the invariant of the model
   state, why a packet may leave, and both through every operation except the IP check; then the
   definitions the history theorems are stated with (known_class, run_just, state_after ...).
   The IP check, the iteration and the theorems about histories are in IntfCheckerProofs.v. *)
From Coq Require Import List NArith Bool.
From Mdns Require Import Bytes Rec Intf Responder IntfDaemon C18Spec ListFacts IntfDaemonProofs ResponderAddrProofs.
Import ListNotations.
Open Scope N_scope.

(* the OS reports an (interface, address) pair at most once *)
Definition uniq_keys (tbl : list iface) : Prop :=
  forall e e', In e tbl -> In e' tbl -> key_is e (i_index e') (i_addr e') = true -> e = e'.
(* my_intfs is keyed by the interface index *)
Definition uniq_idx (l : list myintf) : Prop := NoDup (map mi_index l).

(* the OS has reported (interface idx, address a) so far *)
Definition seen_has (seen : list iface) (idx : N) (a : ifaddr) : Prop :=
  exists e, In e seen /\ key_is e idx a = true.

(* an address record that is at home on interface idx: some address the OS has reported for
   that interface so far puts it in its subnet (the condition addr_ok of chk_C18) *)
Definition seen_rec (seen : list iface) (idx : N) (r : rr) : Prop :=
  match r_data r with
  | RAddr o => exists a e, o = ip_octets a /\ In e seen /\ i_index e = idx /\ valid_ip_on_intf a (i_addr e) = true
  | _ => True
  end.

(* why a packet may leave: there are an interface entry intf and an address a of it, of the
   packet's family, such that the OS table, if it reports (intf, a), has it enabled by the last
   matching selection; the packet leaves through intf; its address records are at home there;
   every address of intf has been reported by the OS.  (That the daemon holds intf is not part of
   it: just_from_held supplies such an intf from my_intfs.) *)
Definition pkt_just (seen os : list iface) (sels : list selection) (p : packet) : Prop :=
  exists intf a,
    In a (mi_addrs intf) /\ is_v4 (ia_ip a) = dest_is_v4 p /\
    (forall e, In e os -> key_is e (mi_index intf) a = true -> last_match sels e = true) /\
    p_if p = egress_if os intf (dest_is_v4 p) /\
    Forall (seen_rec seen (mi_index intf)) (p_answers p ++ p_additionals p) /\
    (forall x, In x (mi_addrs intf) -> seen_has seen (mi_index intf) x).

Definition obs_just1 (seen os : list iface) (sels : list selection) (o : obs) : Prop :=
  match o with OSent p => pkt_just seen os sels p | _ => True end.

Record Inv (seen : list iface) (d : dstate) : Prop := mkInv {
  inv_os : uniq_keys (d_os d);
  inv_idx : uniq_idx (d_intfs d);
  (* what the daemon holds and the OS reports is enabled by the last matching selection *)
  inv_sel : forall e, In e (d_os d) -> held (d_intfs d) (i_index e) (i_addr e) = true ->
                      last_match (d_sels d) e = true;
  inv_seen_os : incl (d_os d) seen;
  inv_seen_held : forall idx a, held (d_intfs d) idx a = true -> seen_has seen idx a;
  (* goodbyes waiting to be repeated were built for their interface *)
  inv_gb : forall t p idx v4, In (t, RUnregisterResend p idx v4) (d_retrans d) ->
             dest_is_v4 p = v4 /\ Forall (seen_rec seen idx) (p_answers p ++ p_additionals p) }.

(* d' differs from d at most in services, cache, browse state and timers *)
Definition frame4 (d d' : dstate) : Prop :=
  d_intfs d' = d_intfs d /\ d_sels d' = d_sels d /\ d_os d' = d_os d /\ d_retrans d' = d_retrans d.

Lemma frame4_refl d : frame4 d d. Proof. unfold frame4. auto. Qed.
Lemma frame4_trans a b c : frame4 a b -> frame4 b c -> frame4 a c.
Proof. unfold frame4. intros (A1 & A2 & A3 & A4) (B1 & B2 & B3 & B4). rewrite B1, B2, B3, B4. auto. Qed.

Lemma Inv_frame seen d d' : frame4 d d' -> Inv seen d -> Inv seen d'.
Proof.
  intros (F1 & F2 & F3 & F4) [I1 I2 I3 I4 I5 I6].
  constructor; rewrite ?F1, ?F2, ?F3, ?F4; assumption.
Qed.

Lemma get_held l idx m a : intf_get idx l = Some m -> In a (mi_addrs m) -> held l idx a = true.
Proof.
  intros Hg Ha. unfold held. rewrite Hg. unfold has_ifaddr. apply existsb_exists. exists a.
  split; [exact Ha|apply ifaddr_eqb_refl].
Qed.

Lemma held_get l idx a : held l idx a = true -> exists m, intf_get idx l = Some m /\ In a (mi_addrs m).
Proof.
  unfold held. destruct (intf_get idx l) as [m|]; [|discriminate]. intros H. exists m. split; [reflexivity|].
  unfold has_ifaddr in H. apply existsb_exists in H as [x [Hx He]]. apply ifaddr_eqb_eq in He. subst x. exact Hx.
Qed.

Lemma in_get l m : uniq_idx l -> In m l -> intf_get (mi_index m) l = Some m.
Proof.
  unfold uniq_idx. induction l as [|x l IH]; simpl; intros Hnd Hin; [destruct Hin|].
  inversion Hnd as [|? ? Hnot Hnd']; subst.
  destruct Hin as [->|Hin]; [rewrite N.eqb_refl; reflexivity|].
  destruct (mi_index x =? mi_index m) eqn:E; [|apply IH; assumption].
  apply N.eqb_eq in E. exfalso. apply Hnot. rewrite E. apply in_map. exact Hin.
Qed.

Lemma family_enabled_addr intf v4 : family_enabled intf v4 = true ->
  exists a, In a (mi_addrs intf) /\ is_v4 (ia_ip a) = v4.
Proof.
  unfold family_enabled, has_v4, has_v6, is_v6. destruct v4; intros H; apply existsb_exists in H as [a [Ha Hf]];
    exists a; split; auto. apply negb_true_iff in Hf. exact Hf.
Qed.

Lemma iface_eqb_eq e e' : iface_eqb e e' = true <-> e = e'.
Proof.
  unfold iface_eqb. rewrite !andb_true_iff, beq_eq, N.eqb_eq, ifaddr_eqb_eq. destruct e, e'; simpl.
  split; [intros [[-> ->] ->]; reflexivity|intros H; inversion H; auto].
Qed.

Lemma iface_mem_In e l : iface_mem e l = true <-> In e l.
Proof.
  unfold iface_mem. rewrite existsb_exists. split.
  - intros [x [Hx He]]. apply iface_eqb_eq in He. subst. exact Hx.
  - intros H. exists e. split; [exact H|apply iface_eqb_eq; reflexivity].
Qed.

Lemma in_add_seen tbl : forall seen x, In x (add_seen seen tbl) <-> In x seen \/ In x tbl.
Proof.
  unfold add_seen. induction tbl as [|e tbl IH]; intros seen x; simpl; [tauto|]. rewrite IH.
  destruct (iface_mem e seen) eqn:Em.
  - apply iface_mem_In in Em. split; [tauto|]. intros [H|[<-|H]]; auto.
  - rewrite in_app_iff. simpl. tauto.
Qed.

Lemma add_seen_incl seen tbl : incl seen (add_seen seen tbl) /\ incl tbl (add_seen seen tbl).
Proof. split; intros x H; apply in_add_seen; auto. Qed.

Lemma seen_rec_mono seen seen' idx r : incl seen seen' -> seen_rec seen idx r -> seen_rec seen' idx r.
Proof.
  unfold seen_rec. destruct (r_data r); auto. intros Hi (a & e & H1 & H2 & H3 & H4). exists a, e. auto.
Qed.

Lemma Inv_mono seen seen' d : incl seen seen' -> Inv seen d -> Inv seen' d.
Proof.
  intros Hi [I1 I2 I3 I4 I5 I6]. constructor; auto.
  - eapply incl_tran; eassumption.
  - intros idx a H. destruct (I5 idx a H) as [e [He Hk]]. exists e. auto.
  - intros t p idx v4 H. destruct (I6 t p idx v4 H) as [H1 H2]. split; [exact H1|].
    eapply Forall_impl; [|exact H2]. intros r. apply seen_rec_mono. exact Hi.
Qed.

(* an address record of r, if any, lies in a subnet of intf *)
Definition link_ok (intf : myintf) (r : rr) : Prop :=
  match r_data r with
  | RAddr o => exists a, o = ip_octets a /\ addr_on_intf intf a = true
  | _ => True
  end.

Lemma link_ok_seen seen l intf r :
  intf_get (mi_index intf) l = Some intf ->
  (forall idx a, held l idx a = true -> seen_has seen idx a) ->
  link_ok intf r -> seen_rec seen (mi_index intf) r.
Proof.
  intros Hg Hs. unfold link_ok, seen_rec. destruct (r_data r); auto.
  intros (a & Ho & Hon). unfold addr_on_intf in Hon. apply existsb_exists in Hon as [x [Hx Hv]].
  destruct (Hs (mi_index intf) x (get_held _ _ _ _ Hg Hx)) as [e [He Hk]].
  apply key_is_eq in Hk as [Hk1 Hk2]. exists a, e. subst x. auto.
Qed.

Lemma dest_is_v4_reroute os intf p : dest_is_v4 (reroute os intf p) = dest_is_v4 p.
Proof. reflexivity. Qed.

(* the central step: a packet built for an interface the daemon holds, of a family the interface
   has, with on-link address records, is justified *)
Lemma just_from_held seen d intf p :
  Inv seen d -> intf_get (mi_index intf) (d_intfs d) = Some intf ->
  family_enabled intf (dest_is_v4 p) = true ->
  Forall (link_ok intf) (p_answers p ++ p_additionals p) ->
  pkt_just seen (d_os d) (d_sels d) (reroute (d_os d) intf p).
Proof.
  intros [I1 I2 I3 I4 I5 I6] Hg Hf Hl.
  destruct (family_enabled_addr _ _ Hf) as [a [Ha Hfa]].
  exists intf, a. rewrite dest_is_v4_reroute. repeat split; auto.
  - intros e He Hk. apply I3; [exact He|]. apply key_is_eq in Hk.
    destruct Hk as [Hk1 Hk2]. rewrite Hk1, Hk2. eapply get_held; eassumption.
  - simpl. eapply Forall_impl; [|exact Hl]. intros r. apply (link_ok_seen seen (d_intfs d)); assumption.
  - intros x Hx. apply I5. eapply get_held; eassumption.
Qed.

Lemma announce_on_facts s intf v4 p : announce_on s intf v4 = Some p ->
  dest_is_v4 p = v4 /\ family_enabled intf v4 = true /\ Forall (link_ok intf) (p_answers p ++ p_additionals p).
Proof.
  intros H. pose proof (announcement_carries_link_addresses s intf v4 p H) as [_ Ha].
  unfold announce_on in H. destruct (is_nil (intf_addrs_of v4 s intf)); [discriminate|].
  destruct (family_enabled intf v4) eqn:Ef; [|discriminate]. inversion H; subst p; clear H.
  split; [reflexivity|]. split; [reflexivity|]. cbn [p_answers p_additionals] in *. rewrite app_nil_r.
  apply Forall_forall. intros r Hr. unfold link_ok. destruct (r_data r) eqn:Ed; auto.
  destruct (Ha r octets Hr Ed) as (a & x & H1 & H2 & H3 & H4 & H5). exists a. split; [exact H2|].
  unfold addr_on_intf. apply existsb_exists. exists x. auto.
Qed.

Lemma goodbye_on_facts s intf v4 p : goodbye_on s intf v4 = Some p ->
  dest_is_v4 p = v4 /\ family_enabled intf v4 = true /\ Forall (link_ok intf) (p_answers p ++ p_additionals p).
Proof.
  unfold goodbye_on. destruct (announce_on s intf v4) as [q|] eqn:Ea; [|discriminate].
  intros H. inversion H; subst p; clear H. destruct (announce_on_facts _ _ _ _ Ea) as (H1 & H2 & H3).
  split; [exact H1|]. split; [exact H2|]. cbn [p_answers p_additionals]. rewrite app_nil_r.
  apply Forall_forall. intros r Hr. apply in_map_iff in Hr as [r0 [<- Hr]].
  rewrite Forall_forall in H3. specialize (H3 r0 (in_or_app _ _ _ (or_introl Hr))).
  unfold link_ok in *. simpl. exact H3.
Qed.

Definition not_sent (o : obs) : Prop := match o with OSent _ => False | _ => True end.

Lemma cache_ev_just seen os sels c o : cache_ev c o -> obs_just1 seen os sels o.
Proof. destruct o; simpl; tauto. Qed.

Lemma sent_by_just seen d (Q : myintf -> bool -> packet -> Prop) o : Inv seen d ->
  (forall intf v4 p, Q intf v4 p ->
     In intf (d_intfs d) /\ dest_is_v4 p = v4 /\ family_enabled intf v4 = true /\
     Forall (link_ok intf) (p_answers p ++ p_additionals p)) ->
  sent_by Q (d_os d) o -> obs_just1 seen (d_os d) (d_sels d) o.
Proof.
  intros HI HQ (intf & v4 & p & Hq & ->). destruct (HQ _ _ _ Hq) as (Hin & H1 & H2 & H3). simpl.
  apply just_from_held; auto; [apply in_get; [apply (inv_idx _ _ HI)|exact Hin]|rewrite H1; exact H2].
Qed.

Lemma handle_dgram_ok seen d g : Inv seen d ->
  frame4 d (fst (handle_dgram d g)) /\
  Forall (obs_just1 seen (d_os d) (d_sels d)) (snd (handle_dgram d g)).
Proof.
  intros HI. apply handle_dgram_cases.
  - split; [apply frame4_refl|constructor].
  - intros intf m p Eg Ef Eq. split; [apply frame4_refl|]. constructor; [|constructor].
    pose proof (handle_query_packet _ _ Eq) as (H1 & H2 & _ & H4). cbn [h_intf h_src_ip] in *.
    pose proof (intf_get_index _ _ _ Eg) as Hidx.
    apply just_from_held; try assumption.
    + rewrite Hidx. exact Eg.
    + change (dest_is_v4 p) with (dest_v4 (p_dest p)). rewrite H4. exact Ef.
    + eapply Forall_impl; [|exact H1]. intros r. unfold link_rec, link_ok. destruct (r_data r); auto.
      intros (s & a & _ & _ & Ho & Hon). exists a. auto.
  - intros intf m _ _. destruct (handle_response_eq d intf m) as (c & res & out & -> & Hev & _).
    split; [unfold frame4; auto|]. eapply Forall_impl; [|exact Hev]. intros o. apply cache_ev_just.
Qed.

(* the pending goodbyes of d' are pending goodbyes of d or satisfy the goodbye invariant *)
Lemma Inv_but_retrans seen d d' :
  d_intfs d' = d_intfs d -> d_sels d' = d_sels d -> d_os d' = d_os d ->
  (forall t p idx v4, In (t, RUnregisterResend p idx v4) (d_retrans d') ->
     In (t, RUnregisterResend p idx v4) (d_retrans d) \/
     (dest_is_v4 p = v4 /\ Forall (seen_rec seen idx) (p_answers p ++ p_additionals p))) ->
  Inv seen d -> Inv seen d'.
Proof.
  intros F1 F2 F3 Hr [I1 I2 I3 I4 I5 I6]. constructor; rewrite ?F1, ?F2, ?F3; auto.
  intros t p idx v4 H. destruct (Hr t p idx v4 H) as [H0|H0]; [apply (I6 t); exact H0|exact H0].
Qed.

Lemma in_app_reg_resend l r t p idx v4 : Forall is_reg_resend r ->
  In (t, RUnregisterResend p idx v4) (l ++ r) -> In (t, RUnregisterResend p idx v4) l.
Proof.
  intros Hr H. apply in_app_or in H as [H|H]; [exact H|]. rewrite Forall_forall in Hr. destruct (Hr _ H).
Qed.

Lemma announced_just seen d s o : Inv seen d ->
  sent_by (fun intf v4 p => In intf (d_intfs d) /\ announce_on s intf v4 = Some p) (d_os d) o ->
  obs_just1 seen (d_os d) (d_sels d) o.
Proof.
  intros HI. apply sent_by_just; [exact HI|]. intros intf v4 p [Hin E]. split; [exact Hin|].
  exact (announce_on_facts _ _ _ _ E).
Qed.

Lemma do_register_ok seen now d s auto : Inv seen d ->
  Inv seen (fst (do_register now d s auto)) /\
  d_os (fst (do_register now d s auto)) = d_os d /\ d_sels (fst (do_register now d s auto)) = d_sels d /\
  Forall (obs_just1 seen (d_os d) (d_sels d)) (snd (do_register now d s auto)).
Proof.
  intros HI. destruct (do_register_eq now d s auto) as (s1 & status & regs & resend & out & -> & Hr & Ho & _).
  cbn [fst snd d_os d_sels]. split; [|split; [reflexivity|split; [reflexivity|]]].
  - eapply Inv_but_retrans; [| | | |exact HI]; try reflexivity.
    intros t p idx v4 H. left. eapply in_app_reg_resend; eassumption.
  - eapply Forall_impl; [|exact Ho]. intros o. apply announced_just. exact HI.
Qed.

Lemma do_unregister_ok seen now d key : Inv seen d ->
  Inv seen (fst (do_unregister now d key)) /\
  d_os (fst (do_unregister now d key)) = d_os d /\ d_sels (fst (do_unregister now d key)) = d_sels d /\
  Forall (obs_just1 seen (d_os d) (d_sels d)) (snd (do_unregister now d key)).
Proof.
  intros HI. pose proof (do_unregister_eq now d key) as E.
  destruct (svc_get key (d_svcs d)) as [ds|]; [|rewrite E; simpl; auto].
  destruct E as (resend & out & -> & Ho & Hr). cbn [fst snd d_os d_sels].
  split; [|split; [reflexivity|split; [reflexivity|]]].
  - eapply Inv_but_retrans; [| | | |exact HI]; try reflexivity.
    intros t p idx v4 H. apply in_app_or in H as [H|H]; [left; exact H|right].
    rewrite Forall_forall in Hr. destruct (Hr _ H) as (intf & v4' & p' & Hin & Eg & Ex).
    simpl in Ex. inversion Ex; subst. destruct (goodbye_on_facts _ _ _ _ Eg) as (H1 & _ & H3).
    split; [exact H1|]. eapply Forall_impl; [|exact H3]. intros r.
    apply (link_ok_seen seen (d_intfs d)); [apply in_get; [apply (inv_idx _ _ HI)|exact Hin]|apply (inv_seen_held _ _ HI)].
  - eapply Forall_impl; [|exact Ho]. intros o. apply sent_by_just; [exact HI|].
    intros intf v4 p [Hin Eg]. split; [exact Hin|]. exact (goodbye_on_facts _ _ _ _ Eg).
Qed.

Lemma intf_get_in idx l m : intf_get idx l = Some m -> In m l.
Proof.
  induction l as [|x l IH]; simpl; [discriminate|]. destruct (mi_index x =? idx); [intros H; inversion H; auto|auto].
Qed.

Lemma do_retrans_ok seen d c : Inv seen d ->
  (forall p idx v4, c = RUnregisterResend p idx v4 ->
     dest_is_v4 p = v4 /\ Forall (seen_rec seen idx) (p_answers p ++ p_additionals p)) ->
  frame4 d (fst (do_retrans d c)) /\
  Forall (obs_just1 seen (d_os d) (d_sels d)) (snd (do_retrans d c)).
Proof.
  intros HI Hc. apply do_retrans_cases.
  - split; [apply frame4_refl|constructor].
  - intros key idx ds intf _ _ Eg _. split; [unfold frame4; simpl; auto|].
    eapply Forall_impl; [|apply (sent_pair (announce_on (ds_svc ds)))]. intros o Ho.
    apply (announced_just seen d (ds_svc ds) o HI). revert Ho. apply sent_by_impl.
    intros x v4 p [-> E]. split; [eapply intf_get_in; exact Eg|exact E].
  - intros p idx v4 intf -> Eg Ef. split; [apply frame4_refl|]. constructor; [|constructor]. simpl.
    destruct (Hc p idx v4 eq_refl) as [H1 H2]. pose proof (intf_get_index _ _ _ Eg) as Hidx.
    destruct (family_enabled_addr _ _ Ef) as [a [Ha Hfa]].
    exists intf, a. rewrite dest_is_v4_reroute, H1, Hidx. repeat split; auto.
    + intros e He Hk. apply (inv_sel _ _ HI); [exact He|]. apply key_is_eq in Hk as [Hk1 Hk2].
      rewrite Hk1, Hk2. eapply get_held; eassumption.
    + simpl. rewrite H1. reflexivity.
    + intros x Hx. apply (inv_seen_held _ _ HI). eapply get_held; eassumption.
Qed.

Lemma get_none_notin l idx : intf_get idx l = None -> ~ In idx (map mi_index l).
Proof.
  induction l as [|m l IH]; simpl; intros H; [tauto|].
  destruct (mi_index m =? idx) eqn:E; [discriminate|]. apply N.eqb_neq in E. intros [H0|H0]; [auto|exact (IH H H0)].
Qed.

Lemma put_same_indices x l m : intf_get (mi_index x) l = Some m -> map mi_index (intf_put x l) = map mi_index l.
Proof.
  induction l as [|y l IH]; simpl; [discriminate|].
  destruct (mi_index y =? mi_index x) eqn:E; intros H.
  - simpl. apply N.eqb_eq in E. rewrite E. reflexivity.
  - simpl. rewrite (IH H). reflexivity.
Qed.

Lemma uniq_idx_add l i : uniq_idx l -> uniq_idx (add_tbl l i).
Proof.
  unfold uniq_idx, add_tbl. intros H. destruct (intf_get (i_index i) l) as [m|] eqn:Eg.
  - destruct (has_ifaddr _ _); [exact H|].
    rewrite (put_same_indices (mkMyIntf (mi_name m) (i_index i) (mi_addrs m ++ [i_addr i])) l m); [exact H|exact Eg].
  - rewrite map_app. simpl. apply NoDup_snoc; [exact H|apply get_none_notin; exact Eg].
Qed.

Lemma map_index_remove idx l : map mi_index (intf_remove idx l) = filter (fun x => negb (x =? idx)) (map mi_index l).
Proof. unfold intf_remove. induction l as [|m l IH]; simpl; [reflexivity|]. destruct (negb (mi_index m =? idx)); simpl; rewrite IH; reflexivity. Qed.

Lemma uniq_idx_remove idx l : uniq_idx l -> uniq_idx (intf_remove idx l).
Proof. unfold uniq_idx. rewrite map_index_remove. apply NoDup_filter. Qed.

Lemma uniq_idx_del l i : uniq_idx l -> uniq_idx (del_tbl l i).
Proof.
  unfold del_tbl. intros H. destruct (intf_get (i_index i) l) as [m|] eqn:Eg; [|exact H].
  destruct (has_ifaddr _ _); [|exact H]. destruct (is_nil _); [apply uniq_idx_remove; exact H|].
  unfold uniq_idx. rewrite (put_same_indices (mkMyIntf (mi_name m) (i_index i) _) l m); [exact H|exact Eg].
Qed.

(* what holds of every state inside the loop of apply_intf_selections *)
Record J (seen os : list iface) (sels : list selection) (d0 st : dstate) : Prop := mkJ {
  j_os : d_os st = os;
  j_sels : d_sels st = sels;
  j_idx : uniq_idx (d_intfs st);
  j_seen : forall idx a, held (d_intfs st) idx a = true -> seen_has seen idx a;
  j_gb : forall t p idx v4, In (t, RUnregisterResend p idx v4) (d_retrans st) ->
                            In (t, RUnregisterResend p idx v4) (d_retrans d0) }.

Lemma add_interface_J seen os sels d0 now st i :
  J seen os sels d0 st -> In i os -> incl os seen -> uniq_keys os -> last_match sels i = true ->
  J seen os sels d0 (fst (add_interface now st i)) /\
  Forall (obs_just1 seen os sels) (snd (add_interface now st i)).
Proof.
  intros [J1 J2 J3 J4 J5] Hi Hincl Huk Hsel.
  destruct (held (d_intfs st) (i_index i) (i_addr i)) eqn:Eh.
  { rewrite (add_interface_held _ _ _ Eh). split; [constructor; assumption|constructor]. }
  destruct (add_interface_new now st i Eh) as (my_intf & Eg & ->). cbn [fst snd].
  assert (Hseen' : forall idx a, held (add_tbl (d_intfs st) i) idx a = true -> seen_has seen idx a).
  { intros idx a H. rewrite held_add_tbl in H. apply orb_true_iff in H as [H|H]; [apply J4; exact H|].
    exists i. split; [apply Hincl; exact Hi|exact H]. }
  pose proof (intf_get_index _ _ _ Eg) as Hidx.
  split.
  - constructor; cbn [d_os d_sels d_intfs d_retrans]; try assumption; [apply uniq_idx_add; exact J3|].
    (* the loop only schedules repeated announcements *)
    intros t p idx v4 H. apply J5. apply in_app_or in H as [H|H]; [exact H|].
    apply in_flat_map in H as (kv & _ & H). apply in_map_iff in H as (q & E & _). discriminate E.
  - apply Forall_app. split; [|constructor; [exact I|constructor]].
    apply Forall_flat_map, Forall_forall. intros kv _. apply Forall_map, Forall_forall. intros p Hp.
    apply ai_svc_sent in Hp as [s Ea]. destruct (announce_on_facts _ _ _ _ Ea) as (H1 & H2 & H3).
    assert (Hin_a : In (i_addr i) (mi_addrs my_intf)).
    { assert (Hh : held (add_tbl (d_intfs st) i) (i_index i) (i_addr i) = true)
        by (rewrite held_add_tbl, key_is_self; apply orb_true_r).
      apply held_get in Hh as [m [Hm Ha]]. rewrite Eg in Hm. inversion Hm; subst. exact Ha. }
    exists my_intf, (i_addr i). rewrite dest_is_v4_reroute, H1, Hidx. repeat split.
    + exact Hin_a.
    + intros e He Hk. assert (e = i) by (apply Huk; assumption). subst e. exact Hsel.
    + simpl. rewrite H1, J1. reflexivity.
    + simpl. rewrite <- Hidx. eapply Forall_impl; [|exact H3]. intros r.
      apply (link_ok_seen seen (add_tbl (d_intfs st) i)); [rewrite Hidx; exact Eg|exact Hseen'].
    + intros x Hx. apply Hseen'. rewrite <- Hidx. eapply get_held; [|exact Hx]. rewrite Hidx. exact Eg.
Qed.

Lemma del_interface_addr_J seen os sels d0 st i :
  J seen os sels d0 st ->
  J seen os sels d0 (fst (del_interface_addr st i)) /\
  Forall (obs_just1 seen os sels) (snd (del_interface_addr st i)).
Proof.
  intros [J1 J2 J3 J4 J5]. destruct (del_interface_addr_eq st i) as (regs & svcs & c & -> & _). cbn [fst snd].
  split; [|destruct (_ && _); repeat constructor].
  constructor; cbn [d_os d_sels d_intfs d_retrans]; try assumption; [apply uniq_idx_del; exact J3|].
  intros idx a H. apply J4. rewrite held_del_tbl in H. apply andb_true_iff in H. tauto.
Qed.

Lemma apply_J seen os sels d0 now : incl os seen -> uniq_keys os ->
  forall tbl, incl tbl os -> forall st out,
  J seen os sels d0 st -> Forall (obs_just1 seen os sels) out ->
  let r := fold_left (apply_step now) (combine tbl (map (last_match sels) tbl)) (st, out) in
  J seen os sels d0 (fst r) /\ Forall (obs_just1 seen os sels) (snd r).
Proof.
  intros Hincl Huk tbl Htbl st out HJ Hout. cbv zeta.
  apply (apply_fold_ind now _ (fun st out => J seen os sels d0 st /\ Forall (obs_just1 seen os sels) out)); [|auto].
  clear st out HJ Hout. intros st out e He [HJ Hout]. destruct (last_match sels e) eqn:Es.
  - destruct (add_interface_J seen os sels d0 now st e HJ (Htbl e He) Hincl Huk Es) as [HJ' Ho].
    split; [exact HJ'|apply Forall_app; auto].
  - destruct (del_interface_addr_J seen os sels d0 st e HJ) as [HJ' Ho].
    split; [exact HJ'|apply Forall_app; auto].
Qed.

Lemma find_key_uniq os e : uniq_keys os -> In e os ->
  find (fun e0 => key_is e0 (i_index e) (i_addr e)) (rev os) = Some e.
Proof.
  intros Huk Hin. destruct (find _ (rev os)) as [e'|] eqn:Ef.
  - apply find_some in Ef as [H1 H2]. apply in_rev in H1. f_equal. apply Huk; assumption.
  - exfalso. assert (Hf : key_is e (i_index e) (i_addr e) = false).
    { apply (find_none _ _ Ef e). apply in_rev. rewrite rev_involutive. exact Hin. }
    rewrite key_is_self in Hf. discriminate.
Qed.

Lemma Inv_of_J seen d sels st : Inv seen d -> J seen (d_os d) sels d st ->
  (forall e, In e (d_os d) -> held (d_intfs st) (i_index e) (i_addr e) = true -> last_match sels e = true) ->
  Inv seen st.
Proof.
  intros HI [J1 J2 J3 J4 J5] Hsel. constructor.
  - rewrite J1. apply (inv_os _ _ HI).
  - exact J3.
  - rewrite J1, J2. exact Hsel.
  - rewrite J1. apply (inv_seen_os _ _ HI).
  - exact J4.
  - intros t p idx v4 H. apply (inv_gb _ _ HI t). apply J5. exact H.
Qed.

(* a state whose selections were just replaced, then apply_intf_selections on the OS table *)
Lemma apply_ok seen now d sels :
  Inv seen d ->
  let d1 := mkD (d_os d) (d_intfs d) (d_regs d) sels (d_svcs d) (d_cache d) (d_browsed d) (d_resolved d)
                (d_interval d) (d_next_check d) (d_retrans d) in
  let r := apply_intf_selections now d1 (d_os d) in
  Inv seen (fst r) /\ d_os (fst r) = d_os d /\ d_sels (fst r) = sels /\
  Forall (obs_just1 seen (d_os d) sels) (snd r).
Proof.
  intros HI d1 r. subst r.
  pose proof (fun idx a => interface_table_after_apply now d1 (d_os d) idx a) as Ht. cbv zeta in Ht.
  rewrite apply_intf_selections_fold in *. cbn [d_sels d1] in *.
  assert (HJ : J seen (d_os d) sels d d1).
  { constructor; simpl; auto. apply (inv_idx _ _ HI). apply (inv_seen_held _ _ HI). }
  destruct (apply_J seen (d_os d) sels d now (inv_seen_os _ _ HI) (inv_os _ _ HI) (d_os d) (incl_refl _) d1 []
                    HJ (Forall_nil _)) as [HJ' Ho].
  split; [|split; [apply (j_os _ _ _ _ _ HJ')|split; [apply (j_sels _ _ _ _ _ HJ')|exact Ho]]].
  apply (Inv_of_J seen d sels); [exact HI|exact HJ'|].
  intros e He Hh. destruct (Ht (i_index e) (i_addr e)) as [Hheld _].
  rewrite Hheld, (find_key_uniq _ _ (inv_os _ _ HI) He) in Hh. exact Hh.
Qed.

Lemma do_call_ok seen now d c : Inv seen d ->
  Inv seen (fst (do_call now d c)) /\ d_os (fst (do_call now d c)) = d_os d /\
  Forall (obs_just1 seen (d_os d) (d_sels (fst (do_call now d c)))) (snd (do_call now d c)) /\
  d_sels (fst (do_call now d c)) =
    match c with
    | CEnable ks => push_selections (d_sels d) ks true (d_os d)
    | CDisable ks => push_selections (d_sels d) ks false (d_os d)
    | _ => d_sels d
    end.
Proof.
  intros HI. destruct c as [ks|ks|s auto|key|secs|ty]; simpl do_call.
  - pose proof (apply_ok seen now d (push_selections (d_sels d) ks true (d_os d)) HI) as H. cbv zeta in H.
    destruct H as (H1 & H2 & H3 & H4). rewrite H3. auto.
  - pose proof (apply_ok seen now d (push_selections (d_sels d) ks false (d_os d)) HI) as H. cbv zeta in H.
    destruct H as (H1 & H2 & H3 & H4). rewrite H3. auto.
  - destruct (do_register_ok seen now d s auto HI) as (H1 & H2 & H3 & H4). rewrite H3. auto.
  - destruct (do_unregister_ok seen now d key HI) as (H1 & H2 & H3 & H4). rewrite H3. auto.
  - split; [eapply Inv_frame; [|exact HI]; unfold frame4; simpl; auto|]. simpl. auto.
  - destruct (do_browse_eq d ty) as (res & out & -> & Hev). cbn [fst snd d_os d_sels].
    split; [eapply Inv_frame; [|exact HI]; unfold frame4; auto|]. split; [reflexivity|]. split; [|reflexivity].
    eapply Forall_impl; [|exact Hev]. intros o. apply cache_ev_just.
Qed.

Lemma run_list_acc {A} (f : dstate -> A -> dstate * list obs) l : forall st out,
  fold_left (fun (acc : dstate * list obs) (x : A) => let '(st, out) := acc in let '(st', o) := f st x in (st', out ++ o))
            l (st, out)
  = (fst (run_list f l st), out ++ snd (run_list f l st)).
Proof.
  unfold run_list. induction l as [|x l IH]; intros st out; simpl; [rewrite app_nil_r; reflexivity|].
  destruct (f st x) as [st' o]. rewrite (IH st' (out ++ o)), (IH st' o). simpl. rewrite app_assoc. reflexivity.
Qed.

Lemma run_list_cons {A} (f : dstate -> A -> dstate * list obs) x l d :
  run_list f (x :: l) d = (fst (run_list f l (fst (f d x))), snd (f d x) ++ snd (run_list f l (fst (f d x)))).
Proof.
  unfold run_list at 1. simpl. destruct (f d x) as [st' o]. simpl. apply run_list_acc.
Qed.

Lemma run_list_nil {A} (f : dstate -> A -> dstate * list obs) d : run_list f [] d = (d, []).
Proof. reflexivity. Qed.

Lemma run_list_ind {A} (f : dstate -> A -> dstate * list obs) (P : dstate -> list obs -> Prop) l :
  (forall d out x, In x l -> P d out -> P (fst (f d x)) (out ++ snd (f d x))) ->
  forall d, P d [] -> P (fst (run_list f l d)) (snd (run_list f l d)).
Proof.
  intros H d H0. unfold run_list.
  apply (fold_left_inv (fun acc => P (fst acc) (snd acc))); [|exact H0].
  intros [st out] x Hx HP. specialize (H st out x Hx HP). destruct (f st x). exact H.
Qed.

(* a returning interface the daemon still holds and the selections made meanwhile disable: the
   class of the finding C18-selection-while-absent *)
Definition hazard (d : dstate) (tbl : list iface) : bool :=
  existsb (fun e => held (d_intfs d) (i_index e) (i_addr e) && negb (iface_mem e (d_os d))
                    && negb (last_match (d_sels d) e)) tbl.

Definition obs_just (seen os : list iface) (states : list (list selection)) (o : obs) : Prop :=
  match o with
  | OSent p => exists sels, In sels states /\ pkt_just seen os sels p
  | _ => True
  end.

Lemma obs_just_of1 seen os sels states o : In sels states -> obs_just1 seen os sels o -> obs_just seen os states o.
Proof. destruct o; simpl; auto. intros H1 H2. exists sels. auto. Qed.

Lemma obs_just_incl seen os s1 s2 o : incl s1 s2 -> obs_just seen os s1 o -> obs_just seen os s2 o.
Proof. destruct o; simpl; auto. intros Hi (sels & H1 & H2). exists sels. auto. Qed.

(* if_selections after the calls of an iteration (the last element of C18Spec.sel_states) *)
Definition final_sels (sels : list selection) (cur : list iface) (calls : list call) : list selection :=
  fold_left (fun acc c => match c with
                          | CEnable ks => push_selections acc ks true cur
                          | CDisable ks => push_selections acc ks false cur
                          | _ => acc end) calls sels.

Lemma sel_states_head sels cur calls : In sels (sel_states sels cur calls).
Proof.
  revert sels. induction calls as [|c t IH]; intros sels; simpl; [auto|].
  destruct c; simpl; auto.
Qed.

Lemma sel_states_final sels cur calls : In (final_sels sels cur calls) (sel_states sels cur calls).
Proof.
  revert sels. induction calls as [|c t IH]; intros sels; simpl; [auto|].
  destruct c; simpl; auto.
Qed.

Lemma sel_states_tail sels cur c t :
  incl (sel_states (final_sels sels cur [c]) cur t) (sel_states sels cur (c :: t)).
Proof. destruct c; simpl; try apply incl_refl; apply incl_tl; apply incl_refl. Qed.

Lemma calls_ok seen now cur l : forall d, Inv seen d -> d_os d = cur ->
  Inv seen (fst (run_list (do_call now) l d)) /\
  d_os (fst (run_list (do_call now) l d)) = cur /\
  d_sels (fst (run_list (do_call now) l d)) = final_sels (d_sels d) cur l /\
  Forall (obs_just seen cur (sel_states (d_sels d) cur l)) (snd (run_list (do_call now) l d)).
Proof.
  induction l as [|c l IH]; intros d HI Hos; [rewrite run_list_nil; simpl; auto|].
  rewrite run_list_cons. destruct (do_call_ok seen now d c HI) as (H1 & H2 & H3 & H4).
  assert (Hfs : d_sels (fst (do_call now d c)) = final_sels (d_sels d) cur [c]).
  { rewrite H4, Hos. destruct c; reflexivity. }
  destruct (IH (fst (do_call now d c)) H1 (eq_trans H2 Hos)) as (K1 & K2 & K3 & K4).
  simpl fst. simpl snd. split; [exact K1|]. split; [exact K2|]. split.
  - rewrite K3, Hfs. reflexivity.
  - apply Forall_app. split.
    + eapply Forall_impl; [|exact H3]. intros o Ho. rewrite Hos in Ho.
      apply (obs_just_of1 _ _ (d_sels (fst (do_call now d c)))); [|exact Ho].
      rewrite Hfs. apply sel_states_tail. apply sel_states_head.
    + eapply Forall_impl; [|exact K4]. intros o. apply obs_just_incl. rewrite Hfs. apply sel_states_tail.
Qed.

Definition set_os (o : option (list iface)) (d : dstate) : dstate :=
  match o with
  | Some tbl => mkD tbl (d_intfs d) (d_regs d) (d_sels d) (d_svcs d) (d_cache d) (d_browsed d) (d_resolved d)
                    (d_interval d) (d_next_check d) (d_retrans d)
  | None => d
  end.

Lemma Inv_new_os seen d o : Inv seen d ->
  (forall tbl, o = Some tbl -> uniq_keys tbl /\ hazard d tbl = false) ->
  Inv (add_seen seen (d_os (set_os o d))) (set_os o d).
Proof.
  intros HI Hwf. destruct (add_seen_incl seen (d_os (set_os o d))) as [Hs1 Hs2].
  destruct o as [tbl|]; [|apply (Inv_mono seen); assumption].
  destruct (Hwf tbl eq_refl) as [Huk Hhz]. cbn [set_os d_os] in *.
  destruct HI as [I1 I2 I3 I4 I5 I6]. constructor; simpl; auto.
  - (* an entry the OS reports again while the daemon still holds it: outside the known class its
       last matching selection enables it *)
    intros e He Hh. destruct (iface_mem e (d_os d)) eqn:Em.
    + apply I3; [apply iface_mem_In; exact Em|exact Hh].
    + destruct (last_match (d_sels d) e) eqn:El; [reflexivity|]. exfalso.
      unfold hazard in Hhz. rewrite <- not_true_iff_false in Hhz. apply Hhz.
      apply existsb_exists. exists e. rewrite Hh, Em, El. auto.
  - intros idx a H. destruct (I5 idx a H) as [e [He Hk]]. exists e. auto.
  - intros t p idx v4 H. destruct (I6 t p idx v4 H) as [G1 G2]. split; [exact G1|].
    eapply Forall_impl; [|exact G2]. intros r. apply seen_rec_mono. exact Hs1.
Qed.

Lemma initial_intfs_apply tbl : initial_intfs tbl = apply_tbl (fun _ => true) [] tbl.
Proof.
  (* the two initial accumulators, not the [] inside the body of the loop *)
  unfold initial_intfs, apply_tbl. generalize (@nil myintf) at 2 3.
  induction tbl as [|i tbl IH]; intros acc; cbn [fold_left]; [reflexivity|].
  rewrite IH. f_equal. unfold add_tbl. destruct (intf_get (i_index i) acc) as [m|] eqn:Eg; [|reflexivity].
  rewrite (intf_get_index _ _ _ Eg). reflexivity.
Qed.

Lemma uniq_idx_apply f tbl : forall l, uniq_idx l -> uniq_idx (apply_tbl f l tbl).
Proof.
  unfold apply_tbl. induction tbl as [|e tbl IH]; intros l H; simpl; [exact H|]. apply IH.
  destruct (f e); [apply uniq_idx_add|apply uniq_idx_del]; exact H.
Qed.

Lemma Inv_initial t0 os0 : uniq_keys os0 -> Inv os0 (initial_state t0 os0).
Proof.
  intros Huk. unfold initial_state. constructor; simpl.
  - exact Huk.
  - rewrite initial_intfs_apply. apply uniq_idx_apply. constructor.
  - intros e _ _. reflexivity.
  - apply incl_refl.
  - intros idx a H. rewrite initial_intfs_apply, held_apply_tbl in H.
    destruct (find (fun e => key_is e idx a) (rev os0)) as [e|] eqn:Ef; [|discriminate].
    apply find_some in Ef as [H1 H2]. exists e. split; [apply in_rev; exact H1|exact H2].
  - intros t p idx v4 [].
Qed.

Definition wf_steps (steps : list step) : Prop :=
  forall s tbl, In s steps -> st_os s = Some tbl -> uniq_keys tbl.

(* the class of the finding C18-selection-while-absent: at some step the OS reports again an
   (interface, address) pair the daemon still holds and the selections made meanwhile disable *)
Fixpoint known_class (d : dstate) (steps : list step) : bool :=
  match steps with
  | [] => false
  | s :: t => (match st_os s with Some tbl => hazard d tbl | None => false end) || known_class (fst (iterate d s)) t
  end.

(* every packet of every iteration is justified *)
Fixpoint run_just (seen : list iface) (d : dstate) (steps : list step) : Prop :=
  match steps with
  | [] => True
  | s :: t =>
    let cur := match st_os s with Some tbl => tbl | None => d_os d end in
    let seen' := add_seen seen cur in
    Forall (obs_just seen' cur (sel_states (d_sels d) cur (st_calls s))) (snd (iterate d s))
    /\ run_just seen' (fst (iterate d s)) t
  end.

Fixpoint state_after (d : dstate) (steps : list step) : dstate :=
  match steps with [] => d | s :: t => state_after (fst (iterate d s)) t end.
Fixpoint seen_after (seen : list iface) (d : dstate) (steps : list step) : list iface :=
  match steps with
  | [] => seen
  | s :: t => seen_after (add_seen seen (match st_os s with Some tbl => tbl | None => d_os d end)) (fst (iterate d s)) t
  end.

(* a decidable form of uniq_keys for concrete tables *)
Definition uniq_keysb (tbl : list iface) : bool :=
  forallb (fun e => forallb (fun e' => negb (key_is e (i_index e') (i_addr e')) || iface_eqb e e') tbl) tbl.

Lemma uniq_keysb_ok tbl : uniq_keysb tbl = true -> uniq_keys tbl.
Proof.
  unfold uniq_keysb, uniq_keys. intros H e e' He He' Hk. rewrite forallb_forall in H.
  specialize (H e He). rewrite forallb_forall in H. specialize (H e' He'). rewrite Hk in H. simpl in H.
  apply iface_eqb_eq. exact H.
Qed.

Definition wf_stepsb (steps : list step) : bool :=
  forallb (fun s => match st_os s with Some tbl => uniq_keysb tbl | None => true end) steps.

Lemma wf_stepsb_ok steps : wf_stepsb steps = true -> wf_steps steps.
Proof.
  unfold wf_stepsb, wf_steps. intros H s tbl Hin E. rewrite forallb_forall in H. specialize (H s Hin).
  rewrite E in H. apply uniq_keysb_ok. exact H.
Qed.
