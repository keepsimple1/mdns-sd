(* C03 for the model of the cache + browser logic: along every history the cache satisfies the
   invariant Inv (Proofs/CacheInvProofs.v) for the log of deliveries processed so far, and every
   ServiceResolved is built by resolve_from_cache from records that do not expire within a
   second - hence passes resolved_ok of Model/C03Spec.v. *)
From Coq Require Import List NArith Bool Lia.
From Mdns Require Import Bytes Rec Cache Browser C03Spec CacheProofs CacheInvProofs BrowserLoopProofs.
Import ListNotations.
Open Scope N_scope.

Definition times_le (L : list dlv) (now : N) : Prop := forall d, In d L -> dl_t d <= now.

Lemma just_prev_app sel now l1 l : just_prev sel now l = true -> just_prev sel now (l1 ++ l) = true.
Proof. intros H. induction l1; simpl; [assumption|]. rewrite IHl1. apply orb_true_r. Qed.

Lemma entry_justified prev cp now k key e sel :
  entry_ok (prev ++ cp) k key e -> expires_soon e now = false -> times_le prev now ->
  (forall d, dl_rr d = e_rr e -> (is_addr_type (e_type e) = true -> dl_if d = e_if e) -> sel d = true) ->
  justified prev cp now sel = true.
Proof.
  intros (Hk & Hkey & L1 & d & L2 & HL & Hrr & Ht & Hif & Hsame & Hexp & Hdis) Hsoon Htimes Hsel.
  apply expires_soon_false in Hsoon.
  assert (Hlive : live_dlv d now = true).
  { unfold live_dlv. apply N.ltb_lt. rewrite Ht, Hrr. unfold e_ttl in Hexp. lia. }
  assert (Hcur : In d cp -> existsb (fun d => sel d && live_dlv d now) cp = true).
  { intros Hin. apply existsb_exists. exists d. now rewrite (Hsel d Hrr Hif), Hlive. }
  unfold justified. apply orb_true_iff.
  destruct (app_eq_app _ _ _ _ HL) as [l [[A B]|[A B]]].
  - destruct l as [|x l2']; simpl in B.
    { left. apply Hcur. rewrite <- B. now left. }
    (* d lies in prev: nothing after it in prev supersedes or displaces it *)
    inversion B; subst x L2. clear B. right. rewrite A. apply just_prev_app. simpl.
    rewrite (Hsel d Hrr Hif), Hlive. simpl.
    destruct (existsb (fun d' => same_key d d' || displaces d' d) l2') eqn:E; [|reflexivity].
    exfalso. apply existsb_exists in E as [x [Hx1 Hx2]].
    assert (HxL2 : In x (l2' ++ cp)) by (apply in_app_iff; now left).
    apply orb_true_iff in Hx2 as [Hx2|Hx2].
    + rewrite (Hsame x HxL2) in Hx2. discriminate.
    + specialize (Hdis x HxL2 Hx2).
      assert (dl_t x <= now) by (apply Htimes; rewrite A; apply in_app_iff; right; right; assumption).
      lia.
  - left. apply Hcur. rewrite B. apply in_app_iff. right. now left.
Qed.

Lemma justified_mono prev cp more now sel :
  justified prev cp now sel = true -> justified prev (cp ++ more) now sel = true.
Proof.
  unfold justified. intros H. apply orb_true_iff in H as [H|H]; apply orb_true_iff; [left|now right].
  apply existsb_exists in H as [x [H1 H2]]. apply existsb_exists. exists x. split; [|assumption].
  apply in_app_iff. now left.
Qed.

Lemma In_dedup_pairs l : forall seen p, In p (dedup_pairs l seen) -> In p l.
Proof.
  induction l as [|x l IH]; intros seen p; simpl; [tauto|].
  destruct (mem_pair x seen); [intros H; right; eauto|]. intros [H|H]; [now left|right; eauto].
Qed.

Lemma opt_beq_refl o : opt_beq o o = true.
Proof. destruct o; simpl; [apply beq_refl|reflexivity]. Qed.

Lemma props_beq_refl ps : props_beq ps ps = true.
Proof. induction ps as [|[k v] t IH]; simpl; [reflexivity|]. now rewrite beq_refl, opt_beq_refl, IH. Qed.

Lemma In_get_map_srv c inst b : bm_get inst (c_srv c) = Some b -> In (inst, b) (get_map c KSrv).
Proof. apply bm_get_In. Qed.

(* the selector has to accept every delivery of the record, and may use that the record is filed
   under its own kind and key *)
Lemma cached_justified prev cp now c k key b e sel :
  Inv (prev ++ cp) c -> times_le prev now ->
  bm_get key (get_map c k) = Some b -> In e b -> expires_soon e now = false ->
  (kind_of_type (e_type e) = Some k -> key = key_of k (e_name e) ->
   forall d, dl_rr d = e_rr e -> (is_addr_type (e_type e) = true -> dl_if d = e_if e) -> sel d = true) ->
  justified prev cp now sel = true.
Proof.
  intros HI Htimes Hb He Hsoon Hsel.
  destruct (HI k) as [_ HK]. destruct (HK key b (bm_get_In _ _ _ Hb)) as [_ Hok]. specialize (Hok e He).
  apply (entry_justified prev cp now k key e sel Hok Hsoon Htimes).
  destruct Hok as (Hk & Hkey & _). exact (Hsel Hk Hkey).
Qed.

Theorem resolve_justified prev cp now c ty inst :
  Inv (prev ++ cp) c -> times_le prev now ->
  is_valid (resolve_from_cache c now ty inst) = true ->
  resolved_ok prev cp now (resolve_from_cache c now ty inst) = true.
Proof.
  intros HI Htimes Hvalid. unfold is_valid in Hvalid. apply negb_true_iff in Hvalid.
  apply orb_false_iff in Hvalid as [Hv Haddrs]. apply orb_false_iff in Hv as [Hv Hhost].
  unfold resolved_ok. rewrite Hhost, Haddrs.
  unfold resolve_from_cache in *. cbn [rs_host rs_port rs_addrs rs_txt rs_name negb andb] in *.
  destruct (bm_get inst (c_srv c)) as [sb|] eqn:Esb; [|discriminate].
  destruct (find (fun e => negb (expires_soon e now)) sb) as [se|] eqn:Esrv; [|discriminate].
  apply find_some in Esrv as [Hin Hsoon]. apply negb_true_iff in Hsoon.
  rewrite (cached_justified prev cp now c KSrv inst sb se _ HI Htimes Esb Hin Hsoon).
  2:{ intros Hk Hkey d Hrr _. apply kind_of_type_srv in Hk. unfold sel_srv, e_type, e_name, srv_host, srv_port in *.
      rewrite Hrr, Hk, Hkey. cbn [key_of]. now rewrite N.eqb_refl, !beq_refl, N.eqb_refl. }
  cbn [andb]. apply andb_true_iff. split.
  - apply forallb_forall. intros [ip i] Ha. cbn [fst snd]. unfold get_addr in Ha.
    destruct (bm_get (lower (srv_host se)) (c_addr c)) as [ab|] eqn:Eab; [|destruct Ha].
    apply In_dedup_pairs in Ha. apply in_map_iff in Ha as [ae [Hae1 Hae2]].
    apply filter_In in Hae2 as [Hae2 Hae3]. apply negb_true_iff in Hae3. inversion Hae1; subst ip i.
    apply (cached_justified prev cp now c KAddr _ ab ae _ HI Htimes Eab Hae2 Hae3).
    intros Hk Hkey d Hrr Hif. apply kind_of_type_addr in Hk. unfold sel_addr, e_type, e_name, addr_octets in *.
    cbn [key_of] in Hkey. rewrite Hrr, Hk, <- Hkey, (Hif Hk). now rewrite !beq_refl, N.eqb_refl.
  - destruct (bm_get inst (c_txt c)) as [tb|] eqn:Etb; [|reflexivity].
    destruct (find (fun e => negb (expires_soon e now)) tb) as [te|] eqn:Ete; [|reflexivity].
    apply find_some in Ete as [A B]. apply negb_true_iff in B. apply orb_true_iff. right.
    apply (cached_justified prev cp now c KTxt inst tb te _ HI Htimes Etb A B).
    intros Hk Hkey d Hrr _. apply kind_of_type_txt in Hk. unfold sel_txt, e_type, e_name, txt_text in *.
    rewrite Hrr, Hk, Hkey. cbn [key_of]. now rewrite N.eqb_refl, beq_refl, props_beq_refl.
Qed.

Definition ok (prev cp : list dlv) (now : N) (x : out) : Prop := out_ok prev cp now x = true.

Lemma ok_mono prev cp more now x : ok prev cp now x -> ok prev (cp ++ more) now x.
Proof.
  unfold ok. destruct x as [ch [ | r | ]| |]; simpl; auto.
  unfold resolved_ok. intros H.
  apply andb_true_iff in H as [H Ht]. apply andb_true_iff in H as [H Ha].
  apply andb_true_iff in H as [H Hs].
  rewrite H, (justified_mono _ _ _ _ _ Hs). simpl.
  apply andb_true_iff. split.
  - apply forallb_forall. intros a Hin. rewrite forallb_forall in Ha. apply justified_mono. auto.
  - apply orb_true_iff in Ht as [Ht|Ht]; apply orb_true_iff; [now left|right]. now apply justified_mono.
Qed.

Lemma Forall_ok_mono prev cp more now o :
  Forall (ok prev cp now) o -> Forall (ok prev (cp ++ more) now) o.
Proof. intros H. eapply Forall_impl; [|exact H]. intros x. apply ok_mono. Qed.

Lemma no_event_ok prev cp now x : no_event x -> ok prev cp now x.
Proof. destruct x as [ch e| |]; [intros []|reflexivity..]. Qed.

Lemma notify_removal_ok prev cp now q ex : Forall (ok prev cp now) (notify_removal q ex).
Proof.
  apply Forall_forall. intros x Hx. unfold notify_removal in Hx.
  apply in_flat_map in Hx as [tc [_ Hx]]. apply in_map_iff in Hx as [i [<- _]]. reflexivity.
Qed.

Lemma resolve_updated_ok prev cp now s updated :
  Inv (prev ++ cp) (s_cache s) -> times_le prev now ->
  s_cache (fst (resolve_updated s now updated)) = s_cache s
  /\ Forall (ok prev cp now) (snd (resolve_updated s now updated)).
Proof.
  intros HI Ht. split; [apply resolve_updated_state|]. apply Forall_forall. intros x Hx.
  apply resolve_updated_out in Hx as [(ty & ch & p & _ & Hv & ->)|(ty & ch & i & _ & _ & ->)]; [|reflexivity].
  apply resolve_justified; assumption.
Qed.

Lemma hr_records_ok now ifx q fu rs : forall L c,
  Inv L c ->
  Inv (L ++ map (mkDlv now ifx) rs) (fst (fst (hr_records c now ifx q fu rs)))
  /\ forall prev cp, Forall (ok prev cp now) (snd (fst (hr_records c now ifx q fu rs))).
Proof.
  intros L c HI. split.
  - revert L c HI. induction rs as [|r rest IH]; intros L c HI; simpl; [now rewrite app_nil_r|].
    pose proof (add_or_update_inv L c now ifx r fu HI) as H1.
    destruct (add_or_update c now ifx r fu) as [c1 res]. simpl in H1. specialize (IH _ _ H1).
    match goal with |- context [let '(o1, ch1) := ?x in _] => destruct x as [o1 ch1] end.
    destruct (hr_records c1 now ifx q fu rest) as [[c2 o2] ch2]. simpl in *.
    rewrite <- app_assoc in IH. exact IH.
  - intros prev cp. eapply Forall_impl; [|apply hr_records_found].
    intros [ch [| |]| |] H; try destruct H. reflexivity.
Qed.

Lemma handle_response_ok prev cp now ifx s m :
  Inv (prev ++ cp) (s_cache s) -> times_le prev now ->
  Inv (prev ++ cp ++ map (mkDlv now ifx) (msg_records m)) (s_cache (fst (handle_response s now ifx m)))
  /\ Forall (ok prev (cp ++ map (mkDlv now ifx) (msg_records m)) now) (snd (handle_response s now ifx m)).
Proof.
  intros HI Ht. rewrite handle_response_eq. cbv zeta. cbn [fst snd].
  destruct (hr_records_ok now ifx (s_q s) (for_us (s_q s) (m_answers m)) (msg_records m) _ _ HI) as [H1 H2].
  rewrite <- app_assoc in H1.
  match goal with |- context [resolve_updated ?s1 now ?u] =>
    destruct (resolve_updated_ok prev (cp ++ map (mkDlv now ifx) (msg_records m)) now s1 u H1 Ht) as [H3 H4] end.
  split; [rewrite H3; exact H1|]. apply Forall_app. split; [apply H2|exact H4].
Qed.

Lemma handle_read_ok ifs prev cp now s d :
  Inv (prev ++ cp) (s_cache s) -> times_le prev now ->
  Inv (prev ++ cp ++ dgram_dlvs ifs now d) (s_cache (fst (handle_read ifs s now d)))
  /\ Forall (ok prev (cp ++ dgram_dlvs ifs now d) now) (snd (handle_read ifs s now d)).
Proof.
  intros HI Ht. unfold handle_read, dgram_dlvs. destruct (accepted_msg ifs d) as [m|].
  - now apply handle_response_ok.
  - simpl. rewrite !app_nil_r. split; [assumption|constructor].
Qed.

Lemma reads_ok ifs prev now ds : forall cp s,
  Inv (prev ++ cp) (s_cache s) -> times_le prev now ->
  Inv (prev ++ cp ++ flat_map (dgram_dlvs ifs now) ds) (s_cache (fst (run_cmds (handle_read ifs) s now ds)))
  /\ Forall (ok prev (cp ++ flat_map (dgram_dlvs ifs now) ds) now) (snd (run_cmds (handle_read ifs) s now ds)).
Proof.
  induction ds as [|d rest IH]; intros cp s HI Ht.
  - simpl. rewrite !app_nil_r. split; [assumption|constructor].
  - rewrite run_cmds_cons. cbn [fst snd flat_map].
    destruct (handle_read_ok ifs prev cp now s d HI Ht) as [H1 H2].
    destruct (IH (cp ++ dgram_dlvs ifs now d) _ H1 Ht) as [H3 H4].
    rewrite <- app_assoc in H3, H4. split; [exact H3|].
    apply Forall_app. split; [|exact H4]. rewrite app_assoc. apply Forall_ok_mono. exact H2.
Qed.

Section Phases.
  Variables (prev cur : list dlv) (now : N).
  Hypothesis Htimes : times_le prev now.
  Let SI (s : st) : Prop := Inv (prev ++ cur) (s_cache s).
  Let oks (o : list out) : Prop := Forall (ok prev cur now) o.

  Lemma exec_browse_ok s ty ch : SI s -> SI (fst (exec_browse s now ty ch)) /\ oks (snd (exec_browse s now ty ch)).
  Proof.
    intros HI. split; [unfold SI; now rewrite (proj1 (exec_browse_fields s now ty ch))|].
    apply Forall_forall. intros x Hx.
    apply exec_browse_out in Hx as (ptrs & p & _ & _ & _ & [->|[Hv ->]]); [reflexivity|].
    now apply resolve_justified.
  Qed.

  Lemma quiet_ok s o s' : quiet s o s' -> SI s -> SI s' /\ oks o.
  Proof.
    intros (Hc & _ & _ & Ho) HI. split; [apply (csteps_shr _ _ _ Hc HI)|].
    exact (Forall_impl _ (no_event_ok prev cur now) Ho).
  Qed.

  Lemma exec_call_ok s cl : SI s -> SI (fst (exec_call s now cl)) /\ oks (snd (exec_call s now cl)).
  Proof.
    intros HI. pose proof (exec_call_quiet s now cl) as Hq. destruct cl; [| |now apply (quiet_ok _ _ _ Hq)..].
    - now apply exec_browse_ok.
    - split; [|constructor]. cbn [exec_call fst]. unfold exec_stop. destruct (q_get ty (s_q s)); [|exact HI].
      exact (Inv_shr _ _ _ HI (cshr_remove_service_type _ _ ty HI)).
  Qed.

  Lemma run_cmds_ok {C} (f : st -> N -> C -> st * list out) :
    (forall s c, SI s -> SI (fst (f s now c)) /\ oks (snd (f s now c))) ->
    forall l s, SI s -> SI (fst (run_cmds f s now l)) /\ oks (snd (run_cmds f s now l)).
  Proof.
    intros Hf l. induction l as [|c t IH]; intros s HI; [split; [exact HI|constructor]|].
    rewrite run_cmds_cons. destruct (Hf s c HI) as [H1 H2]. destruct (IH _ H1) as [H3 H4].
    split; [exact H3|]. apply Forall_app. split; assumption.
  Qed.

  Lemma run_retrans_ok s : SI s -> SI (fst (run_retrans s now)) /\ oks (snd (run_retrans s now)).
  Proof. apply quiet_ok, run_retrans_quiet. Qed.

  Lemma refresh_all_ok q : forall c,
    Inv (prev ++ cur) c -> Inv (prev ++ cur) (fst (refresh_all c now q)) /\ oks (snd (refresh_all c now q)).
  Proof.
    intros c HI. destruct (refresh_all_csteps now q c) as [Hc Ho]. split; [apply (csteps_shr _ _ _ Hc HI)|].
    exact (Forall_impl _ (no_event_ok prev cur now) Ho).
  Qed.

  Lemma resolve_hosts_ok names : forall s,
    SI s -> SI (fst (resolve_hosts s now names)) /\ oks (snd (resolve_hosts s now names)).
  Proof.
    intros s. rewrite resolve_hosts_run. apply run_cmds_ok. clear s. intros s h HI. unfold resolve_host.
    destruct (resolve_updated_ok prev cur now s (dedup (get_instances_on_host (s_cache s) h)) HI Htimes) as [H1 H2].
    split; [unfold SI; now rewrite H1|exact H2].
  Qed.

  Lemma evict_ok s : SI s -> SI (fst (evict s now)) /\ oks (snd (evict s now)).
  Proof.
    intros HI. rewrite evict_eq. cbv zeta.
    assert (H1 : Inv (prev ++ cur) (fst (evict_services (s_cache s) now)))
      by (eapply Inv_shr; [exact HI|eapply cshr_evict_services; exact HI]).
    assert (H2 : Inv (prev ++ cur) (fst (evict_addr (fst (evict_services (s_cache s) now)) now)))
      by (eapply Inv_shr; [exact H1|eapply cshr_evict_addr; exact H1]).
    destruct (resolve_hosts_ok (dedup (snd (evict_addr (fst (evict_services (s_cache s) now)) now)))
                (with_cache s (fst (evict_addr (fst (evict_services (s_cache s) now)) now))) H2) as [H3 H4].
    split; [exact H3|]. apply Forall_app. split; [apply notify_removal_ok|exact H4].
  Qed.
End Phases.

Lemma iterate_ok ifs prev s it :
  Inv prev (s_cache s) -> times_le prev (i_now it) ->
  Inv (prev ++ iter_dlvs ifs it) (s_cache (fst (iterate ifs s it)))
  /\ Forall (ok prev (iter_dlvs ifs it) (i_now it)) (snd (iterate ifs s it)).
Proof.
  intros HI Ht. rewrite iterate_eq. cbv zeta. unfold iter_dlvs. set (now := i_now it) in *.
  set (cur := flat_map (dgram_dlvs ifs now) (deliveries_in_order (i_dgrams it))).
  assert (HI0 : Inv (prev ++ []) (s_cache s)) by now rewrite app_nil_r.
  destruct (reads_ok ifs prev now (deliveries_in_order (i_dgrams it)) [] s HI0 Ht) as [H1 O1].
  cbn [app] in H1, O1. fold cur in H1, O1.
  destruct (run_cmds_ok prev cur now exec_call (exec_call_ok prev cur now Ht) (i_calls it) _ H1) as [H2 O2].
  destruct (run_retrans_ok prev cur now _ H2) as [H3 O3].
  match goal with |- context [refresh_all ?c now ?q] => destruct (refresh_all_ok prev cur now q c H3) as [H4 O4] end.
  match goal with |- context [evict ?s4 now] => destruct (evict_ok prev cur now Ht s4 H4) as [H5 O5] end.
  split; [exact H5|]. repeat (apply Forall_app; split); assumption.
Qed.

Lemma iter_dlvs_times ifs it d : In d (iter_dlvs ifs it) -> dl_t d = i_now it.
Proof.
  unfold iter_dlvs. intros H. apply in_flat_map in H as [g [_ H]]. unfold dgram_dlvs in H.
  destruct (accepted_msg ifs g); [|destruct H]. apply in_map_iff in H as [r [<- _]]. reflexivity.
Qed.

Fixpoint state_after (ifs : iftab) (s : st) (h : list iter) : st :=
  match h with [] => s | it :: t => state_after ifs (fst (iterate ifs s it)) t end.

Definition log_of (ifs : iftab) (h : list iter) : list dlv := flat_map (iter_dlvs ifs) h.

Lemma history_ok ifs : forall h prev s t0,
  Inv prev (s_cache s) -> times_le prev t0 -> times_mono t0 h = true ->
  chk_C03_from ifs prev h (run_from ifs s h) = true
  /\ Inv (prev ++ log_of ifs h) (s_cache (state_after ifs s h)).
Proof.
  induction h as [|it h IH]; intros prev s t0 HI Ht Hm; simpl.
  - now rewrite app_nil_r.
  - simpl in Hm. apply andb_true_iff in Hm as [Hm1 Hm2]. apply N.leb_le in Hm1.
    assert (Ht' : times_le prev (i_now it)) by (intros d Hd; specialize (Ht d Hd); lia).
    destruct (iterate_ok ifs prev s it HI Ht') as [H1 H2].
    destruct (IH _ (fst (iterate ifs s it)) (i_now it) H1) as [C I]; [|exact Hm2|].
    { intros d Hd. apply in_app_iff in Hd as [Hd|Hd]; [now apply Ht'|].
      rewrite (iter_dlvs_times _ _ _ Hd). lia. }
    rewrite app_assoc. split; [|exact I].
    destruct (iterate ifs s it) as [s1 o]. simpl in *. rewrite C, andb_true_r.
    apply forallb_forall. rewrite Forall_forall in H2. exact H2.
Qed.

Theorem cache_from_history ifs h :
  wf_history h = true -> Inv (log_of ifs h) (s_cache (state_after ifs init_st h)).
Proof. intros Hwf. apply (history_ok ifs h [] init_st 0); [apply Inv_empty|intros ? []|exact Hwf]. Qed.
