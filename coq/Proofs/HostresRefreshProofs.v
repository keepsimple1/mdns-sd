(* C17, the clauses "refreshes addresses before they expire while the search is open" and
   "withdrawn (goodbye) addresses are removed", over all histories of the reference machine.
   No axioms. *)
From Coq Require Import List NArith.
From Mdns Require Import Bytes ListFacts HostresBase HostresModel HostresSpec HostresBaseFacts HostresSpecFacts
                         HostresCacheProofs HostresFoundProofs.
Import ListNotations.
Open Scope N_scope.

Theorem goodbye_one_second now ifx r :
  i_ttl r = 0 ->
  l_expires (a_life (arec_of now ifx r)) = now + 1000
  /\ life_reset now (l_ttl (a_life (arec_of now ifx r))) = mkLife 1 now (now + 1000) (now + 1000).
Proof.
  intros H. unfold arec_of. cbn [a_life]. rewrite H.
  change (wire_ttl 0) with 1. rewrite life_new_eq, life_reset_eq. simpl. split; reflexivity.
Qed.

Lemma refresh_one_queries now c qs r :
  snd (refresh_one now (c, qs) r)
  = qs ++ map (fun a => [(r_key r, addr_qtype (fst a))]) (snd (refresh_bucket now (bucket_of c (r_key r)))).
Proof.
  unfold refresh_one, bucket_of. destruct (aget (r_key r) c) as [b|]; [reflexivity|].
  simpl. rewrite app_nil_r. reflexivity.
Qed.

Lemma refresh_one_bucket now c qs r k :
  bucket_of (fst (refresh_one now (c, qs) r)) k
  = if beq k (r_key r) then fst (refresh_bucket now (bucket_of c k)) else bucket_of c k.
Proof.
  unfold refresh_one. destruct (aget (r_key r) c) as [b|] eqn:E; cbn [fst].
  - unfold refresh_bucket, bucket_of. cbn [fst]. rewrite aget_aset.
    destruct (beq k (r_key r)) eqn:Ek; [|reflexivity]. apply beq_eq in Ek. subst k. rewrite E. reflexivity.
  - destruct (beq k (r_key r)) eqn:Ek; [|reflexivity]. apply beq_eq in Ek. subst k.
    unfold bucket_of. rewrite E. reflexivity.
Qed.

Lemma refresh_all_mono now res : forall c qs q, In q qs -> In q (snd (fold_left (refresh_one now) res (c, qs))).
Proof.
  induction res as [|r t IH]; intros c qs q H; [exact H|]. cbn [fold_left].
  destruct (refresh_one now (c, qs) r) as [c' qs'] eqn:E.
  apply IH. pose proof (refresh_one_queries now c qs r) as Hq. rewrite E in Hq. cbn [snd] in Hq.
  rewrite Hq. apply in_or_app. left. exact H.
Qed.

(* complete: every record of an open search's name that is due at `now` gets its question
   (lower-cased name, A or AAAA by the address family) *)
Theorem refresh_all_complete now res : forall c qs r x,
  In r res -> In x (bucket_of c (r_key r)) -> refresh_wanted now x = true ->
  In [(r_key r, addr_qtype (a_addr x))] (snd (fold_left (refresh_one now) res (c, qs))).
Proof.
  induction res as [|r0 t IH]; intros c qs r x Hr Hx Hw; [contradiction|]. cbn [fold_left].
  pose proof (refresh_one_queries now c qs r0) as Hq. pose proof (refresh_one_bucket now c qs r0 (r_key r)) as Hb.
  destruct (refresh_one now (c, qs) r0) as [c' qs']. cbn [fst snd] in Hq, Hb.
  destruct (beq (r_key r) (r_key r0)) eqn:Ek.
  - (* this resolver's turn (or one with the same name): the question is sent now *)
    apply beq_eq in Ek. apply refresh_all_mono. rewrite Hq. apply in_or_app. right.
    apply in_map_iff. exists (a_addr x, a_if x). split; [rewrite Ek; reflexivity|].
    apply (proj1 (refresh_bucket_spec now _)). exists x. rewrite <- Ek. auto.
  - destruct Hr as [->|Hr]; [rewrite beq_refl in Ek; discriminate|].
    apply IH; [exact Hr| |exact Hw]. rewrite Hb. exact Hx.
Qed.

(* sound: every refresh question is for a record of an open search's name that was due *)
Theorem refresh_all_sound now res : forall c qs q,
  In q (snd (fold_left (refresh_one now) res (c, qs))) ->
  In q qs \/ exists r x, In r res /\ (exists y, In y (bucket_of c (r_key r)) /\ ident y = ident x)
                         /\ refresh_wanted now x = true /\ q = [(r_key r, addr_qtype (a_addr x))].
Proof.
  induction res as [|r0 t IH]; intros c qs q H; [left; exact H|]. cbn [fold_left] in H.
  pose proof (refresh_one_queries now c qs r0) as Hq.
  assert (Hb : forall k, bucket_of (fst (refresh_one now (c, qs) r0)) k = _) by (intros k; apply refresh_one_bucket).
  destruct (refresh_one now (c, qs) r0) as [c' qs']. cbn [fst snd] in Hq, Hb.
  apply IH in H as [H|[r [x [Hr [[y [Hy Hid]] [Hw Hqq]]]]]].
  - rewrite Hq in H. apply in_app_or in H as [H|H]; [left; exact H|]. right.
    apply in_map_iff in H as [a [Ea Ha]]. apply (proj1 (refresh_bucket_spec now _)) in Ha as [x [Hx [Hw Hxa]]].
    exists r0, x. split; [left; reflexivity|]. split; [exists x; auto|]. split; [exact Hw|].
    rewrite <- Ea, <- Hxa. reflexivity.
  - right. exists r, x. split; [right; exact Hr|]. split; [|auto].
    (* the bucket of r in c' comes from the bucket in c, identities kept *)
    rewrite Hb in Hy. destruct (beq (r_key r) (r_key r0)); [|exists y; auto].
    unfold refresh_bucket in Hy. cbn [fst] in Hy. apply in_map_iff in Hy as [y0 [Ey Hy0]].
    exists y0. split; [exact Hy0|]. rewrite <- Hid, <- Ey. destruct (refresh_wanted now y0); reflexivity.
Qed.

(* after the pass no record of any open search's name is due at `now`: the pass for a resolver
   leaves its bucket with nothing due, and no later pass makes a record due *)
Definition settled (now : N) (c : cache) (k : name) : Prop :=
  forall x, In x (bucket_of c k) -> refresh_wanted now x = false.

Lemma refresh_one_settled D prev now c qs r0 k :
  cache_inv D prev c -> beq k (r_key r0) = true \/ settled now c k ->
  settled now (fst (refresh_one now (c, qs) r0)) k.
Proof.
  intros Hc H x Hx. rewrite refresh_one_bucket in Hx. destruct (beq k (r_key r0)).
  - pose proof (refresh_bucket_done now (bucket_of c k)) as Hd. rewrite !Forall_forall in Hd.
    apply Hd; [|exact Hx]. intros y Hy. destruct (bucket_inv _ _ _ _ _ Hc Hy) as [[_ [Hw _]] _]. exact Hw.
  - destruct H as [H|H]; [discriminate|apply H; exact Hx].
Qed.

Theorem refresh_all_done D prev now res : forall c qs,
  cache_inv D prev c ->
  forall r, In r res -> settled now (fst (fold_left (refresh_one now) res (c, qs))) (r_key r).
Proof.
  induction res as [|r0 t IH]; intros c qs Hc r Hr; [contradiction|]. cbn [fold_left].
  pose proof (refresh_one_inv D prev now r0 c qs Hc) as Hc'.
  destruct Hr as [->|Hr].
  - pose proof (refresh_one_settled D prev now c qs r (r_key r) Hc (or_introl (beq_refl _))) as Hs.
    destruct (refresh_one now (c, qs) r) as [c' qs']. cbn [fst] in *.
    apply (fold_left_inv (fun a => cache_inv D prev (fst a) /\ settled now (fst a) (r_key r))); [|auto].
    intros [c0 q0] r1 _ [Hc0 Hs0]. cbn [fst] in *.
    split; [apply refresh_one_inv; exact Hc0|apply (refresh_one_settled D prev); auto].
  - destruct (refresh_one now (c, qs) r0) as [c' qs']. apply IH; assumption.
Qed.

(* eviction filters each bucket; with one bucket per name a dropped bucket leaves no other *)
Lemma bucket_of_evict now c k :
  NoDup (map fst c) -> bucket_of (evict_cache now c) k = filter (fun r => negb (a_expired now r)) (bucket_of c k).
Proof.
  unfold bucket_of, evict_cache. induction c as [|[k0 b0] t IH]; simpl; intros H; [reflexivity|].
  inversion H; subst. specialize (IH H3).
  destruct (beq k k0) eqn:E.
  - apply beq_eq in E. subst k0.
    destruct (filter (fun r => negb (a_expired now r)) b0) as [|y b'] eqn:Ef; simpl; [|rewrite beq_refl; reflexivity].
    destruct (aget k (filter _ (map _ t))) as [b1|] eqn:Eg; [|reflexivity]. exfalso.
    apply aget_Some_In in Eg. apply filter_In in Eg as [Hin _].
    apply in_map_iff in Hin as [[k2 b2] [E2 Hin]]. inversion E2; subst. apply H2. apply (in_map fst) in Hin. exact Hin.
  - destruct (filter (fun r => negb (a_expired now r)) b0); simpl; [exact IH|]. rewrite E. exact IH.
Qed.

Theorem refresh_while_open D prev p i :
  prev <= it_now i -> cache_inv D prev (ss_cache p) ->
  let now := it_now i in
  let c1 := fst (respond_all now (res_view p) (ss_cache p) (it_msgs i)) in
  let p' := fst (sp_step p i) in
  (forall k x, In k (ss_searches p') -> In x (bucket_of c1 (sk_key k)) -> refresh_wanted now x = true ->
               In [(sk_key k, addr_qtype (a_addr x))] (o_queries (snd (sp_step p i))))
  /\ (forall k x, In k (ss_searches p') -> In x (bucket_of (ss_cache p') (sk_key k)) -> refresh_wanted now x = false).
Proof.
  intros Hle Hc now c1 p'. subst c1 p'. change (respond_all now (res_view p) (ss_cache p) (it_msgs i)) with (after_resp p i).
  rewrite sp_step_searches, sp_step_cache. split.
  - intros k x Hk Hx Hw. rewrite sp_step_eq. cbn [snd o_queries]. apply in_or_app. right. apply in_or_app. right.
    apply (refresh_all_complete now _ _ [] (res_of k) x); [apply in_map; exact Hk| |exact Hw].
    rewrite after_calls_cache. exact Hx.
  - intros k x Hk Hx. pose proof (after_refresh_inv D prev p i Hle Hc) as [_ Hnd].
    rewrite (bucket_of_evict now _ _ Hnd) in Hx. apply filter_In in Hx as [Hx _].
    unfold after_refresh, refresh_all in Hx. rewrite after_calls_cache in Hx.
    apply (refresh_all_done (D ++ iter_delivs i) prev now (map res_of (after_sends p i)) _ []
             (proj1 (after_resp_inv D prev p i Hle Hc)) (res_of k)); [apply in_map; exact Hk|exact Hx].
Qed.

