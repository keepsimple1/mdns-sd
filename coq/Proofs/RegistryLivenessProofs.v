(* C07, liveness pieces: a queued second announcement is SENT when it is due and the service is still
   announceable; a queue entry stays queued until it is due. *)
From Coq Require Import List NArith Bool.
From Mdns Require Import Bytes Rec ParamsRegistry Registry RegistryDaemon RegistrySpec RegistryTrace
     RegistryParamsPinned RegistryProofs RegistryStepProofs RegistryHistoryProofs RegistrySilenceProofs.
Import ListNotations.
Open Scope N_scope.

(* the announcement attempt for family v4 succeeds: the service has an address on the interface in
   that family and needs no probing or all its records there are active *)
Definition announceable (s : svc) (itf : intf) (rg : registry) (v4 : bool) : Prop :=
  addrs_on_intf s itf v4 <> [] /\
  (s_probe s = false \/ Forall (fun r => in_active rg r = true) (announce_records rg s itf v4)).

Definition announcement_of (s : svc) (itf : intf) (rg : registry) (v4 : bool) : omsg :=
  mkOut true [] (ptr_rrs s dns_other_ttl (resolve_name rg (s_full s)) ++ map wire_rr (announce_records rg s itf v4)) [] [].

Lemma in_active_stable rg rg' r : rg_active rg' = rg_active rg -> in_active rg' r = in_active rg r.
Proof. intros E. unfold in_active. rewrite E. reflexivity. Qed.

Lemma announceable_stable s itf rg rg' v4 : reg_stable rg rg' -> announceable s itf rg v4 -> announceable s itf rg' v4.
Proof.
  intros [A C] [Ha [Hp|Hf]]; split; try exact Ha; [left; exact Hp|right].
  rewrite (announce_records_stable rg rg' s itf v4 C). apply Forall_forall. intros r Hr.
  rewrite (in_active_stable rg rg' r A). exact (proj1 (Forall_forall _ _) Hf r Hr).
Qed.

Lemma announcement_of_stable s itf rg rg' v4 : reg_stable rg rg' -> announcement_of s itf rg' v4 = announcement_of s itf rg v4.
Proof. intros [A C]. unfold announcement_of, resolve_name. rewrite (announce_records_stable rg rg' s itf v4 C), C. reflexivity. Qed.

Lemma probe_records_active s start : forall recs rg,
  (s_probe s = false \/ Forall (fun r => in_active rg r = true) recs) -> snd (probe_records rg s start recs) = true.
Proof.
  induction recs as [|r t IH]; intros rg H; [reflexivity|]. cbn [probe_records]. destruct (s_probe s) eqn:P.
  - destruct H as [H|H]; [discriminate|]. inversion H; subst. unfold is_probing_done. rewrite H2.
    specialize (IH rg (or_intror H3)). destruct (probe_records rg s start t) as [rg2 ok2]. cbn [snd] in *. rewrite IH. reflexivity.
  - apply IH. left. reflexivity.
Qed.

Lemma prepare_announce_stable s i rg v4 now js : reg_stable rg (fst (fst (prepare_announce s i rg v4 now js))).
Proof. exact (joins_stable _ _ _ _ (prepare_announce_Ops s i rg v4 now js)). Qed.

Lemma prepare_announce_sends s i rg v4 now js :
  announceable s i rg v4 -> snd (fst (prepare_announce s i rg v4 now js)) = Some (announcement_of s i rg v4).
Proof.
  intros [Ha Hp]. unfold prepare_announce. destruct (addrs_on_intf s i v4) eqn:EA; [contradiction|].
  destruct (draw js) as [j js'].
  pose proof (probe_records_active s (now + j) (announce_records rg s i v4) rg Hp) as H.
  destruct (probe_records rg s (now + j) (announce_records rg s i v4)) as [rg' ok]. cbn [snd] in H. subst ok. reflexivity.
Qed.

Lemma announce_both_stable s i rg now js : reg_stable rg (fst (fst (fst (announce_both s i rg now js)))).
Proof. exact (joins_stable _ _ _ _ (announce_both_Ops s i rg now js)). Qed.

Lemma announce_both_sends s i rg now js v4 :
  announceable s i rg v4 ->
  In (OSend (if_index i) v4 Mcast (announcement_of s i rg v4)) (snd (fst (fst (announce_both s i rg now js)))) /\
  snd (fst (announce_both s i rg now js)) = true.
Proof.
  intros H. unfold announce_both.
  pose proof (prepare_announce_stable s i rg true now js) as S1.
  pose proof (prepare_announce_sends s i rg true now js) as P1.
  destruct (prepare_announce s i rg true now js) as [[rg1 m4] js1]. cbn [fst snd] in *.
  pose proof (prepare_announce_sends s i rg1 false now js1) as P2.
  destruct (prepare_announce s i rg1 false now js1) as [[rg2 m6] js2]. cbn [fst snd] in *. destruct v4.
  - rewrite (P1 H). split; [apply in_or_app; left; left; reflexivity|destruct m6; reflexivity].
  - rewrite (P2 (announceable_stable _ _ _ _ _ S1 H)), (announcement_of_stable _ _ _ _ _ S1).
    split; [apply in_or_app; right; left; reflexivity|destruct m4; reflexivity].
Qed.

Definition svc_eqv (s s' : svc) : Prop := same_data s s' /\ s_probe s = s_probe s'.
Lemma svc_eqv_refl s : svc_eqv s s. Proof. split; [apply same_data_refl|reflexivity]. Qed.

Lemma svc_eqv_trans a b c : svc_eqv a b -> svc_eqv b c -> svc_eqv a c.
Proof. intros [A1 A2] [B1 B2]. split; [eapply same_data_trans; eassumption|congruence]. Qed.

Lemma svc_eqv_status i x s : svc_eqv s (set_status i x s). Proof. split; [apply same_data_status|reflexivity]. Qed.

Lemma announce_records_eqv rg s s' itf v4 : svc_eqv s s' -> announce_records rg s' itf v4 = announce_records rg s itf v4.
Proof.
  intros [(A & B & C & D & E & F & G) P]. unfold announce_records, srv_rec, txt_rec, addr_rec, addrs_on_intf.
  rewrite <- C, <- D, <- E, <- F, <- G. reflexivity.
Qed.

Lemma announceable_eqv s s' itf rg v4 : svc_eqv s s' -> announceable s itf rg v4 -> announceable s' itf rg v4.
Proof.
  intros Hq [Ha Hp]. pose proof (announce_records_eqv rg s s' itf v4 Hq) as ER. destruct Hq as [(A & B & C & D & E & F & G) P].
  split.
  - unfold addrs_on_intf in *. rewrite <- G. exact Ha.
  - rewrite <- P, ER. exact Hp.
Qed.

Lemma announcement_of_eqv s s' itf rg v4 : svc_eqv s s' -> announcement_of s' itf rg v4 = announcement_of s itf rg v4.
Proof.
  intros Hq. unfold announcement_of. rewrite (announce_records_eqv rg s s' itf v4 Hq).
  destruct Hq as [(A & B & C & D & E & F & G) P]. unfold ptr_rrs. rewrite <- A, <- B, <- C. reflexivity.
Qed.

Definition resend_ready (st : dstate) (full : bytes) (i : N) (s : svc) (itf : intf) (rg : registry) : Prop :=
  aget (lower full) (d_svcs st) = Some s /\ find_intf st i = Some itf /\ nget i (d_regs st) = Some rg.

(* the command itself: the announcement goes out on its interface for every announceable family *)
Lemma register_resend_sends st full i now js s itf rg v4 :
  resend_ready st full i s itf rg -> announceable s itf rg v4 ->
  In (OSend i v4 Mcast (announcement_of s itf rg v4)) (snd (fst (register_resend st full i now js))).
Proof.
  intros (G & F & R) A. unfold register_resend. rewrite G, R, F.
  destruct (announce_both_sends s itf rg now js v4 A) as [Hin Hann].
  destruct (announce_both s itf rg now js) as [[[rg' os] ann] js']. cbn [fst snd] in *. subst ann. cbn [fst snd].
  apply in_or_app. left. rewrite <- (find_intf_index st i itf F). exact Hin.
Qed.

Lemma register_resend_keeps st full' i' now js full i s itf rg :
  resend_ready st full i s itf rg ->
  exists s1 rg1, resend_ready (fst (fst (register_resend st full' i' now js))) full i s1 itf rg1 /\ svc_eqv s s1 /\ reg_stable rg rg1.
Proof.
  intros (G & F & R). unfold register_resend.
  destruct (aget (lower full') (d_svcs st)) as [s0|] eqn:G0; [|exists s, rg; repeat split; assumption].
  destruct (nget i' (d_regs st)) as [rg0|] eqn:R0; [|exists s, rg; repeat split; assumption].
  destruct (find_intf st i') as [itf0|] eqn:F0; [|exists s, rg; repeat split; assumption].
  pose proof (announce_both_stable s0 itf0 rg0 now js) as ST.
  destruct (announce_both s0 itf0 rg0 now js) as [[[rg' os] ann] js']. cbn [fst] in ST.
  assert (RR : exists rg1, nget i (nset i' rg' (d_regs st)) = Some rg1 /\ reg_stable rg rg1).
  { destruct (N.eq_dec i i') as [->|Hne].
    - rewrite nget_nset_same. exists rg'. split; [reflexivity|]. rewrite R in R0. inversion R0; subst. exact ST.
    - rewrite nget_nset_other by exact Hne. exists rg. split; [exact R|apply reg_stable_refl]. }
  destruct RR as (rg1 & R1 & S1).
  destruct ann; cbn [fst].
  - assert (SS : exists s1, aget (lower full) (sput (lower full') (set_status i' SAnnounced s0) (d_svcs st)) = Some s1 /\ svc_eqv s s1).
    { unfold sput. destruct (beq (lower full) (lower full')) eqn:B.
      - apply beq_eq in B. rewrite B. rewrite aget_aset_same. eexists. split; [reflexivity|].
        rewrite B in G. rewrite G in G0. inversion G0; subst. apply svc_eqv_status.
      - rewrite aget_aset_other; [exists s; split; [exact G|apply svc_eqv_refl]|]. intros E. rewrite E, beq_refl in B. discriminate. }
    destruct SS as (s1 & G1 & Q1). exists s1, rg1. split; [split; [exact G1|split; [exact F|exact R1]]|split; [exact Q1|exact S1]].
  - exists s, rg1. split; [split; [exact G|split; [exact F|exact R1]]|split; [apply svc_eqv_refl|exact S1]].
Qed.

Lemma run_due_sends_second now full i v4 : forall due st js t s itf rg,
  In (t, RegisterResend full i) due -> resend_ready st full i s itf rg -> announceable s itf rg v4 ->
  In (OSend i v4 Mcast (announcement_of s itf rg v4)) (snd (fst (run_due st due now js))).
Proof.
  induction due as [|[t0 c] due IH]; intros st js t s itf rg Hin RD A; [contradiction|]. cbn [run_due]. destruct Hin as [E|Hin].
  - inversion E; subst. pose proof (register_resend_sends st full i now js s itf rg v4 RD A) as H.
    destruct (register_resend st full i now js) as [[st1 os1] js1]. cbn [fst snd] in H.
    destruct (run_due st1 due now js1) as [[st2 os2] js2]. cbn [fst snd]. apply in_or_app. left. exact H.
  - destruct c.
    + destruct (register_resend_keeps st full0 ifidx now js full i s itf rg RD) as (s1 & rg1 & RD1 & Q & S).
      destruct (register_resend st full0 ifidx now js) as [[st1 os1] js1]. cbn [fst] in RD1.
      assert (A1 : announceable s1 itf rg1 v4) by (apply (announceable_eqv s s1); [exact Q|apply (announceable_stable _ _ rg); assumption]).
      specialize (IH st1 js1 t s1 itf rg1 Hin RD1 A1). destruct (run_due st1 due now js1) as [[st2 os2] js2]. cbn [fst snd] in *.
      apply in_or_app. right. rewrite (announcement_of_eqv s s1 itf rg1 v4 Q), (announcement_of_stable s itf rg rg1 v4 S) in IH. exact IH.
    + specialize (IH st js t s itf rg Hin RD A). destruct (run_due st due now js) as [[st2 os2] js2]. cbn [fst snd] in *.
      apply in_or_app. right. exact IH.
Qed.

(* The second announcement is sent: a RegisterResend(full, i) that is due, for a service that is still
   registered on an interface that still exists with its registry, goes out for every family in which
   the service is (still) announceable there - as the message announcement_of *)
Theorem due_second_announcement_sent st now js t full i s itf rg v4 :
  In (t, RegisterResend full i) (d_retrans st) -> t <= now ->
  resend_ready st full i s itf rg -> announceable s itf rg v4 ->
  In (OSend i v4 Mcast (announcement_of s itf rg v4)) (snd (fst (retransmit st now js))).
Proof.
  intros Hin Ht RD A. unfold retransmit.
  apply (run_due_sends_second now full i v4 _ _ js t s itf rg); [apply filter_In; split; [exact Hin|apply N.leb_le; exact Ht]| |exact A].
  destruct RD as (G & F & R). repeat split; assumption.
Qed.

Lemma announcement_of_is_announcement s itf rg v4 : is_announcement (announcement_of s itf rg v4) = true.
Proof.
  assert (G : is_goodbye (announcement_of s itf rg v4) = false).
  { unfold is_goodbye, announcement_of. cbn [o_resp o_an o_ar]. unfold ptr_rrs. destruct ttl_pinned as (_ & E & _). rewrite E.
    cbn [app forallb r_ttl]. change (4500 =? 0) with false. rewrite andb_false_r. reflexivity. }
  unfold is_announcement. rewrite G. unfold announcement_of. cbn [o_resp o_an negb andb].
  apply andb_true_iff. split.
  - unfold ptr_rrs. cbn [app existsb r_type]. rewrite N.eqb_refl. reflexivity.
  - apply existsb_exists. exists (wire_rr (srv_rec rg s)). split.
    + apply in_or_app. right. unfold announce_records. left. reflexivity.
    + unfold wire_rr, srv_rec. cbn [r_type]. rewrite with_change_rr. cbn [p_rr r_type]. apply N.eqb_refl.
Qed.

Lemma exec_calls_keeps now : forall cs st js e,
  In e (d_retrans st) -> In e (d_retrans (fst (fst (exec_calls st cs now js)))) \/ d_dead (fst (fst (exec_calls st cs now js))) = true.
Proof.
  intros cs st js e Hin.
  apply (exec_calls_phase (fun a b _ => In e (d_retrans a) \/ d_dead a = true -> In e (d_retrans b) \/ d_dead b = true) (fun a H => H)
           (fun a b c _ _ H1 H2 H => H2 (H1 H)) now cs) with (st := st) (js := js); [|left; exact Hin].
  intros st0 c js0 _ [H|H]; [|right; destruct (exec_call_dead st0 c now js0) as [E|E]; congruence].
  destruct c; cbn [exec_call]; try (left; exact H); try (right; reflexivity).
  - destruct (register_service_adds st0 s now js0) as (l & E & _). destruct (register_service st0 s now js0) as [[st1 os1] js1].
    cbn [fst] in *. left. rewrite E. apply in_or_app. left. exact H.
  - destruct (unregister_adds st0 (lower name) ch now) as (l & E & _). destruct (unregister st0 (lower name) ch now) as [st1 os1].
    cbn [fst] in *. left. rewrite E. apply in_or_app. left. exact H.
  - destruct (select_interfaces_adds st0 enable kinds now js0) as (l & E & _). destruct (select_interfaces st0 enable kinds now js0) as [[st1 os1] js1].
    cbn [fst] in *. left. rewrite E. apply in_or_app. left. exact H.
Qed.

(* an entry that is not yet due is still in the queue after an iteration that leaves the daemon running *)
Theorem queue_entry_persists st it st' os js e :
  iterate st it = (st', os, Running, js) -> In e (d_retrans st) -> it_now it < fst e -> In e (d_retrans st').
Proof.
  intros H Hin Hlt. apply iterate_running in H as (_ & st1 & os1 & js1 & st2 & os2 & js2 & st3 & os3 & js3 & os4 & E1 & E2 & D2 & E3 & E4 & _).
  pose proof (handle_dgrams_retrans (it_now it) (it_gs it) st (it_jitter it)) as Q1. rewrite E1 in Q1. cbn [fst] in Q1.
  assert (Hin1 : In e (d_retrans st1)) by (rewrite Q1; exact Hin).
  pose proof (exec_calls_keeps (it_now it) (it_calls it) st1 js1 e Hin1) as Q2. rewrite E2 in Q2. cbn [fst] in Q2.
  destruct Q2 as [Q2|Q2]; [|congruence].
  pose proof (retransmit_retrans st2 (it_now it) js2) as Q3. rewrite E3 in Q3. cbn [fst] in Q3.
  destruct (probing_intfs_adds (it_now it) (d_intfs st3) st3 js3) as (l & E & _). rewrite E4 in E. cbn [fst] in E.
  rewrite E. apply in_or_app. left. rewrite Q3. apply filter_In. split; [exact Q2|]. apply negb_true_iff, N.leb_gt. exact Hlt.
Qed.

(* once announced on the interface, a service stays announced through the rest of the pass *)
Lemma announce_waiting_keeps_announced itf now m : forall waiting rg svcs js k,
  (exists s1, aget k svcs = Some s1 /\ announced_on (if_index itf) s1 = true) ->
  exists s2, aget k (snd (fst (fst (fst (announce_waiting waiting itf rg svcs now js m))))) = Some s2 /\ announced_on (if_index itf) s2 = true.
Proof.
  intros waiting rg svcs js k. apply (announce_waiting_svcs itf now m (fun l => exists s1, aget k l = Some s1 /\ announced_on (if_index itf) s1 = true)).
  intros l k0 s0 (s1 & G & A) G0. unfold sput. rewrite aget_aset. destruct (beq k k0) eqn:B; [|exists s1; auto].
  apply beq_eq in B. subst k0. eexists. split; [reflexivity|]. unfold announced_on, set_status. cbn [s_status]. rewrite nget_nset_same. reflexivity.
Qed.

(* announce_waiting: a waiting name w whose service is registered, not yet announced on the interface
   and announceable in family v4 under the registry the pass has reached: the announcement goes out,
   the status becomes Announced and the second announcement is queued for now + 1000.
   (Services announced earlier in the same pass only add probes to the registry: reg_stable.) *)
Lemma announce_waiting_completes itf now m v4 : forall waiting rg svcs js w s,
  In w waiting -> aget (lower w) svcs = Some s -> announced_on (if_index itf) s = false ->
  announceable s itf rg v4 ->
  let '(_, svcs2, os, rt, _) := announce_waiting waiting itf rg svcs now js m in
  In (OSend (if_index itf) v4 Mcast (announcement_of s itf rg v4)) os /\
  (exists s2, aget (lower w) svcs2 = Some s2 /\ announced_on (if_index itf) s2 = true) /\
  In (now + 1000, RegisterResend (s_full s) (if_index itf)) rt.
Proof.
  induction waiting as [|w0 t IH]; intros rg svcs js w s Hin G NA A; [contradiction|]. cbn [announce_waiting].
  destruct (beq (lower w0) (lower w)) eqn:B.
  - (* this entry is (a spelling of) our name: it is announced here *)
    apply beq_eq in B. rewrite B, G, NA.
    destruct (announce_both_sends s itf rg now js v4 A) as [Hs Hann].
    destruct (announce_both s itf rg now js) as [[[rg1 os] ann] js1]. cbn [fst snd] in Hs, Hann. subst ann.
    pose proof (announce_waiting_keeps_announced itf now m t rg1 (sput (lower w) (set_status (if_index itf) SAnnounced s) svcs) js1 (lower w)) as K.
    destruct (announce_waiting t itf rg1 (sput (lower w) (set_status (if_index itf) SAnnounced s) svcs) now js1 m) as [[[[rg2 svcs2] os2] rt2] js2].
    split; [apply in_or_app; left; exact Hs|]. split.
    + apply K. unfold sput. rewrite aget_aset_same. eexists. split; [reflexivity|]. unfold announced_on, set_status. cbn [s_status]. rewrite nget_nset_same. reflexivity.
    + left. destruct (announce_repeat_pinned now) as [-> _]. reflexivity.
  - (* another entry first *)
    assert (Hne : lower w <> lower w0) by (intros E; rewrite E, beq_refl in B; discriminate).
    assert (Hin' : In w t) by (destruct Hin as [->|H]; [rewrite beq_refl in B; discriminate|exact H]).
    destruct (aget (lower w0) svcs) as [s0|] eqn:G0; [|apply (IH rg svcs js w s Hin' G NA A)].
    destruct (announced_on (if_index itf) s0); [apply (IH rg svcs js w s Hin' G NA A)|].
    pose proof (announce_both_stable s0 itf rg now js) as ST.
    destruct (announce_both s0 itf rg now js) as [[[rg1 os] ann] js1]. cbn [fst] in ST.
    assert (A1 : announceable s itf rg1 v4) by (apply (announceable_stable _ _ rg); assumption).
    destruct ann.
    + assert (G1 : aget (lower w) (sput (lower w0) (set_status (if_index itf) SAnnounced s0) svcs) = Some s) by (rewrite aget_sput_other; assumption).
      specialize (IH rg1 _ js1 w s Hin' G1 NA A1).
      destruct (announce_waiting t itf rg1 (sput (lower w0) (set_status (if_index itf) SAnnounced s0) svcs) now js1 m) as [[[[rg2 svcs2] os2] rt2] js2].
      destruct IH as (I1 & I2 & I3). rewrite (announcement_of_stable s itf rg rg1 v4 ST) in I1.
      split; [apply in_or_app; right; apply in_or_app; right; exact I1|]. split; [exact I2|right; exact I3].
    + specialize (IH rg1 svcs js1 w s Hin' G NA A1).
      destruct (announce_waiting t itf rg1 svcs now js1 m) as [[[[rg2 svcs2] os2] rt2] js2].
      destruct IH as (I1 & I2 & I3). rewrite (announcement_of_stable s itf rg rg1 v4 ST) in I1.
      split; [apply in_or_app; right; exact I1|]. split; [exact I2|exact I3].
Qed.

(* The completion step of the probing handler on one interface: the pass over the interface's registry
   (probe_step) finishes probes whose waiting list names w; if the service registered under w is not
   yet announced there and is announceable in family v4 under the registry after that pass, the
   announcement is sent in this very iteration's probing pass, and in the state after the interface's
   micro-step (Model/RegistryTrace.v, st_probing) the service is Announced on the interface and its
   second announcement is queued for now + 1000 *)
Theorem probing_pass_completes itf t st now js rg rg1 qs evs waiting w s v4 :
  nget (if_index itf) (d_regs st) = Some rg -> probe_step rg now = (rg1, qs, evs, waiting) ->
  In w waiting -> aget (lower w) (d_svcs st) = Some s -> announced_on (if_index itf) s = false ->
  announceable s itf rg1 v4 ->
  In (OSend (if_index itf) v4 Mcast (announcement_of s itf rg1 v4)) (snd (fst (probing_intfs (itf :: t) st now js))) /\
  match st_probing (itf :: t) st now js with
  | mid :: _ => (exists s2, aget (lower w) (d_svcs mid) = Some s2 /\ announced_on (if_index itf) s2 = true) /\
                In (now + 1000, RegisterResend (s_full s) (if_index itf)) (d_retrans mid)
  | [] => False
  end.
Proof.
  intros R PS Hin G NA A. cbn [probing_intfs st_probing]. rewrite R, PS.
  pose proof (announce_waiting_completes itf now (d_mon st) v4 waiting rg1 (d_svcs st) js w s Hin G NA A) as H.
  destruct (announce_waiting waiting itf rg1 (d_svcs st) now js (d_mon st)) as [[[[rg2 svcs2] os2] rt2] js2].
  destruct H as (H1 & H2 & H3).
  match goal with |- context [probing_intfs t ?s0 now js2] => destruct (probing_intfs t s0 now js2) as [[st2 os3] js3] end.
  cbn [fst snd d_svcs d_retrans]. split.
  - apply in_or_app. right. apply in_or_app. right. apply in_or_app. left. exact H1.
  - split; [exact H2|apply in_or_app; right; exact H3].
Qed.
