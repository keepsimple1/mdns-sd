(* C12 for the cache layer: every piece of time-driven work of the daemon-level model (evicting a
   record with its removal event, sending a refresh query at a mark) has a timer, in every
   reachable state; and the timed model, its logs erased, is the C11 model (log_trec_rel,
   t_run_erases).  Model: Model/LifeTimers.v. *)
From Coq Require Import List NArith Bool Lia.
From Mdns Require Import Res Bytes ParamsLife Life LifeSpec LifeCache LifeTimers LifeProofs LifeCacheProofs
  LifeSimProofs LifeSimInst LifeMapProofs LifeRemoveProofs.
Import ListNotations.
Open Scope N_scope.

(* the record is in a state the property knows (Proofs/LifeProofs.v: R) *)
Definition inv (r : trec) : Prop := exists s, R r s.

(* P n: the record's future wake-ups are in its log (n = time of the last iteration) *)
Definition P (n : N) (x : lrec) : Prop :=
  inv (fst x) /\
  (n < t_expires (fst x) -> In (t_expires (fst x)) (snd x)) /\
  (t_refresh (fst x) < t_expires (fst x) -> n < t_refresh (fst x) -> In (t_refresh (fst x)) (snd x)).

(* Q n: additionally a pending refresh mark that is already past is in the log (the record was
   looked at by the refresh step of the iteration at n) *)
Definition Q (n : N) (x : lrec) : Prop :=
  inv (fst x) /\
  (n < t_expires (fst x) ->
   In (t_expires (fst x)) (snd x) /\
   (t_refresh (fst x) < t_expires (fst x) -> In (t_refresh (fst x)) (snd x))).

Lemma Q_P n x : Q n x -> P n x.
Proof.
  intros (Hi & H). split; [exact Hi|]. split.
  - intros Hn. destruct (H Hn) as [Ha _]. exact Ha.
  - intros Hr Hn. assert (Hn' : n < t_expires (fst x)) by lia. destruct (H Hn') as [_ Hb]. apply Hb. exact Hr.
Qed.

Lemma P_mono n0 n x : n0 <= n -> P n0 x -> P n x.
Proof. intros Hle (Hi & H1 & H2). split; [exact Hi|]. split; intros; [apply H1 | apply H2]; auto; lia. Qed.

Lemma P_pop n0 n (e : lentry) : n0 <= n -> P n0 (c_t e) -> P n (c_t (pop_entry n e)).
Proof.
  intros Hle HP. destruct (P_mono n0 n _ Hle HP) as (Hi & H1 & H2).
  unfold P, pop_entry. simpl. split; [exact Hi|]. split.
  - intros Hn. apply filter_In. split; [apply H1, Hn | apply N.ltb_lt, Hn].
  - intros Hr Hn. apply filter_In. split; [apply H2; assumption | apply N.ltb_lt, Hn].
Qed.

Lemma inv_refresh r n r' b : inv r -> refresh_maybe r n = Ok (r', b) -> inv r'.
Proof.
  intros [s HR] H. destruct (refresh_maybe_spec r s n HR) as (r1 & E & HR1).
  rewrite H in E. inversion E; subst r1. eexists. exact HR1.
Qed.

Lemma inv_refresh_once r n r' b : inv r -> refresh_once r n = Ok (r', b) -> inv r'.
Proof.
  intros [s HR] H. destruct (refresh_once_spec r s n HR) as (r1 & E & HR1).
  rewrite H in E. inversion E; subst r1. eexists. exact HR1.
Qed.

Lemma inv_shorten inc id r n :
  inv r -> n < B63 -> should_flush_trec inc id r n = Ok true ->
  inv (set_expires r (n + 1000)) /\ n + 1000 < t_expires r.
Proof.
  intros [s HR] Hn Hf.
  pose proof (should_flush_trec_ok inc (mkC id r) n) as F. simpl in F.
  rewrite F in Hf by (apply (R_within _ _ HR) || exact Hn). inversion Hf as [Hfl].
  apply flushable_true_inv in Hfl as (_ & _ & _ & Hlt & _). simpl in Hlt.
  split; [|exact Hlt]. eexists. apply R_shorten; [exact HR | rewrite <- (R_expires _ _ HR); lia].
Qed.

Lemma op_refresh_PQ n x x' b :
  P n x -> op_refresh log_ops x n = Ok (x', b) ->
  Q n x' /\ t_expires (fst x') = t_expires (fst x).
Proof.
  intros (Hi & H1 & H2) H. simpl in H. apply bind_ok_inv in H as ([r' b'] & Hm & H).
  pose proof (inv_refresh _ _ _ _ Hi Hm) as Hi'.
  destruct (refresh_maybe_cases _ _ _ _ Hm) as [(-> & -> & Hc) | (-> & _ & _ & y & ->)];
    inversion H; subst; unfold Q; simpl.
  - (* nothing taken: the mark, if still pending, is ahead *)
    split; [|reflexivity]. split; [exact Hi'|]. intros Hn. split; [apply H1, Hn|].
    intros Hr. apply H2; [exact Hr | lia].
  - (* a rung taken: the new refresh time is pushed *)
    split; [|reflexivity]. split; [exact Hi'|]. intros Hn. split; [apply in_or_app; left; apply H1, Hn|].
    intros _. apply in_or_app. right. left. reflexivity.
Qed.

Lemma op_refresh_once_PQ n x x' b :
  P n x -> op_refresh_once log_ops x n = Ok (x', b) ->
  Q n x' /\ t_expires (fst x') = t_expires (fst x).
Proof.
  intros (Hi & H1 & H2) H. simpl in H.
  apply bind_ok_inv in H as ([r' b'] & Hm & H). inversion H; subst. unfold Q. simpl.
  pose proof (inv_refresh_once _ _ _ _ Hi Hm) as Hi'.
  destruct (refresh_once_cases _ _ _ _ Hm) as [(Hb & -> & Hc) | (Hb & ->)].
  - split; [|reflexivity]. split; [exact Hi'|]. intros Hn. split; [apply H1, Hn|].
    intros Hr. apply H2; [exact Hr | lia].
  - (* no timer is pushed, and none is needed: the 100 % time is not before the expiry *)
    split; [|reflexivity]. split; [exact Hi'|]. intros Hn. split; [apply H1, Hn|].
    intros Hr. exfalso. destruct Hi as [s HR]. pose proof (R_expires_le _ _ HR) as Hle.
    simpl in Hr. rewrite (R_ttl _ _ HR), (R_created _ _ HR), (R_expires _ _ HR) in Hr. lia.
Qed.

Lemma op_new_Q n ttl x :
  n < B63 -> 1 <= ttl -> ttl < U32 -> op_new log_ops n ttl = Ok x -> Q n x.
Proof.
  intros Hn H1 H2 H. simpl in H. apply bind_ok_inv in H as (r & Hr & H). inversion H; subst.
  unfold Q. simpl. split; [apply new_rec_inv in Hr as ->; eexists; apply R_init; assumption|].
  intros _. split; [left; reflexivity | intros _; right; left; reflexivity].
Qed.

Lemma op_reset_Q n x ttl x' :
  n < B63 -> 1 <= ttl -> ttl < U32 -> op_reset log_ops x ttl n = Ok x' -> Q n x'.
Proof.
  intros Hn H1 H2 H. simpl in H. apply bind_ok_inv in H as (r & Hr & H). inversion H; subst.
  unfold Q. simpl. rewrite reset_ttl_ok in Hr by assumption. inversion Hr; subst r.
  split; [eexists; apply R_reset; assumption|]. intros _.
  split; [apply in_or_app; right; left; reflexivity | intros _; apply in_or_app; right; right; left; reflexivity].
Qed.

Lemma op_shorten_P n inc id x :
  P n x -> n < B63 -> should_flush_trec inc id (fst x) n = Ok true -> P n (fst (op_shorten log_ops x n)).
Proof.
  intros (Hi & H1 & H2) Hn Hf. destruct (inv_shorten inc id _ n Hi Hn Hf) as [Hi' Hlt].
  unfold P, flush_new_expire. simpl. split; [exact Hi'|]. split.
  - intros _. apply in_or_app. right. left. reflexivity.
  - unfold flush_new_expire. intros Hr Hnr. apply in_or_app. left. apply H2; [lia | exact Hnr].
Qed.

(* P / Q of every record of a Vec *)
Definition PB (n : N) (b : bucket lrec) : Prop := Forall (fun e => P n (c_t e)) b.
Definition QB (n : N) (b : bucket lrec) : Prop := Forall (fun e => Q n (c_t e)) b.

Lemma QB_PB n b : QB n b -> PB n b.
Proof. intros H. eapply Forall_impl; [|exact H]. intros e. apply Q_P. Qed.

Lemma reset_first_none_P inc ttl n : forall b,
  reset_first lrec log_ops inc ttl n b = Ok None -> True.
Proof. auto. Qed.

Lemma add_or_update_P b inc ttl n ifu b' ts isnew :
  n < B63 -> 1 <= ttl -> ttl < U32 -> PB n b ->
  add_or_update lrec log_ops b inc ttl n ifu = Ok (Some (b', ts, isnew)) -> PB n b'.
Proof.
  intros Hn H1 H2. apply (add_or_update_Forall lrec log_ops (fun e => P n (c_t e))).
  - intros e He Hf. exact (op_shorten_P n inc (c_id e) (c_t e) He Hn Hf).
  - intros e t _ Ht. apply Q_P. exact (op_reset_Q n (c_t e) ttl t Hn H1 H2 Ht).
  - intros t Ht. apply Q_P. exact (op_new_Q n ttl t Hn H1 H2 Ht).
Qed.

(* what refreshing a record keeps: identity and expiry *)
Definition S2 (e e' : lentry) : Prop := c_id e' = c_id e /\ l_expires e' = l_expires e.

Lemma PB_refreshed n (b b' : bucket lrec) :
  PB n b -> Forall2 (fun e e' => P n (c_t e) -> Q n (c_t e') /\ S2 e e') b b' -> QB n b' /\ Forall2 S2 b b'.
Proof.
  intros Hb H. induction H as [|e e' b b' He Hbb IH]; [split; constructor|].
  inversion Hb as [|? ? HPe Hb']; subst. destruct (He HPe) as [HQ HS]. destruct (IH Hb') as [IH1 IH2].
  split; constructor; assumption.
Qed.

Lemma refresh_bucket_PQ n b b' any :
  PB n b -> refresh_bucket lrec log_ops b n = Ok (b', any) -> QB n b' /\ Forall2 S2 b b'.
Proof.
  intros Hb H. apply (PB_refreshed n b b' Hb). eapply refresh_bucket_Forall2; [|exact H].
  intros e t d Ht He. destruct (op_refresh_PQ n _ _ _ He Ht) as (HQ & Hexp).
  split; [exact HQ | split; [reflexivity | exact Hexp]].
Qed.

Lemma refresh_once_bucket_PQ n b b' due :
  PB n b -> refresh_once_bucket lrec log_ops b n = Ok (b', due) -> QB n b' /\ Forall2 S2 b b'.
Proof.
  intros Hb H. apply (PB_refreshed n b b' Hb). eapply refresh_once_bucket_Forall2; [|exact H].
  intros e t d Ht He. destruct (op_refresh_once_PQ n _ _ _ He Ht) as (HQ & Hexp).
  split; [exact HQ | split; [reflexivity | exact Hexp]].
Qed.

(* P everywhere in the cache; Q in the Vec of one key *)
Definition AP (n : N) (c : lcache) : Prop := forall k, PB n (getl c k).
Definition AQ (n : N) (k : ckey) (c : lcache) : Prop := QB n (getl c k).

Lemma pop_wf n (c : lcache) : wf lrec c -> wf lrec (pop_cache n c).
Proof. unfold wf, pop_cache. rewrite map_map. auto. Qed.

Lemma get_pop n (c : lcache) k : getl (pop_cache n c) k = map (pop_entry n) (getl c k).
Proof.
  induction c as [|[k1 b1] c IH]; [reflexivity|]. simpl. destruct (key_eqb k k1); [reflexivity | exact IH].
Qed.

Lemma AP_pop n0 n c : n0 <= n -> AP n0 c -> AP n (pop_cache n c).
Proof.
  intros Hle H k. rewrite get_pop. unfold PB. rewrite Forall_map.
  eapply Forall_impl; [|exact (H k)]. intros e He. apply (P_pop n0 n e Hle He).
Qed.

Lemma AP_set n c k b : wf lrec c -> AP n c -> PB n b -> AP n (setl c k b).
Proof.
  intros Hw H Hb k2. rewrite get_set by assumption. destruct (key_eqb k2 k); [exact Hb | apply H].
Qed.

Lemma ingest_P n recs c c' :
  n < B63 -> Forall rec_ok recs -> wf lrec c -> AP n c -> ingest lrec log_ops c n recs = Ok c' ->
  AP n c' /\ wf lrec c'.
Proof.
  intros Hn Hr Hw HP. apply (ingest_inv lrec log_ops (fun c => AP n c /\ wf lrec c)); [|auto].
  intros c1 id t k b ts nw Hin [HP1 Hw1] _ Ha. rewrite Forall_forall in Hr.
  destruct (stored_ttl_bounds t (Hr _ Hin)) as [Hs1 Hs2].
  split; [|apply set_wf, Hw1]. apply AP_set; [exact Hw1 | exact HP1|].
  exact (add_or_update_P _ _ _ n _ _ _ _ Hn Hs1 Hs2 (HP1 k) Ha).
Qed.

Lemma remove_P n ty c :
  wf lrec c -> AP n c -> wf lrec (remove_service_type lrec ty c) /\ AP n (remove_service_type lrec ty c).
Proof.
  intros Hw HP. split; [apply (remove_service_type_look ty c (0, ty) Hw)|].
  intros k. destruct (remove_service_type_look ty c k Hw) as [_ ->].
  destruct (removed_key ty c k); [constructor | apply HP].
Qed.

(* S2 Vec by Vec and record by record: `lift lrec (Forall2 S2)` (Proofs/LifeMapProofs.v) written
   out, so that the lemmas about `lift` apply to it as they stand *)
Definition E2 (c c' : lcache) : Prop := forall k, Forall2 S2 (getl c k) (getl c' k).

Lemma E2_lift : E2 = lift lrec (Forall2 S2).
Proof. reflexivity. Qed.

Lemma S2_refl (b : bucket lrec) : Forall2 S2 b b.
Proof. apply Forall2_diag. split; reflexivity. Qed.
Lemma S2_trans (a b c : bucket lrec) : Forall2 S2 a b -> Forall2 S2 b c -> Forall2 S2 a c.
Proof. apply Forall2_compose. intros x y z [H1 H2] [H3 H4]. split; congruence. Qed.
Lemma E2_trans a b c : E2 a b -> E2 b c -> E2 a c.
Proof. apply lift_trans, S2_trans. Qed.
Lemma AQ_set n c k b k2 : wf lrec c -> QB n b -> AQ n k2 c -> AQ n k2 (setl c k b).
Proof. intros Hw Hb H. unfold AQ. rewrite get_set by assumption. destruct (key_eqb k2 k); assumption. Qed.

Lemma AQ_set_same n c k b : wf lrec c -> QB n b -> AQ n k (setl c k b).
Proof. intros Hw Hb. unfold AQ. rewrite get_set by assumption. rewrite key_eqb_refl. assumption. Qed.

Lemma live_instances_S2 n (b b' : bucket lrec) :
  Forall2 S2 b b' -> live_instances lrec log_ops b' n = live_instances lrec log_ops b n.
Proof.
  intros H. symmetry. apply (flat_map_Forall2 _ _ _ _ _ H). intros e e' [Hid He].
  unfold l_expires in He. simpl. unfold is_expired. rewrite Hid, He. reflexivity.
Qed.

Lemma hosts_of_bucket_S2 (b b' : bucket lrec) :
  Forall2 S2 b b' -> hosts_of_bucket lrec b' = hosts_of_bucket lrec b.
Proof. intros H. symmetry. apply (flat_map_Forall2 _ _ _ _ _ H). intros e e' [Hid _]. rewrite Hid. reflexivity. Qed.

Lemma In_dedup_bytes x : forall l, In x l -> In x (dedup_bytes l).
Proof.
  induction l as [|y l IH]; intros H; [contradiction|]. simpl.
  destruct (beq y x) eqn:E.
  - apply beq_eq in E. subst. left. reflexivity.
  - destruct H as [->|H]; [rewrite beq_refl in E; discriminate|].
    right. apply filter_In. split; [apply IH; exact H | rewrite E; reflexivity].
Qed.

(* what the refresh part keeps of the cache c0 it started from, whatever it has refreshed so far *)
Definition refreshed (n : N) (c0 c : lcache) : Prop :=
  wf lrec c /\ AP n c /\ E2 c0 c /\ forall k, AQ n k c0 -> AQ n k c.

Lemma refreshed_refl n c : wf lrec c -> AP n c -> refreshed n c c.
Proof. intros Hw HP. split; [exact Hw|]. split; [exact HP|]. split; [apply lift_refl, S2_refl | auto]. Qed.

Lemma refreshed_trans n a b c : refreshed n a b -> refreshed n b c -> refreshed n a c.
Proof.
  intros (_ & _ & E1 & M1) (W & HP & E' & M2). split; [exact W|]. split; [exact HP|].
  split; [eapply E2_trans; eauto | auto].
Qed.

Lemma refreshed_set n c0 c k b :
  refreshed n c0 c -> QB n b -> Forall2 S2 (getl c k) b -> refreshed n c0 (setl c k b) /\ AQ n k (setl c k b).
Proof.
  intros (W & HP & HE & M) Qb Sb. split; [|apply AQ_set_same; assumption].
  split; [apply set_wf, W|]. split; [apply AP_set; auto using QB_PB|].
  split; [eapply E2_trans; [exact HE | apply lift_set; [apply S2_refl | exact W | exact Sb]]|].
  intros k2 H. apply AQ_set; auto.
Qed.

Lemma refreshed_step n c0 c k b d :
  refreshed n c0 c -> refresh_bucket lrec log_ops (getl c k) n = Ok (b, d) ->
  refreshed n c0 (setl c k b) /\ AQ n k (setl c k b).
Proof.
  intros HR H. destruct (refresh_bucket_PQ n _ _ _ (proj1 (proj2 HR) k) H) as [Qb Sb].
  apply refreshed_set; assumption.
Qed.

Lemma refresh_srv_txt_PQ n : forall insts c c' acc acc',
  wf lrec c -> AP n c -> refresh_srv_txt lrec log_ops c n insts acc = Ok (c', acc') ->
  refreshed n c c' /\ forall i, In i insts -> AQ n (1, i) c' /\ AQ n (2, i) c'.
Proof.
  induction insts as [|i insts IH]; intros c c' acc acc' Hw HP H; simpl in H.
  { inversion H; subst. split; [apply refreshed_refl; assumption | intros j []]. }
  apply bind_ok_inv in H as ([bs ds] & H1 & H). apply bind_ok_inv in H as ([bt dt] & H2 & H).
  destruct (refreshed_step n c c _ _ _ (refreshed_refl n c Hw HP) H1) as [R1 Q1].
  destruct (refreshed_step n c _ _ _ _ R1 H2) as [R2 Q2].
  destruct (IH _ _ _ _ (proj1 R2) (proj1 (proj2 R2)) H) as [R' Hin].
  split; [eapply refreshed_trans; eauto|].
  destruct R' as (_ & _ & _ & M). destruct R2 as (_ & _ & _ & M2).
  intros j [<-|Hj]; [|apply Hin; exact Hj]. split; apply M; [|exact Q2].
  apply AQ_set; [apply R1 | | exact Q1]. eapply refresh_bucket_PQ; [apply R1 | exact H2].
Qed.

Lemma refresh_hosts_PQ n : forall hosts c c' qs,
  wf lrec c -> AP n c -> refresh_hosts lrec log_ops c n hosts = Ok (c', qs) ->
  refreshed n c c' /\ forall h, In h hosts -> AQ n (3, lower h) c'.
Proof.
  induction hosts as [|h hosts IH]; intros c c' qs Hw HP H; simpl in H.
  { inversion H; subst. split; [apply refreshed_refl; assumption | intros j []]. }
  apply bind_ok_inv in H as ([b d] & H1 & H). apply bind_ok_inv in H as ([c2 q2] & H2 & H). inversion H; subst.
  destruct (refreshed_step n c c _ _ _ (refreshed_refl n c Hw HP) H1) as [R1 Q1].
  destruct (IH _ _ _ (proj1 R1) (proj1 (proj2 R1)) H2) as [R' Hin].
  split; [eapply refreshed_trans; eauto|]. destruct R' as (_ & _ & _ & M).
  intros j [<-|Hj]; [apply M; exact Q1 | apply Hin; exact Hj].
Qed.

(* everything the refresh step works on has been looked at *)
Definition SQ (n : N) (cfg : simcfg) (c : lcache) : Prop :=
  (forall ty, sc_browse cfg = Some ty ->
     AQ n (0, ty) c /\
     forall i, In i (live_instances lrec log_ops (getl c (0, ty)) n) ->
       AQ n (1, i) c /\ AQ n (2, i) c /\
       forall h, In h (hosts_of_bucket lrec (getl c (1, i))) -> AQ n (3, lower h) c) /\
  (forall h, sc_host cfg = Some h -> AQ n (3, lower h) c).

Lemma SQ_mono n cfg c c' :
  (forall k, AQ n k c -> AQ n k c') ->
  (forall ty i, In i (live_instances lrec log_ops (getl c' (0, ty)) n) ->
                In i (live_instances lrec log_ops (getl c (0, ty)) n)) ->
  (forall i h, In h (hosts_of_bucket lrec (getl c' (1, i))) -> In h (hosts_of_bucket lrec (getl c (1, i)))) ->
  SQ n cfg c -> SQ n cfg c'.
Proof.
  intros Hk Hl Hh [Hb Hs]. split; [|intros h Hc; apply Hk, Hs, Hc].
  intros ty Hty. destruct (Hb ty Hty) as [Hq Hi]. split; [apply Hk, Hq|].
  intros i Hin. destruct (Hi i (Hl ty i Hin)) as (Q1 & Q2 & Q3).
  split; [apply Hk, Q1|]. split; [apply Hk, Q2|]. intros h Hin'. apply Hk, Q3, Hh, Hin'.
Qed.

Lemma SQ_E2 n cfg c c' :
  E2 c c' -> (forall k, AQ n k c -> AQ n k c') -> SQ n cfg c -> SQ n cfg c'.
Proof.
  intros HE Hk. apply SQ_mono; [exact Hk | |].
  - intros ty i. rewrite (live_instances_S2 n _ _ (HE (0, ty))). auto.
  - intros i h. rewrite (hosts_of_bucket_S2 _ _ (HE (1, i))). auto.
Qed.

Lemma refresh_browse_PQ n c ty c' qs :
  wf lrec c -> AP n c -> refresh_browse lrec log_ops c n ty = Ok (c', qs) ->
  refreshed n c c' /\ SQ n (mkCfg (Some ty) None) c'.
Proof.
  intros Hw HP H. unfold refresh_browse in H.
  apply bind_ok_inv in H as ([bp dp] & Hp & H). apply bind_ok_inv in H as (qp & _ & H).
  apply bind_ok_inv in H as ([c2 due] & H2 & H). apply bind_ok_inv in H as (qi & _ & H).
  apply bind_ok_inv in H as ([c3 hq] & H3 & H). apply bind_ok_inv in H as (qh & _ & H).
  inversion H; subst. clear H.
  destruct (refreshed_step n c c _ _ _ (refreshed_refl n c Hw HP) Hp) as [R1 Q0].
  destruct (refresh_srv_txt_PQ n _ _ _ _ _ (proj1 R1) (proj1 (proj2 R1)) H2) as [R2 Hin2].
  destruct (refresh_hosts_PQ n _ _ _ _ (proj1 R2) (proj1 (proj2 R2)) H3) as [R3 Hin3].
  pose proof (refreshed_trans _ _ _ _ R2 R3) as R23.
  split; [eapply refreshed_trans; eauto|].
  destruct R23 as (_ & _ & E23 & M23). destruct R3 as (_ & _ & E3 & M3).
  split; [|intros h Hh; discriminate]. intros ty' Hty. inversion Hty; subst ty'.
  split; [apply M23; exact Q0|]. intros i Hi.
  (* the live instances are those of the refreshed PTR Vec *)
  rewrite (live_instances_S2 n _ _ (E23 (0, ty))), get_set, key_eqb_refl in Hi by exact Hw.
  destruct (Hin2 i Hi) as [Q1 Q2].
  split; [apply M3; exact Q1|]. split; [apply M3; exact Q2|].
  intros h Hh. apply Hin3. apply In_dedup_bytes. apply in_flat_map. exists i. split; [exact Hi|].
  rewrite <- (hosts_of_bucket_S2 _ _ (E3 (1, i))). exact Hh.
Qed.

Lemma refresh_phase_PQ n cfg c c' qs :
  wf lrec c -> AP n c -> refresh_phase lrec log_ops cfg c n = Ok (c', qs) ->
  refreshed n c c' /\ SQ n cfg c'.
Proof.
  intros Hw HP H. unfold refresh_phase in H.
  apply bind_ok_inv in H as ([c1 qr] & H1 & H). apply bind_ok_inv in H as ([c2 qa] & H2 & H).
  inversion H; subst. clear H.
  assert (B : refreshed n c c1 /\ SQ n (mkCfg (sc_browse cfg) None) c1).
  { destruct (sc_browse cfg) as [ty|]; [eapply refresh_browse_PQ; eassumption|].
    inversion H1; subst. split; [apply refreshed_refl; assumption|].
    split; intros ? Hx; discriminate Hx. }
  destruct B as [R1 S1].
  destruct (sc_host cfg) as [h|] eqn:Eh.
  - unfold refresh_host in H2.
    apply bind_ok_inv in H2 as ([b due] & Hb & H2). apply bind_ok_inv in H2 as (q & _ & H2). inversion H2; subst.
    destruct (refresh_once_bucket_PQ n _ _ _ (proj1 (proj2 R1) (3, lower h)) Hb) as [Qb Eb].
    destruct (refreshed_set n c1 c1 _ _ (refreshed_refl n c1 (proj1 R1) (proj1 (proj2 R1))) Qb Eb) as [R2 Qh].
    split; [eapply refreshed_trans; eauto|]. destruct R2 as (_ & _ & E12 & M12).
    destruct (SQ_E2 n _ _ _ E12 M12 S1) as [Sb _].
    split; [exact Sb|]. intros h' Hh'. rewrite Eh in Hh'. inversion Hh'; subst. exact Qh.
  - inversion H2; subst. split; [exact R1|]. destruct S1 as [Sb _].
    split; [exact Sb|]. intros h' Hh'. rewrite Eh in Hh'. discriminate Hh'.
Qed.

(* c' holds, key by key, only records of c *)
Definition subcache (c c' : lcache) : Prop := forall k e, In e (getl c' k) -> In e (getl c k).
(* nothing eviction works on is expired at n *)
Definition none_overdue (n : N) (cfg : simcfg) (c : lcache) : Prop :=
  forall k e, acted cfg k = true -> In e (getl c k) -> n < l_expires e.

Lemma subcache_refl c : subcache c c. Proof. intros k e H. exact H. Qed.
Lemma subcache_trans a b c : subcache a b -> subcache b c -> subcache a c.
Proof. intros H1 H2 k e H. apply H1, H2, H. Qed.

Lemma evict_kept_in n (b : bucket lrec) e :
  In e (fst (evict lrec log_ops b n)) -> In e b /\ n < l_expires e.
Proof.
  unfold evict. simpl. rewrite filter_In. intros [Hin Hf]. split; [exact Hin|].
  unfold is_expired, is_expired_g in Hf. apply negb_true_iff in Hf. apply N.leb_gt in Hf. exact Hf.
Qed.

Lemma subcache_set c0 c k b :
  wf lrec c -> subcache c0 c -> (forall e, In e b -> In e (getl c0 k)) -> subcache c0 (setl c k b).
Proof.
  intros Hw HS H k2 e He. rewrite get_set in He by exact Hw.
  destruct (key_eqb k2 k) eqn:Ek; [|apply HS; exact He]. apply key_eqb_eq in Ek. subst. auto.
Qed.

Lemma sweep_look kinds n (c : lcache) :
  wf lrec c ->
  subcache c (sweep lrec log_ops kinds c n) /\
  forall k e, In e (getl (sweep lrec log_ops kinds c n) k) -> kinds (fst k) = true -> n < l_expires e.
Proof.
  intros Hw. split; intros k e He; rewrite get_sweep in He by exact Hw.
  - destruct (kinds (fst k)); [apply evict_kept_in in He as [He _]|]; exact He.
  - intros Hk. rewrite Hk in He. apply evict_kept_in in He as [_ Hn]. exact Hn.
Qed.

Lemma fold_evict_instance_sub n gone : forall (b : bucket lrec) (c : lcache) rm,
  wf lrec c -> subcache c (fst (fold_left (evict_instance lrec log_ops n gone) b (c, rm))).
Proof.
  induction b as [|e b IH]; intros c rm Hw; simpl; [apply subcache_refl|].
  unfold evict_instance at 2. destruct (alias_of (c_id e)) as [inst|]; [|apply IH; assumption].
  eapply subcache_trans; [|apply IH, set_wf, Hw]. apply subcache_set; [exact Hw | apply subcache_refl|].
  intros x Hx. apply evict_kept_in in Hx as [Hx _]. exact Hx.
Qed.

Lemma evict_services_look n (c : lcache) browse :
  wf lrec c ->
  wf lrec (fst (evict_services lrec log_ops c n browse)) /\
  subcache c (fst (evict_services lrec log_ops c n browse)) /\
  (forall k e, In e (getl (fst (evict_services lrec log_ops c n browse)) k) ->
     (fst k = 1 \/ fst k = 2 \/ (exists ty, browse = Some ty /\ k = (0, ty))) -> n < l_expires e).
Proof.
  intros Hw. split; [apply evict_services_wf, Hw|]. unfold evict_services.
  pose proof (sweep_srv_fst lrec log_ops c n) as F.
  destruct (sweep_srv lrec log_ops c n) as [c0 gone]. simpl in F. subst c0.
  set (c0 := sweep lrec log_ops (fun k => k =? 1) c n).
  destruct (sweep_look (fun k => k =? 1) n c Hw) as [Sub1 Alive1]. fold c0 in Sub1, Alive1.
  assert (W0 : wf lrec c0) by apply sweep_wf, Hw.
  destruct browse as [ty|].
  - pose proof (fold_evict_instance_wf lrec log_ops n gone (getl c0 (0, ty)) c0 [] W0) as W1.
    pose proof (fold_evict_instance_sub n gone (getl c0 (0, ty)) c0 [] W0) as S1.
    destruct (fold_left _ _ _) as [c1 rm1]. simpl in W1, S1.
    assert (Hkp : forall e, In e (fst (evict lrec log_ops (getl c0 (0, ty)) n)) ->
                    In e (getl c0 (0, ty)) /\ n < l_expires e) by (intros e; apply evict_kept_in).
    destruct (evict lrec log_ops (getl c0 (0, ty)) n) as [kp xp]. simpl in Hkp |- *.
    pose proof (set_wf lrec c1 (0, ty) kp W1) as W2.
    assert (SM : subcache c0 (setl c1 (0, ty) kp)).
    { apply subcache_set; [exact W1 | exact S1 | intros e He; apply Hkp, He]. }
    destruct (sweep_look (fun k => k =? 2) n _ W2) as [Sub2 Alive2]. split.
    + eapply subcache_trans; [exact Sub1|]. eapply subcache_trans; eassumption.
    + intros k e He [H1 | [H2 | (ty' & Hty & ->)]].
      * apply (Alive1 k e); [apply SM, Sub2, He | rewrite H1; reflexivity].
      * apply (Alive2 k e He). rewrite H2. reflexivity.
      * inversion Hty; subst ty'. rewrite get_sweep, get_set, key_eqb_refl in He by assumption. apply Hkp, He.
  - simpl. destruct (sweep_look (fun k => k =? 2) n c0 W0) as [Sub2 Alive2]. split.
    + eapply subcache_trans; eassumption.
    + intros k e He [H1 | [H2 | (ty & Hty & _)]]; [| |discriminate].
      * apply (Alive1 k e); [apply Sub2, He | rewrite H1; reflexivity].
      * apply (Alive2 k e He). rewrite H2. reflexivity.
Qed.

Lemma evict_addrs_look n (c : lcache) host k :
  wf lrec c ->
  getl (fst (evict_addrs lrec log_ops c n host)) k =
  if fst k =? 3 then fst (evict lrec log_ops (getl c k) n) else getl c k.
Proof. intros Hw. unfold evict_addrs. simpl. apply (get_sweep lrec log_ops (fun k => k =? 3) c n k Hw). Qed.

Lemma evict_phase_look n cfg (c : lcache) :
  wf lrec c ->
  wf lrec (evict_phase lrec log_ops cfg c n) /\ subcache c (evict_phase lrec log_ops cfg c n) /\
  none_overdue n cfg (evict_phase lrec log_ops cfg c n).
Proof.
  intros Hw. destruct (evict_services_look n c (sc_browse cfg) Hw) as (W3 & Sub3 & N3).
  split; [apply evict_phase_wf, Hw|]. unfold evict_phase. split.
  - intros k e He. rewrite evict_addrs_look in He by exact W3. apply Sub3.
    destruct (fst k =? 3); [apply evict_kept_in in He as [He _]|]; exact He.
  - intros k e Hk He. rewrite evict_addrs_look in He by exact W3. unfold acted in Hk.
    destruct (fst k =? 3) eqn:E3; [apply evict_kept_in in He as [_ Hlt]; exact Hlt|].
    apply (N3 k e He). rewrite !orb_true_iff, !N.eqb_eq in Hk. destruct Hk as [[[Hk|Hk]|Hk]|Hk]; auto; [discriminate|].
    right. right. destruct (sc_browse cfg) as [ty|]; [|discriminate].
    exists ty. split; [reflexivity | apply key_eqb_eq; exact Hk].
Qed.

Lemma AQ_subcache n k c c' : subcache c c' -> AQ n k c -> AQ n k c'.
Proof.
  intros HS H. unfold AQ, QB in *. rewrite Forall_forall in *. intros e He. apply H. apply HS. exact He.
Qed.

Lemma SQ_subcache n cfg c c' : subcache c c' -> SQ n cfg c -> SQ n cfg c'.
Proof.
  intros HS. apply SQ_mono.
  - intros k. apply AQ_subcache, HS.
  - intros ty i. apply In_flat_map_incl, HS.
  - intros i h. apply In_flat_map_incl, HS.
Qed.

Lemma AP_subcache n c c' : subcache c c' -> AP n c -> AP n c'.
Proof.
  intros HS H k. unfold PB. rewrite Forall_forall. intros e He.
  specialize (H k). unfold PB in H. rewrite Forall_forall in H. apply H. apply HS. exact He.
Qed.

(* What holds after the iteration at n with the searches cfg.  An iteration needs only wf and AP
   of the state it starts from (time has moved on and the searches may have changed, so SQ and
   none_overdue of the last iteration are worth nothing) and establishes all four again: hence
   treach_iter_inv uses only the first two conjuncts of its induction hypothesis. *)
Definition iter_inv (c : lcache) (n : N) (cfg : simcfg) : Prop :=
  wf lrec c /\ AP n c /\ SQ n cfg c /\ none_overdue n cfg c.

(* the part of an iteration after the records have been taken in and the commands executed *)
Lemma sim_iter_iter_inv cfg c n nsb nsh c' o :
  wf lrec c -> AP n c -> sim_iter lrec log_ops cfg c n nsb nsh [] = Ok (c', o) ->
  iter_inv c' n cfg /\ exists c2, E2 c c2 /\ subcache c2 c'.
Proof.
  intros Hw HP H. apply sim_iter_inv in H as (c0 & qb & qh & c2 & qr & H0 & _ & _ & H2 & -> & _).
  inversion H0; subst c0.
  destruct (refresh_phase_PQ n cfg c c2 qr Hw HP H2) as [(W2 & P2 & HE & _) S2'].
  destruct (evict_phase_look n cfg c2 W2) as (W4 & Sub4 & N4).
  split; [|exists c2; split; assumption].
  split; [exact W4|]. split; [eapply AP_subcache; eauto|]. split; [eapply SQ_subcache; eauto | exact N4].
Qed.

Lemma t_iter_iter_inv s c n0 c' o :
  wf lrec c -> AP n0 c -> tstep_ok n0 s -> t_iter s c = Ok (c', o) -> iter_inv c' (ts_now s) (ts_cfg s).
Proof.
  intros Hw HP (Hle & Hn & Hr) H. unfold t_iter in H. set (n := ts_now s) in *.
  apply bind_ok_inv in H as (c0 & Hi & H).
  destruct (ingest_P n _ _ _ Hn Hr (pop_wf n c Hw) (AP_pop n0 n c Hle HP) Hi) as [P0 W0].
  apply sim_iter_iter_inv in H; [apply H | |]; destruct (ts_stop s) as [ty|]; try assumption;
    apply (remove_P n ty c0 W0 P0).
Qed.

Theorem treach_iter_inv c n cfg : treach c n cfg -> iter_inv c n cfg.
Proof.
  induction 1 as [cfg | c n cfg s c' o Hr IH Hs Hi]; [|].
  { split; [constructor|]. split; [intros k; constructor|]. split; [|intros k e _ []].
    split; [intros ty _; split; [constructor | intros i []] | intros h _; constructor]. }
  destruct IH as (Hw & HP & _). eapply t_iter_iter_inv; eauto.
Qed.

(* a step of a concrete history, its side conditions decided by evaluation *)
Lemma treach_step_eval c n cfg s c' :
  treach c n cfg ->
  (n <=? ts_now s) && (ts_now s <? B63) && forallb (fun r => snd r <? U32) (ts_recs s) = true ->
  (exists o, t_iter s c = Ok (c', o)) -> treach c' (ts_now s) (ts_cfg s).
Proof.
  intros Hr Hb [o Hi]. rewrite !andb_true_iff, N.leb_le, N.ltb_lt, forallb_forall in Hb.
  destruct Hb as [[H1 H2] H3]. apply (treach_step c n cfg s c' o Hr); [|exact Hi].
  split; [exact H1|]. split; [exact H2|]. apply Forall_forall. intros r Hin. apply N.ltb_lt, H3, Hin.
Qed.

Lemma log_in_timers (c : lcache) k e t : In e (getl c k) -> In t (snd (c_t e)) -> In t (timers c).
Proof.
  intros He Ht. unfold timers. induction c as [|[k1 b1] c IH]; [contradiction|]. simpl in *.
  apply in_or_app. destruct (key_eqb k k1); [left; apply in_flat_map; exists e; auto | right; auto].
Qed.

Lemma subject_in cfg c n e :
  In e (subject cfg c n) -> SQ n cfg c ->
  exists k, In e (getl c k) /\ acted cfg k = true /\ AQ n k c.
Proof.
  intros He [Sb Sh]. unfold subject in He.
  destruct (sc_browse cfg) as [ty|] eqn:Eb.
  - destruct (Sb ty eq_refl) as [Q0 Qi].
    apply in_app_or in He as [He|He].
    { exists (0, ty). split; [exact He|]. split; [|exact Q0]. unfold acted. rewrite Eb, key_eqb_refl, !orb_true_r. reflexivity. }
    apply in_app_or in He as [He|He].
    { apply in_flat_map in He as (i & Hi & He). destruct (Qi i Hi) as (Q1 & Q2 & _).
      apply in_app_or in He as [He|He]; [exists (1, i) | exists (2, i)]; (split; [exact He|]); split; auto. }
    apply in_app_or in He as [He|He].
    { apply in_flat_map in He as (h & Hh & He). apply in_flat_map in Hh as (i & Hi & Hh).
      destruct (Qi i Hi) as (_ & _ & Q3). exists (3, lower h). split; [exact He|]. split; [reflexivity | apply Q3; exact Hh]. }
    destruct (sc_host cfg) as [h|]; [|contradiction].
    exists (3, lower h). split; [exact He|]. split; [reflexivity | apply Sh; reflexivity].
  - simpl in He. destruct (sc_host cfg) as [h|]; [|contradiction].
    exists (3, lower h). split; [exact He|]. split; [reflexivity | apply Sh; reflexivity].
Qed.

Theorem due_work_has_timer c n cfg t :
  treach c n cfg -> In t (due_work cfg c n) -> In t (timers c).
Proof.
  intros Hr Ht. destruct (treach_iter_inv c n cfg Hr) as (Hw & HP & HS & HN).
  unfold due_work in Ht. apply in_app_or in Ht as [Ht|Ht].
  - apply in_flat_map in Ht as ([k b] & Hkb & Ht). simpl in Ht.
    destruct (acted cfg k) eqn:Ea; [|contradiction]. apply in_map_iff in Ht as (e & <- & He).
    assert (Hg : In e (getl c k)) by (rewrite (get_in lrec c k b Hw Hkb); exact He).
    pose proof (HN k e Ea Hg) as Hlt.
    specialize (HP k). unfold PB in HP. rewrite Forall_forall in HP. destruct (HP e Hg) as (_ & H1 & _).
    apply (log_in_timers c k e _ Hg). apply H1. exact Hlt.
  - apply in_flat_map in Ht as (e & He & Ht).
    destruct (l_refresh e <? l_expires e) eqn:El; [|contradiction]. destruct Ht as [<-|[]].
    apply N.ltb_lt in El.
    destruct (subject_in cfg c n e He HS) as (k & Hg & Ha & Hq).
    pose proof (HN k e Ha Hg) as Hlt.
    unfold AQ, QB in Hq. rewrite Forall_forall in Hq. destruct (Hq e Hg) as (_ & H1).
    destruct (H1 Hlt) as [_ H2]. apply (log_in_timers c k e _ Hg). apply H2. exact El.
Qed.

Corollary no_expired_left c n cfg k b e :
  treach c n cfg -> In (k, b) c -> acted cfg k = true -> In e b -> n < l_expires e.
Proof.
  intros Hr Hkb Ha He. destruct (treach_iter_inv c n cfg Hr) as (Hw & _ & _ & HN).
  apply (HN k e Ha). rewrite (get_in lrec c k b Hw Hkb). exact He.
Qed.

(* The timed model is the C11 model with ghost logs: on every history of the C11 model (fixed
   searches, no stop) it runs without panic exactly when the C11 model does and makes the same
   observations. *)
(* the logged record x is the plain record r, in a state the property knows *)
Definition erases_to (x : lrec) (r : trec) : Prop := fst x = r /\ inv r.

Lemma log_trec_rel : ops_rel lrec trec log_ops trec_ops erases_to.
Proof.
  constructor; simpl.
  - intros now ttl Hn H1 H2. rewrite new_rec_ok by (apply expiry_fits_u64; assumption). simpl.
    apply res_rel_ret. split; [reflexivity | eexists; apply R_init; assumption].
  - intros x r now [<- _]. reflexivity.
  - intros x r now [<- [s HR]]. destruct (refresh_maybe_spec (fst x) s now HR) as (r' & E & HR').
    rewrite E. simpl. apply res_rel_ret. constructor; [split; [reflexivity | eexists; exact HR'] | reflexivity].
  - intros x r now [<- [s HR]]. destruct (refresh_once_spec (fst x) s now HR) as (r' & E & HR').
    rewrite E. simpl. apply res_rel_ret. constructor; [split; [reflexivity | eexists; exact HR'] | reflexivity].
  - intros x r ttl now _ Hn H1 H2. rewrite !reset_ttl_ok by assumption. simpl.
    apply res_rel_ret. split; [reflexivity | eexists; apply R_reset; assumption].
  - intros inc id x r now [<- [s HR]] Hn.
    destruct (rel_should_flush _ _ _ _ _ trec_astate_rel inc id _ _ now HR Hn) as (b & ? & E1 & _). simpl in E1.
    rewrite E1. apply res_rel_ret. reflexivity.
  - intros inc id x r now [<- Hi] Hn Hf. split; [|reflexivity]. split; [reflexivity|].
    apply (inv_shorten inc id); assumption.
  - intros x r now [<- [s HR]].
    destruct (rel_ka _ _ _ _ _ trec_astate_rel _ _ now HR) as (k & ? & Hk & _). simpl in Hk.
    rewrite Hk. apply res_rel_ret. exact I.
  - intros x r [<- _]. reflexivity.
Qed.

Lemma sim_iter_split (T : Type) (O : ops T) cfg (c : cache T) now a b recs :
  sim_iter T O cfg c now a b recs = (let? c0 := ingest T O c now recs in sim_iter T O cfg c0 now a b []).
Proof. unfold sim_iter. simpl. destruct (ingest T O c now recs); reflexivity. Qed.

Lemma pop_Rc n (c : lcache) (ce : cache trec) :
  Rc lrec trec erases_to c ce -> Rc lrec trec erases_to (pop_cache n c) ce.
Proof.
  intros H. induction H as [|[k1 b1] [k2 b2] c ce [Hk Hb] Hc IH]; [constructor|].
  simpl. constructor; [|exact IH]. simpl in *. split; [exact Hk|].
  clear -Hb. induction Hb as [|e1 e2 b1 b2 [Hid Ht] Hb IH]; constructor; [|exact IH].
  split; [exact Hid | exact Ht].
Qed.

Lemma t_run_erases cfg : forall steps (c : lcache) (ce : cache trec),
  Rc lrec trec erases_to c ce -> Forall step_ok steps ->
  res_rel (Forall2 io_eq) (t_run c (map (tstep_of cfg) steps)) (sim_run trec trec_ops cfg ce steps).
Proof.
  induction steps as [|s steps IH]; intros c ce Hc Hs; [apply res_rel_ret; constructor|].
  inversion Hs as [|? ? [Hn Hr] Hs']; subst. simpl. unfold t_iter. simpl. rewrite <- sim_iter_split.
  eapply res_rel_bind; [apply (sim_iter_rel _ _ _ _ _ log_trec_rel); [apply pop_Rc, Hc | assumption..]|].
  intros ? ? [c1' c2' o1 o2 Hc' Ho].
  eapply res_rel_bind; [apply IH; assumption|]. intros os oe Hos. apply res_rel_ret. constructor; assumption.
Qed.

