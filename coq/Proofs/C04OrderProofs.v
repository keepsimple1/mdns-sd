(* C04, clause F, one iteration: every ServiceResolved on a channel comes after a ServiceFound for
   that instance on that channel, unless a browse starts while a cached PTR record of the type is
   in its last second.  Over histories (the checker never reports F04_order):
   C04HistoryProofs.resolved_only_after_found.

   Invariant FI: for every browsed type (on channel ch) every PTR record of that type in the
   cache either has been announced on ch (the checker's `found` list) or has TTL <= 1.  A PTR
   record with TTL <= 1 expires within a second (C03 invariant), so it is never used for a
   ServiceResolved; a record that is written over with TTL > 1 is revived and announced. *)
From Coq Require Import List NArith Bool Lia.
From Mdns Require Import Bytes Rec ParamsBrowser ParamsBrowserPinned Cache Browser C03Spec BrowserSpec BrowserKnown
  CacheProofs CacheInvProofs BrowserProofs SpecTrackProofs BrowserLoopProofs C05SafetyProofs AouCasesProofs.
Import ListNotations.
Open Scope N_scope.

Definition FI (c : cache) (q : list (bytes * N)) (F : list (N * bytes)) : Prop :=
  forall ty ch b p, q_get ty q = Some ch -> In (ty, b) (c_ptr c) -> In p b ->
    In (ch, alias_of (e_rr p)) F \/ e_ttl p <= 1.

Lemma FI_mono c q F F' : incl F F' -> FI c q F -> FI c q F'.
Proof. intros Hi H ty ch b p A B C. destruct (H ty ch b p A B C); auto. Qed.

Lemma FI_shrinks c c' q F : shrinks_to c c' -> FI c q F -> FI c' q F.
Proof.
  intros Hs H ty ch b' p' A B C. destruct (Hs KPtr ty b' p' B C) as (b & p & Hb & Hp & (S1 & _)).
  unfold e_ttl. rewrite S1. apply (H ty ch b p A Hb Hp).
Qed.

Definition founds (o : list out) : list (N * bytes) :=
  flat_map (fun x => match x with OEvt c (EFound _ i) => [(c, i)] | _ => [] end) o.

Lemma founds_app a b : founds (a ++ b) = founds a ++ founds b.
Proof. unfold founds. apply flat_map_app. Qed.

Lemma founds_In o c t i : In (OEvt c (EFound t i)) o -> In (c, i) (founds o).
Proof. intros H. apply in_flat_map. exists (OEvt c (EFound t i)). split; [exact H|now left]. Qed.

(* every ServiceResolved of o is for a pair in F or found earlier in o: what ev04 checks, F being its `found` list *)
Fixpoint order_ok (F : list (N * bytes)) (o : list out) : Prop :=
  match o with
  | [] => True
  | x :: t =>
    match x with OEvt c (EResolved r) => In (c, rs_name r) F | _ => True end
    /\ order_ok (F ++ founds [x]) t
  end.

Lemma order_ok_mono o : forall F F', incl F F' -> order_ok F o -> order_ok F' o.
Proof.
  induction o as [|x t IH]; intros F F' Hi; simpl; [auto|]. intros [A B]. split.
  - destruct x as [c [ | r | ]| |]; auto.
  - apply (IH (F ++ founds [x])); [|exact B]. apply incl_app; [apply incl_appl; exact Hi|apply incl_appr, incl_refl].
Qed.

Lemma order_ok_app a : forall F b, order_ok F a -> order_ok (F ++ founds a) b -> order_ok F (a ++ b).
Proof.
  induction a as [|x t IH]; intros F b Ha Hb.
  - simpl in *. now rewrite app_nil_r in Hb.
  - simpl in Ha |- *. destruct Ha as [A B]. split; [exact A|]. apply IH; [exact B|].
    change (x :: t) with ([x] ++ t) in Hb. rewrite founds_app, app_assoc in Hb. exact Hb.
Qed.

Lemma founds_nil o :
  (forall x, In x o -> match x with OEvt _ (EFound _ _) => False | _ => True end) -> founds o = [].
Proof.
  induction o as [|x t IH]; intros H; [reflexivity|]. change (x :: t) with ([x] ++ t). rewrite founds_app.
  rewrite IH by (intros y Hy; apply H; now right).
  specialize (H x (or_introl eq_refl)). destruct x as [c [ | r | ]| |]; simpl in *; auto; contradiction.
Qed.

Lemma order_ok_resolved F o :
  (forall x, In x o -> match x with OEvt c (EResolved r) => In (c, rs_name r) F | _ => True end) ->
  order_ok F o.
Proof.
  revert F. induction o as [|x t IH]; intros F H; simpl; [exact I|]. split; [apply H; now left|].
  apply IH. intros y Hy. specialize (H y (or_intror Hy)).
  destruct y as [c [ | r | ]| |]; auto. apply in_app_iff. now left.
Qed.

(* neither ServiceFound nor ServiceResolved: leaves both F and the order check alone *)
Definition calm (x : out) : Prop :=
  match x with OEvt _ (EFound _ _) => False | OEvt _ (EResolved _) => False | _ => True end.

Lemma calm_order F o : Forall calm o -> order_ok F o /\ founds o = [].
Proof.
  intros H. split.
  - apply order_ok_resolved. intros x Hx. rewrite Forall_forall in H. specialize (H x Hx).
    destruct x as [c [ | r | ]| |]; simpl in *; auto; contradiction.
  - induction H as [|x t Hx Ht IH]; [reflexivity|]. change (x :: t) with ([x] ++ t). rewrite founds_app, IH, app_nil_r.
    destruct x as [c [ | r | ]| |]; simpl in *; auto; contradiction.
Qed.

Lemma found_only_order F o : Forall is_found o -> order_ok F o.
Proof.
  intros H. apply order_ok_resolved. intros x Hx. rewrite Forall_forall in H. specialize (H x Hx).
  destruct x as [c [ | r | ]| |]; simpl in *; auto; contradiction.
Qed.

(* expires <= created + 1000 * ttl, and created is a delivery time, hence <= now *)
Lemma ttl1_soon L k key e now :
  entry_ok L k key e -> times_le L now -> e_ttl e <= 1 -> expires_soon e now = true.
Proof.
  intros Hok Htimes Httl. destruct (entry_ok_delivered _ _ _ _ Hok) as (d & Hd & _ & Ht & _ & Hexp & _).
  destruct (expires_soon e now) eqn:E; [reflexivity|]. apply expires_soon_false in E.
  specialize (Htimes d Hd). lia.
Qed.

Definition found_of (q : list (bytes * N)) (res : option (entry * bool)) : list out :=
  match res with
  | Some (e, true) =>
    if (e_type e =? TY_PTR) && found_ttl_guard (e_ttl e)
    then match q_get (e_name e) q with
         | Some ch => [OEvt ch (EFound (e_name e) (alias_of (e_rr e)))]
         | None => []
         end
    else []
  | _ => []
  end.

Definition change_of (res : option (entry * bool)) : list (N * bytes) :=
  match res with
  | Some (e, true) =>
    if (e_type e =? TY_PTR) && found_ttl_guard (e_ttl e) then [(TY_PTR, alias_of (e_rr e))]
    else [(e_type e, e_name e)]
  | _ => []
  end.

Lemma hr_records_cons c now ifx q fu r rest :
  let r1 := add_or_update c now ifx r fu in
  fst (fst (hr_records c now ifx q fu (r :: rest))) = fst (fst (hr_records (fst r1) now ifx q fu rest))
  /\ snd (fst (hr_records c now ifx q fu (r :: rest)))
     = found_of q (snd r1) ++ snd (fst (hr_records (fst r1) now ifx q fu rest))
  /\ snd (hr_records c now ifx q fu (r :: rest)) = change_of (snd r1) ++ snd (hr_records (fst r1) now ifx q fu rest).
Proof.
  simpl. destruct (add_or_update c now ifx r fu) as [c1 res]. cbn [fst snd].
  destruct (hr_records c1 now ifx q fu rest) as [[c2 o2] ch2]. cbn [fst snd].
  destruct res as [[e [|]]|]; simpl; auto.
  destruct ((e_type e =? TY_PTR) && found_ttl_guard (e_ttl e)); simpl; [|auto].
  destruct (q_get (e_name e) q); simpl; auto.
Qed.

Lemma aou_FI c now ifx r fu q F :
  FI c q F ->
  FI (fst (add_or_update c now ifx r fu)) q (F ++ founds (found_of q (snd (add_or_update c now ifx r fu)))).
Proof.
  intros H ty ch b' p' Hq Hb Hp.
  destruct (aou_cases c now ifx r fu KPtr ty b' p' Hb Hp) as [(b & p & Hb0 & Hp0 & (S1 & _))|(Hk & Hkey & Hc)].
  - unfold e_ttl. rewrite S1. destruct (H ty ch b p Hq Hb0 Hp0); [left; apply in_app_iff; now left|now right].
  - apply kind_of_type_ptr in Hk. simpl in Hkey.
    destruct Hc as [[-> Hres]|(b & e & Hb0 & He0 & Hm & -> & Hres)]; rewrite Hres; unfold found_of.
    + (* inserted as new *)
      unfold e_type, e_ttl, e_name. simpl. rewrite Hk, N.eqb_refl. simpl.
      rewrite found_ttl_guard_pinned. destruct (1 <? r_ttl r) eqn:Et.
      * rewrite <- Hkey, Hq. left. apply in_app_iff. right. simpl. now left.
      * right. apply N.ltb_ge in Et. exact Et.
    + (* written over a matching record *)
      unfold entry_matches in Hm. apply rr_matches_spec in Hm as (M1 & M2 & _ & _ & M5 & _).
      destruct (fl_eshr r ifx now e) as (S1 & _).
      assert (Hal : alias_of (e_rr (reset_ttl (fl r ifx now e) r now)) = alias_of (e_rr e)).
      { change (alias_of (e_rr (reset_ttl (fl r ifx now e) r now))) with (alias_of (e_rr (fl r ifx now e))).
        f_equal. exact S1. }
      assert (Httl : e_ttl (reset_ttl (fl r ifx now e) r now) = r_ttl r) by reflexivity.
      rewrite Hal, Httl.
      destruct (1 <? r_ttl r) eqn:Et; [|right; apply N.ltb_ge in Et; exact Et].
      rewrite revived_guard_pinned, Et, andb_true_r.
      destruct (e_ttl e <=? 1) eqn:Eo.
      * (* revived: announced *)
        unfold e_type, e_name. simpl. rewrite S1, M2, Hk, N.eqb_refl. simpl.
        rewrite found_ttl_guard_pinned, Et. rewrite M1, <- Hkey, Hq.
        left. apply in_app_iff. right. simpl. left. reflexivity.
      * (* was announced before *)
        apply N.leb_gt in Eo. destruct (H ty ch b e Hq Hb0 He0) as [Hf|Hf]; [|lia].
        left. apply in_app_iff. now left.
Qed.

Lemma hr_records_FI now ifx q fu rs : forall c F,
  FI c q F ->
  FI (fst (fst (hr_records c now ifx q fu rs))) q (F ++ founds (snd (fst (hr_records c now ifx q fu rs)))).
Proof.
  induction rs as [|r rest IH]; intros c F H; [simpl; now rewrite app_nil_r|].
  destruct (hr_records_cons c now ifx q fu r rest) as (-> & -> & _). rewrite founds_app, app_assoc.
  apply IH, aou_FI, H.
Qed.

Lemma resolve_updated_order L s now updated F :
  Inv L (s_cache s) -> times_le L now -> FI (s_cache s) (s_q s) F ->
  order_ok F (snd (resolve_updated s now updated)) /\ founds (snd (resolve_updated s now updated)) = [].
Proof.
  intros HI Ht HF. split.
  - apply order_ok_resolved. intros x Hx.
    apply resolve_updated_out in Hx as [(ty & ch & p & (ptrs & Hb & Hp & Hq & Hsoon & _) & _ & ->)|(ty & ch & i & _ & _ & ->)];
      [|exact I].
    simpl. destruct (HF ty ch ptrs p Hq Hb Hp) as [Hf|Hf]; [exact Hf|].
    destruct (HI KPtr) as [_ Hk]. destruct (Hk ty ptrs Hb) as [_ Hok].
    rewrite (ttl1_soon L KPtr ty p now (Hok p Hp) Ht Hf) in Hsoon. discriminate.
  - apply founds_nil. intros x Hx.
    apply resolve_updated_out in Hx as [(ty & ch & p & _ & _ & ->)|(ty & ch & i & _ & _ & ->)]; exact I.
Qed.

Lemma qc_order c now ty ch ptrs : forall F, order_ok F (fst (fst (qc_ptrs c now ty ch ptrs))).
Proof.
  induction ptrs as [|p rest IH]; intros F; simpl; [exact I|].
  destruct (qc_ptrs c now ty ch rest) as [[o res] unres] eqn:E. simpl in *.
  destruct (expires_soon p now); [apply IH|].
  destruct (is_valid (resolve_from_cache c now ty (alias_of (e_rr p)))); simpl.
  - split; [exact I|]. split; [apply in_app_iff; right; now left|]. apply IH.
  - split; [exact I|]. apply IH.
Qed.

Lemma soon_ptr_ceqr c c' now ty : ceqr c c' -> soon_ptr_at_browse c now ty = soon_ptr_at_browse c' now ty.
Proof.
  intros (A1 & _). unfold soon_ptr_at_browse. pose proof (meqr_get ty _ _ A1) as Hg.
  destruct (bm_get ty (c_ptr c)), (bm_get ty (c_ptr c')); try contradiction; [|reflexivity].
  apply existsb_beqr; [exact Hg|]. intros e e' He. rewrite (eqr_expires_soon _ _ now He).
  destruct He as (H1 & _). unfold e_ttl. now rewrite H1.
Qed.

Section Phases.
  Variable now : N.

  (* the invariant of this file for a state s, its delivery log L and the found list F, and what one phase has to
     give: its outputs in order, and the invariant for the found list extended by them *)
  Definition good (L : list dlv) (s : st) (F : list (N * bytes)) : Prop :=
    Inv L (s_cache s) /\ times_le L now /\ FI (s_cache s) (s_q s) F.

  Definition step_ok (F : list (N * bytes)) (o : list out) (L' : list dlv) (s' : st) : Prop :=
    order_ok F o /\ good L' s' (F ++ founds o).

  Lemma step_ok_nil L s F : good L s F -> step_ok F [] L s.
  Proof. intros H. split; [exact I|]. simpl. now rewrite app_nil_r. Qed.

  Lemma calm_shrink_step L s F s' o :
    good L s F -> Inv L (s_cache s') -> shrinks_to (s_cache s) (s_cache s') -> s_q s' = s_q s ->
    Forall calm o -> step_ok F o L s'.
  Proof.
    intros (HI & Ht & HF) HI' Hs Hq Ho. destruct (calm_order F o Ho) as [A B].
    split; [exact A|]. rewrite B, app_nil_r. split; [exact HI'|]. split; [exact Ht|]. rewrite Hq. eapply FI_shrinks; eauto.
  Qed.

  Lemma no_event_calm o : Forall no_event o -> Forall calm o.
  Proof. apply Forall_impl. intros [ch e| |]; simpl; tauto. Qed.

  Lemma quiet_step L s F o s' : good L s F -> quiet s o s' -> step_ok F o L s'.
  Proof.
    intros Hg (Hc & Hq & _ & Ho). destruct (csteps_shr L _ _ Hc (proj1 Hg)) as [HI' Hs].
    apply (calm_shrink_step L s F); auto using cshr_shrinks, no_event_calm.
  Qed.

  Lemma resolve_updated_step L s F updated :
    good L s F -> step_ok F (snd (resolve_updated s now updated)) L (fst (resolve_updated s now updated)).
  Proof.
    intros (HI & Ht & HF). destruct (resolve_updated_order L s now updated F HI Ht HF) as [A B].
    destruct (resolve_updated_state s now updated) as [E1 E2].
    split; [exact A|]. rewrite B, app_nil_r. unfold good. rewrite E1, E2. split; [exact HI|]. split; [exact Ht|exact HF].
  Qed.

  Lemma handle_read_step ifs prev cp s d F :
    good (prev ++ cp) s F -> times_le prev now ->
    step_ok F (snd (handle_read ifs s now d)) (prev ++ cp ++ dgram_dlvs ifs now d) (fst (handle_read ifs s now d)).
  Proof.
    intros (HI & Ht & HF) Htp.
    unfold handle_read, dgram_dlvs. destruct (accepted_msg ifs d) as [m|].
    2:{ unfold step_ok. simpl. rewrite !app_nil_r. split; [exact I|]. split; [exact HI|]. split; [exact Ht|exact HF]. }
    unfold handle_response. fold (msg_records m).
    destruct (hr_records_ok now (d_if d) (s_q s) (for_us (s_q s) (m_answers m)) (msg_records m) _ _ HI) as [HI1 _].
    pose proof (hr_records_found now (d_if d) (s_q s) (for_us (s_q s) (m_answers m)) (msg_records m) (s_cache s)) as Ho1.
    pose proof (hr_records_FI now (d_if d) (s_q s) (for_us (s_q s) (m_answers m)) (msg_records m) (s_cache s) F HF) as HF1.
    destruct (hr_records (s_cache s) now (d_if d) (s_q s) (for_us (s_q s) (m_answers m)) (msg_records m))
      as [[c1 o1] changes]. cbn [fst snd] in *.
    assert (Ht1 : times_le ((prev ++ cp) ++ map (mkDlv now (d_if d)) (msg_records m)) now).
    { intros x Hx. apply in_app_iff in Hx as [Hx|Hx]; [now apply Ht|].
      apply in_map_iff in Hx as [r [<- _]]. simpl. lia. }
    assert (Hg1 : good ((prev ++ cp) ++ map (mkDlv now (d_if d)) (msg_records m)) (with_cache s c1) (F ++ founds o1))
      by (split; [exact HI1|]; split; [exact Ht1|exact HF1]).
    destruct (resolve_updated_step _ (with_cache s c1) _ (updated_of c1 changes) Hg1) as [A B].
    destruct (resolve_updated (with_cache s c1) now (updated_of c1 changes)) as [s2 o2]. cbn [fst snd] in *.
    split.
    - apply order_ok_app; [now apply found_only_order|exact A].
    - rewrite founds_app. rewrite <- !app_assoc in B. exact B.
  Qed.

  Lemma reads_step ifs prev ds : forall cp s F,
    good (prev ++ cp) s F -> times_le prev now ->
    step_ok F (snd (run_cmds (handle_read ifs) s now ds)) (prev ++ cp ++ flat_map (dgram_dlvs ifs now) ds)
            (fst (run_cmds (handle_read ifs) s now ds)).
  Proof.
    induction ds as [|d rest IH]; intros cp s F Hg Htp; simpl.
    - rewrite !app_nil_r. now apply step_ok_nil.
    - destruct (handle_read_step ifs prev cp s d F Hg Htp) as [A B].
      destruct (handle_read ifs s now d) as [s1 o1]. cbn [fst snd] in *.
      destruct (IH (cp ++ dgram_dlvs ifs now d) s1 _ B Htp) as [C D].
      destruct (run_cmds (handle_read ifs) s1 now rest) as [s2 o2]. cbn [fst snd] in *.
      split; [apply order_ok_app; assumption|].
      rewrite founds_app, app_assoc, <- !app_assoc in *. exact D.
  Qed.

  Lemma exec_call_step L s sp F cl :
    good L s F -> ceqr (s_cache s) (sp_c sp) ->
    match cl with CBrowse ty _ => soon_ptr_at_browse (sp_c sp) now ty = false | _ => True end ->
    step_ok F (snd (exec_call s now cl)) L (fst (exec_call s now cl)).
  Proof.
    intros Hg Hc Hcls. pose proof Hg as (HI & Ht & HF). destruct cl as [ty ch|ty|inst timeout|ch]; simpl.
    - rewrite <- (soon_ptr_ceqr _ _ now ty Hc) in Hcls. unfold soon_ptr_at_browse in Hcls.
      destruct (exec_browse_fields s now ty ch) as (Ec & Eq & _). cbv zeta in Ec, Eq. split.
      + rewrite exec_browse_eq. cbv zeta. destruct (bm_get ty (c_ptr (s_cache s))); [apply qc_order|exact I].
      + unfold good. rewrite Ec, Eq. split; [exact HI|]. split; [exact Ht|].
        intros ty' ch' b p Hq Hb Hp. rewrite q_get_q_set in Hq. destruct (beq ty' ty) eqn:E.
        * apply beq_eq in E. subst ty'. inversion Hq; subst ch'.
          pose proof (In_bm_get ty b (c_ptr (s_cache s)) (Inv_nodup _ _ KPtr HI) Hb) as Eb. rewrite Eb in Hcls.
          destruct (expires_soon p now) eqn:Es.
          -- right. pose proof (existsb_false_forall _ _ Hcls p Hp) as Hx. cbv beta in Hx. rewrite Es in Hx.
             now apply N.ltb_ge in Hx.
          -- left. apply in_app_iff. right. apply (founds_In _ ch ty). apply exec_browse_out. exists b, p. auto.
        * destruct (HF ty' ch' b p Hq Hb Hp); [left; apply in_app_iff; now left|now right].
    - unfold exec_stop. destruct (q_get ty (s_q s)) eqn:Eq.
      + split; [exact I|]. simpl. rewrite app_nil_r.
        pose proof (cshr_remove_service_type L (s_cache s) ty HI) as Hs.
        split; [eapply Inv_shr; eauto|]. split; [exact Ht|].
        intros ty' ch' b p Hq Hb Hp. cbn [s_q s_cache] in *. apply q_get_q_remove in Hq as [Hq _].
        apply (FI_shrinks _ _ _ _ (cshr_shrinks _ _ Hs) HF ty' ch' b p Hq Hb Hp).
      + now apply step_ok_nil.
    - apply (quiet_step L s F); [exact Hg|]. apply (exec_call_quiet s now (CVerify inst timeout)).
    - apply (quiet_step L s F); [exact Hg|]. apply (exec_call_quiet s now (CMetrics ch)).
  Qed.

  Lemma calls_step L : forall cls s sp F,
    good L s F -> tracks s sp -> calls_browse_expiring now sp cls = false ->
    step_ok F (snd (run_cmds exec_call s now cls)) L (fst (run_cmds exec_call s now cls)).
  Proof.
    induction cls as [|cl rest IH]; intros s sp F Hg Htr Hcls; simpl.
    - now apply step_ok_nil.
    - simpl in Hcls. apply orb_false_iff in Hcls as [Hc1 Hc2].
      assert (Hc1' : match cl with CBrowse ty _ => soon_ptr_at_browse (sp_c sp) now ty = false | _ => True end)
        by (destruct cl; auto).
      destruct (exec_call_step L s sp F cl Hg (proj1 Htr) Hc1') as [A B].
      pose proof (tracks_call now s sp cl Htr) as Htr1.
      destruct (exec_call s now cl) as [s1 o1]. cbn [fst snd] in *.
      destruct (IH s1 _ _ B Htr1 Hc2) as [C D].
      destruct (run_cmds exec_call s1 now rest) as [s2 o2]. cbn [fst snd] in *.
      split; [apply order_ok_app; assumption|]. rewrite founds_app, app_assoc. exact D.
  Qed.

  Lemma resolve_hosts_step L names : forall s F,
    good L s F -> step_ok F (snd (resolve_hosts s now names)) L (fst (resolve_hosts s now names)).
  Proof.
    induction names as [|h t IH]; intros s F Hg; simpl.
    - now apply step_ok_nil.
    - destruct (resolve_updated_step L s F (dedup (get_instances_on_host (s_cache s) h)) Hg) as [A B].
      destruct (resolve_updated s now (dedup (get_instances_on_host (s_cache s) h))) as [s1 o1]. cbn [fst snd] in *.
      destruct (IH s1 _ B) as [C D]. destruct (resolve_hosts s1 now t) as [s2 o2]. cbn [fst snd] in *.
      split; [apply order_ok_app; assumption|]. rewrite founds_app, app_assoc. exact D.
  Qed.

  Lemma evict_step L s F : good L s F -> step_ok F (snd (evict s now)) L (fst (evict s now)).
  Proof.
    intros (HI & Ht & HF). unfold evict.
    pose proof (cshr_evict_services L (s_cache s) now HI) as Hs1.
    destruct (evict_services (s_cache s) now) as [c1 expired]. cbn [fst] in Hs1.
    assert (H1 : Inv L c1) by (eapply Inv_shr; eauto).
    pose proof (cshr_evict_addr L c1 now H1) as Hs2.
    destruct (evict_addr c1 now) as [c2 names]. cbn [fst] in Hs2.
    assert (H2 : Inv L c2) by (eapply Inv_shr; eauto).
    assert (Hg2 : good L (with_cache s c2) F).
    { split; [exact H2|]. split; [exact Ht|]. eapply FI_shrinks; [|exact HF].
      eapply shrinks_trans; apply cshr_shrinks; eassumption. }
    destruct (resolve_hosts_step L (dedup names) (with_cache s c2) F Hg2) as [A B].
    destruct (resolve_hosts (with_cache s c2) now (dedup names)) as [s2 o2]. cbn [fst snd] in *.
    assert (Hq : Forall calm (notify_removal (s_q s) expired)).
    { apply Forall_forall. intros x Hx. unfold notify_removal in Hx. apply in_flat_map in Hx as [tc [_ Hx]].
      apply in_map_iff in Hx as [i [<- _]]. exact I. }
    destruct (calm_order F _ Hq) as [Q1 Q2].
    split.
    - apply order_ok_app; [exact Q1|]. now rewrite Q2, app_nil_r.
    - now rewrite founds_app, Q2.
  Qed.
End Phases.

Theorem iterate_order ifs prev s sp it F :
  Inv prev (s_cache s) -> times_le prev (i_now it) -> FI (s_cache s) (s_q s) F -> tracks s sp ->
  calls_browse_expiring (i_now it) (last (scan (spec_dgram ifs (i_now it)) sp (deliveries_in_order (i_dgrams it))) sp)
                        (i_calls it) = false ->
  order_ok F (snd (iterate ifs s it))
  /\ FI (s_cache (fst (iterate ifs s it))) (s_q (fst (iterate ifs s it))) (F ++ founds (snd (iterate ifs s it))).
Proof.
  intros HI Ht HF Htr Hcls. rewrite iterate_eq. cbv zeta. cbn [fst snd]. set (now := i_now it) in *.
  set (dgs := deliveries_in_order (i_dgrams it)) in *.
  assert (Hg0 : good now (prev ++ []) s F) by (rewrite app_nil_r; split; [exact HI|]; split; [exact Ht|exact HF]).
  destruct (reads_step now ifs prev dgs [] s F Hg0 Ht) as [A1 B1]. simpl in B1.
  pose proof (tracks_reads ifs now dgs s sp Htr) as T1.
  set (r1 := run_cmds (handle_read ifs) s now dgs) in *.
  destruct (calls_step now _ (i_calls it) (fst r1) _ _ B1 T1 Hcls) as [A2 B2].
  set (r2 := run_cmds exec_call (fst r1) now (i_calls it)) in *.
  pose proof (retrans_refresh_quiet (fst r2) now) as Q3. cbv zeta in Q3.
  destruct (quiet_step now _ _ _ _ _ B2 Q3) as [A3 B3].
  destruct (evict_step now _ _ _ B3) as [A5 (_ & _ & HF5)].
  rewrite (app_assoc (snd (run_retrans (fst r2) now))). split.
  - apply order_ok_app; [exact A1|]. apply order_ok_app; [exact A2|]. apply order_ok_app; [exact A3|exact A5].
  - rewrite !founds_app in HF5. rewrite !founds_app, !app_assoc. rewrite !app_assoc in HF5. exact HF5.
Qed.

Definition evs (o : list out) : list (N * event) := ob_evts (obs_of o).

Lemma evs_cons x t : evs (x :: t) = match x with OEvt c e => [(c, e)] | _ => [] end ++ evs t.
Proof. reflexivity. Qed.

Lemma FI_filter c q F :
  FI c q F -> FI c q (filter (fun x => existsb (fun tc => snd tc =? fst x) q) F).
Proof.
  intros H ty ch b p Hq Hb Hp. destruct (H ty ch b p Hq Hb Hp) as [Hin|Hs]; [left|now right].
  apply filter_In. split; [exact Hin|]. apply existsb_exists. exists (ty, ch). split; [now apply q_get_In|].
  simpl. apply N.eqb_refl.
Qed.
