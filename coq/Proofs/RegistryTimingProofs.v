(* C07 over daemon histories without conflict datagrams: the exact timing of one probe carried through
   every daemon function by a per-(interface, name) invariant; liveness on never-late schedules. *)
From Coq Require Import List NArith Bool Lia.
From Mdns Require Import Bytes Rec ParamsRegistry Registry RegistryDaemon RegistryParamsPinned RegistryProofs
     RegistryStepProofs RegistryHistoryProofs RegistrySilenceProofs RegistryLivenessProofs.
Import ListNotations.
Open Scope N_scope.

(* the probe for n: started at T, j probe queries sent (next_send = T + 250 j), svc waits for it, and
   every record of recs is among its records.  250 (probe interval), 750 (probing done), 1000 and 120
   (repeats) are the values of Gen/ParamsRegistry.v, through the _pinned lemmas of
   RegistryParamsPinned.v *)
Definition hold (rg : registry) (n : bytes) (T : N) (j : nat) (svc : bytes) (recs : list prec) : Prop :=
  exists p, aget n (rg_probing rg) = Some p /\ pb_start p = T /\ pb_next p = T + 250 * N.of_nat j /\
            In svc (pb_waiting p) /\ Forall (fun r => existsb (matches r) (pb_records p) = true) recs.

(* no renames so far: no name change recorded, no record carries a new name *)
Definition clean (rg : registry) : Prop :=
  rg_changes rg = [] /\ forall n p r, In (n, p) (rg_probing rg) -> In r (pb_records p) -> p_new r = None.

Lemma In_set_add x y l : In x (set_add y l) <-> x = y \/ In x l.
Proof.
  unfold set_add. destruct (mem y l) eqn:M.
  - apply mem_In in M. split; [auto|intros [->|H]; assumption].
  - rewrite in_app_iff. cbn. split; [intros [H|[H|[]]]; auto|intros [->|H]; auto].
Qed.

Lemma In_set_union x a : forall b, In x (set_union a b) <-> In x a \/ In x b.
Proof.
  unfold set_union. intros b. revert a. induction b as [|y t IH]; intros a; cbn [fold_left]; [split; [auto|intros [H|[]]; exact H]|].
  rewrite IH, In_set_add. cbn [In]. split; [intros [[->|H]|H]; auto|intros [H|[->|H]]; auto].
Qed.

Lemma existsb_insert f r : forall l, existsb f l = true -> existsb f (insert_record r l) = true.
Proof.
  induction l as [|x t IH]; intros H; [discriminate|]. cbn [insert_record]. destruct (rec_key_le x r).
  - cbn [existsb] in *. apply orb_true_iff in H as [H|H]; apply orb_true_iff; [left; exact H|right; apply IH; exact H].
  - cbn [existsb]. apply orb_true_iff. right. exact H.
Qed.

Lemma In_insert_record r x : forall l, In x (insert_record r l) -> x = r \/ In x l.
Proof.
  induction l as [|y t IH]; cbn [insert_record]; [intros [<-|[]]; auto|]. destruct (rec_key_le y r).
  - intros [<-|H]; [right; left; reflexivity|]. destruct (IH H); [auto|right; right; assumption].
  - intros [<-|H]; auto.
Qed.

Lemma ipd_hold rg r0 svc0 start n T j svc recs :
  hold rg n T j svc recs -> hold (fst (is_probing_done rg r0 svc0 start)) n T j svc recs.
Proof.
  intros (p & G & S & X & W & R). unfold is_probing_done. destruct (in_active rg r0); [exists p; auto|]. cbv zeta. cbn [fst].
  unfold hold. cbn [rg_probing]. destruct (beq n (p_name r0)) eqn:B.
  - apply beq_eq in B. subst n. rewrite aget_aset_same, G. eexists. split; [reflexivity|]. cbn [pb_start pb_next pb_waiting pb_records].
    repeat split; try assumption; [apply In_set_add; right; exact W|].
    destruct (existsb (matches r0) (pb_records p)); [exact R|].
    apply Forall_forall. intros r Hr. apply existsb_insert. exact (proj1 (Forall_forall _ _) R r Hr).
  - rewrite aget_aset_other; [exists p; auto|]. intros E. rewrite E, beq_refl in B. discriminate.
Qed.

Lemma ipd_active rg r0 svc0 start : rg_active (fst (is_probing_done rg r0 svc0 start)) = rg_active rg.
Proof. exact (proj1 (ipd_stable rg r0 svc0 start)). Qed.

Lemma ipd_clean rg r0 svc0 start : p_new r0 = None -> clean rg -> clean (fst (is_probing_done rg r0 svc0 start)).
Proof.
  intros H0 [C P]. unfold is_probing_done. destruct (in_active rg r0); [split; assumption|]. cbv zeta. cbn [fst]. split; [exact C|].
  cbn [rg_probing]. intros n p r Hin Hr. apply In_aset_cases_gen in Hin as [Hin|[-> ->]].
  - exact (P n p r Hin Hr).
  - cbn [pb_records] in Hr.
    assert (K : forall l, (forall x, In x l -> p_new x = None) -> In r (if existsb (matches r0) l then l else insert_record r0 l) -> p_new r = None).
    { intros l Hl Hi. destruct (existsb (matches r0) l); [exact (Hl r Hi)|]. apply In_insert_record in Hi as [->|Hi]; [exact H0|exact (Hl r Hi)]. }
    destruct (aget (p_name r0) (rg_probing rg)) as [pb|] eqn:G.
    + apply (K (pb_records pb)); [|exact Hr]. intros x Hx. exact (P _ _ x (aget_In _ _ _ G) Hx).
    + apply (K []); [intros x []|exact Hr].
Qed.

Lemma fold_changes_none name recs ch :
  (forall r, In r recs -> p_new r = None) ->
  fold_left (fun ch r => match p_new r with Some n => aset name n ch | None => ch end) recs ch = ch.
Proof.
  revert ch. induction recs as [|r t IH]; intros ch H; [reflexivity|]. cbn [fold_left]. rewrite (H r (or_introl eq_refl)).
  apply IH. intros x Hx. apply H. right. exact Hx.
Qed.

Lemma in_active_aset_other rg name v r probing changes :
  p_name r <> name -> in_active (mkReg probing (aset name v (rg_active rg)) changes) r = in_active rg r.
Proof. intros H. unfold in_active. cbn [rg_active]. rewrite aget_aset_other by exact H. reflexivity. Qed.

Lemma expire_one_facts rg name :
  clean rg ->
  let rg' := fst (fst (expire_one rg name)) in
  clean rg' /\ (forall r, in_active rg r = true -> in_active rg' r = true) /\
  (forall pb, aget name (rg_probing rg) = Some pb ->
     snd (expire_one rg name) = match pb_records pb with [] => [] | _ => pb_waiting pb end /\
     forall r, p_name r = name -> existsb (matches r) (pb_records pb) = true -> in_active rg' r = true).
Proof.
  intros [C P]. unfold expire_one. destruct (aget name (rg_probing rg)) as [pb|] eqn:G.
  - assert (Hn : forall r, In r (pb_records pb) -> p_new r = None) by (intros r Hr; exact (P _ _ r (aget_In _ _ _ G) Hr)).
    rewrite (fold_changes_none name (pb_records pb) (rg_changes rg) Hn).
    assert (Hsub : forall n p r, In (n, p) (adel name (rg_probing rg)) -> In r (pb_records p) -> p_new r = None)
      by (intros n p r Hin Hr; exact (P n p r (adel_entries _ _ _ _ Hin) Hr)).
    destruct (pb_records pb) as [|r0 rs0] eqn:ER; cbn [fst snd].
    + split; [split; assumption|]. split; [auto|]. intros pb0 E. inversion E; subst pb0. rewrite ER. split; [reflexivity|]. intros r _ H. discriminate.
    + split; [split; assumption|]. split.
      * intros r H. destruct (beq (p_name r) name) eqn:B.
        -- apply beq_eq in B. unfold in_active in *. rewrite B in *.
           destruct (aget name (rg_active rg)) as [rs|] eqn:GA; [|discriminate]. cbn [rg_active]. rewrite aget_aset_same.
           rewrite existsb_app, H. reflexivity.
        -- assert (Hne : p_name r <> name) by (intros E; rewrite E, beq_refl in B; discriminate).
           destruct (aget name (rg_active rg)); rewrite in_active_aset_other by exact Hne; exact H.
      * intros pb0 E. inversion E; subst pb0. rewrite ER. split; [reflexivity|]. intros r Hnm Hm.
        unfold in_active. rewrite Hnm. destruct (aget name (rg_active rg)) as [rs|]; cbn [rg_active]; rewrite aget_aset_same.
        -- rewrite existsb_app, Hm. apply orb_true_r.
        -- exact Hm.
  - cbn [fst snd]. split; [split; assumption|]. split; [auto|]. intros pb E. discriminate.
Qed.

Lemma expire_all_facts : forall names rg,
  clean rg ->
  let rg' := fst (fst (expire_all rg names)) in
  clean rg' /\ (forall r, in_active rg r = true -> in_active rg' r = true).
Proof.
  induction names as [|n t IH]; intros rg Hc; [split; [exact Hc|auto]|]. cbn [expire_all].
  destruct (expire_one_facts rg n Hc) as (C1 & M1 & _). destruct (expire_one rg n) as [[rg1 ev1] w1]. cbn [fst] in C1, M1.
  destruct (IH rg1 C1) as (C2 & M2). destruct (expire_all rg1 t) as [[rg2 ev2] w2]. cbn [fst] in *. split; [exact C2|auto].
Qed.

(* the name n is among the finished ones: its records become active and its waiting services are returned *)
Lemma expire_all_hit n pb : forall names rg,
  clean rg -> NoDup (keys (rg_probing rg)) -> In n names -> aget n (rg_probing rg) = Some pb -> pb_records pb <> [] ->
  (forall svc, In svc (pb_waiting pb) -> In svc (snd (expire_all rg names))) /\
  (forall r, p_name r = n -> existsb (matches r) (pb_records pb) = true -> in_active (fst (fst (expire_all rg names))) r = true).
Proof.
  induction names as [|m t IH]; intros rg Hc Hnd Hin G Hne; [contradiction|]. cbn [expire_all].
  destruct (expire_one_facts rg m Hc) as (C1 & M1 & H1).
  pose proof (expire_one_nodup rg m Hnd) as N1. pose proof (expire_one_probing_eq rg m) as Pr.
  destruct (expire_one rg m) as [[rg1 ev1] w1]. cbn [fst snd] in *.
  destruct (beq m n) eqn:B.
  - apply beq_eq in B. subst m. destruct (H1 pb G) as [Hw Ha].
    destruct (expire_all_facts t rg1 C1) as (_ & M2). destruct (expire_all rg1 t) as [[rg2 ev2] w2]. cbn [fst snd] in *. split.
    + intros svc Hs. apply In_set_union. left. rewrite Hw. destruct (pb_records pb); [contradiction|exact Hs].
    + intros r Hn Hm. apply M2. apply Ha; assumption.
  - assert (Hmn : n <> m) by (intros E; rewrite E, beq_refl in B; discriminate).
    assert (Hin' : In n t) by (destruct Hin as [E|H]; [symmetry in E; contradiction|exact H]).
    assert (G1 : aget n (rg_probing rg1) = Some pb).
    { rewrite Pr, aget_adel_other by exact Hmn. exact G. }
    destruct (IH rg1 C1 N1 Hin' G1 Hne) as [W A]. destruct (expire_all rg1 t) as [[rg2 ev2] w2]. cbn [fst snd] in *. split.
    + intros svc Hs. apply In_set_union. right. exact (W svc Hs).
    + exact A.
Qed.

Lemma clean_tick rg now :
  clean rg -> clean (mkReg (map (fun np => (fst np, tick_probe now (snd np))) (rg_probing rg)) (rg_active rg) (rg_changes rg)).
Proof.
  intros [C P]. split; [exact C|]. cbn [rg_probing]. intros n p r Hin Hr. apply in_map_iff in Hin as (np & E & Hin).
  assert (En : n = fst np) by (inversion E; reflexivity). assert (Ep : p = tick_probe now (snd np)) by (inversion E; reflexivity).
  subst p. destruct np as [n1 p1]. cbn [fst snd] in *. apply (P n1 p1 r Hin). unfold tick_probe in Hr. destruct (sends now p1); exact Hr.
Qed.

Lemma probe_step_general rg now :
  clean rg -> NoDup (keys (rg_probing rg)) ->
  let rg1 := fst (fst (fst (probe_step rg now))) in
  clean rg1 /\ NoDup (keys (rg_probing rg1)) /\ (forall r, in_active rg r = true -> in_active rg1 r = true).
Proof.
  intros [C P] Hnd. pose proof (probe_step_nodup rg now Hnd) as N1. unfold RPn in N1.
  unfold probe_step in *. rewrite check_probes_spec in *.
  set (ps' := map (fun np => (fst np, tick_probe now (snd np))) (rg_probing rg)) in *.
  set (ex := flat_map (fun np => if expires now (snd np) then [fst np] else []) (rg_probing rg)) in *.
  assert (Hc' : clean (mkReg ps' (rg_active rg) (rg_changes rg))) by (apply clean_tick; split; assumption).
  destruct (expire_all_facts ex _ Hc') as (C2 & M2).
  destruct (expire_all (mkReg ps' (rg_active rg) (rg_changes rg)) ex) as [[rg' evs] w]. cbn [fst] in *.
  split; [exact C2|]. split; [exact N1|]. intros r H. apply M2. exact H.
Qed.

Lemma hold_tick_probe now p : pb_start (tick_probe now p) = pb_start p /\ pb_waiting (tick_probe now p) = pb_waiting p /\
  pb_records (tick_probe now p) = pb_records p.
Proof. unfold tick_probe. destruct (sends now p); repeat split; reflexivity. Qed.

(* on time for the probe (now <= next_send), not yet the last step: the pass either leaves it alone
   (now < next_send) or sends its next probe query (now = next_send) *)
Lemma probe_step_hold rg now n T j svc recs rg1 qs evs waiting :
  NoDup (keys (rg_probing rg)) -> hold rg n T j svc recs -> probe_step rg now = (rg1, qs, evs, waiting) ->
  (now < T + 250 * N.of_nat j -> hold rg1 n T j svc recs /\ ~ In n (map fst qs)) /\
  (now = T + 250 * N.of_nat j -> (j < 3)%nat -> hold rg1 n T (S j) svc recs /\ In n (map fst qs)).
Proof.
  intros Hnd (p & G & S & X & W & R) PS. destruct (probe_step_is_tick _ _ _ _ _ _ PS) as (ex & TK).
  pose proof (tick_names_aget rg now rg1 (map fst qs) ex n Hnd TK) as A. rewrite G in A.
  destruct (hold_tick_probe now p) as (E1 & E2 & E3). split.
  - intros Hlt. assert (Hd : probe_due (pb_next p) now = false) by (rewrite probe_due_pinned; apply N.leb_gt; lia).
    unfold sends, expires in A. rewrite Hd in A. cbn [andb] in A. destruct A as (A1 & _ & A3).
    split; [exists p; repeat split; assumption|exact A1].
  - intros He Hj. assert (Hs : sends now p = true) by (apply sends_iff; rewrite X, S; lia).
    rewrite Hs in A. destruct A as (A1 & _ & A3). split; [|exact A1].
    exists (tick_probe now p). rewrite E1, E2, E3. repeat split; try assumption.
    rewrite (tick_probe_next now p Hs). lia.
Qed.

(* the last step: at now = T + 750 the probe finishes - svc is among the waiting services returned and
   the records of recs that are named n become active *)
Lemma probe_step_finish rg now n T svc recs rg1 qs evs waiting :
  clean rg -> NoDup (keys (rg_probing rg)) -> hold rg n T 3 svc recs -> recs <> [] -> now = T + 750 ->
  probe_step rg now = (rg1, qs, evs, waiting) ->
  In svc waiting /\ (forall r, In r recs -> p_name r = n -> in_active rg1 r = true).
Proof.
  intros [C P] Hnd (p & G & S & X & W & R) Hne Hnow PS. unfold probe_step in PS. rewrite check_probes_spec in PS.
  set (ps' := map (fun np => (fst np, tick_probe now (snd np))) (rg_probing rg)) in *.
  set (ex := flat_map (fun np => if expires now (snd np) then [fst np] else []) (rg_probing rg)) in *.
  assert (Hx : expires now p = true) by (apply expires_iff; rewrite X, S; lia).
  assert (Hs : sends now p = false).
  { unfold sends, expires in *. destruct (probe_due (pb_next p) now); [|discriminate]. cbn [andb] in *. rewrite Hx. reflexivity. }
  assert (Hc' : clean (mkReg ps' (rg_active rg) (rg_changes rg))) by (apply clean_tick; split; assumption).
  assert (Hnd' : NoDup (keys (rg_probing (mkReg ps' (rg_active rg) (rg_changes rg))))) by (cbn [rg_probing]; unfold ps'; rewrite keys_map_val; exact Hnd).
  assert (G' : aget n (rg_probing (mkReg ps' (rg_active rg) (rg_changes rg))) = Some p).
  { cbn [rg_probing]. unfold ps'. rewrite RegistryProofs.aget_map_snd, G. cbn [option_map]. rewrite (tick_probe_id now p Hs). reflexivity. }
  assert (Hin : In n ex) by (unfold ex; apply expired_names_iff; exists p; split; [apply aget_In; exact G|exact Hx]).
  assert (Hrec : pb_records p <> []).
  { destruct recs as [|r0 rs]; [contradiction|]. inversion R; subst. destruct (pb_records p); [discriminate|discriminate]. }
  destruct (expire_all_hit n p ex _ Hc' Hnd' Hin G' Hrec) as [HW HA].
  destruct (expire_all (mkReg ps' (rg_active rg) (rg_changes rg)) ex) as [[rg' evs'] w']. inversion PS; subst. cbn [fst snd] in *.
  split; [apply HW; exact W|]. intros r Hr Hn. apply HA; [exact Hn|exact (proj1 (Forall_forall _ _) R r Hr)].
Qed.

Definition calm_dgram (g : dgram) : Prop := g_resp g = false /\ g_ns g = [].
Definition calm_call (key : bytes) (c : call) : Prop :=
  match c with CRegister s => lower (s_full s) <> key | CMonitor | COther => True | _ => False end.
(* an iteration without conflict datagrams and without calls that touch the service under `key`, the
   interface table or the daemon's life: queries without authority records; registrations of OTHER
   services, monitor, other commands *)
Definition calm_iter (key : bytes) (it : iter) : Prop :=
  Forall calm_dgram (it_dgrams it) /\ Forall (calm_call key) (it_calls it).

Lemma announce_records_pnew rg s i v4 : rg_changes rg = [] -> forall r, In r (announce_records rg s i v4) -> p_new r = None.
Proof.
  intros C r Hr. unfold announce_records, srv_rec, txt_rec, addr_rec, with_change in Hr. rewrite C in Hr. cbn [aget] in Hr.
  destruct Hr as [<-|[<-|Hr]]; try reflexivity. apply in_map_iff in Hr as (a & <- & _). reflexivity.
Qed.

Definition svc_at (key : bytes) (s0 : svc) (svcs : list (bytes * svc)) : Prop :=
  exists s, aget key svcs = Some s /\ svc_eqv s0 s.

Lemma svc_at_sput key s0 svcs k0 s1 i x :
  svc_at key s0 svcs -> aget k0 svcs = Some s1 -> svc_at key s0 (sput k0 (set_status i x s1) svcs).
Proof.
  intros (s & G & Q) G1. unfold svc_at, sput. rewrite aget_aset. destruct (beq key k0) eqn:B; [|exists s; auto].
  apply beq_eq in B. subst k0. eexists. split; [reflexivity|]. rewrite G in G1. inversion G1; subst.
  eapply svc_eqv_trans; [exact Q|apply svc_eqv_status].
Qed.

Section KeepQ.
  Variable Q : registry -> Prop.
  Hypothesis Q_ipd : forall rg r svc start, p_new r = None -> Q rg -> Q (fst (is_probing_done rg r svc start)).
  Hypothesis Q_clean : forall rg, Q rg -> rg_changes rg = [].
  Variable k : N.

  (* interface k has a registry, and it satisfies Q *)
  Definition RK (regs : list (N * registry)) : Prop := exists rg, nget k regs = Some rg /\ Q rg.

  (* joins of records of announcements made under a registry without renames *)
  Lemma joins_Q now rg rg' itf : Ops (joins (fun r => exists s, ann_rec rg s itf r)) now rg rg' -> Q rg -> Q rg'.
  Proof.
    intros H HQ. apply (Ops_keeps _ now Q) with (2 := H); [|exact HQ].
    intros rg0 o (r & svc & j & -> & (s & v4 & Hr)). apply Q_ipd. exact (announce_records_pnew rg s itf v4 (Q_clean rg HQ) r Hr).
  Qed.

  Lemma announce_both_Q s i rg now js : Q rg -> Q (fst (fst (fst (announce_both s i rg now js)))).
  Proof.
    apply (joins_Q now rg _ i). eapply Ops_mono; [|apply announce_both_Ops]. intros o (r & svc & j & -> & Hr). exists r, svc, j. split; [reflexivity|exists s; exact Hr].
  Qed.

  Lemma announce_waiting_Q itf now m waiting rg svcs js : Q rg ->
    Q (fst (fst (fst (fst (announce_waiting waiting itf rg svcs now js m))))).
  Proof. apply (joins_Q now rg _ itf). apply announce_waiting_Ops. Qed.

  Lemma RK_nset regs i rg0 rg' : RK regs -> nget i regs = Some rg0 \/ (nget i regs = None /\ i <> k) -> (Q rg0 -> Q rg') -> RK (nset i rg' regs).
  Proof.
    intros (rg & G & HQ) G0 H. unfold RK. rewrite nget_nset. destruct (k =? i) eqn:E; [|exists rg; auto].
    apply N.eqb_eq in E. subst i. exists rg'. split; [reflexivity|]. apply H.
    destruct G0 as [G0|[G0 N0]]; [|congruence]. rewrite G in G0. inversion G0; subst. exact HQ.
  Qed.

  Lemma register_intfs_RK now ifs s regs js : RK regs -> RK (snd (fst (fst (fst (register_intfs ifs s regs now js))))).
  Proof.
    destruct (register_intfs ifs s regs now js) as [[[[s' regs'] os] anns] js'] eqn:E.
    refine (register_intfs_loop (fun x y _ _ => RK (snd x) -> RK (snd y)) (fun _ H => H) (fun _ _ _ _ _ _ _ H1 H2 H => H2 (H1 H))
              now ifs _ s regs js s' regs' os anns js' E).
    intros itf s0 regs0 js0 rg' os1 ann js1 _ EB H. cbn [snd] in *. destruct (nget (if_index itf) regs0) as [r|] eqn:G.
    - apply (RK_nset regs0 _ r); [exact H|left; exact G|]. intros HQ. pose proof (announce_both_Q s0 itf r now js0 HQ) as H1. rewrite EB in H1. exact H1.
    - destruct H as (rg & Gk & HQ). exists rg. split; [|exact HQ]. rewrite nget_nset_other; [exact Gk|congruence].
  Qed.

  Variable key : bytes.
  Variable s0 : svc.
  Variable itf : intf.

  (* the daemon is alive, interface k is itf, its registry satisfies Q, and the service with the data of
     s0 is registered under key *)
  Definition Kept (st : dstate) : Prop :=
    d_dead st = false /\ find_intf st k = Some itf /\ RK (d_regs st) /\ svc_at key s0 (d_svcs st).

  Lemma handle_questions_id st g it0 now : g_ns g = [] -> forall qs rg, fst (fst (handle_questions st g it0 rg qs now)) = rg.
  Proof.
    intros Hn. induction qs as [|[qn qt] t IH]; intros rg; [reflexivity|]. cbn [handle_questions]. destruct (qt =? TY_PTR).
    - destruct (answer_ptr_question st g it0 rg qn). specialize (IH rg). destruct (handle_questions st g it0 rg t now) as [[rg' an2] ar2]. exact IH.
    - assert (E : tiebreak_question rg g qn qt now = rg) by (unfold tiebreak_question; rewrite Hn; rewrite andb_false_r; reflexivity).
      rewrite E. destruct (answer_instance_question st g it0 rg qn qt). specialize (IH rg).
      destruct (handle_questions st g it0 rg t now) as [[rg' an2] ar2]. exact IH.
  Qed.

  Lemma handle_dgram_Kept st g now js : calm_dgram g -> Kept st -> Kept (fst (fst (handle_dgram st g now js))).
  Proof.
    intros [Hr Hn] (D & F & R & S). unfold handle_dgram. destruct (find_intf st (g_if g)); [|repeat split; assumption].
    destruct (negb (intf_has_family i (g_v4 g))); [repeat split; assumption|]. rewrite Hr. unfold handle_query.
    destruct (nget (g_if g) (d_regs st)) as [rg|] eqn:G; [|repeat split; assumption].
    destruct (find_intf st (g_if g)) as [it0|]; [|repeat split; assumption].
    pose proof (handle_questions_id st g it0 now Hn (g_q g) rg) as E.
    destruct (handle_questions st g it0 rg (g_q g) now) as [[rg' an] ar]. cbn [fst] in E. subst rg'.
    assert (K : Kept (mkD (d_intfs st) (nset (g_if g) rg (d_regs st)) (d_svcs st) (d_retrans st) (d_mon st) (d_dead st) (d_os st) (d_sel st))).
    { split; [exact D|]. split; [exact F|]. split; [|exact S]. destruct R as (r0 & G0 & H0). exists r0. cbn [d_regs].
      rewrite (nget_nset_id _ _ _ k G). split; assumption. }
    destruct an; exact K.
  Qed.

  Lemma register_service_Kept st s now js : lower (s_full s) <> key -> Kept st -> Kept (fst (fst (register_service st s now js))).
  Proof.
    intros Hk (D & F & R & S). unfold register_service.
    pose proof (register_intfs_RK now (d_intfs st) (auto_addrs st s) (d_regs st) js R) as R1.
    destruct (register_intfs (d_intfs st) (auto_addrs st s) (d_regs st) now js) as [[[[s' regs] os] anns] js']. cbn [fst snd] in *.
    split; [exact D|]. split; [exact F|]. split; [exact R1|]. cbn [d_svcs]. destruct S as (s1 & G & E). exists s1. split; [|exact E].
    rewrite aget_sput_other; [exact G|]. rewrite auto_addrs_full. intros X. apply Hk. symmetry. exact X.
  Qed.

  Lemma exec_calls_Kept now cs st js : Forall (calm_call key) cs -> Kept st -> Kept (fst (fst (exec_calls st cs now js))).
  Proof.
    intros Hc. apply (exec_calls_phase (keeps Kept) (keeps_nil _) (keeps_app _)). intros st0 c js0 I H.
    pose proof (proj1 (Forall_forall _ _) Hc c I) as H2. destruct c; cbn [calm_call] in H2; try contradiction; cbn [exec_call]; try exact H.
    pose proof (register_service_Kept st0 s now js0 H2 H) as K. destruct (register_service st0 s now js0) as [[st1 os1] js1]. exact K.
  Qed.

  Lemma register_resend_Kept st full i now js : Kept st -> Kept (fst (fst (register_resend st full i now js))).
  Proof.
    intros (D & F & R & S). destruct (register_resend_frame st full i now js) as (EI & _ & ED).
    split; [rewrite ED; exact D|]. split; [unfold find_intf; rewrite EI; exact F|].
    unfold register_resend. destruct (aget (lower full) (d_svcs st)) as [s|] eqn:G; [|split; assumption].
    destruct (nget i (d_regs st)) as [rg0|] eqn:G0; [|split; assumption]. destruct (find_intf st i) as [itf0|]; [|split; assumption].
    pose proof (announce_both_Q s itf0 rg0 now js) as HQ. destruct (announce_both s itf0 rg0 now js) as [[[rg' os] ann] js']. cbn [fst] in HQ.
    assert (R1 : RK (nset i rg' (d_regs st))) by (apply (RK_nset _ _ rg0); [exact R|left; exact G0|exact HQ]).
    destruct ann; cbn [fst d_regs d_svcs]; (split; [exact R1|]); [apply svc_at_sput; assumption|exact S].
  Qed.

  Lemma retransmit_Kept st now js : Kept st -> Kept (fst (fst (retransmit st now js))).
  Proof.
    intros (D & F & R & S). unfold retransmit.
    match goal with |- context [run_due ?s ?d now js] => apply (run_due_phase (keeps Kept) (keeps_nil _) (keeps_app _) now d) with (st := s) end.
    - intros st0 [t c] js0 _. destruct c; [exact (register_resend_Kept st0 full ifidx now js0)|intros H; exact H].
    - repeat split; assumption.
  Qed.

  Lemma calm_prefix st it st' os js :
    calm_iter key it -> iterate st it = (st', os, Running, js) -> Kept st ->
    exists st1 os1 js1 st2 os2 js2 st3 os3 js3 os4,
      handle_dgrams st (it_gs it) (it_now it) (it_jitter it) = (st1, os1, js1) /\
      exec_calls st1 (it_calls it) (it_now it) js1 = (st2, os2, js2) /\
      retransmit st2 (it_now it) js2 = (st3, os3, js3) /\
      probing_intfs (d_intfs st3) st3 (it_now it) js3 = (st', os4, js) /\ os = os1 ++ os2 ++ os3 ++ os4 /\
      Kept st1 /\ Kept st2 /\ Kept st3 /\ d_intfs st3 = d_intfs st.
  Proof.
    intros [Hcd Hcc] Hit HK.
    apply iterate_running in Hit as (_ & st1 & os1 & js1 & st2 & os2 & js2 & st3 & os3 & js3 & os4 & E1 & E2 & _ & E3 & E4 & Eo).
    assert (Hg : Forall calm_dgram (it_gs it)) by (apply Forall_forall; intros g Hg; exact (proj1 (Forall_forall _ _) Hcd g (In_it_gs it g Hg))).
    pose proof (handle_dgrams_phase (keeps Kept) (keeps_nil _) (keeps_app _) (it_now it) (it_gs it)
                  (fun st0 g js0 I => handle_dgram_Kept st0 g (it_now it) js0 (proj1 (Forall_forall _ _) Hg g I)) st (it_jitter it) HK) as K1.
    destruct (handle_dgrams_frame (it_now it) (it_gs it) st (it_jitter it)) as (F1 & _). rewrite E1 in K1, F1. cbn [fst] in K1, F1.
    pose proof (exec_calls_Kept (it_now it) (it_calls it) st1 js1 Hcc K1) as K2.
    assert (Hni : Forall not_ifsel (it_calls it)) by (eapply Forall_impl; [|exact Hcc]; intros c; destruct c; cbn; tauto).
    pose proof (exec_calls_intfs (it_now it) (it_calls it) st1 js1 Hni) as F2. rewrite E2 in K2, F2. cbn [fst] in K2, F2.
    pose proof (retransmit_Kept st2 (it_now it) js2 K2) as K3.
    destruct (retransmit_frame st2 (it_now it) js2) as (F3 & _). rewrite E3 in K3, F3. cbn [fst] in K3, F3.
    exists st1, os1, js1, st2, os2, js2, st3, os3, js3, os4.
    split; [exact E1|]. split; [exact E2|]. split; [exact E3|]. split; [exact E4|]. split; [exact Eo|].
    split; [exact K1|]. split; [exact K2|]. split; [exact K3|]. congruence.
  Qed.
End KeepQ.

(* the service under key is Announced on interface k *)
Definition Done (k : N) (key : bytes) (svcs : list (bytes * svc)) : Prop :=
  exists s, aget key svcs = Some s /\ announced_on k s = true.

Lemma Done_sput k key svcs k0 s1 i : Done k key svcs -> aget k0 svcs = Some s1 -> Done k key (sput k0 (set_status i SAnnounced s1) svcs).
Proof.
  intros (s & G & A) G1. unfold Done, sput. rewrite aget_aset. destruct (beq key k0) eqn:B; [|exists s; auto].
  apply beq_eq in B. subst k0. eexists. split; [reflexivity|]. rewrite G in G1. inversion G1; subst.
  unfold announced_on, set_status. cbn [s_status]. rewrite nget_nset. destruct (k =? i); [reflexivity|exact A].
Qed.

Lemma probing_one_state i0 st now js : fst (fst (probing_intfs [i0] st now js)) = fst (fst (pass i0 st now js)).
Proof. rewrite probing_intfs_cons. destruct (pass i0 st now js) as [[st1 os1] js1]. reflexivity. Qed.

(* a pass over an interface other than k leaves the registry of k alone and keeps the service *)
Lemma pass_other (Q : registry -> Prop) (k : N) (key : bytes) (s0 : svc) (itf : intf) (now : N) i0 st js : if_index i0 <> k ->
  (Kept Q k key s0 itf st -> Kept Q k key s0 itf (fst (fst (pass i0 st now js)))) /\
  (Done k key (d_svcs st) -> Done k key (d_svcs (fst (fst (pass i0 st now js))))).
Proof.
  intros Hne. unfold pass. destruct (nget (if_index i0) (d_regs st)) as [rg|]; [|split; auto].
  destruct (probe_step rg now) as [[[rg1 qs] evs] waiting].
  pose proof (announce_waiting_svcs i0 now (d_mon st) (svc_at key s0) (fun svcs k0 s1 H G => svc_at_sput key s0 svcs k0 s1 _ _ H G) waiting rg1 (d_svcs st) js) as SA.
  pose proof (announce_waiting_svcs i0 now (d_mon st) (Done k key) (fun svcs k0 s1 H G => Done_sput k key svcs k0 s1 _ H G) waiting rg1 (d_svcs st) js) as SD.
  destruct (announce_waiting waiting i0 rg1 (d_svcs st) now js (d_mon st)) as [[[[rg2 svcs2] os2] rt2] js2]. cbn [fst snd d_svcs] in *. split; [|exact SD].
  intros (D & F & (r0 & G0 & H0) & S). split; [exact D|]. split; [exact F|]. split; [|apply SA; exact S].
  exists r0. cbn [d_regs]. rewrite nget_nset_other by (intros E; apply Hne; symmetry; exact E). split; assumption.
Qed.

(* the probing handler passes interface k exactly once: what the passes elsewhere keep (A before, B
   after) and the pass over k turns from A into B *)
Lemma probing_once (A B : dstate -> Prop) now k itf :
  (forall i0 st js, if_index i0 <> k -> A st -> A (fst (fst (pass i0 st now js)))) ->
  (forall i0 st js, if_index i0 <> k -> B st -> B (fst (fst (pass i0 st now js)))) ->
  (forall st js, A st -> B (fst (fst (pass itf st now js)))) ->
  forall ifs st js, NoDup (map if_index ifs) -> find (fun x => if_index x =? k) ifs = Some itf -> A st ->
  B (fst (fst (probing_intfs ifs st now js))).
Proof.
  intros HA HB HK. induction ifs as [|i0 t IH]; intros st js Hnd Hf H; [discriminate|].
  cbn [map] in Hnd. apply NoDup_cons_iff in Hnd as [Hnotin Hnd']. cbn [find] in Hf. rewrite probing_intfs_cons.
  destruct (if_index i0 =? k) eqn:E.
  - inversion Hf; subst i0. apply N.eqb_eq in E. specialize (HK st js H). destruct (pass itf st now js) as [[st1 os1] js1]. cbn [fst] in HK.
    pose proof (probing_intfs_phase (keeps B) (keeps_nil _) (keeps_app _) now t) as P.
    assert (Hk : forall i1, In i1 t -> if_index i1 <> k) by (intros i1 I E1; apply Hnotin; rewrite E, <- E1; apply in_map; exact I).
    specialize (P (fun st0 i1 js0 I => HB i1 st0 js0 (Hk i1 I)) st1 js1 HK).
    destruct (probing_intfs t st1 now js1) as [[st2 os2] js2]. exact P.
  - apply N.eqb_neq in E. specialize (HA i0 st js E H). destruct (pass i0 st now js) as [[st1 os1] js1]. cbn [fst] in HA.
    specialize (IH st1 js1 Hnd' Hf HA). destruct (probing_intfs t st1 now js1) as [[st2 os2] js2]. exact IH.
Qed.

(* the records s0 announces when no rename is recorded: under the instance name, under the host name *)
Definition ARI (s0 : svc) : list prec := [srv_rec reg_new s0; txt_rec reg_new s0].
Definition ARH (s0 : svc) (itf : intf) (v4 : bool) : list prec := map (addr_rec reg_new s0 itf) (addrs_on_intf s0 itf v4).

(* phase j of both probes (instance name and host name), started together at T *)
Definition Qj (s0 : svc) (itf : intf) (v4 : bool) (T : N) (j : nat) (rg : registry) : Prop :=
  clean rg /\ NoDup (keys (rg_probing rg)) /\
  hold rg (s_full s0) T j (s_full s0) (ARI s0) /\ hold rg (s_host s0) T j (s_full s0) (ARH s0 itf v4).

Lemma Qj_ipd s0 itf v4 T j rg r svc start : p_new r = None -> Qj s0 itf v4 T j rg -> Qj s0 itf v4 T j (fst (is_probing_done rg r svc start)).
Proof.
  intros Hn (C & Hnd & H1 & H2). split; [apply ipd_clean; assumption|]. split; [apply ipd_nodup; exact Hnd|].
  split; apply ipd_hold; assumption.
Qed.

Lemma Qj_clean s0 itf v4 T j rg : Qj s0 itf v4 T j rg -> rg_changes rg = [].
Proof. intros ((C & _) & _). exact C. Qed.

Lemma announceable_clean rg s0 s itf v4 :
  rg_changes rg = [] -> svc_eqv s0 s -> addrs_on_intf s0 itf v4 <> [] ->
  Forall (fun r => in_active rg r = true) (ARI s0 ++ ARH s0 itf v4) -> announceable s itf rg v4.
Proof.
  intros C QS Ha A. split; [destruct QS as [(_ & _ & _ & _ & _ & _ & E) _]; unfold addrs_on_intf in *; rewrite <- E; exact Ha|].
  right. rewrite (announce_records_eqv rg s0 s itf v4 QS), (announce_records_stable reg_new rg s0 itf v4 C). exact A.
Qed.

Lemma Qj_finish s0 itf v4 T rg now rg1 qs evs waiting :
  Qj s0 itf v4 T 3 rg -> addrs_on_intf s0 itf v4 <> [] -> now = T + 750 -> probe_step rg now = (rg1, qs, evs, waiting) ->
  In (s_full s0) waiting /\
  clean rg1 /\ NoDup (keys (rg_probing rg1)) /\ Forall (fun r => in_active rg1 r = true) (ARI s0 ++ ARH s0 itf v4).
Proof.
  intros (C & Hnd & HI & HH) Ha Hnow PS.
  destruct (probe_step_general rg now C Hnd) as (C1 & N1 & _). rewrite PS in C1, N1. cbn [fst] in C1, N1.
  assert (NEI : ARI s0 <> []) by discriminate.
  assert (NEH : ARH s0 itf v4 <> []) by (unfold ARH; destruct (addrs_on_intf s0 itf v4); [contradiction|discriminate]).
  destruct (probe_step_finish rg now _ T _ _ rg1 qs evs waiting C Hnd HI NEI Hnow PS) as [W1 A1].
  destruct (probe_step_finish rg now _ T _ _ rg1 qs evs waiting C Hnd HH NEH Hnow PS) as [_ A2].
  split; [exact W1|]. split; [exact C1|]. split; [exact N1|]. apply Forall_app. split; apply Forall_forall; intros r Hr.
  - apply A1; [exact Hr|]. destruct Hr as [<-|[<-|[]]]; reflexivity.
  - apply A2; [exact Hr|]. unfold ARH in Hr. apply in_map_iff in Hr as (a & <- & _). reflexivity.
Qed.

Lemma pass_k_state (Q Q' : registry -> Prop) (Q'_ipd : forall rg r svc start, p_new r = None -> Q' rg -> Q' (fst (is_probing_done rg r svc start)))
      (Q'_clean : forall rg, Q' rg -> rg_changes rg = []) key s0 itf now st js :
  Kept Q (if_index itf) key s0 itf st ->
  (forall rg, Q rg -> Q' (fst (fst (fst (probe_step rg now))))) ->
  Kept Q' (if_index itf) key s0 itf (fst (fst (pass itf st now js))).
Proof.
  intros (D & F & (rg & G & HQ) & S) Hstep. unfold pass. rewrite G. specialize (Hstep rg HQ).
  destruct (probe_step rg now) as [[[rg1 qs] evs] waiting]. cbn [fst] in Hstep.
  pose proof (announce_waiting_svcs itf now (d_mon st) (svc_at key s0) (fun svcs k0 s1 H G0 => svc_at_sput key s0 svcs k0 s1 _ _ H G0) waiting rg1 (d_svcs st) js S) as SA.
  pose proof (announce_waiting_Q Q' Q'_ipd Q'_clean itf now (d_mon st) waiting rg1 (d_svcs st) js Hstep) as HQ2.
  destruct (announce_waiting waiting itf rg1 (d_svcs st) now js (d_mon st)) as [[[[rg2 svcs2] os2] rt2] js2]. cbn [fst snd] in *.
  split; [exact D|]. split; [exact F|]. split; [exists rg2; cbn [d_regs]; split; [apply nget_nset_same|exact HQ2]|exact SA].
Qed.

(* the probing pass over interface k itself *)
Lemma pass_k s0 itf v4 T j key now st js :
  let k := if_index itf in
  key = lower (s_full s0) -> s_probe s0 = true -> addrs_on_intf s0 itf v4 <> [] ->
  Kept (Qj s0 itf v4 T j) k key s0 itf st ->
  let st' := fst (fst (probing_intfs [itf] st now js)) in
  (now < T + 250 * N.of_nat j -> Kept (Qj s0 itf v4 T j) k key s0 itf st') /\
  (now = T + 250 * N.of_nat j -> (j < 3)%nat -> Kept (Qj s0 itf v4 T (S j)) k key s0 itf st') /\
  (now = T + 250 * N.of_nat j -> j = 3%nat -> Done k key (d_svcs st')).
Proof.
  intros k Hkey Hp Ha HK. cbv zeta. rewrite probing_one_state.
  assert (Hstep : forall rg, Qj s0 itf v4 T j rg ->
            (now < T + 250 * N.of_nat j -> Qj s0 itf v4 T j (fst (fst (fst (probe_step rg now))))) /\
            (now = T + 250 * N.of_nat j -> (j < 3)%nat -> Qj s0 itf v4 T (S j) (fst (fst (fst (probe_step rg now)))))).
  { intros rg (C & Hnd & HI & HH). destruct (probe_step_general rg now C Hnd) as (C1 & N1 & _).
    destruct (probe_step rg now) as [[[rg1 qs] evs] waiting] eqn:PS. cbn [fst] in *.
    pose proof (probe_step_hold rg now _ T j _ _ rg1 qs evs waiting Hnd HI PS) as [HI1 HI2].
    pose proof (probe_step_hold rg now _ T j _ _ rg1 qs evs waiting Hnd HH PS) as [HH1 HH2]. split.
    - intros Hlt. destruct (HI1 Hlt) as [A _], (HH1 Hlt) as [B _]. split; [exact C1|split; [exact N1|split; assumption]].
    - intros He Hj. destruct (HI2 He Hj) as [A _], (HH2 He Hj) as [B _]. split; [exact C1|split; [exact N1|split; assumption]]. }
  split; [|split].
  - intros Hlt. apply (pass_k_state _ _ (Qj_ipd s0 itf v4 T j) (Qj_clean s0 itf v4 T j) key s0 itf now st js HK). intros rg HQ. exact (proj1 (Hstep rg HQ) Hlt).
  - intros He Hj. apply (pass_k_state _ _ (Qj_ipd s0 itf v4 T (S j)) (Qj_clean s0 itf v4 T (S j)) key s0 itf now st js HK). intros rg HQ. exact (proj2 (Hstep rg HQ) He Hj).
  - intros He Hj. subst j. destruct HK as (D & F & (rg & G & HQ) & (s & GS & QS)). unfold pass. fold k. rewrite G.
    destruct (probe_step rg now) as [[[rg1 qs] evs] waiting] eqn:PS.
    destruct (Qj_finish s0 itf v4 T rg now rg1 qs evs waiting HQ Ha He PS) as (W1 & C1 & _ & A).
    destruct (announced_on k s) eqn:AN.
    + (* already announced: it stays *)
      pose proof (announce_waiting_svcs itf now (d_mon st) (Done k key) (fun svcs k0 s1 H G0 => Done_sput k key svcs k0 s1 _ H G0) waiting rg1 (d_svcs st) js (ex_intro _ s (conj GS AN))) as SD.
      destruct (announce_waiting waiting itf rg1 (d_svcs st) now js (d_mon st)) as [[[[rg2 svcs2] os2] rt2] js2]. exact SD.
    + rewrite Hkey in GS.
      pose proof (announce_waiting_completes itf now (d_mon st) v4 waiting rg1 (d_svcs st) js (s_full s0) s W1 GS AN
                    (announceable_clean rg1 s0 s itf v4 (proj1 C1) QS Ha A)) as H.
      destruct (announce_waiting waiting itf rg1 (d_svcs st) now js (d_mon st)) as [[[[rg2 svcs2] os2] rt2] js2]. cbn [fst snd d_svcs].
      destruct H as (_ & H2 & _). rewrite Hkey. exact H2.
Qed.

(* the whole probing handler: interface k is passed exactly once *)
Lemma probing_at s0 itf v4 T j key now : forall ifs st js,
  let k := if_index itf in
  key = lower (s_full s0) -> s_probe s0 = true -> addrs_on_intf s0 itf v4 <> [] ->
  NoDup (map if_index ifs) -> find (fun x => if_index x =? k) ifs = Some itf ->
  Kept (Qj s0 itf v4 T j) k key s0 itf st ->
  let st' := fst (fst (probing_intfs ifs st now js)) in
  (now < T + 250 * N.of_nat j -> Kept (Qj s0 itf v4 T j) k key s0 itf st') /\
  (now = T + 250 * N.of_nat j -> (j < 3)%nat -> Kept (Qj s0 itf v4 T (S j)) k key s0 itf st') /\
  (now = T + 250 * N.of_nat j -> j = 3%nat -> Done k key (d_svcs st')).
Proof.
  intros ifs st js k Hkey Hp Ha Hnd Hf HK. cbv zeta.
  assert (P : forall st0 js0, Kept (Qj s0 itf v4 T j) k key s0 itf st0 ->
            (now < T + 250 * N.of_nat j -> Kept (Qj s0 itf v4 T j) k key s0 itf (fst (fst (pass itf st0 now js0)))) /\
            (now = T + 250 * N.of_nat j -> (j < 3)%nat -> Kept (Qj s0 itf v4 T (S j)) k key s0 itf (fst (fst (pass itf st0 now js0)))) /\
            (now = T + 250 * N.of_nat j -> j = 3%nat -> Done k key (d_svcs (fst (fst (pass itf st0 now js0))))))
    by (intros st0 js0 H0; rewrite <- probing_one_state; exact (pass_k s0 itf v4 T j key now st0 js0 Hkey Hp Ha H0)).
  assert (O : forall Q, forall i0 st0 js0, if_index i0 <> k -> Kept Q k key s0 itf st0 -> Kept Q k key s0 itf (fst (fst (pass i0 st0 now js0))))
    by (intros Q i0 st0 js0 E; exact (proj1 (pass_other Q k key s0 itf now i0 st0 js0 E))).
  split; [|split].
  - intros Hlt. exact (probing_once _ _ now k itf (O _) (O _) (fun st0 js0 H0 => proj1 (P st0 js0 H0) Hlt) ifs st js Hnd Hf HK).
  - intros He Hj. exact (probing_once _ _ now k itf (O _) (O _) (fun st0 js0 H0 => proj1 (proj2 (P st0 js0 H0)) He Hj) ifs st js Hnd Hf HK).
  - intros He Hj.
    exact (probing_once _ (fun s => Done k key (d_svcs s)) now k itf (O _)
             (fun i0 st0 js0 E => proj2 (pass_other (Qj s0 itf v4 T j) k key s0 itf now i0 st0 js0 E))
             (fun st0 js0 H0 => proj2 (proj2 (P st0 js0 H0)) He Hj) ifs st js Hnd Hf HK).
Qed.

Lemma calm_iteration s0 itf v4 T j key st it st' os js :
  let k := if_index itf in
  key = lower (s_full s0) -> s_probe s0 = true -> addrs_on_intf s0 itf v4 <> [] ->
  NoDup (map if_index (d_intfs st)) -> calm_iter key it -> iterate st it = (st', os, Running, js) ->
  Kept (Qj s0 itf v4 T j) k key s0 itf st ->
  d_intfs st' = d_intfs st /\
  (it_now it < T + 250 * N.of_nat j -> Kept (Qj s0 itf v4 T j) k key s0 itf st') /\
  (it_now it = T + 250 * N.of_nat j -> (j < 3)%nat -> Kept (Qj s0 itf v4 T (S j)) k key s0 itf st') /\
  (it_now it = T + 250 * N.of_nat j -> j = 3%nat -> Done k key (d_svcs st')).
Proof.
  intros k Hkey Hp Ha Hnd Hc Hit HK.
  destruct (calm_prefix _ (Qj_ipd s0 itf v4 T j) (Qj_clean s0 itf v4 T j) k key s0 itf st it st' os js Hc Hit HK)
    as (st1 & os1 & js1 & st2 & os2 & js2 & st3 & os3 & js3 & os4 & _ & _ & _ & E4 & _ & _ & _ & K3 & F3).
  assert (Hnd3 : NoDup (map if_index (d_intfs st3))) by (rewrite F3; exact Hnd).
  pose proof (probing_at s0 itf v4 T j key (it_now it) (d_intfs st3) st3 js3 Hkey Hp Ha Hnd3 (proj1 (proj2 K3)) K3) as PA.
  destruct (probing_intfs_grows (it_now it) (d_intfs st3) st3 js3) as (F4 & _). rewrite E4 in PA, F4. cbn [fst] in PA, F4.
  split; [congruence|exact PA].
Qed.

(* every iteration leaves the daemon running (no name in any packet is too long to be written) *)
Fixpoint all_running (st : dstate) (its : list iter) : Prop :=
  match its with
  | [] => True
  | it :: t => snd (fst (iterate st it)) = Running /\ all_running (fst (fst (fst (iterate st it)))) t
  end.

(* never late: every iteration happens no later than the due work of the state it starts from *)
Fixpoint never_late (st : dstate) (its : list iter) : Prop :=
  match its with
  | [] => True
  | it :: t => (forall d, due_work st = Some d -> it_now it <= d) /\ never_late (fst (fst (fst (iterate st it)))) t
  end.

Lemma Kept_due s0 itf v4 T j key st :
  Kept (Qj s0 itf v4 T j) (if_index itf) key s0 itf st -> exists d, due_work st = Some d /\ d <= T + 250 * N.of_nat j.
Proof.
  intros (_ & _ & (rg & G & (_ & _ & (p & Gp & _ & X & _) & _)) & _).
  destruct (due_work_covers_probe st (if_index itf) rg (s_full s0) p G (aget_In _ _ _ Gp)) as (d & E & L). exists d. split; [exact E|lia].
Qed.

(* the timetable, with whatever else (F) the announcing iteration establishes *)
Lemma reaches_gen (F : dstate -> Prop) s0 itf v4 T key :
  key = lower (s_full s0) -> s_probe s0 = true -> addrs_on_intf s0 itf v4 <> [] ->
  (forall st it st1 os js, NoDup (map if_index (d_intfs st)) -> calm_iter key it -> iterate st it = (st1, os, Running, js) ->
     Kept (Qj s0 itf v4 T 3) (if_index itf) key s0 itf st -> it_now it = T + 750 -> F st1) ->
  forall its st j, (j <= 3)%nat ->
  NoDup (map if_index (d_intfs st)) -> Kept (Qj s0 itf v4 T j) (if_index itf) key s0 itf st ->
  Forall (calm_iter key) its -> all_running st its -> never_late st its ->
  (exists pre it post, its = pre ++ it :: post /\ it_now it = T + 750 /\
                       Done (if_index itf) key (d_svcs (run_state st (pre ++ [it]))) /\ F (run_state st (pre ++ [it]))) \/
  (exists j', (j <= j' <= 3)%nat /\ Kept (Qj s0 itf v4 T j') (if_index itf) key s0 itf (run_state st its) /\
              Forall (fun it => it_now it < T + 250 * N.of_nat j') its).
Proof.
  intros Hkey Hp Ha HF. induction its as [|it rest IH]; intros st j Hj Hnd HK Hc Hr Hl.
  - right. exists j. split; [lia|]. split; [exact HK|constructor].
  - apply Forall_cons_iff in Hc as [Hci Hcr]. cbn [all_running never_late] in Hr, Hl. destruct Hr as [Hr1 Hr2], Hl as [Hl1 Hl2].
    destruct (Kept_due s0 itf v4 T j key st HK) as (d & Ed & Ld). pose proof (Hl1 d Ed) as Hle.
    destruct (iterate st it) as [[[st1 os1] e1] js1] eqn:Hit. cbn [fst snd] in *. subst e1.
    destruct (calm_iteration s0 itf v4 T j key st it st1 os1 js1 Hkey Hp Ha Hnd Hci Hit HK) as (EI & C1 & C2 & C3).
    assert (Hnd1 : NoDup (map if_index (d_intfs st1))) by (rewrite EI; exact Hnd).
    assert (RS : forall l, run_state st (it :: l) = run_state st1 l) by (intros l; cbn [run_state]; rewrite Hit; reflexivity).
    (* the iteration is at the probe's next step (then j grows, or the probes finish) or before it *)
    assert (Hcase : (it_now it = T + 250 * N.of_nat j /\ j = 3%nat) \/
                    (exists j1, (j <= j1 <= 3)%nat /\ Kept (Qj s0 itf v4 T j1) (if_index itf) key s0 itf st1 /\ it_now it < T + 250 * N.of_nat j1)).
    { destruct (N.eq_dec (it_now it) (T + 250 * N.of_nat j)) as [He|Hne].
      - destruct (PeanoNat.Nat.eq_dec j 3) as [->|Hj3]; [left; split; [exact He|reflexivity]|]. right. exists (S j).
        split; [lia|]. split; [apply C2; [exact He|lia]|]. rewrite He. assert (B : N.of_nat (S j) = N.of_nat j + 1) by lia. rewrite B. lia.
      - right. exists j. split; [lia|]. split; [apply C1; lia|lia]. }
    destruct Hcase as [[He ->]|(j1 & Hj1 & HK1 & Hlt)].
    + left. exists [], it, rest. split; [reflexivity|]. split; [rewrite He; reflexivity|]. cbn [app]. rewrite RS. cbn [run_state].
      split; [exact (C3 He eq_refl)|]. apply (HF st it st1 os1 js1 Hnd Hci Hit HK). rewrite He. reflexivity.
    + destruct (IH st1 j1 ltac:(lia) Hnd1 HK1 Hcr Hr2 Hl2) as [(pre & it' & post & E & Et & HD)|(j' & Hj' & HK' & HF')].
      * left. exists (it :: pre), it', post. split; [rewrite E; reflexivity|]. split; [exact Et|]. cbn [app]. rewrite RS. exact HD.
      * right. exists j'. split; [lia|]. split; [rewrite RS; exact HK'|]. constructor; [|exact HF']. assert (B : 250 * N.of_nat j1 <= 250 * N.of_nat j') by lia. lia.
Qed.

Theorem reaches_announced_gen s0 itf v4 T key :
  key = lower (s_full s0) -> s_probe s0 = true -> addrs_on_intf s0 itf v4 <> [] ->
  forall its st j, (j <= 3)%nat ->
  NoDup (map if_index (d_intfs st)) -> Kept (Qj s0 itf v4 T j) (if_index itf) key s0 itf st ->
  Forall (calm_iter key) its -> all_running st its -> never_late st its ->
  (exists pre it post, its = pre ++ it :: post /\ it_now it = T + 750 /\
                       Done (if_index itf) key (d_svcs (run_state st (pre ++ [it])))) \/
  (exists j', (j <= j' <= 3)%nat /\ Kept (Qj s0 itf v4 T j') (if_index itf) key s0 itf (run_state st its) /\
              Forall (fun it => it_now it < T + 250 * N.of_nat j') its).
Proof.
  intros Hkey Hp Ha its st j Hj Hnd HK Hc Hr Hl.
  destruct (reaches_gen (fun _ => True) s0 itf v4 T key Hkey Hp Ha (fun _ _ _ _ _ _ _ _ _ _ => I) its st j Hj Hnd HK Hc Hr Hl)
    as [(pre & it & post & E & Et & HD & _)|H]; [left; exists pre, it, post; auto|right; exact H].
Qed.

Lemma not_still_probing T j' (its : list iter) : (j' <= 3)%nat ->
  Forall (fun it => it_now it < T + 250 * N.of_nat j') its -> (exists it, In it its /\ T + 750 <= it_now it) -> False.
Proof.
  intros Hj HF (it0 & Hin & Hge). pose proof (proj1 (Forall_forall _ _) HF it0 Hin) as Hlt. cbv beta in Hlt. assert (B : 250 * N.of_nat j' <= 750) by lia. lia.
Qed.

(* From the state a registration leaves behind - both probes of the service on the
   interface in their initial state, started at T -, through any history of calm iterations that is
   never late and in which the daemon keeps running: if the history goes on until T + 750, there is an
   iteration at exactly T + 750 after which the service is Announced on the interface *)
Theorem reaches_announced s0 itf v4 T key st its :
  key = lower (s_full s0) -> s_probe s0 = true -> addrs_on_intf s0 itf v4 <> [] ->
  NoDup (map if_index (d_intfs st)) -> Kept (Qj s0 itf v4 T 0) (if_index itf) key s0 itf st ->
  Forall (calm_iter key) its -> all_running st its -> never_late st its ->
  (exists it, In it its /\ T + 750 <= it_now it) ->
  exists pre it post, its = pre ++ it :: post /\ it_now it = T + 750 /\
                      Done (if_index itf) key (d_svcs (run_state st (pre ++ [it]))).
Proof.
  intros Hkey Hp Ha Hnd HK Hc Hr Hl Hex.
  destruct (reaches_announced_gen s0 itf v4 T key Hkey Hp Ha its st 0%nat ltac:(lia) Hnd HK Hc Hr Hl) as [H|(j' & Hj' & _ & HF)]; [exact H|].
  destruct (not_still_probing T j' its ltac:(lia) HF Hex).
Qed.
