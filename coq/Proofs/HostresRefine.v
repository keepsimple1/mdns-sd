(* C17: the model of the code (two tables: hostname_resolvers + retransmissions) refines the
   reference machine of the property text (one table of searches) on every well-formed
   history; so chk_C17 accepts the model's trace.  At the end, the two concrete histories that
   Props/C17.v evaluates (late_witness, ex_hist).  No axioms. *)
From Coq Require Import List NArith Bool Lia Permutation.
From Mdns Require Import Bytes ListFacts ParamsHostres HostresBase HostresModel HostresSpec HostresPinned HostresBaseFacts HostresSpecFacts.
Import ListNotations.
Open Scope N_scope.

Lemma flat_map_map {A B C} (f : B -> list C) (g : A -> B) l :
  flat_map f (map g l) = flat_map (fun x => f (g x)) l.
Proof. induction l as [|x t IH]; simpl; [reflexivity|]. rewrite IH. reflexivity. Qed.

Lemma filter_flat_map {A B} (f : B -> bool) (g : A -> list B) l :
  filter f (flat_map g l) = flat_map (fun x => filter f (g x)) l.
Proof. induction l as [|x t IH]; simpl; [reflexivity|]. rewrite filter_app, IH. reflexivity. Qed.

Lemma flat_map_flat_map {A B C} (f : B -> list C) (g : A -> list B) l :
  flat_map f (flat_map g l) = flat_map (fun x => flat_map f (g x)) l.
Proof. induction l as [|x t IH]; simpl; [reflexivity|]. rewrite flat_map_app, IH. reflexivity. Qed.

Lemma map_flat_map {A B C} (f : B -> C) (g : A -> list B) l :
  map f (flat_map g l) = flat_map (fun x => map f (g x)) l.
Proof. induction l as [|x t IH]; simpl; [reflexivity|]. rewrite map_app, IH. reflexivity. Qed.

Lemma Permutation_flat_map_split {A B} (f g : A -> list B) l :
  Permutation (flat_map (fun x => f x ++ g x) l) (flat_map f l ++ flat_map g l).
Proof.
  induction l as [|x t IH]; simpl; [constructor|].
  rewrite <- !app_assoc. apply Permutation_app_head.
  eapply Permutation_trans; [apply Permutation_app_head; exact IH|].
  rewrite !app_assoc. apply Permutation_app_tail. apply Permutation_app_comm.
Qed.

(* at most one element per key: filtering two permuted lists by a key gives the same list *)
Lemma filter_key_perm {A} (l1 l2 : list (N * A)) :
  Permutation l1 l2 -> NoDup (map fst l1) ->
  forall c, filter (fun x => fst x =? c) l1 = filter (fun x => fst x =? c) l2.
Proof.
  induction 1; intros Hnd c; simpl.
  - reflexivity.
  - inversion Hnd; subst. rewrite IHPermutation by assumption. reflexivity.
  - destruct (fst y =? c) eqn:Ey, (fst x =? c) eqn:Ex; try reflexivity.
    apply N.eqb_eq in Ey, Ex. inversion Hnd as [|? ? Hn _]; subst. exfalso. apply Hn. simpl. left. congruence.
  - rewrite IHPermutation1 by assumption. apply IHPermutation2.
    eapply Permutation_NoDup; [apply Permutation_map; eassumption|assumption].
Qed.

Lemma saddr_eqb_refl a : saddr_eqb a a = true.
Proof. unfold saddr_eqb. rewrite beq_refl, N.eqb_refl. reflexivity. Qed.
Lemma saddr_list_eqb_refl l : saddr_list_eqb l l = true.
Proof. induction l; simpl; [reflexivity|]. rewrite saddr_eqb_refl, IHl. reflexivity. Qed.
Lemma ev_eqb_refl e : ev_eqb e e = true.
Proof. destruct e; simpl; rewrite ?beq_refl, ?saddr_list_eqb_refl; reflexivity. Qed.
Lemma evs_eqb_refl l : evs_eqb l l = true.
Proof. induction l; simpl; [reflexivity|]. rewrite ev_eqb_refl, IHl. reflexivity. Qed.

Lemma events_match_chanwise exp obs :
  (forall c, filter (fun x => fst x =? c) exp = filter (fun x => fst x =? c) obs) ->
  events_match exp obs = true.
Proof.
  intros H. unfold events_match. apply forallb_forall. intros c _.
  unfold chan_events. rewrite H. apply evs_eqb_refl.
Qed.

Lemma q_eqb_eq a b : q_eqb a b = true <-> a = b.
Proof.
  revert b; induction a as [|[n t] a IH]; destruct b as [|[m u] b]; simpl; split; intros H;
    try reflexivity; try discriminate.
  - apply andb_true_iff in H as [H H3]. apply andb_true_iff in H as [H1 H2].
    apply beq_eq in H1. apply N.eqb_eq in H2. apply IH in H3. congruence.
  - inversion H; subst. rewrite beq_refl, N.eqb_refl. simpl. apply IH. reflexivity.
Qed.

Lemma remove_q_in q l : In q l -> exists l', remove_q q l = Some l' /\ Permutation l (q :: l').
Proof.
  induction l as [|x t IH]; simpl; intros H; [contradiction|].
  destruct (q_eqb q x) eqn:E.
  - apply q_eqb_eq in E. subst. eexists. split; [reflexivity|apply Permutation_refl].
  - destruct H as [H|H]; [subst; rewrite (proj2 (q_eqb_eq q q) eq_refl) in E; discriminate|].
    destruct (IH H) as [l' [H1 H2]]. rewrite H1. eexists. split; [reflexivity|].
    eapply Permutation_trans; [apply perm_skip; exact H2|]. apply perm_swap.
Qed.

Lemma queries_match_perm exp obs : Permutation exp obs -> queries_match exp obs = true.
Proof.
  revert obs. induction exp as [|q t IH]; intros obs H; simpl.
  - apply Permutation_nil in H. subst. reflexivity.
  - assert (Hin : In q obs) by (eapply Permutation_in; [exact H|left; reflexivity]).
    destruct (remove_q_in q obs Hin) as [l' [H1 H2]]. rewrite H1. apply IH.
    eapply Permutation_cons_inv. eapply Permutation_trans; [exact H|exact H2].
Qed.

(* the retransmission the code has queued for a search: the search's next query *)
Definition armed1 (k : search) : list rerun :=
  match sk_next k with
  | Some (t, d) => [mkRR t (sk_host k) d (sk_chan k)]
  | None => []
  end.
Definition armed (l : list search) : list rerun := flat_map armed1 l.

(* a queued retransmission whose search has ended (deadline): it is due and finds no resolver,
   so it will be dropped without effect in the retransmission phase of the same iteration *)
Definition orph_ok (now : N) (res : list resolver) (rr : rerun) : Prop :=
  hp_rerun_due now (rr_time rr) = true /\ find_res (lower (rr_host rr)) res = None.

(* The code's two tables against the one table of searches, inside an iteration at time `now`:
   the queued retransmissions are those of the open searches plus `orph`, the ones left over from
   searches that ended earlier in this iteration (they are due, and will find no resolver). *)
Record RelIn (now : N) (s : st) (p : sst) (orph : list rerun) : Prop := mkRelIn {
  relin_cache : s_cache s = ss_cache p;
  relin_res : s_res s = res_view p;
  relin_retr : Permutation (s_retr s) (armed (ss_searches p) ++ orph);
  relin_open : s_open s = ss_open p;
  relin_orph : Forall (orph_ok now (s_res s)) orph }.

(* between iterations nothing is left over; the time only constrains the leftovers *)
Definition Rel (s : st) (p : sst) : Prop := RelIn 0 s p [].

(* the next query of a search is before its deadline *)
Definition before_deadline (k : search) : Prop :=
  forall t d dl, sk_next k = Some (t, d) -> sk_deadline k = Some dl -> t < dl.

Definition table_ok (l : list search) : Prop :=
  NoDup (map sk_key l) /\ Forall (fun k => sk_key k = lower (sk_host k)) l /\ Forall before_deadline l.

(* fut: the channels of the resolve calls still to come *)
Definition Inv (p : sst) (fut : list N) : Prop :=
  table_ok (ss_searches p) /\ NoDup (map sk_chan (ss_searches p) ++ fut).

Lemma next_after_before now d dl t d' x :
  next_after now d dl = Some (t, d') -> dl = Some x -> t < x.
Proof.
  unfold next_after. intros H ->. rewrite pin_host_rearm in H.
  destruct (now + d * hp_host_delay_unit_ms <? x) eqn:E; [|discriminate].
  inversion H; subst. apply N.ltb_lt. exact E.
Qed.

Lemma find_search_in l k : NoDup (map sk_key l) -> In k l -> find_search (sk_key k) l = Some k.
Proof.
  induction l as [|x t IH]; simpl; intros Hnd Hin; [contradiction|].
  inversion Hnd as [|? ? Hn Hd]; subst. destruct Hin as [Hin|Hin].
  - subst. rewrite beq_refl. reflexivity.
  - destruct (beq (sk_key k) (sk_key x)) eqn:E; [|apply IH; assumption].
    apply beq_eq in E. exfalso. apply Hn. rewrite <- E. apply in_map. exact Hin.
Qed.

Lemma find_search_absent a l : ~ In a (map sk_key l) -> find_search a l = None.
Proof.
  induction l as [|x t IH]; simpl; intros H; [reflexivity|].
  destruct (beq a (sk_key x)) eqn:E; [apply beq_eq in E; exfalso; apply H; left; congruence|].
  apply IH. intros Hin. apply H. right. exact Hin.
Qed.

Lemma find_search_filter_none f l k :
  NoDup (map sk_key l) -> In k l -> f k = false -> find_search (sk_key k) (filter f l) = None.
Proof.
  intros Hnd Hin Hf. apply find_search_absent. intros H.
  apply in_map_iff in H as [y [Ey Hy]]. apply filter_In in Hy as [Hy Hfy].
  assert (y = k).
  { clear -Hnd Hin Hy Ey. induction l as [|x t IH]; simpl in *; [contradiction|].
    inversion Hnd as [|? ? Hn Hd]; subst. destruct Hin as [->|Hin], Hy as [->|Hy]; auto.
    - exfalso. apply Hn. rewrite <- Ey. apply in_map. exact Hy.
    - exfalso. apply Hn. rewrite Ey. apply in_map. exact Hin. }
  subst. congruence.
Qed.

Lemma del_res_view k l : del_res k (map res_of l) = map res_of (del_search k l).
Proof. unfold del_res, del_search. rewrite filter_map_comm. reflexivity. Qed.

Lemma set_res_view x l : set_res (res_of x) (map res_of l) = map res_of (set_search x l).
Proof.
  induction l as [|y t IH]; simpl; [reflexivity|].
  destruct (beq (sk_key x) (sk_key y)); simpl; [reflexivity|]. rewrite IH. reflexivity.
Qed.

Lemma find_set_res x l : find_res (r_key x) (set_res x l) = Some x.
Proof.
  induction l as [|y t IH]; simpl.
  - rewrite beq_refl. reflexivity.
  - destruct (beq (r_key x) (r_key y)) eqn:E; simpl.
    + rewrite beq_refl. reflexivity.
    + rewrite E. exact IH.
Qed.

Lemma find_set_res_other a x l : beq a (r_key x) = false -> find_res a (set_res x l) = find_res a l.
Proof.
  intros H. induction l as [|y t IH]; simpl.
  - rewrite H. reflexivity.
  - destruct (beq (r_key x) (r_key y)) eqn:E; simpl.
    + rewrite H. apply beq_eq in E. rewrite <- E, H. reflexivity.
    + destruct (beq a (r_key y)); [reflexivity|exact IH].
Qed.

Lemma find_del_res_none a k l : find_res a l = None -> find_res a (del_res k l) = None.
Proof.
  unfold del_res. induction l as [|y t IH]; simpl; [auto|].
  destruct (beq a (r_key y)) eqn:E; [discriminate|]. intros H.
  destruct (negb (beq k (r_key y))); simpl; [rewrite E|]; apply IH; exact H.
Qed.

Lemma in_map_set_search {B} (f : search -> B) a x l :
  In a (map f (set_search x l)) -> a = f x \/ In a (map f l).
Proof.
  induction l as [|y t IH]; simpl.
  - intros [H|[]]. left. congruence.
  - destruct (beq (sk_key x) (sk_key y)); simpl; intros [H|H]; auto.
    destruct (IH H); auto.
Qed.

Lemma Forall_set_search (P : search -> Prop) x l : P x -> Forall P l -> Forall P (set_search x l).
Proof.
  intros Hx. induction l as [|y t IH]; simpl; intros H; [repeat constructor; exact Hx|].
  inversion H; subst. destruct (beq (sk_key x) (sk_key y)); constructor; auto.
Qed.

Lemma table_ok_set_search x l :
  sk_key x = lower (sk_host x) -> before_deadline x -> table_ok l -> table_ok (set_search x l).
Proof.
  intros Hx Hbd [Hnd [Hf Hb]]. split; [|split].
  - clear Hf Hb. induction l as [|y t IH]; simpl; [repeat constructor; intros []|].
    inversion Hnd; subst.
    destruct (beq (sk_key x) (sk_key y)) eqn:E; simpl.
    + apply beq_eq in E. rewrite E. constructor; assumption.
    + constructor; [|apply IH; assumption].
      intros Hin. apply in_map_set_search in Hin as [Hin|Hin]; [|contradiction].
      rewrite Hin, beq_refl in E. discriminate.
  - apply Forall_set_search; assumption.
  - apply Forall_set_search; assumption.
Qed.

Lemma table_ok_filter g l : table_ok l -> table_ok (filter g l).
Proof.
  intros [Hnd [Hf Hb]]. split; [|split].
  - apply NoDup_map_filter. exact Hnd.
  - apply Forall_filter. exact Hf.
  - apply Forall_filter. exact Hb.
Qed.

Lemma chans_set_search x l fut :
  NoDup (map sk_chan l ++ sk_chan x :: fut) -> NoDup (map sk_chan (set_search x l) ++ fut).
Proof.
  induction l as [|y t IH]; simpl; intros H.
  - exact H.
  - inversion H as [|? ? Hn Hd]; subst.
    destruct (beq (sk_key x) (sk_key y)); simpl.
    + apply NoDup_remove in Hd as [H1 H2]. constructor; assumption.
    + constructor; [|apply IH; exact Hd].
      intros Hin. apply Hn. apply in_app_or in Hin as [Hin|Hin]; apply in_or_app.
      * apply in_map_set_search in Hin as [Hin|Hin]; [right; left; congruence|left; exact Hin].
      * right. right. exact Hin.
Qed.

Lemma armed_filter_key k l :
  Forall (fun x => sk_key x = lower (sk_host x)) l ->
  filter (fun rr => negb (beq (lower (rr_host rr)) k)) (armed l) = armed (del_search k l).
Proof.
  induction l as [|x t IH]; simpl; intros Hf; [reflexivity|].
  inversion Hf; subst. unfold armed in *. simpl. rewrite filter_app, IH by assumption.
  unfold armed1 at 1. rewrite (beq_sym k (sk_key x)).
  destruct (sk_next x) as [[tm d]|] eqn:En; simpl.
  - rewrite <- H1. destruct (beq (sk_key x) k); simpl; [reflexivity|]. unfold armed1. rewrite En. reflexivity.
  - destruct (beq (sk_key x) k); simpl; [reflexivity|]. unfold armed1. rewrite En. reflexivity.
Qed.

Lemma del_search_absent k l : ~ In k (map sk_key l) -> del_search k l = l.
Proof.
  intros H. unfold del_search. apply filter_true. intros x Hx.
  destruct (beq k (sk_key x)) eqn:E; [|reflexivity].
  apply beq_eq in E. exfalso. apply H. rewrite E. apply in_map. exact Hx.
Qed.

Lemma armed_set_search x l :
  NoDup (map sk_key l) ->
  Permutation (armed (set_search x l)) (armed (del_search (sk_key x) l) ++ armed1 x).
Proof.
  induction l as [|y t IH]; simpl; intros Hnd.
  - unfold armed. simpl. rewrite app_nil_r. apply Permutation_refl.
  - inversion Hnd; subst. destruct (beq (sk_key x) (sk_key y)) eqn:E; simpl.
    + apply beq_eq in E. rewrite del_search_absent by (rewrite E; assumption).
      unfold armed. simpl. apply Permutation_app_comm.
    + unfold armed in *. simpl. rewrite <- app_assoc. apply Permutation_app_head. apply IH. assumption.
Qed.

Lemma armed_in rr l :
  In rr (armed l) -> exists k t d, In k l /\ sk_next k = Some (t, d) /\ rr = mkRR t (sk_host k) d (sk_chan k).
Proof.
  unfold armed. intros H. apply in_flat_map in H as [k [Hk H]].
  unfold armed1 in H. destruct (sk_next k) as [[t d]|] eqn:E; [|contradiction].
  destruct H as [H|[]]. exists k, t, d. auto.
Qed.

Lemma armed_from rr l : In rr (armed l) -> exists k, In k l /\ rr_chan rr = sk_chan k /\ rr_host rr = sk_host k.
Proof.
  intros H. apply armed_in in H as [k [t [d [Hk [_ ->]]]]]. exists k. simpl. auto.
Qed.

Lemma armed_partition f l :
  Permutation (armed l) (armed (filter (fun k => negb (f k)) l) ++ armed (filter f l)).
Proof.
  unfold armed. induction l as [|x t IH]; simpl; [constructor|].
  destruct (f x); simpl.
  - eapply Permutation_trans; [apply Permutation_app_head; exact IH|]. apply Permutation_app_swap_app.
  - rewrite <- app_assoc. apply Permutation_app_head. exact IH.
Qed.

Lemma timeouts_rel now s p fut :
  Rel s p -> Inv p fut ->
  exists s' p' e, do_timeouts now s = (s', e) /\ sp_timeouts now p = (p', e)
                  /\ RelIn now s' p' (armed (filter (sk_timed_out now) (ss_searches p))) /\ Inv p' fut.
Proof.
  intros [R1 R2 R3 R4 _] [Hk Hc]. rewrite app_nil_r in R3.
  unfold do_timeouts, sp_timeouts. do 3 eexists. split; [reflexivity|]. split.
  - f_equal. rewrite R2. unfold res_view. rewrite filter_map_comm, flat_map_map. reflexivity.
  - split.
    + constructor; simpl; try assumption.
      * rewrite R2. unfold res_view. rewrite filter_map_comm. reflexivity.
      * eapply Permutation_trans; [exact R3|]. apply armed_partition.
      * apply Forall_forall. intros rr Hin.
        apply armed_in in Hin as [k [t [d [Hk0 [Hn ->]]]]]. apply filter_In in Hk0 as [Hk0 Hto].
        destruct Hk as [Hnd [Hf Hb]]. rewrite Forall_forall in Hf, Hb.
        unfold orph_ok. simpl. split.
        -- unfold sk_timed_out in Hto. destruct (sk_deadline k) as [dl|] eqn:Ed; [|discriminate].
           rewrite pin_deadline_reached in Hto. apply N.leb_le in Hto.
           pose proof (Hb k Hk0 t d dl Hn Ed). rewrite pin_rerun_due. apply N.leb_le. lia.
        -- rewrite R2. unfold res_view. rewrite filter_map_comm, find_res_view, <- (Hf k Hk0).
           rewrite (find_search_filter_none (fun k0 => negb (timed_out now (res_of k0))) _ k Hnd Hk0); [reflexivity|].
           change (timed_out now (res_of k)) with (sk_timed_out now k). rewrite Hto. reflexivity.
    + split; [apply table_ok_filter; exact Hk|]. simpl. apply NoDup_map_filter_app. exact Hc.
Qed.

Lemma rearm_ok_set res k host chan dl t :
  k = lower host ->
  rearm_ok (set_res (mkRes k chan dl) res) host t
  = match dl with Some d => hp_host_rearm t d | None => true end.
Proof.
  intros ->. unfold rearm_ok.
  change (lower host) with (r_key (mkRes (lower host) chan dl)) at 1.
  rewrite find_set_res. reflexivity.
Qed.

Lemma orph_filter now res res' k orph :
  Forall (orph_ok now res) orph ->
  (forall rr, In rr orph -> negb (beq (lower (rr_host rr)) k) = true ->
              find_res (lower (rr_host rr)) res' = None) ->
  Forall (orph_ok now res') (filter (fun rr => negb (beq (lower (rr_host rr)) k)) orph).
Proof.
  intros H Hres. rewrite Forall_forall in *. intros rr Hin. apply filter_In in Hin as [Hin Hp].
  destruct (H rr Hin) as [Hd _]. split; [exact Hd|apply Hres; assumption].
Qed.

Lemma call_rel now s p c fut orph :
  RelIn now s p orph -> Inv p (chans_of_calls [c] ++ fut) ->
  exists s' p' e q orph',
    exec_call now s c = (s', e, q) /\ sp_call now p c = (p', e, q) /\ RelIn now s' p' orph' /\ Inv p' fut.
Proof.
  intros [R1 R2 R3 R4 R5] [[Hnd [Hf Hb]] Hc]. destruct c as [host timeout chan|host]; simpl in *.
  - (* resolve *)
    set (k := lower host). set (dl := option_map (sat_add now) timeout).
    unfold send_and_rearm. simpl.
    rewrite (rearm_ok_set (s_res s) k host chan dl _ eq_refl).
    set (x := mkSearch k host chan dl (next_after now hp_host_first_delay dl) now timeout 1 now).
    set (P := fun rr => negb (beq (lower (rr_host rr)) k)).
    do 4 eexists. exists (filter P orph). split; [reflexivity|]. split.
    + rewrite R1. reflexivity.
    + split.
      * constructor; simpl.
        -- exact R1.
        -- rewrite R2. unfold res_view. change (mkRes k chan dl) with (res_of x). apply set_res_view.
        -- assert (E : Permutation (filter P (s_retr s)) (armed (del_search k (ss_searches p)) ++ filter P orph)).
           { rewrite <- (armed_filter_key k _ Hf). rewrite <- filter_app. apply Permutation_filter. exact R3. }
           assert (E2 : Permutation (armed (set_search x (ss_searches p)) ++ filter P orph)
                                    ((armed (del_search k (ss_searches p)) ++ filter P orph) ++ armed1 x)).
           { eapply Permutation_trans; [apply Permutation_app_tail; apply (armed_set_search x); exact Hnd|].
             simpl. rewrite <- !app_assoc. apply Permutation_app_head. apply Permutation_app_comm. }
           eapply Permutation_trans; [|apply Permutation_sym; exact E2].
           unfold armed1, x. simpl. unfold next_after.
           destruct dl as [d|]; [destruct (hp_host_rearm _ d)|]; simpl;
             rewrite ?app_nil_r; try exact E; apply Permutation_app_tail; exact E.
        -- rewrite R4. reflexivity.
        -- apply (orph_filter now (s_res s)); [exact R5|].
           intros rr Hin Hp. rewrite find_set_res_other by (simpl; apply negb_true_iff; exact Hp).
           rewrite Forall_forall in R5. apply (R5 rr Hin).
      * split.
        -- apply table_ok_set_search; [reflexivity| |split; [|split]; assumption].
           intros t d dl0 Hn Hd. simpl in Hn, Hd. eapply next_after_before; eassumption.
        -- simpl. apply (chans_set_search x). exact Hc.
  - (* stop *)
    rewrite R2. unfold res_view. rewrite find_res_view.
    destruct (find_search (lower host) (ss_searches p)) as [x|] eqn:Ef; simpl.
    + do 4 eexists. exists (filter (fun rr => negb (beq (lower (rr_host rr)) (lower host))) orph).
      split; [reflexivity|]. split; [reflexivity|]. split.
      * constructor; simpl; try assumption.
        -- unfold res_view. apply del_res_view.
        -- rewrite <- (armed_filter_key _ _ Hf). rewrite <- filter_app. apply Permutation_filter. exact R3.
        -- apply (orph_filter now (s_res s)); [exact R5|].
           intros rr Hin _. apply find_del_res_none.
           pose proof R2 as R2'. unfold res_view in R2'. rewrite <- R2'. rewrite Forall_forall in R5. apply (R5 rr Hin).
      * split; [apply table_ok_filter; split; [|split]; assumption|]. simpl. apply NoDup_map_filter_app. exact Hc.
    + do 4 eexists. exists orph. split; [reflexivity|]. split; [reflexivity|]. split.
      * constructor; try assumption.
      * split; [split; [|split]|]; assumption.
Qed.

Lemma calls_rel now cs : forall s p fut e0 q0 orph,
  RelIn now s p orph -> Inv p (chans_of_calls cs ++ fut) ->
  exists s' p' e q orph',
    fold_left (fun acc c => let '(s0, e0, q0) := acc in
                            let '(s', e, q) := exec_call now s0 c in (s', e0 ++ e, q0 ++ q)) cs (s, e0, q0) = (s', e, q)
    /\ fold_left (fun acc c => let '(s0, e0, q0) := acc in
                               let '(s', e, q) := sp_call now s0 c in (s', e0 ++ e, q0 ++ q)) cs (p, e0, q0) = (p', e, q)
    /\ RelIn now s' p' orph' /\ Inv p' fut.
Proof.
  induction cs as [|c t IH]; intros s p fut e0 q0 orph HR HI; simpl.
  - do 4 eexists. exists orph. repeat split; try reflexivity; try apply HR; apply HI.
  - assert (HI' : Inv p (chans_of_calls [c] ++ (chans_of_calls t ++ fut))).
    { unfold chans_of_calls in *. simpl in *. rewrite app_nil_r. rewrite <- app_assoc in HI. exact HI. }
    destruct (call_rel now s p c _ orph HR HI') as [s1 [p1 [e1 [q1 [orph1 [H1 [H2 [HR1 HI1]]]]]]]].
    rewrite H1, H2. apply (IH s1 p1 fut _ _ orph1); assumption.
Qed.

(* exec_rerun as a contribution to each of its three outputs: a due retransmission whose resolver
   is still there (rr_live) re-arms itself (rr_entry: the next one, unless at or past the
   deadline), announces SearchStarted (rr_ev) and asks again (rr_q); when_live f is f on those
   and nothing on the others *)
Definition rr_live (res : list resolver) (rr : rerun) : bool :=
  match find_res (lower (rr_host rr)) res with Some _ => true | None => false end.
Definition rr_entry (now : N) (res : list resolver) (rr : rerun) : list rerun :=
  let t := now + rr_delay rr * hp_host_delay_unit_ms in
  if rearm_ok res (rr_host rr) t
  then [mkRR t (rr_host rr) (N.min (hp_host_next_delay (rr_delay rr) hp_host_max_delay) hp_host_max_delay) (rr_chan rr)]
  else [].
Definition rr_ev (rr : rerun) : N * ev := (rr_chan rr, EStarted (rr_host rr)).
Definition rr_q (rr : rerun) : query := host_query (rr_host rr).
Definition when_live {A} (res : list resolver) (f : rerun -> list A) (rr : rerun) : list A :=
  if rr_live res rr then f rr else [].

Lemma exec_rerun_eq now s0 evs qs rr :
  exec_rerun now (s0, evs, qs) rr
  = (mkSt (s_cache s0) (s_res s0) (s_retr s0 ++ when_live (s_res s0) (rr_entry now (s_res s0)) rr) (s_open s0),
     evs ++ when_live (s_res s0) (fun r => [rr_ev r]) rr, qs ++ when_live (s_res s0) (fun r => [rr_q r]) rr).
Proof.
  unfold exec_rerun, when_live, rr_live.
  destruct (find_res (lower (rr_host rr)) (s_res s0)).
  - unfold send_and_rearm, rr_entry, rr_ev, rr_q. simpl.
    destruct (rearm_ok (s_res s0) (rr_host rr) (now + rr_delay rr * hp_host_delay_unit_ms)); simpl;
      rewrite ?app_nil_r; destruct s0; reflexivity.
  - rewrite !app_nil_r. destruct s0; reflexivity.
Qed.

Lemma reruns_fold now res : forall due s0 evs qs,
  s_res s0 = res ->
  fold_left (exec_rerun now) due (s0, evs, qs)
  = (mkSt (s_cache s0) res (s_retr s0 ++ flat_map (when_live res (rr_entry now res)) due) (s_open s0),
     evs ++ flat_map (when_live res (fun r => [rr_ev r])) due, qs ++ flat_map (when_live res (fun r => [rr_q r])) due).
Proof.
  induction due as [|rr t IH]; intros s0 evs qs Hres.
  - simpl. rewrite !app_nil_r. destruct s0; simpl in *; subst; reflexivity.
  - cbn [fold_left]. rewrite exec_rerun_eq. rewrite IH by (simpl; exact Hres). simpl. rewrite Hres.
    rewrite <- !app_assoc. reflexivity.
Qed.

Lemma do_reruns_eq now s :
  do_reruns now s
  = (mkSt (s_cache s) (s_res s)
          (filter (fun rr => negb (rr_due now rr)) (s_retr s)
           ++ flat_map (when_live (s_res s) (rr_entry now (s_res s))) (filter (rr_due now) (s_retr s))) (s_open s),
     flat_map (when_live (s_res s) (fun r => [rr_ev r])) (filter (rr_due now) (s_retr s)),
     flat_map (when_live (s_res s) (fun r => [rr_q r])) (filter (rr_due now) (s_retr s))).
Proof. unfold do_reruns. rewrite (reruns_fold now (s_res s)) by reflexivity. reflexivity. Qed.

Lemma armed_live l rr : table_ok l -> In rr (armed l) -> rr_live (map res_of l) rr = true.
Proof.
  intros [Hnd [Hf _]] Hin. apply armed_in in Hin as [k [t [d [Hk [_ ->]]]]].
  unfold rr_live. simpl. rewrite Forall_forall in Hf. rewrite <- (Hf k Hk), find_res_view, (find_search_in l k Hnd Hk).
  reflexivity.
Qed.

Lemma when_live_armed {A} l (f : rerun -> list A) rs :
  table_ok l -> (forall rr, In rr rs -> In rr (armed l)) ->
  flat_map (when_live (map res_of l) f) rs = flat_map f rs.
Proof.
  intros Hk H. apply flat_map_ext_in. intros rr Hin. unfold when_live. rewrite (armed_live l rr Hk (H rr Hin)). reflexivity.
Qed.

Lemma when_live_orph {A} now res (f : rerun -> list A) orph :
  Forall (orph_ok now res) orph -> flat_map (when_live res f) orph = [].
Proof.
  induction 1 as [|rr t [_ Hn] _ IH]; simpl; [reflexivity|]. unfold when_live at 1, rr_live. rewrite Hn. exact IH.
Qed.

(* for one search: what the code keeps of its queued retransmission, plus what the due one
   re-arms, is the retransmission of the search after its scheduled query *)
Lemma fire_armed now l k :
  table_ok l -> In k l ->
  filter (fun rr => negb (rr_due now rr)) (armed1 k)
  ++ flat_map (rr_entry now (map res_of l)) (filter (rr_due now) (armed1 k))
  = armed1 (sk_fire now k).
Proof.
  intros [Hnd [Hf _]] Hin. unfold armed1 at 1 2, sk_fire.
  destruct (sk_next k) as [[t d]|] eqn:En; simpl; [|unfold armed1; rewrite En; reflexivity].
  unfold rr_due. simpl. destruct (hp_rerun_due now t); simpl.
  - rewrite app_nil_r. unfold rr_entry, rearm_ok. simpl.
    rewrite Forall_forall in Hf. rewrite <- (Hf k Hin). rewrite find_res_view, (find_search_in l k Hnd Hin). simpl.
    unfold armed1, next_after. simpl.
    destruct (sk_deadline k) as [dl|]; [destruct (hp_host_rearm _ dl)|]; reflexivity.
  - unfold armed1. rewrite En. reflexivity.
Qed.

(* an output read off the due retransmissions is the same output read off the due searches *)
Lemma sends_map {B} (f : rerun -> B) (h : search -> B) now l :
  (forall k t d, f (mkRR t (sk_host k) d (sk_chan k)) = h k) ->
  map f (filter (rr_due now) (armed l)) = map h (filter (sk_due now) l).
Proof.
  intros Hf. induction l as [|k t IH]; simpl; [reflexivity|]. unfold armed in *. simpl.
  rewrite filter_app, map_app, IH. unfold armed1, sk_due, rr_due.
  destruct (sk_next k) as [[tm d]|]; simpl; [|reflexivity].
  destruct (hp_rerun_due now tm); simpl; [rewrite Hf|]; reflexivity.
Qed.

Lemma armed_chans_nodup l : NoDup (map sk_chan l) -> NoDup (map rr_chan (armed l)).
Proof.
  induction l as [|k t IH]; simpl; intros H; [constructor|].
  inversion H; subst. unfold armed in *. simpl. rewrite map_app.
  unfold armed1 at 1. destruct (sk_next k) as [[tm d]|]; simpl; [|apply IH; assumption].
  constructor; [|apply IH; assumption].
  intros Hin. apply in_map_iff in Hin as [rr [E Hin]]. apply armed_from in Hin as [k' [Hk' [Hc _]]].
  apply H2. rewrite <- E, Hc. apply in_map. exact Hk'.
Qed.

Lemma table_ok_fire now l : table_ok l -> table_ok (map (sk_fire now) l).
Proof.
  intros [Hnd [Hf Hb]]. split; [|split].
  - rewrite map_map. rewrite (map_ext _ sk_key (fun k => proj1 (sk_fire_fields now k))). exact Hnd.
  - apply Forall_forall. intros k Hin. apply in_map_iff in Hin as [k0 [<- Hin]].
    rewrite Forall_forall in Hf. destruct (sk_fire_fields now k0) as [-> [-> _]]. apply Hf. exact Hin.
  - apply Forall_forall. intros k Hin. apply in_map_iff in Hin as [k0 [<- Hin]].
    rewrite Forall_forall in Hb. specialize (Hb k0 Hin).
    destruct (sk_fire_cases now k0) as [->|[t [d [_ [_ ->]]]]]; [exact Hb|].
    intros t' d' dl Hn Hd. simpl in Hn, Hd. eapply next_after_before; eassumption.
Qed.

Lemma sends_rel now s p fut orph :
  RelIn now s p orph -> Inv p fut ->
  exists s' p' em es qm qs,
    do_reruns now s = (s', em, qm) /\ sp_sends now p = (p', es, qs) /\ Rel s' p' /\ Inv p' fut
    /\ (forall c, filter (fun x => fst x =? c) em = filter (fun x => fst x =? c) es)
    /\ Permutation qs qm.
Proof.
  intros [R1 R2 R3 R4 R5] [Hk Hc].
  rewrite do_reruns_eq. unfold sp_sends. do 6 eexists.
  split; [reflexivity|]. split; [reflexivity|].
  set (l := ss_searches p) in *.
  assert (Horph_due : forall rr, In rr orph -> rr_due now rr = true).
  { intros rr Hin. rewrite Forall_forall in R5. apply (R5 rr Hin). }
  assert (Hdue : Permutation (filter (rr_due now) (s_retr s)) (filter (rr_due now) (armed l) ++ orph)).
  { eapply Permutation_trans; [apply Permutation_filter; exact R3|]. rewrite filter_app.
    rewrite (filter_true (rr_due now) orph Horph_due). apply Permutation_refl. }
  assert (Hkeep : Permutation (filter (fun rr => negb (rr_due now rr)) (s_retr s))
                              (filter (fun rr => negb (rr_due now rr)) (armed l))).
  { eapply Permutation_trans; [apply Permutation_filter; exact R3|]. rewrite filter_app.
    rewrite (filter_none (fun rr => negb (rr_due now rr)) orph), app_nil_r; [apply Permutation_refl|].
    intros rr Hin. rewrite (Horph_due rr Hin). reflexivity. }
  assert (Hres : s_res s = map res_of l) by exact R2.
  (* what the live-filtered maps give on the due list *)
  assert (Hfm : forall (A : Type) (f : rerun -> list A),
            Permutation (flat_map (when_live (s_res s) f) (filter (rr_due now) (s_retr s)))
                        (flat_map f (filter (rr_due now) (armed l)))).
  { intros A f. eapply Permutation_trans; [apply Permutation_flat_map; exact Hdue|].
    rewrite flat_map_app, (when_live_orph now (s_res s) f orph R5), app_nil_r, Hres.
    rewrite (when_live_armed l f); [apply Permutation_refl|exact Hk|].
    intros rr Hin. apply filter_In in Hin as [Hin _]. exact Hin. }
  split; [|split; [|split]].
  - constructor; simpl; [exact R1| | |exact R4|constructor].
    { rewrite R2. unfold res_view. cbn [ss_searches]. symmetry. apply res_view_fire. }
    rewrite app_nil_r. eapply Permutation_trans; [apply Permutation_app; [exact Hkeep|apply Hfm]|].
    unfold armed. rewrite !filter_flat_map, flat_map_flat_map, flat_map_map.
    eapply Permutation_trans; [apply Permutation_sym; apply Permutation_flat_map_split|].
    rewrite Hres. erewrite flat_map_ext_in; [apply Permutation_refl|].
    intros k Hin. apply fire_armed; assumption.
  - split; [apply table_ok_fire; exact Hk|]. simpl. rewrite map_map.
    rewrite (map_ext _ sk_chan (fun k => proj1 (proj2 (proj2 (sk_fire_fields now k))))). exact Hc.
  - intros c. rewrite <- (sends_map rr_ev (fun k => (sk_chan k, EStarted (sk_host k))) now l (fun k t d => eq_refl)).
    pose proof (Hfm _ (fun r => [rr_ev r])) as He. rewrite flat_map_single in He.
    assert (Hn : NoDup (map fst (map rr_ev (filter (rr_due now) (armed l))))).
    { rewrite map_map. simpl. apply NoDup_map_filter, armed_chans_nodup. eapply NoDup_app_l. exact Hc. }
    apply filter_key_perm; [exact He|].
    eapply Permutation_NoDup; [apply Permutation_sym; apply Permutation_map; exact He|exact Hn].
  - rewrite <- (sends_map rr_q (fun k => host_query (sk_host k)) now l (fun k t d => eq_refl)).
    pose proof (Hfm _ (fun r => [rr_q r])) as Hq. rewrite flat_map_single in Hq.
    apply Permutation_sym. exact Hq.
Qed.

Lemma held_same s p : Rel s p -> forall c, chan_held s c = sk_holds p c.
Proof.
  intros [R1 R2 R3 R4 _] c. rewrite app_nil_r in R3. unfold chan_held, sk_holds. rewrite R2. unfold res_view.
  assert (E : existsb (fun r => r_chan r =? c) (map res_of (ss_searches p)) = existsb (fun k => sk_chan k =? c) (ss_searches p)).
  { clear. induction (ss_searches p) as [|k t IH]; simpl; [reflexivity|]. rewrite IH. reflexivity. }
  rewrite E. destruct (existsb (fun k => sk_chan k =? c) (ss_searches p)) eqn:E1; [reflexivity|]. simpl.
  destruct (existsb (fun rr => rr_chan rr =? c) (s_retr s)) eqn:E2; [|reflexivity].
  apply existsb_exists in E2 as [rr [Hin Hc]].
  eapply Permutation_in in Hin; [|exact R3]. apply armed_from in Hin as [k [Hk [Hch _]]].
  assert (existsb (fun k => sk_chan k =? c) (ss_searches p) = true).
  { apply existsb_exists. exists k. split; [exact Hk|]. rewrite <- Hch. exact Hc. }
  congruence.
Qed.

Lemma step_rel s p i fut :
  Rel s p -> Inv p (chans_of_calls (it_calls i) ++ fut) ->
  Rel (fst (step s i)) (fst (sp_step p i)) /\ Inv (fst (sp_step p i)) fut
  /\ out_match (snd (sp_step p i)) (snd (step s i)) = true.
Proof.
  intros HR HI. unfold step, sp_step.
  unfold fold_msgs, sp_responses.
  destruct HR as [R1 R2 R3 R4 R5]. rewrite R1, R2.
  destruct (respond_all (it_now i) (res_view p) (ss_cache p) (it_msgs i)) as [c1 e1] eqn:E1.
  set (s1 := mkSt c1 (res_view p) (s_retr s) (s_open s)).
  set (p1 := mkSst c1 (ss_searches p) (ss_open p)).
  assert (HR1 : Rel s1 p1) by (constructor; simpl; try reflexivity; try assumption; constructor).
  assert (HI1 : Inv p1 (chans_of_calls (it_calls i) ++ fut)) by exact HI.
  destruct (timeouts_rel (it_now i) s1 p1 _ HR1 HI1) as [s2 [p2 [e2 [H2a [H2b [HR2 HI2]]]]]].
  rewrite H2a, H2b.
  unfold fold_calls, sp_calls.
  destruct (calls_rel (it_now i) (it_calls i) s2 p2 fut [] [] _ HR2 HI2) as [s3 [p3 [e3 [q3 [orph3 [H3a [H3b [HR3 HI3]]]]]]]].
  rewrite H3a, H3b.
  destruct (sends_rel (it_now i) s3 p3 fut orph3 HR3 HI3) as [s4 [p4 [e4m [e4s [q4m [q4s [H4a [H4b [HR4 [HI4 [He4 Hq4]]]]]]]]]]].
  rewrite H4a, H4b.
  unfold do_refresh, sp_refresh. destruct HR4 as [R41 R42 R43 R44]. rewrite R41, R42.
  destruct (refresh_all (it_now i) (res_view p4) (ss_cache p4)) as [c5 q5] eqn:E5.
  unfold do_evict, sp_evict, evict_all, do_closed, sp_closed. simpl.
  set (c6 := evict_cache (it_now i) c5).
  set (s6 := mkSt c6 (res_view p4) (s_retr s4) (s_open s4)).
  set (p6 := mkSst c6 (ss_searches p4) (ss_open p4)).
  assert (HR6 : Rel s6 p6) by (constructor; simpl; try reflexivity; try assumption; constructor).
  assert (Hheld : forall c, chan_held s6 c = sk_holds p6 c) by (apply held_same; exact HR6).
  rewrite R44.
  rewrite (filter_ext _ _ Hheld).
  rewrite (filter_ext (fun c => negb (chan_held s6 c)) (fun c => negb (sk_holds p6 c)))
    by (intros c; rewrite Hheld; reflexivity).
  split; [|split].
  - constructor; simpl; try reflexivity; try assumption; constructor.
  - exact HI4.
  - unfold out_match. simpl. rewrite N.eqb_refl. simpl. apply andb_true_iff. split.
    + apply events_match_chanwise. intros c.
      rewrite !filter_app. rewrite (He4 c). reflexivity.
    + apply queries_match_perm. apply Permutation_app_head. apply Permutation_app_tail. exact Hq4.
Qed.

Lemma run_rel h : forall s p,
  Rel s p -> Inv p (flat_map (fun i => chans_of_calls (it_calls i)) h) ->
  outs_match (sp_run_from p h) (run_from s h) = true.
Proof.
  induction h as [|i t IH]; intros s p HR HI; simpl; [reflexivity|].
  simpl in HI.
  destruct (step_rel s p i _ HR HI) as [HR' [HI' Ho]].
  destruct (step s i) as [s' o] eqn:Es. destruct (sp_step p i) as [p' o'] eqn:Ep. simpl in *.
  rewrite Ho. simpl. apply IH; assumption.
Qed.

Lemma nodupb_NoDup l : nodupb l = true -> NoDup l.
Proof.
  induction l as [|x t IH]; simpl; intros H; [constructor|].
  apply andb_true_iff in H as [H1 H2]. constructor; [|apply IH; exact H2].
  intros Hin. apply negb_true_iff in H1.
  assert (existsb (N.eqb x) t = true) by (apply existsb_exists; exists x; split; [exact Hin|apply N.eqb_refl]).
  congruence.
Qed.

(* the model of the code satisfies the property's checker on every well-formed history *)
Theorem model_refines_spec : forall h, wf_hist h = true -> chk_C17 h (run h) = true.
Proof.
  intros h Hwf. unfold chk_C17, sp_run, run. apply run_rel.
  - constructor; simpl; try reflexivity; constructor.
  - split; [split; [|split]; constructor|]. simpl.
    unfold wf_hist in Hwf. apply andb_true_iff in Hwf as [_ Hwf]. apply nodupb_NoDup. exact Hwf.
Qed.

(* resolve_hostname("a.local.", timeout 1001 ms) at t; the daemon next runs at t + 1001, one
   millisecond after the retransmission became due and exactly at the deadline *)
Definition name_a_local : name := [97; 46; 108; 111; 99; 97; 108; 46].
Definition late_witness : list iter :=
  [ mkIter 1000000 [CResolve name_a_local (Some 1001) 1] [];
    mkIter 1001001 [] [] ].

(* resolve "A.local." (timeout 20 s); an A record for "a.LOCAL." (TTL 10) arrives on interface 2;
   the daemon runs at every time it asked for.  The history is well formed and never late; the
   trace shows AddressesFound, the refresh question at 80 %, AddressesRemoved at expiry,
   SearchTimeout / SearchStopped at the deadline. *)
Definition ex_host : name := [65; 46; 108; 111; 99; 97; 108; 46].          (* A.local. *)
Definition ex_owner : name := [97; 46; 76; 79; 67; 65; 76; 46].            (* a.LOCAL. *)
Definition ex_rec : inrec := mkIn true 1 ex_owner 1 true 10 [192; 168; 1; 20].
Definition ex_hist : list iter :=
  [ mkIter 1000000 [CResolve ex_host (Some 20000) 1] [];
    mkIter 1000100 [] [mkMsg 2 [ex_rec]];
    mkIter 1001000 [] []; mkIter 1003000 [] []; mkIter 1007000 [] [];
    mkIter 1008100 [] []; mkIter 1010100 [] []; mkIter 1015000 [] []; mkIter 1020000 [] [] ].

