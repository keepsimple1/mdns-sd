(* Proofs about the interface-related cache operations (C18): full functional statements of
   remove_records_on_intf and remove_addrs_on_disabled_intf over the list-based cache model. *)
From Coq Require Import List NArith Bool.
From Mdns Require Import Bytes Rec IntfCache.
Import ListNotations.
Open Scope N_scope.

(* record r is stored under key k *)
Definition In_table (t : table) (k : bytes) (r : crec) : Prop := exists v, In (k, v) t /\ In r v.

Lemma in_prune t k v : In (k, v) (prune t) <-> In (k, v) t /\ v <> [].
Proof.
  unfold prune. rewrite filter_In. simpl. split; intros [H1 H2]; split; auto.
  - destruct v; discriminate.
  - destruct v; [congruence|reflexivity].
Qed.

Lemma in_strip id t k v' :
  In (k, v') (strip id t) <-> exists v, In (k, v) t /\ v' = filter (fun r => negb (on_intf id r)) v.
Proof.
  unfold strip. rewrite in_map_iff. split.
  - intros [[k0 v] [H1 H2]]. simpl in H1. inversion H1; subst. exists v. auto.
  - intros [v [H1 H2]]. exists (k, v). simpl. subst. auto.
Qed.

Lemma In_table_prune_strip id t k r :
  In_table (prune (strip id t)) k r <-> In_table t k r /\ on_intf id r = false.
Proof.
  unfold In_table. split.
  - intros [v' [H1 H2]]. apply in_prune in H1 as [H1 _]. apply in_strip in H1 as [v [H1 ->]].
    apply filter_In in H2 as [H2 H3]. apply negb_true_iff in H3. split; [exists v; auto|exact H3].
  - intros [[v [H1 H2]] H3]. exists (filter (fun r => negb (on_intf id r)) v).
    assert (Hin : In r (filter (fun r => negb (on_intf id r)) v)).
    { apply filter_In. rewrite H3. auto. }
    split; [|exact Hin]. apply in_prune. split; [apply in_strip; exists v; auto|].
    intros E. rewrite E in Hin. exact Hin.
Qed.

Lemma prune_no_empty t k v : In (k, v) (prune t) -> v <> [].
Proof. intros H. apply in_prune in H. tauto. Qed.

Lemma in_add_set x y l : In y (add_set x l) <-> y = x \/ In y l.
Proof.
  unfold add_set. destruct (mem x l) eqn:E.
  - apply mem_In in E. split; [auto|]. intros [->|H]; auto.
  - rewrite in_app_iff. simpl. split; [intros [H|[H|[]]]; auto|intros [->|H]; auto].
Qed.

Lemma in_fold_add_set {A} (f : list bytes -> A -> list bytes) (g : A -> option bytes) :
  (forall acc r, f acc r = match g r with Some a => add_set a acc | None => acc end) ->
  forall l x acc, In x (fold_left f l acc) <-> In x acc \/ exists r, In r l /\ g r = Some x.
Proof.
  intros Hf. induction l as [|r l IH]; intros x acc; simpl.
  - split; [auto|]. intros [H|(r & [] & _)]. exact H.
  - rewrite IH, Hf. destruct (g r) as [a|] eqn:Eg; [rewrite in_add_set|]; split.
    + intros [[->|H]|(r' & H1 & H2)]; [right; exists r; auto|auto|right; exists r'; auto].
    + intros [H|(r' & [->|H1] & H2)]; [auto| |right; exists r'; auto]. rewrite Eg in H2. inversion H2. auto.
    + intros [H|(r' & H1 & H2)]; [auto|right; exists r'; auto].
    + intros [H|(r' & [->|H1] & H2)]; [auto|congruence|right; exists r'; auto].
Qed.

Lemma in_union_set a b x : In x (union_set a b) <-> In x a \/ In x b.
Proof.
  unfold union_set. rewrite (in_fold_add_set _ Some) by reflexivity.
  split; intros [H|H]; auto; [destruct H as (r & H & E); inversion E; subst; auto|right; exists x; auto].
Qed.

Lemma in_touched id t k :
  In k (touched id t) <-> exists v, In (k, v) t /\ existsb (on_intf id) v = true.
Proof.
  unfold touched. rewrite in_map_iff. split.
  - intros [[k0 v] [H1 H2]]. simpl in H1. subst. apply filter_In in H2 as [H2 H3]. exists v. auto.
  - intros [v [H1 H2]]. exists (k, v). split; [reflexivity|]. apply filter_In. auto.
Qed.

Lemma in_touched_kept id gone t k :
  In k (touched id (filter (fun kv => negb (mem (fst kv) gone)) t)) <->
  mem k gone = false /\ exists v, In (k, v) t /\ existsb (on_intf id) v = true.
Proof.
  rewrite in_touched. split.
  - intros [v [H1 H2]]. apply filter_In in H1 as [H1 H3]. simpl in H3. apply negb_true_iff in H3. eauto.
  - intros [Hg [v [H1 H2]]]. exists v. split; [|exact H2]. apply filter_In. simpl. rewrite Hg. auto.
Qed.

Lemma in_instances_on_intf id records inst :
  In inst (instances_on_intf id records) <->
  exists r, In r records /\ on_intf id r = true /\ alias_of r = Some inst.
Proof.
  unfold instances_on_intf.
  rewrite (in_fold_add_set _ (fun r => if on_intf id r then alias_of r else None))
    by (intros acc r; destruct (on_intf id r); reflexivity).
  split.
  - intros [[]|(r & H1 & H2)]. exists r. destruct (on_intf id r); [auto|discriminate].
  - intros (r & H1 & H2 & H3). right. exists r. rewrite H2. auto.
Qed.

Lemma has_alias_false records inst :
  has_alias records inst = false <-> forall r, In r records -> alias_of r <> Some inst.
Proof.
  unfold has_alias. split.
  - intros H r Hr Ha. assert (existsb (fun r => match alias_of r with Some a => beq a inst | None => false end) records = true); [|congruence].
    apply existsb_exists. exists r. rewrite Ha, beq_refl. auto.
  - intros H. destruct (existsb _ records) eqn:E; [|reflexivity].
    apply existsb_exists in E as [r [Hr Hb]]. destruct (alias_of r) as [a|] eqn:Ea; [|discriminate].
    apply beq_eq in Hb. subst. exfalso. exact (H r Hr Ea).
Qed.

(* an instance is reported removed under a type iff it had a PTR learned on the interface and
   no PTR of that type for it was learned anywhere else *)
Lemma in_removed_of id records inst :
  In inst (removed_of id records) <->
  (exists r, In r records /\ on_intf id r = true /\ alias_of r = Some inst) /\
  (forall r, In r records -> alias_of r = Some inst -> on_intf id r = true).
Proof.
  unfold removed_of. rewrite filter_In, in_instances_on_intf, negb_true_iff, has_alias_false.
  split; intros [H1 H2]; split; auto.
  - intros r Hr Ha. destruct (on_intf id r) eqn:Eo; [reflexivity|].
    exfalso. apply (H2 r); [apply filter_In; rewrite Eo; auto|exact Ha].
  - intros r Hr Ha. apply filter_In in Hr as [Hr Ho]. apply negb_true_iff in Ho.
    rewrite (H2 r Hr Ha) in Ho. discriminate.
Qed.

Definition removed_set (c : cache) (id : intf_id) : list bytes :=
  concat (map snd (rm_removed (remove_records_on_intf c id))).

(* which instances are reported removed, per type *)
Theorem removal_reports_removed c id ty inst :
  (exists l, In (ty, l) (rm_removed (remove_records_on_intf c id)) /\ In inst l) <->
  exists records, In (ty, records) (c_ptr c) /\
    (exists r, In r records /\ on_intf id r = true /\ alias_of r = Some inst) /\
    (forall r, In r records -> alias_of r = Some inst -> on_intf id r = true).
Proof.
  unfold remove_records_on_intf. cbn [rm_removed]. split.
  - intros [l [H1 H2]]. apply filter_In in H1 as [H1 _]. apply in_map_iff in H1 as [[k v] [E Hin]].
    simpl in E. inversion E; subst. exists v. split; [exact Hin|]. apply in_removed_of. exact H2.
  - intros [records [H1 H2]]. exists (removed_of id records).
    assert (Hin : In inst (removed_of id records)) by (apply in_removed_of; exact H2).
    split; [|exact Hin]. apply filter_In. split.
    + apply in_map_iff. exists (ty, records). auto.
    + simpl. destruct (removed_of id records); [destruct Hin|reflexivity].
Qed.

Lemma in_removed_set c id inst :
  In inst (removed_set c id) <->
  exists ty l, In (ty, l) (rm_removed (remove_records_on_intf c id)) /\ In inst l.
Proof.
  unfold removed_set. rewrite in_concat. split.
  - intros [l [H1 H2]]. apply in_map_iff in H1 as [[ty l'] [E H1]]. simpl in E. subst. exists ty, l. auto.
  - intros [ty [l [H1 H2]]]. exists l. split; [|exact H2]. apply in_map_iff. exists (ty, l). auto.
Qed.

(* what is left in the cache: everything learned on the interface is gone; nothing else is,
   except the SRV and TXT records of the instances reported removed; no empty entries remain *)
Theorem removal_cache_contents c id :
  let c' := rm_cache (remove_records_on_intf c id) in
  (forall k r, In_table (c_ptr c') k r <-> In_table (c_ptr c) k r /\ on_intf id r = false) /\
  (forall k r, In_table (c_srv c') k r <->
               In_table (c_srv c) k r /\ on_intf id r = false /\ mem k (removed_set c id) = false) /\
  (forall k r, In_table (c_txt c') k r <->
               In_table (c_txt c) k r /\ on_intf id r = false /\ mem k (removed_set c id) = false) /\
  (forall k r, In_table (c_addr c') k r <-> In_table (c_addr c) k r /\ on_intf id r = false) /\
  (forall k r, In_table (c_nsec c') k r <-> In_table (c_nsec c) k r /\ on_intf id r = false) /\
  (forall k v, In (k, v) (c_ptr c') \/ In (k, v) (c_srv c') \/ In (k, v) (c_txt c') \/
               In (k, v) (c_addr c') \/ In (k, v) (c_nsec c') -> v <> []).
Proof.
  cbv zeta. unfold removed_set. unfold remove_records_on_intf. cbn [rm_cache rm_removed c_ptr c_srv c_txt c_addr c_nsec].
  set (removed := filter _ (map _ (c_ptr c))).
  assert (Hf : forall t k r,
    In_table (prune (strip id (filter (fun kv => negb (mem (fst kv) (concat (map snd removed)))) t))) k r
    <-> In_table t k r /\ on_intf id r = false /\ mem k (concat (map snd removed)) = false).
  { intros t k r. rewrite In_table_prune_strip. unfold In_table. split.
    - intros [[v [H1 H2]] H3]. apply filter_In in H1 as [H1 H4]. simpl in H4. apply negb_true_iff in H4.
      split; [exists v; auto|auto].
    - intros [[v [H1 H2]] [H3 H4]]. split; [|exact H3]. exists v. split; [|exact H2].
      apply filter_In. simpl. rewrite H4. auto. }
  split; [|split; [|split; [|split; [|split]]]].
  - intros k r. apply In_table_prune_strip.
  - intros k r. apply Hf.
  - intros k r. apply Hf.
  - intros k r. apply In_table_prune_strip.
  - intros k r. apply In_table_prune_strip.
  - intros k v [H|[H|[H|[H|H]]]]; eapply prune_no_empty; exact H.
Qed.

(* which instances are reported modified (to be resolved again with what is left): those not
   reported removed that lost an SRV or TXT record learned on the interface, and those whose
   remaining SRV record points to a host that lost an address record learned on the interface *)
Theorem removal_reports_modified c id inst :
  let rmv := remove_records_on_intf c id in
  In inst (rm_modified rmv) <->
  (mem inst (removed_set c id) = false /\
   exists v, (In (inst, v) (c_srv c) \/ In (inst, v) (c_txt c)) /\ existsb (on_intf id) v = true)
  \/ (exists v r h, In (inst, v) (c_srv (rm_cache rmv)) /\ In r v /\ srv_host_of r = Some h /\
                    exists w, In (lower h, w) (c_addr c) /\ existsb (on_intf id) w = true).
Proof.
  cbv zeta. unfold removed_set. unfold remove_records_on_intf. cbn [rm_cache rm_removed rm_modified c_srv].
  set (removed := filter _ (map _ (c_ptr c))).
  set (gone := concat (map snd removed)).
  rewrite !in_union_set, !in_touched_kept. split.
  - intros [[[Hg [v H]]|[Hg [v H]]]|H].
    + left. split; [exact Hg|]. exists v. tauto.
    + left. split; [exact Hg|]. exists v. tauto.
    + right. apply in_map_iff in H as [[k v] [E H]]. simpl in E. subst k.
      apply filter_In in H as [H1 H2]. simpl in H2. apply existsb_exists in H2 as [r [Hr Hh]].
      destruct (srv_host_of r) as [h|] eqn:Eh; [|discriminate].
      apply mem_In in Hh. apply in_touched in Hh as [w [Hw1 Hw2]].
      exists v, r, h. repeat split; auto. exists w. auto.
  - intros [[Hg [v [[H|H] Ho]]]|[v [r [h [H1 [H2 [H3 [w [H4 H5]]]]]]]]].
    + left. left. split; [exact Hg|]. exists v. auto.
    + left. right. split; [exact Hg|]. exists v. auto.
    + right. apply in_map_iff. exists (inst, v). split; [reflexivity|]. apply filter_In. split; [exact H1|].
      simpl. apply existsb_exists. exists r. split; [exact H2|]. rewrite H3.
      apply mem_In. apply in_touched. exists w. auto.
Qed.

Theorem disabled_family_addresses_dropped c idx t :
  let c' := remove_addrs_on_disabled_intf c idx t in
  c_ptr c' = c_ptr c /\ c_srv c' = c_srv c /\ c_txt c' = c_txt c /\ c_nsec c' = c_nsec c /\
  map fst (c_addr c') = map fst (c_addr c) /\
  forall k r, In_table (c_addr c') k r <->
              In_table (c_addr c) k r /\
              ((ii_index (c_src r) =? idx) && type_in t (r_type (c_rr r))) = false.
Proof.
  cbv zeta. unfold remove_addrs_on_disabled_intf. cbn [c_ptr c_srv c_txt c_addr c_nsec].
  do 4 (split; [reflexivity|]). split; [rewrite map_map; reflexivity|]. intros k r. split; [intros H; split|].
  - destruct H as [v' [H1 H2]]. apply in_map_iff in H1 as [[k0 v] [E H1]]. simpl in E. inversion E; subst.
    apply filter_In in H2 as [H2 _]. exists v. auto.
  - destruct H as [v' [H1 H2]]. apply in_map_iff in H1 as [[k0 v] [E H1]]. simpl in E. inversion E; subst.
    apply filter_In in H2 as [_ H2]. apply negb_true_iff in H2. exact H2.
  - intros [[v [H1 H2]] H3]. exists (filter (fun r => negb ((ii_index (c_src r) =? idx) && type_in t (r_type (c_rr r)))) v).
    split.
    + apply in_map_iff. exists (k, v). auto.
    + apply filter_In. rewrite H3. auto.
Qed.
