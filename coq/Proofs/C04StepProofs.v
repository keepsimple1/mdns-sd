(* C04 at the level of one response message, for every state whose cache satisfies the C03
   invariant (hence for every reachable state, C03_cache_invariant): a message that leaves an
   instance of a browsed type complete (PTR, SRV and an address of the SRV's host with more than
   one second left) and cached a new (or revived) record of it yields ServiceResolved for it in
   that handle_response - exactly one per browsed type outside the class "PTR variants". *)
From Coq Require Import List NArith Lia PeanoNat.
From Mdns Require Import Bytes ListFacts Rec Cache Browser C03Spec BrowserSpec BrowserKnown CacheProofs CacheInvProofs
  BrowserProofs BrowserStepProofs BrowserLoopProofs C05SafetyProofs.
Import ListNotations.
Open Scope N_scope.

Section Message.
  Variable Lf : list dlv.
  Hypothesis Hvar : known_ptr_variant Lf = false.
  Hypothesis Htgt : known_srv_targets Lf = false.
  Hypothesis Hnames : ptr_names_ok Lf = true.

  (* strongly alive instances resolve (the converse of invalid_not_alive) *)
  Lemma alive_is_valid L c now ty ptrs p :
    Inv L c -> incl L Lf -> In (ty, ptrs) (c_ptr c) -> In p ptrs ->
    alive_strong c now ty (alias_of (e_rr p)) = true ->
    is_valid (resolve_from_cache c now ty (alias_of (e_rr p))) = true.
  Proof.
    intros HI Hsub Hb Hp Ha.
    destruct (is_valid (resolve_from_cache c now ty (alias_of (e_rr p)))) eqn:E; [reflexivity|].
    rewrite (invalid_not_alive Lf Htgt Hnames L c HI Hsub now ty ptrs p Hb Hp E) in Ha. discriminate.
  Qed.

  Definition is_resolved_for (ch : N) (ty inst : bytes) (x : out) : bool :=
    match x with
    | OEvt c (EResolved r) => (c =? ch) && beq (rs_ty r) ty && beq (rs_name r) inst
    | _ => false
    end.

  Definition count_resolved ch ty inst (o : list out) : nat := length (filter (is_resolved_for ch ty inst) o).

  Lemma count_app ch ty inst a b :
    count_resolved ch ty inst (a ++ b) = (count_resolved ch ty inst a + count_resolved ch ty inst b)%nat.
  Proof. unfold count_resolved. now rewrite filter_app, app_length. Qed.

  Lemma rs_fields c now ty inst :
    rs_ty (resolve_from_cache c now ty inst) = ty /\ rs_name (resolve_from_cache c now ty inst) = inst.
  Proof. split; reflexivity. Qed.

  Lemma filter_filter_le {A} (f g : A -> bool) l : (length (filter f (filter g l)) <= length (filter f l))%nat.
  Proof. induction l as [|x l IH]; simpl; [apply le_n|]. destruct (g x), (f x) eqn:Ef; simpl; rewrite ?Ef; simpl; lia. Qed.

  Lemma count_bucket c now ty ch ch0 ty0 inst (l : bucket) :
    (count_resolved ch0 ty0 inst (map (ev_resolved c now ty ch) l)
     <= if beq ty ty0 then length (filter (fun p => beq (alias_of (e_rr p)) inst) l) else 0)%nat.
  Proof.
    unfold count_resolved. induction l as [|p l IH]; simpl; [destruct (beq ty ty0); apply le_n|].
    destruct (ch =? ch0), (beq ty ty0), (beq (alias_of (e_rr p)) inst); simpl in *; lia.
  Qed.

  Lemma ru_sel_count c now q updated ch0 ty0 inst : forall ptr,
    NoDup (map fst ptr) ->
    (count_resolved ch0 ty0 inst (ru_sel q now updated (ru_valid c now) (ev_resolved c now) ptr)
     <= match bm_get ty0 ptr with
        | Some b => length (filter (fun p => beq (alias_of (e_rr p)) inst) b)
        | None => 0
        end)%nat.
  Proof.
    induction ptr as [|[ty ptrs] rest IH]; intros ND; [apply le_n|]. inversion ND as [|? ? Hnotin ND']; subst.
    unfold ru_sel in *. cbn [flat_map fst snd bm_get]. rewrite count_app. specialize (IH ND').
    assert (H1 : (count_resolved ch0 ty0 inst
                    match q_get ty q with
                    | Some ch => map (ev_resolved c now ty ch) (filter (ru_valid c now ty) (filter (ru_hit now updated) ptrs))
                    | None => []
                    end
                  <= if beq ty ty0 then length (filter (fun p => beq (alias_of (e_rr p)) inst) ptrs) else 0)%nat).
    { destruct (q_get ty q) as [ch|]; [|destruct (beq ty ty0); apply le_0_n].
      eapply Nat.le_trans; [apply count_bucket|]. destruct (beq ty ty0); [|apply le_n].
      eapply Nat.le_trans; apply filter_filter_le. }
    rewrite (beq_sym ty0 ty). destruct (beq ty ty0) eqn:E; [|lia].
    apply beq_eq in E. subst ty0. destruct (bm_get ty rest) as [b|] eqn:Eg; [|lia].
    exfalso. apply Hnotin. apply bm_get_In in Eg. apply in_map_iff. now exists (ty, b).
  Qed.

  Lemma notify_removal_count q ex ch ty inst : count_resolved ch ty inst (notify_removal q ex) = 0%nat.
  Proof.
    unfold count_resolved. rewrite filter_none; [reflexivity|].
    intros x Hx. unfold notify_removal in Hx. apply in_flat_map in Hx as [tc [_ Hx]].
    apply in_map_iff in Hx as [i [<- _]]. reflexivity.
  Qed.

  (* uniqueness: one handle_response emits at most one ServiceResolved per (channel, type, instance) *)
  Lemma resolve_updated_at_most_one L s now updated ch ty inst :
    Inv L (s_cache s) -> incl L Lf ->
    (count_resolved ch ty inst (snd (resolve_updated s now updated)) <= 1)%nat.
  Proof.
    intros HI Hsub. destruct updated as [|u us]; [apply le_0_n|]. rewrite resolve_updated_eq by discriminate. cbn [snd].
    rewrite count_app, notify_removal_count, Nat.add_0_r.
    eapply Nat.le_trans; [apply ru_sel_count, (Inv_nodup _ _ KPtr HI)|].
    destruct (bm_get ty (c_ptr (s_cache s))) as [b|] eqn:Eb; [|apply le_0_n].
    (* two PTR records ty -> inst would be variants *)
    destruct (filter (fun p => beq (alias_of (e_rr p)) inst) b) as [|p1 [|p2 l]] eqn:Ef; simpl; try lia.
    exfalso.
    assert (H1 : In p1 (filter (fun p => beq (alias_of (e_rr p)) inst) b)) by (rewrite Ef; now left).
    assert (H2 : In p2 (filter (fun p => beq (alias_of (e_rr p)) inst) b)) by (rewrite Ef; right; now left).
    apply filter_In in H1 as [H1 A1]. apply filter_In in H2 as [H2 A2]. apply beq_eq in A1, A2.
    assert (p1 = p2).
    { apply (one_ptr_per_instance Lf Hvar L (s_cache s) HI Hsub ty b p1 p2 (bm_get_In _ _ _ Eb) H1 H2). congruence. }
    subst p2.
    (* the same record twice in a bucket contradicts nodup_bucket *)
    destruct (HI KPtr) as [_ Hk]. destruct (Hk ty b (bm_get_In _ _ _ Eb)) as [Hnd _].
    assert (Hdup : exists l1 l2 l3, b = l1 ++ p1 :: l2 ++ p1 :: l3).
    { clear - Ef. revert Ef. induction b as [|x b IH]; simpl; [discriminate|].
      destruct (beq (alias_of (e_rr x)) inst).
      - intros H. inversion H; subst.
        assert (In p1 (filter (fun p => beq (alias_of (e_rr p)) inst) b)) by (rewrite H2; now left).
        apply filter_In in H0 as [H0 _]. apply in_split in H0 as [l2 [l3 ->]]. exists [], l2, l3. reflexivity.
      - intros H. destruct (IH H) as (l1 & l2 & l3 & ->). exists (x :: l1), l2, l3. reflexivity. }
    destruct Hdup as (l1 & l2 & l3 & ->).
    clear - Hnd. induction l1 as [|y l1 IH]; simpl in Hnd.
    - inversion Hnd as [|? ? Hall _]; subst. rewrite Forall_forall in Hall.
      assert (In p1 (l2 ++ p1 :: l3)) by (apply in_app_iff; right; now left).
      specialize (Hall p1 H). unfold entry_matches in Hall. now rewrite rr_matches_refl in Hall.
    - inversion Hnd; subst. auto.
  Qed.

  Theorem completing_response_resolves L s now ifx m ty ch :
    Inv L (s_cache s) -> incl (L ++ map (mkDlv now ifx) (msg_records m)) Lf ->
    q_get ty (s_q s) = Some ch ->
    let '(c1, _, changes) := hr_records (s_cache s) now ifx (s_q s) (for_us (s_q s) (m_answers m)) (msg_records m) in
    forall ptrs p,
      In (ty, ptrs) (c_ptr c1) -> In p ptrs -> expires_soon p now = false ->
      In (alias_of (e_rr p)) (updated_of c1 changes) ->
      alive_strong c1 now ty (alias_of (e_rr p)) = true ->
      count_resolved ch ty (alias_of (e_rr p)) (snd (handle_response s now ifx m)) = 1%nat
      /\ In (OEvt ch (EResolved (resolve_from_cache c1 now ty (alias_of (e_rr p))))) (snd (handle_response s now ifx m)).
  Proof.
    intros HI Hsub Hq. unfold handle_response. fold (msg_records m).
    destruct (hr_records_ok now ifx (s_q s) (for_us (s_q s) (m_answers m)) (msg_records m) _ _ HI) as [HI1 _].
    pose proof (hr_records_found now ifx (s_q s) (for_us (s_q s) (m_answers m)) (msg_records m) (s_cache s)) as Ho1.
    destruct (hr_records (s_cache s) now ifx (s_q s) (for_us (s_q s) (m_answers m)) (msg_records m))
      as [[c1 o1] changes]. cbn [fst snd] in *.
    intros ptrs p Hb Hp Hsoon Hupd Halive.
    pose proof (alive_is_valid _ c1 now ty ptrs p HI1 Hsub Hb Hp Halive) as Hv.
    assert (Hmem : mem (alias_of (e_rr p)) (updated_of c1 changes) = true) by now apply mem_In.
    pose proof (resolve_complete (with_cache s c1) now (updated_of c1 changes) ty ch ptrs p Hb Hq Hp Hsoon Hmem Hv) as Hin.
    pose proof (resolve_updated_at_most_one _ (with_cache s c1) now (updated_of c1 changes) ch ty
                  (alias_of (e_rr p)) HI1 Hsub) as Hle.
    destruct (resolve_updated (with_cache s c1) now (updated_of c1 changes)) as [s2 o2]. cbn [fst snd with_cache s_cache] in *.
    split; [|apply in_app_iff; now right].
    rewrite count_app.
    assert (H0 : count_resolved ch ty (alias_of (e_rr p)) o1 = 0%nat).
    { unfold count_resolved. rewrite filter_none; [reflexivity|]. intros x Hx.
      rewrite Forall_forall in Ho1. specialize (Ho1 x Hx).
      destruct x as [c0 [ | r | ]| |]; simpl in *; auto; contradiction. }
    assert (Hge : (1 <= count_resolved ch ty (alias_of (e_rr p)) o2)%nat).
    { unfold count_resolved. apply in_split in Hin as [l1 [l2 ->]]. rewrite filter_app, app_length. simpl.
      rewrite N.eqb_refl, !beq_refl. simpl. lia. }
    lia.
  Qed.
End Message.
