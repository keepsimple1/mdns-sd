(* C17: the address cache (functions of Model/HostresModel.v shared by the model of the code
   and the reference machine): what AddressesFound / AddressesRemoved carry, what is refreshed
   and when.  No axioms. *)
From Coq Require Import List NArith Bool Lia.
From Mdns Require Import Bytes ParamsHostres HostresBase HostresModel HostresPinned HostresBaseFacts.
Import ListNotations.
Open Scope N_scope.

Definition ident (x : arec) : name * N * N * bool * bytes * N :=
  (a_name x, a_ty x, a_class x, a_flush x, a_addr x, a_if x).

Lemma matches_ident r x : arec_matches r x = true <-> ident r = ident x.
Proof.
  unfold arec_matches, ident. split.
  - intros H. apply andb_true_iff in H as [H Hi]. apply andb_true_iff in H as [H Hf].
    apply andb_true_iff in H as [H Hc]. apply andb_true_iff in H as [H Ht]. apply andb_true_iff in H as [Ha Hn].
    apply beq_eq in Ha, Hn. apply N.eqb_eq in Ht, Hc, Hi. apply Bool.eqb_prop in Hf. congruence.
  - intros H. inversion H. rewrite !beq_refl, !N.eqb_refl, Bool.eqb_reflx. reflexivity.
Qed.

Lemma ident_set_life l x : ident (a_set_life l x) = ident x.
Proof. reflexivity. Qed.

Definition entries (c : cache) : list arec := flat_map snd c.

(* a cache flush only shortens: expires never exceeds created + ttl *)
Definition life_wf (l : life) : Prop := l_expires l <= l_created l + l_ttl l * 1000.

Lemma life_new_wf now ttl : life_wf (life_new now ttl).
Proof. rewrite life_new_eq. unfold life_wf. simpl. lia. Qed.
Lemma life_reset_wf now ttl : life_wf (life_reset now ttl).
Proof. rewrite life_reset_eq. unfold life_wf. simpl. lia. Qed.
Lemma life_no_more_wf l : life_wf l -> life_wf (life_no_more l).
Proof. unfold life_wf, life_no_more. simpl. auto. Qed.

Lemma flush_one_wf now x r : life_wf (a_life r) -> life_wf (a_life (flush_one now x r)).
Proof.
  intros H. unfold flush_one.
  destruct ((a_class x =? a_class r) && (a_ty x =? a_ty r) && hp_flush_old_enough now (l_created (a_life r))
            && hp_flush_far_enough now (l_expires (a_life r)) && (a_if r =? a_if x)) eqn:E; [|exact H].
  apply andb_true_iff in E as [E _]. apply andb_true_iff in E as [_ E].
  rewrite pin_flush_far in E. apply N.ltb_lt in E.
  unfold life_wf in *. simpl. rewrite pin_flush_expire. lia.
Qed.

(* add_or_update either leaves the cache alone (empty bucket, message not for us) or stores the
   record: cache-flush pass, then reset_ttl on the first match or insertion in front *)
Definition aou_store (now : N) (x : arec) (c : cache) : cache * bool :=
  let k := lower (a_name x) in
  let b1 := if a_flush x then map (flush_one now x) (bucket_of c k) else bucket_of c k in
  match update_match now x b1 with
  | Some b2 => (aset k b2 c, revived x b1)
  | None => (aset k (x :: b1) c, true)
  end.

Lemma add_or_update_eq now fu x c :
  add_or_update now fu x c
  = match bucket_of c (lower (a_name x)), fu with
    | [], false => (c, false)
    | _, _ => aou_store now x c
    end.
Proof.
  unfold add_or_update, aou_store. destruct (bucket_of c (lower (a_name x))); [destruct fu|]; reflexivity.
Qed.

(* after the refresh mark was set, the record is never due again (until a new announcement
   resets its lifetime) *)
Lemma wanted_after_no_more now' r :
  life_wf (a_life r) -> refresh_wanted now' (a_set_life (life_no_more (a_life r)) r) = false.
Proof.
  intros H. unfold refresh_wanted, life_expired, life_refresh_due, life_no_more. simpl.
  rewrite pin_is_expired, pin_refresh_due, exp_time_eq, pin_no_more.
  destruct (l_expires (a_life r) <=? now') eqn:E1; [reflexivity|]. simpl.
  apply N.leb_gt in E1. apply N.leb_gt. unfold life_wf in H. lia.
Qed.

(* a record as it was cached (new at t0 with TTL ttl, not flushed) is due from 80 % of its
   lifetime until it expires *)
Lemma wanted_new_iff now t0 ttl x :
  a_life x = life_new t0 ttl ->
  (refresh_wanted now x = true <-> t0 + ttl * 800 <= now /\ now < t0 + ttl * 1000).
Proof.
  intros H. unfold refresh_wanted, life_expired, life_refresh_due. rewrite H, life_new_eq. simpl.
  rewrite pin_is_expired, pin_refresh_due. rewrite andb_true_iff, negb_true_iff, N.leb_gt, N.leb_le. tauto.
Qed.

(* a record whose lifetime was renewed by a repeated announcement: same, unless the TTL is
   <= 1 (a goodbye): then it is never refreshed *)
Lemma wanted_reset_iff now t0 ttl x :
  a_life x = life_reset t0 ttl ->
  (refresh_wanted now x = true <-> 1 < ttl /\ t0 + ttl * 800 <= now /\ now < t0 + ttl * 1000).
Proof.
  intros H. unfold refresh_wanted, life_expired, life_refresh_due. rewrite H, life_reset_eq. simpl.
  rewrite pin_is_expired, pin_refresh_due. rewrite andb_true_iff, negb_true_iff, N.leb_gt, N.leb_le.
  destruct (1 <? ttl) eqn:E; [apply N.ltb_lt in E|apply N.ltb_ge in E]; split; intros; lia.
Qed.

Lemma saddr_eqb_eq a b : saddr_eqb a b = true <-> a = b.
Proof.
  destruct a as [a1 a2], b as [b1 b2]. unfold saddr_eqb. simpl.
  rewrite andb_true_iff, beq_eq, N.eqb_eq. split; [intros [-> ->]; reflexivity|intros H; inversion H; auto].
Qed.
Lemma saddr_mem_In a l : saddr_mem a l = true <-> In a l.
Proof.
  induction l as [|x t IH]; simpl; [split; [discriminate|tauto]|].
  rewrite orb_true_iff, saddr_eqb_eq, IH. split; intros [H|H]; auto.
Qed.
Lemma saddr_add_In a x l : In a (saddr_add x l) <-> a = x \/ In a l.
Proof.
  unfold saddr_add. destruct (saddr_mem x l) eqn:E.
  - apply saddr_mem_In in E. split; [auto|intros [->|H]; assumption].
  - rewrite in_app_iff. simpl. split; intros [H|H]; auto. destruct H as [H|[]]; auto.
Qed.
Lemma saddr_add_NoDup x l : NoDup l -> NoDup (saddr_add x l).
Proof.
  intros H. unfold saddr_add. destruct (saddr_mem x l) eqn:E; [exact H|].
  assert (~ In x l) by (intros Hin; apply saddr_mem_In in Hin; congruence).
  clear E. induction l as [|y t IH]; simpl; [constructor; [tauto|constructor]|].
  inversion H; subst. constructor.
  - rewrite in_app_iff. simpl. intros [Hin|[Hin|[]]]; [contradiction|]. subst. apply H0. left. reflexivity.
  - apply IH; [assumption|]. intros Hin. apply H0. right. exact Hin.
Qed.

Lemma fold_saddr_In {A} (w : A -> bool) (f : A -> saddr) b : forall acc a,
  In a (fold_left (fun acc r => if w r then saddr_add (f r) acc else acc) b acc)
  <-> In a acc \/ exists r, In r b /\ w r = true /\ f r = a.
Proof.
  induction b as [|r t IH]; intros acc a; simpl.
  - split; [auto|intros [H|[r [[] _]]]; exact H].
  - rewrite IH. destruct (w r) eqn:E.
    + rewrite saddr_add_In. split.
      * intros [[H|H]|[r' [H1 H2]]]; [right; exists r; auto|left; exact H|right; exists r'; tauto].
      * intros [H|[r' [[H1|H1] H2]]]; [left; right; exact H|subst; left; left; symmetry; tauto|right; exists r'; tauto].
    + split.
      * intros [H|[r' [H1 H2]]]; [left; exact H|right; exists r'; tauto].
      * intros [H|[r' [[H1|H1] [H2 H3]]]]; [left; exact H|subst; congruence|right; exists r'; tauto].
Qed.

(* the refresh pass over one bucket: one question per distinct (address, interface) among the
   records that are due; every due record gets the mark; nothing else changes *)
Theorem refresh_bucket_spec now b :
  (forall a, In a (snd (refresh_bucket now b))
             <-> exists r, In r b /\ refresh_wanted now r = true /\ (a_addr r, a_if r) = a)
  /\ fst (refresh_bucket now b)
     = map (fun r => if refresh_wanted now r then a_set_life (life_no_more (a_life r)) r else r) b.
Proof.
  unfold refresh_bucket. simpl. split; [|reflexivity].
  intros a. rewrite (fold_saddr_In (refresh_wanted now) (fun r => (a_addr r, a_if r))). simpl. tauto.
Qed.

(* after the pass no record of the bucket is due at that time - and a marked record stays
   not-due for ever (wanted_after_no_more) *)
Theorem refresh_bucket_done now b :
  Forall (fun r => life_wf (a_life r)) b ->
  Forall (fun r => refresh_wanted now r = false) (fst (refresh_bucket now b)).
Proof.
  intros H. unfold refresh_bucket. simpl. rewrite Forall_forall in *. intros r' Hr'.
  apply in_map_iff in Hr' as [r [E Hr]]. subst r'.
  destruct (refresh_wanted now r) eqn:Ew; [apply wanted_after_no_more; apply H; exact Hr|exact Ew].
Qed.

Lemma group_add_spec sp a m : forall sp' A,
  NoDup (map fst m) ->
  (In (sp', A) (group_add sp a m) ->
     (exists A0, In (sp', A0) m /\ (forall x, In x A <-> In x A0 \/ (sp' = sp /\ x = a)))
     \/ (sp' = sp /\ ~ In sp (map fst m) /\ A = [a])).
Proof.
  induction m as [|[s0 A0] t IH]; intros sp' A Hnd; simpl.
  - intros [H|[]]. inversion H; subst. right. auto.
  - inversion Hnd; subst. destruct (beq sp s0) eqn:E.
    + apply beq_eq in E. subst s0. simpl. intros [H|H].
      * inversion H; subst. left. exists A0. split; [left; reflexivity|].
        intros x. rewrite saddr_add_In. split; [intros [->|Hx]; auto|intros [Hx|[_ ->]]; auto].
      * left. exists A. split; [right; exact H|]. intros x. split; [auto|].
        intros [Hx|[-> _]]; [exact Hx|]. exfalso. apply H1. apply (in_map fst) in H. exact H.
    + simpl. intros [H|H].
      * inversion H; subst. left. exists A. split; [left; reflexivity|].
        intros x. split; [auto|]. intros [Hx|[-> _]]; [exact Hx|]. rewrite beq_refl in E. discriminate.
      * destruct (IH sp' A H2 H) as [[A1 [Hin Hx]]|[-> [Hn ->]]].
        -- left. exists A1. split; [right; exact Hin|exact Hx].
        -- right. split; [reflexivity|]. split; [|reflexivity].
           simpl. intros [Hs|Hs]; [subst; rewrite beq_refl in E; discriminate|contradiction].
Qed.

Lemma group_add_keys sp a m : forall s, In s (map fst (group_add sp a m)) <-> s = sp \/ In s (map fst m).
Proof.
  induction m as [|[s0 A0] t IH]; intros s; simpl.
  - split; [intros [H|[]]; auto|intros [H|[]]; auto].
  - destruct (beq sp s0) eqn:E; simpl.
    + apply beq_eq in E. subst. split; [intros [H|H]; auto|intros [H|[H|H]]; auto].
    + rewrite IH. split; [intros [H|[H|H]]; auto|intros [H|[H|H]]; auto].
Qed.

Lemma group_add_NoDup sp a m : NoDup (map fst m) -> NoDup (map fst (group_add sp a m)).
Proof.
  induction m as [|[s0 A0] t IH]; simpl; intros H.
  - constructor; [tauto|constructor].
  - inversion H; subst. destruct (beq sp s0) eqn:E; simpl.
    + constructor; assumption.
    + constructor; [|apply IH; assumption].
      rewrite group_add_keys. intros [Hs|Hs]; [subst; rewrite beq_refl in E; discriminate|contradiction].
Qed.

(* group_addrs is a fold from the empty map: facts about it go by induction on the last record *)
Lemma group_addrs_snoc b r : group_addrs (b ++ [r]) = group_add (a_name r) (a_addr r, a_if r) (group_addrs b).
Proof. unfold group_addrs. rewrite fold_left_app. reflexivity. Qed.

Lemma group_addrs_keys b s : In s (map fst (group_addrs b)) <-> exists x, In x b /\ a_name x = s.
Proof.
  induction b as [|r b IH] using rev_ind.
  - simpl. split; [intros []|intros [x [[] _]]].
  - rewrite group_addrs_snoc, group_add_keys, IH. split.
    + intros [->|[x [Hx Hn]]]; [exists r|exists x]; (split; [apply in_or_app; simpl; auto|auto]).
    + intros [x [Hx Hn]]. apply in_app_or in Hx as [Hx|[<-|[]]]; [right; exists x; auto|left; auto].
Qed.

Theorem group_addrs_spec b :
  NoDup (map fst (group_addrs b))
  /\ (forall sp A, In (sp, A) (group_addrs b) ->
        forall a, In a A <-> exists x, In x b /\ a_name x = sp /\ (a_addr x, a_if x) = a)
  /\ (forall x, In x b -> exists A, In (a_name x, A) (group_addrs b)).
Proof.
  assert (Hnd : forall b0, NoDup (map fst (group_addrs b0))).
  { intros b0. induction b0 as [|r b0 IH] using rev_ind; [constructor|].
    rewrite group_addrs_snoc. apply group_add_NoDup. exact IH. }
  split; [apply Hnd|]. split.
  - induction b as [|r b IH] using rev_ind; [intros sp A []|].
    intros sp A Hin a. rewrite group_addrs_snoc in Hin.
    destruct (group_add_spec _ _ _ sp A (Hnd b) Hin) as [[A0 [Hin0 Hx]]|[-> [Hn ->]]].
    + rewrite Hx, (IH sp A0 Hin0). split.
      * intros [[x [H1 H2]]|[-> ->]]; [exists x; split; [apply in_or_app; left; exact H1|exact H2]|].
        exists r. split; [apply in_or_app; right; left; reflexivity|auto].
      * intros [x [H1 [H2 H3]]]. apply in_app_or in H1 as [H1|[<-|[]]]; [left; exists x; auto|right; auto].
    + split.
      * intros [<-|[]]. exists r. split; [apply in_or_app; right; left; reflexivity|auto].
      * intros [x [H1 [H2 H3]]]. apply in_app_or in H1 as [H1|[<-|[]]]; [|left; exact H3].
        exfalso. apply Hn. apply group_addrs_keys. exists x. auto.
  - intros x Hx. assert (Hs : In (a_name x) (map fst (group_addrs b))) by (apply group_addrs_keys; exists x; auto).
    apply in_map_iff in Hs as [[s A] [E Hin]]. simpl in E. subst. exists A. exact Hin.
Qed.

Theorem found_events_spec res c host ch e :
  In (ch, e) (found_events res c host) ->
  exists r sp A, find_res (lower host) res = Some r /\ ch = r_chan r /\ e = EFound sp A
    /\ forall a, In a A <-> exists x, In x (bucket_of c (lower host)) /\ a_name x = sp /\ (a_addr x, a_if x) = a.
Proof.
  unfold found_events. destruct (find_res (lower host) res) as [r|]; [|intros []].
  intros H. apply in_map_iff in H as [[sp A] [E Hin]]. inversion E; subst.
  exists r, sp, A. repeat split; try reflexivity; apply (proj1 (proj2 (group_addrs_spec _)) sp A Hin).
Qed.

Lemma entries_evict now c x :
  In x (entries (evict_cache now c)) <-> In x (entries c) /\ a_expired now x = false.
Proof.
  unfold entries, evict_cache. rewrite flat_map_drop_empty.
  induction c as [|[k b] t IH]; simpl; [tauto|].
  rewrite !in_app_iff, IH, filter_In, negb_true_iff. tauto.
Qed.

Lemma in_evicted now c x : In x (evicted now c) <-> In x (entries c) /\ a_expired now x = true.
Proof.
  unfold evicted, entries. rewrite !in_flat_map. split.
  - intros [kb [H1 H2]]. apply filter_In in H2 as [H2 H3]. split; [exists kb; auto|exact H3].
  - intros [[kb [H1 H2]] H3]. exists kb. split; [exact H1|]. apply filter_In. auto.
Qed.

Theorem evict_all_spec now res c :
  (forall x, In x (entries (fst (evict_all now res c))) <-> In x (entries c) /\ l_expires (a_life x) > now)
  /\ (forall ch e, In (ch, e) (snd (evict_all now res c)) ->
        exists r sp A, find_res (lower sp) res = Some r /\ ch = r_chan r /\ e = ERemoved sp A
          /\ forall a, In a A <-> exists x, In x (entries c) /\ l_expires (a_life x) <= now
                                            /\ a_name x = sp /\ (a_addr x, a_if x) = a)
  /\ (forall x r, In x (entries c) -> l_expires (a_life x) <= now ->
        find_res (lower (a_name x)) res = Some r ->
        exists A, In (r_chan r, ERemoved (a_name x) A) (snd (evict_all now res c)) /\ In (a_addr x, a_if x) A).
Proof.
  unfold evict_all. simpl.
  assert (Hexp : forall x, a_expired now x = true <-> l_expires (a_life x) <= now).
  { intros x. unfold a_expired, life_expired. rewrite pin_is_expired. apply N.leb_le. }
  destruct (group_addrs_spec (evicted now c)) as [G1 [G2 G3]].
  split; [|split].
  - intros x. rewrite entries_evict. split; intros [H1 H2]; split; try exact H1.
    + destruct (a_expired now x) eqn:E; [discriminate|]. apply N.lt_gt. apply N.lt_nge. intros Hle.
      apply Hexp in Hle. congruence.
    + destruct (a_expired now x) eqn:E; [|reflexivity]. apply Hexp in E. lia.
  - intros ch e H. apply in_flat_map in H as [[sp A] [Hin H]]. unfold removed_events in H. simpl in H.
    destruct (find_res (lower sp) res) as [r|] eqn:Er; [|destruct H].
    destruct H as [H|[]]. inversion H; subst. exists r, sp, A. repeat split; try assumption.
    + intros Ha. apply (G2 sp A Hin) in Ha as [x [Hx [Hn Ha]]]. apply in_evicted in Hx as [Hx He].
      exists x. rewrite <- Hexp. auto.
    + intros [x [Hx [He [Hn Ha]]]]. apply (G2 sp A Hin). exists x. split; [|auto].
      apply in_evicted. rewrite Hexp. auto.
  - intros x r Hx He Hr. assert (Hev : In x (evicted now c)) by (apply in_evicted; rewrite Hexp; auto).
    destruct (G3 x Hev) as [A HA]. exists A. split.
    + apply in_flat_map. exists (a_name x, A). split; [exact HA|]. unfold removed_events. simpl. rewrite Hr. left. reflexivity.
    + apply (G2 _ A HA). exists x. auto.
Qed.
