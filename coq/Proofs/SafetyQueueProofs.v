(* C14: lemmas about the command channel / shutdown model (Model/SafetyQueue.v).

   An iteration that does not get stuck is the capacity-free drain0, and drain0 is the
   sequential execution of the commands in front of the first Exit followed by the clean-up
   (`drain0_spec`): nothing behind Exit influences state or goodbyes.  With the receiver alive
   and the queue empty at the start of a step, the queue after the calls of the step is exactly
   the `accepted` commands, and the iteration empties it again; with the receiver gone every
   call fails (status() short-circuits).  The invariant over histories (`step_alive`,
   `run_from_chk`): between iterations the queue is empty and the checker's tracked state is the
   daemon's state; hence chk_C14 h (run h) = true.  On their own: the daemon ends at most once
   (`exits_at_most_once_from`, no hypothesis), the daemon's tables are duplicate-free (`dinv`),
   and each call that returned Ok has something on its channel (`resolves_at`). *)
From Coq Require Import List NArith Bool Lia PeanoNat.
From Mdns Require Import Res Bytes ListFacts Utf8 ParamsSafety SafetyNames SafetyQueue SafetyNamesProofs.
Import ListNotations.
Open Scope N_scope.

Definition is_exit (c : cmd) : bool := match c with QExit _ => true | _ => false end.
Definition no_exit (q : list cmd) : Prop := Forall (fun c => is_exit c = false) q.

Lemma drain0_cons k rest d : is_exit k = false ->
  drain0 d (k :: rest) =
  (let (d1, o1) := exec d k in let '(d2, o2, g, x) := drain0 d1 rest in (d2, o1 ++ o2, exec_gb d k ++ g, x)).
Proof. destruct k; try discriminate; reflexivity. Qed.

Lemma drain_cons k rest d c : is_exit k = false ->
  drain d c (k :: rest) =
  (let (d1, o1) := exec d k in
   let '(o, c1, b) := deliver c o1 in
   if b then mkIter d1 o [] false true rest
   else let r := drain d1 c1 rest in
        mkIter (it_d r) (o ++ it_out r) (exec_gb d k ++ it_goodbyes r) (it_exited r) (it_stuck r) (it_rest r)).
Proof. destruct k; try discriminate; reflexivity. Qed.

Lemma before_exit_cons k rest : is_exit k = false -> before_exit (k :: rest) = k :: before_exit rest.
Proof. destruct k; try discriminate; reflexivity. Qed.

Lemma from_exit_cons k rest : is_exit k = false -> from_exit (k :: rest) = from_exit rest.
Proof. destruct k; try discriminate; reflexivity. Qed.

Lemma is_exit_true k : is_exit k = true -> exists x, k = QExit x.
Proof. destruct k; try discriminate. eauto. Qed.

Lemma ev_eqb_refl e : ev_eqb e e = true.
Proof. destruct e; reflexivity. Qed.

Lemma ev_eqb_eq a b : ev_eqb a b = true -> a = b.
Proof. destruct a, b; simpl; try discriminate; reflexivity. Qed.

Lemma evs_eqb_refl l : evs_eqb l l = true.
Proof. induction l as [|e l IH]; [reflexivity|]. simpl. rewrite ev_eqb_refl. exact IH. Qed.

Lemma cres_eqb_refl r : cres_eqb r r = true.
Proof. destruct r; reflexivity. Qed.

Lemma cres_eqb_eq a b : cres_eqb a b = true -> a = b.
Proof. destruct a, b; simpl; try discriminate; reflexivity. Qed.

Lemma same_multiset_refl l : same_multiset l l = true.
Proof. unfold same_multiset. apply forallb_forall. intros x _. apply Nat.eqb_refl. Qed.

Lemma evs_of_app ch a b : evs_of ch (a ++ b) = evs_of ch a ++ evs_of ch b.
Proof. unfold evs_of. rewrite filter_app, map_app. reflexivity. Qed.

Lemma in_evs_of ch e l : In (ch, e) l -> In e (evs_of ch l).
Proof.
  intros H. unfold evs_of. apply in_map_iff. exists (ch, e). split; [reflexivity|].
  apply filter_In. split; [exact H|]. simpl. apply N.eqb_refl.
Qed.

Lemma evs_of_nonempty ch e l : In (ch, e) l -> evs_of ch l <> [].
Proof. intros H E. apply in_evs_of in H. rewrite E in H. exact H. Qed.

Lemma has_ev_in e l : In e l -> has_ev e l = true.
Proof. intros H. unfold has_ev. apply existsb_exists. exists e. split; [exact H|apply ev_eqb_refl]. Qed.

Lemma deliver_unstuck : forall outs c o c', deliver c outs = (o, c', false) -> o = outs.
Proof.
  induction outs as [|[ch e] t IH]; intros c o c' H; simpl in H.
  - inversion H. reflexivity.
  - destruct (is_listener_msg e).
    + destruct (browse_listener_bound <=? cget ch c); [discriminate|].
      destruct (deliver (cincr ch c) t) as [[o1 c1] b1] eqn:E.
      inversion H; subst. f_equal. eapply IH. exact E.
    + destruct (deliver c t) as [[o1 c1] b1] eqn:E.
      inversion H; subst. f_equal. eapply IH. exact E.
Qed.

Lemma drain_unstuck : forall q d c,
  it_stuck (drain d c q) = false ->
  drain0 d q = (it_d (drain d c q), it_out (drain d c q), it_goodbyes (drain d c q), it_exited (drain d c q))
  /\ it_rest (drain d c q) = [].
Proof.
  induction q as [|k rest IH]; intros d c H.
  - simpl. split; reflexivity.
  - destruct (is_exit k) eqn:K.
    + apply is_exit_true in K as [x ->]. simpl in *.
      destruct (deliver c (shutdown_outputs d x rest)) as [[o c1] b] eqn:E.
      destruct b; [simpl in H; discriminate|].
      apply deliver_unstuck in E. subst o. simpl. split; reflexivity.
    + rewrite drain_cons in * by exact K. rewrite drain0_cons by exact K.
      destruct (exec d k) as [d1 o1].
      destruct (deliver c o1) as [[o c1] b] eqn:E.
      destruct b; [simpl in H; discriminate|].
      apply deliver_unstuck in E. subst o. simpl in H.
      destruct (IH d1 c1 H) as [E0 Er]. rewrite E0. simpl. split; [reflexivity|exact Er].
Qed.

Lemma drain0_spec : forall q d,
  drain0 d q =
  match from_exit q with
  | None => (fst (exec_seq d q), snd (exec_seq d q), exec_seq_gb d q, false)
  | Some (x, rest) =>
    let d1 := fst (exec_seq d (before_exit q)) in
    (d1, snd (exec_seq d (before_exit q)) ++ shutdown_outputs d1 x rest,
     exec_seq_gb d (before_exit q) ++ cleanup_goodbyes d1, true)
  end.
Proof.
  induction q as [|k rest IH]; intros d; [reflexivity|].
  destruct (is_exit k) eqn:K.
  - apply is_exit_true in K as [x ->]. reflexivity.
  - rewrite drain0_cons, from_exit_cons, before_exit_cons by exact K.
    cbn [exec_seq exec_seq_gb]. destruct (exec d k) as [d1 o1] eqn:E. cbn [fst].
    rewrite IH. destruct (from_exit rest) as [[x r]|].
    + destruct (exec_seq d1 (before_exit rest)) as [d2 o2]. cbn [fst snd].
      rewrite <- !app_assoc. reflexivity.
    + destruct (exec_seq d1 rest) as [d2 o2]. reflexivity.
Qed.

Lemma exit_split q :
  no_exit (before_exit q)
  /\ q = before_exit q ++ match from_exit q with Some (x, rest) => QExit x :: rest | None => [] end.
Proof.
  induction q as [|k t [N E]]; [split; [constructor|reflexivity]|].
  destruct (is_exit k) eqn:K.
  - apply is_exit_true in K as [y ->]. split; [constructor|reflexivity].
  - rewrite from_exit_cons, before_exit_cons by exact K.
    split; [constructor; assumption|simpl; rewrite <- E; reflexivity].
Qed.

Lemma no_exit_from_exit pre x post : no_exit pre ->
  from_exit (pre ++ QExit x :: post) = Some (x, post) /\ before_exit (pre ++ QExit x :: post) = pre.
Proof.
  induction 1 as [|k t K _ IH]; [split; reflexivity|].
  simpl app. rewrite from_exit_cons, before_exit_cons by exact K.
  destruct IH as [A B]. split; [exact A|rewrite B; reflexivity].
Qed.

Lemma drain0_at_exit d pre x post : no_exit pre ->
  drain0 d (pre ++ QExit x :: post) =
  (fst (exec_seq d pre),
   snd (exec_seq d pre) ++ shutdown_outputs (fst (exec_seq d pre)) x post,
   exec_seq_gb d pre ++ cleanup_goodbyes (fst (exec_seq d pre)), true).
Proof.
  intros N. rewrite drain0_spec. destruct (no_exit_from_exit pre x post N) as [A B].
  rewrite A, B. reflexivity.
Qed.

Definition wf_call (c : call) : Prop :=
  match c with
  | CRegister ty nm _ => utf8_valid ty = true /\ utf8_valid nm = true
  | _ => True
  end.
Definition wf_hist (h : list stepin) : Prop := Forall (fun i => Forall wf_call (in_calls i)) h.

Definition state_after (s : sys) (h : list stepin) : sys := fold_left (fun s i => fst (step s i)) h s.

Definition call_has_chan (c : call) : bool :=
  match c with
  | CBrowse _ _ | CResolve _ | CUnregister _ | CMonitor | CStatus | CMetrics | CShutdown => true
  | _ => false
  end.

(* the witness of C14_every_call_resolves_refuted *)
Definition ty_x : bytes := [95;120;46;95;116;99;112;46;108;111;99;97;108;46].    (* _x._tcp.local. *)
Definition stuck_history : list stepin :=
  [ mkIn [] [CBrowse ty_x false] [];                 (* channel 0 *)
    mkIn [(ty_x, 10)] [CShutdown; CStatus] [];       (* channels 1, 2: ten ServiceFound, then shutdown *)
    mkIn [] [CStatus; CMetrics] [] ].                (* channels 3, 4 *)

Lemma prepare_safe c ch : wf_call c -> safe (prepare c ch).
Proof.
  intros W. destruct c as [ty co|ty|host|host|ty name host|fullname| | | | |n| ]; simpl; try (split; discriminate).
  - apply bind_safe; [apply api_browse_total|intros; split; discriminate].
  - apply bind_safe; [apply api_resolve_hostname_total|intros; split; discriminate].
  - destruct W as [W1 W2].
    destruct (si_names_total ty name host) as [[[[tyd sub] full] server] E]. rewrite E. cbn [bind].
    apply bind_safe; [|intros; split; discriminate].
    exact (register_names_safe lower ty name host tyd sub full server W1 W2 E).
  - destruct (len_max_refused n); split; discriminate.
Qed.

Lemma prepare_cases c ch : wf_call c -> (exists k, prepare c ch = Ok k) \/ prepare c ch = Err.
Proof.
  intros W. destruct (prepare_safe c ch W) as [A B].
  destruct (prepare c ch); [left; eauto|right; reflexivity|congruence|congruence].
Qed.

(* A call on a live handle: the command it appends (none if refused or if the queue is full),
   and the checker's and `accepted`'s step over this call. *)
Lemma do_call_alive items c ch : wf_call c ->
  exists r acc, do_call (mkChan items false) c ch = (mkChan (items ++ acc) false, r, [])
  /\ forall t rt evs,
       accepted (c :: t) ch (r :: rt) = acc ++ accepted t (ch + 1) rt
       /\ chk_results false (c :: t) ch (r :: rt) (N.of_nat (length items)) evs
          = chk_results false t (ch + 1) rt (N.of_nat (length (items ++ acc))) evs.
Proof.
  intros W. unfold do_call. destruct (prepare_cases c ch W) as [[k P]|P]; rewrite P.
  - unfold try_send. cbn [q_gone q_items].
    destruct (cmd_queue_bound <=? N.of_nat (length items)) eqn:Full.
    + exists RAgain, []. rewrite app_nil_r. split; [destruct c; reflexivity|].
      intros t rt evs. cbn [accepted chk_results]. rewrite P, Full. split; reflexivity.
    + exists ROk, [k]. split; [destruct c; reflexivity|].
      intros t rt evs. cbn [accepted chk_results]. rewrite P, Full. split; [reflexivity|].
      rewrite app_length, Nat2N.inj_add. reflexivity.
  - exists RMsg, []. rewrite app_nil_r. split; [reflexivity|].
    intros t rt evs. cbn [accepted chk_results]. rewrite P. split; reflexivity.
Qed.

Lemma do_calls_alive : forall cs items base q' rs o,
  Forall wf_call cs ->
  do_calls (mkChan items false) cs base = (q', rs, o) ->
  q' = mkChan (items ++ accepted cs base rs) false /\ o = []
  /\ forall evs, chk_results false cs base rs (N.of_nat (length items)) evs = true.
Proof.
  induction cs as [|c t IH]; intros items base q' rs o W H.
  - simpl in H. inversion H; subst. rewrite app_nil_r. repeat split.
  - inversion W as [|? ? Wc Wt]; subst. cbn [do_calls] in H.
    destruct (do_call_alive items c base Wc) as (r & acc & E1 & Hd). rewrite E1 in H.
    destruct (do_calls (mkChan (items ++ acc) false) t (base + 1)) as [[q2 rs2] os] eqn:E.
    destruct (IH (items ++ acc) (base + 1) q2 rs2 os Wt E) as (A & B & C).
    inversion H; subst. split; [|split; [reflexivity|]].
    + rewrite (proj1 (Hd t rs2 [])), app_assoc. reflexivity.
    + intros evs. rewrite (proj2 (Hd t rs2 evs)). apply C.
Qed.

Lemma evs_of_other b l : Forall (fun p => fst p <> b) l -> evs_of b l = [].
Proof.
  unfold evs_of. induction 1 as [|[ch e] t H _ IH]; [reflexivity|].
  simpl in *. replace (ch =? b) with false by (symmetry; apply N.eqb_neq; exact H). exact IH.
Qed.

Lemma do_call_gone items c ch : wf_call c ->
  exists r o, do_call (mkChan items true) c ch = (mkChan items true, r, o)
  /\ Forall (fun p => fst p = ch /\ (snd p = EShutdown \/ snd p = EClosed)) o
  /\ forall t rt q evs, evs_of ch evs = evs_of ch o ->
       chk_results true (c :: t) ch (r :: rt) q evs = chk_results true t (ch + 1) rt q evs.
Proof.
  intros W. unfold do_call. destruct (prepare_cases c ch W) as [[k P]|P]; rewrite P.
  - destruct (is_status c) eqn:S.
    + exists ROk, [(ch, EShutdown); (ch, EClosed)].
      split; [destruct c; try discriminate; reflexivity|]. split.
      { constructor; [split; [reflexivity|left; reflexivity]|].
        constructor; [split; [reflexivity|right; reflexivity]|constructor]. }
      intros t rt q evs Ev. cbn [chk_results]. rewrite P, S, Ev. unfold evs_of. simpl.
      rewrite N.eqb_refl. reflexivity.
    + exists RShutdown, []. split; [destruct c; try discriminate; reflexivity|]. split; [constructor|].
      intros t rt q evs _. cbn [chk_results]. rewrite P, S. reflexivity.
  - exists RMsg, []. split; [reflexivity|]. split; [constructor|].
    intros t rt q evs _. cbn [chk_results]. rewrite P. reflexivity.
Qed.

(* `pre` (what the trace showed before these calls, on earlier channels) and the bounds on the
   channels of `o` are there for the induction; the caller takes pre = [] *)
Lemma do_calls_gone : forall cs items base q' rs o,
  Forall wf_call cs ->
  do_calls (mkChan items true) cs base = (q', rs, o) ->
  q' = mkChan items true
  /\ Forall (fun p => base <= fst p /\ (snd p = EShutdown \/ snd p = EClosed)) o
  /\ forall pre, Forall (fun p => fst p < base) pre -> chk_results true cs base rs 0 (pre ++ o) = true.
Proof.
  induction cs as [|c t IH]; intros items base q' rs o W H.
  - simpl in H. inversion H; subst. repeat split; try constructor.
  - inversion W as [|? ? Wc Wt]; subst. cbn [do_calls] in H.
    destruct (do_call_gone items c base Wc) as (r & o1 & E1 & O1 & Hd). rewrite E1 in H.
    destruct (do_calls (mkChan items true) t (base + 1)) as [[q2 rs2] os] eqn:E.
    destruct (IH items (base + 1) q2 rs2 os Wt E) as (A & B & D).
    inversion H; subst. clear H. split; [reflexivity|]. split.
    + apply Forall_app. split.
      * eapply Forall_impl; [|exact O1]. intros p [Hp K]. split; [lia|exact K].
      * eapply Forall_impl; [|exact B]. intros p [Hp K]. split; [lia|exact K].
    + intros pre Hpre. rewrite Hd.
      * rewrite app_assoc. apply D. apply Forall_app. split.
        -- eapply Forall_impl; [|exact Hpre]. intros p Hp. simpl in Hp. lia.
        -- eapply Forall_impl; [|exact O1]. intros p [Hp _]. simpl. lia.
      * rewrite !evs_of_app, (evs_of_other base pre), (evs_of_other base os), app_nil_r; [reflexivity| |].
        -- eapply Forall_impl; [|exact B]. intros p [Hp _]. simpl in *. lia.
        -- eapply Forall_impl; [|exact Hpre]. intros p Hp. simpl in *. lia.
Qed.

Definition no_shutdown (l : list out) : Prop := Forall (fun p => snd p <> EShutdown) l.

Lemma no_shutdown_app a b : no_shutdown a -> no_shutdown b -> no_shutdown (a ++ b).
Proof. intros. apply Forall_app. split; assumption. Qed.

Lemma no_shutdown_repeat ch e n : e <> EShutdown -> no_shutdown (repeat (ch, e) n).
Proof. intros H. apply Forall_forall. intros p Hp. apply repeat_spec in Hp. subst p. exact H. Qed.

Lemma closed_old_ns o : no_shutdown (closed_old o).
Proof. destruct o; simpl; repeat constructor; discriminate. Qed.

Lemma exec_no_shutdown d c : no_shutdown (snd (exec d c)).
Proof.
  destruct c as [ty cache_only ch0|ty|host ch0|host|tyd full|fullname ch0|ch0|ch0|ch0|ch0|n| ]; simpl.
  - constructor; [discriminate|]. apply no_shutdown_app; [apply closed_old_ns|].
    apply no_shutdown_app; [apply no_shutdown_repeat; discriminate|].
    destruct cache_only; repeat constructor; discriminate.
  - destruct (alookup ty (d_queriers d)); simpl; repeat constructor; discriminate.
  - constructor; [discriminate|apply closed_old_ns].
  - destruct (alookup (lower host) (d_resolvers d)); simpl; repeat constructor; discriminate.
  - destruct (check_service_name_length _ _); simpl; constructor.
  - destruct (mem fullname (d_services d)); simpl; repeat constructor; discriminate.
  - constructor.
  - repeat constructor; discriminate.
  - repeat constructor; discriminate.
  - constructor.
  - constructor.
  - constructor.
Qed.

Lemma exec_seq_inv (P : dstate -> Prop) :
  (forall d c, P d -> P (fst (exec d c))) -> forall q d, P d -> P (fst (exec_seq d q)).
Proof.
  intros Hs. induction q as [|k t IH]; intros d H; [exact H|].
  cbn [exec_seq]. pose proof (Hs d k H) as H1. destruct (exec d k) as [d1 o1].
  specialize (IH d1 H1). destruct (exec_seq d1 t) as [d2 o2]. exact IH.
Qed.

Lemma exec_seq_no_shutdown : forall q d, no_shutdown (snd (exec_seq d q)).
Proof.
  induction q as [|k t IH]; intros d; [constructor|].
  cbn [exec_seq]. pose proof (exec_no_shutdown d k) as H. destruct (exec d k) as [d1 o1].
  specialize (IH d1). destruct (exec_seq d1 t) as [d2 o2]. simpl in *. apply no_shutdown_app; assumption.
Qed.

Lemma arrive_no_shutdown : forall a d, no_shutdown (snd (arrive d a)).
Proof.
  induction a as [|[ty n] t IH]; intros d; [constructor|].
  cbn [arrive]. destruct (alookup ty (d_queriers d)) as [ch|]; [|apply IH].
  specialize (IH (set_found d (ainsert ty (found_count ty d + n) (d_found d)))).
  destruct (arrive _ t) as [d2 o]. simpl in *.
  apply no_shutdown_app; [apply no_shutdown_repeat; discriminate|exact IH].
Qed.

Lemma no_shutdown_seen l : no_shutdown l -> existsb (fun p => ev_eqb (snd p) EShutdown) l = false.
Proof.
  intros H. apply not_true_is_false. intros E. apply existsb_exists in E as (p & Hp & He).
  apply ev_eqb_eq in He. unfold no_shutdown in H. rewrite Forall_forall in H. exact (H p Hp He).
Qed.

Lemma no_shutdown_has_ev ch l : no_shutdown l -> has_ev EShutdown (evs_of ch l) = false.
Proof.
  intros H. apply not_true_is_false. intros E. unfold has_ev in E.
  apply existsb_exists in E as (e & He & Hq). apply ev_eqb_eq in Hq. subst e.
  unfold evs_of in He. apply in_map_iff in He as ([c e] & Hs & Hf). simpl in Hs. subst e.
  apply filter_In in Hf as [Hf _]. unfold no_shutdown in H. rewrite Forall_forall in H.
  exact (H _ Hf eq_refl).
Qed.

Lemma exec_answers d c ch :
  cmd_chan c = Some ch -> is_exit c = false -> (forall x, c <> QMonitor x) ->
  exists e, In (ch, e) (snd (exec d c)).
Proof.
  intros H K M. destruct c as [ty cache_only ch0|ty|host ch0|host|tyd full|fullname ch0|ch0|ch0|ch0|ch0|n| ]; simpl in H; try discriminate; inversion H; subst.
  - exists EStarted. simpl. left. reflexivity.
  - exists EStarted. simpl. left. reflexivity.
  - simpl. destruct (mem fullname (d_services d)); simpl; eexists; left; reflexivity.
  - exfalso. exact (M ch eq_refl).
  - exists ERunning. simpl. left. reflexivity.
  - exists EMetrics. simpl. left. reflexivity.
Qed.

Lemma exec_seq_incl : forall q d c, In c q -> exists d', incl (snd (exec d' c)) (snd (exec_seq d q)).
Proof.
  induction q as [|k t IH]; intros d c H; [destruct H|].
  cbn [exec_seq]. destruct H as [->|H].
  - exists d. destruct (exec d c) as [d1 o1]. destruct (exec_seq d1 t) as [d2 o2]. simpl.
    apply incl_appl, incl_refl.
  - destruct (exec d k) as [d1 o1]. destruct (IH d1 c H) as [d' I]. exists d'.
    destruct (exec_seq d1 t) as [d2 o2]. simpl in *. apply incl_appr. exact I.
Qed.

Lemma exec_monitors d c ch : In ch (d_monitors d) -> In ch (d_monitors (fst (exec d c))).
Proof.
  intros H. destruct c as [ty cache_only ch0|ty|host ch0|host|tyd full|fullname ch0|ch0|ch0|ch0|ch0|n| ]; simpl; try exact H.
  - destruct (alookup ty (d_queriers d)); simpl; exact H.
  - destruct (alookup (lower host) (d_resolvers d)); simpl; exact H.
  - destruct (check_service_name_length _ _); simpl; exact H.
  - destruct (mem fullname (d_services d)); simpl; exact H.
  - apply in_or_app. left. exact H.
Qed.

Lemma exec_seq_monitors q d ch : In ch (d_monitors d) -> In ch (d_monitors (fst (exec_seq d q))).
Proof. apply (exec_seq_inv (fun d => In ch (d_monitors d))). intros d0 c. apply exec_monitors. Qed.

Lemma exec_seq_monitor_added : forall q d ch, In (QMonitor ch) q -> In ch (d_monitors (fst (exec_seq d q))).
Proof.
  induction q as [|k t IH]; intros d ch H; [destruct H|].
  cbn [exec_seq]. destruct H as [->|H].
  - simpl. pose proof (exec_seq_monitors t (set_monitors d (d_monitors d ++ [ch])) ch) as M.
    destruct (exec_seq _ t) as [d2 o2]. apply M. simpl. apply in_or_app. right. left. reflexivity.
  - destruct (exec d k) as [d1 o1]. specialize (IH d1 ch H). destruct (exec_seq d1 t) as [d2 o2]. exact IH.
Qed.

Lemma chans_of_in c ch q : In c q -> cmd_chan c = Some ch -> In ch (chans_of q).
Proof.
  intros H E. unfold chans_of. apply in_flat_map. exists c. split; [exact H|]. rewrite E. left. reflexivity.
Qed.

Lemma dropped_in c ch rest : In c rest -> cmd_chan c = Some ch -> In (ch, EClosed) (dropped rest).
Proof.
  intros H E. unfold dropped. apply in_flat_map. exists c. split; [exact H|]. rewrite E. left. reflexivity.
Qed.

Lemma dropped_only_closed rest : Forall (fun p => snd p = EClosed) (dropped rest).
Proof.
  unfold dropped. apply Forall_forall. intros p Hp. apply in_flat_map in Hp as (c & _ & Hc).
  destruct (cmd_chan c); [|destruct Hc]. destruct Hc as [<-|[]]. reflexivity.
Qed.

Lemma in_shutdown_outputs d x rest p :
  In p (cleanup_events d) \/ In p (dropped rest) \/ In p (drop_all d) \/ In p [(x, EShutdown); (x, EClosed)] ->
  In p (shutdown_outputs d x rest).
Proof. intros H. unfold shutdown_outputs. rewrite !in_app_iff. exact H. Qed.

Lemma shutdown_outputs_seen d x rest : In (x, EShutdown) (shutdown_outputs d x rest).
Proof. apply in_shutdown_outputs. right. right. right. left. reflexivity. Qed.

Lemma monitor_closed_at_exit d x rest ch : In ch (d_monitors d) -> In (ch, EClosed) (shutdown_outputs d x rest).
Proof.
  intros H. apply in_shutdown_outputs. right. right. left.
  unfold drop_all. apply in_map_iff. exists ch. split; [reflexivity|].
  unfold held_channels. rewrite !in_app_iff. auto.
Qed.

Lemma chk_resolves_intro q exited evs :
  (forall c ch, In c q -> cmd_chan c = Some ch -> (forall y, c <> QMonitor y) -> evs_of ch evs <> []) ->
  (forall ch, In (QMonitor ch) q -> exited = true -> In (ch, EClosed) evs) ->
  chk_resolves q exited evs = true.
Proof.
  intros A M. unfold chk_resolves. apply forallb_forall. intros c Hc.
  assert (G : forall ch, cmd_chan c = Some ch -> (forall y, c <> QMonitor y) ->
                negb (match evs_of ch evs with [] => true | _ => false end) = true).
  { intros ch E N. specialize (A c ch Hc E N). destruct (evs_of ch evs); [congruence|reflexivity]. }
  destruct c; try reflexivity; try (apply (G _ eq_refl); discriminate).
  destruct exited; [|reflexivity]. apply has_ev_in, in_evs_of, M; [exact Hc|reflexivity].
Qed.

(* oa: the events of the arriving packets, which come first in the step's trace.
   A command in front of Exit is executed and answers, Exit's channel gets Shutdown, a command
   behind Exit is dropped and its channel closes; monitors are closed with the daemon *)
Lemma resolves_ok d q oa :
  let '(d', o, g, x) := drain0 d q in chk_resolves q x (oa ++ o) = true.
Proof.
  assert (EX : forall pre c ch tail, In c pre -> is_exit c = false -> cmd_chan c = Some ch ->
                 (forall y, c <> QMonitor y) -> evs_of ch (oa ++ snd (exec_seq d pre) ++ tail) <> []).
  { intros pre c ch tail Hc K E N. destruct (exec_seq_incl pre d c Hc) as [d' I].
    destruct (exec_answers d' c ch E K N) as [e He].
    apply (evs_of_nonempty ch e). rewrite !in_app_iff. right. left. apply I. exact He. }
  rewrite drain0_spec. destruct (from_exit q) as [[x rest]|] eqn:F; cbn zeta.
  - destruct (exit_split q) as [Npre Eq]. rewrite F in Eq.
    set (pre := before_exit q) in *. set (d1 := fst (exec_seq d pre)).
    unfold no_exit in Npre. rewrite Forall_forall in Npre.
    apply chk_resolves_intro.
    + intros c ch Hc E N. rewrite Eq in Hc. apply in_app_or in Hc as [Hc|[<-|Hc]].
      * apply (EX pre c ch _ Hc); auto.
      * injection E as <-. apply (evs_of_nonempty x EShutdown). rewrite !in_app_iff. right. right.
        apply shutdown_outputs_seen.
      * apply (evs_of_nonempty ch EClosed). rewrite !in_app_iff. right. right.
        apply in_shutdown_outputs. right. left. eapply dropped_in; eassumption.
    + intros ch Hc _. rewrite !in_app_iff. right. right.
      rewrite Eq in Hc. apply in_app_or in Hc as [Hc|[Hc|Hc]]; [|discriminate|].
      * apply monitor_closed_at_exit, exec_seq_monitor_added. exact Hc.
      * apply in_shutdown_outputs. right. left. eapply dropped_in; [exact Hc|reflexivity].
  - destruct (exit_split q) as [N Eq]. rewrite F, app_nil_r in Eq. rewrite <- Eq in N.
    unfold no_exit in N. rewrite Forall_forall in N.
    apply chk_resolves_intro; [|discriminate].
    intros c ch Hc E M. rewrite <- (app_nil_r (snd (exec_seq d q))). apply (EX q c ch [] Hc); auto.
Qed.

Lemma iterate_unstuck_out d found q :
  it_stuck (iterate d found q) = false ->
  exists o, it_out (iterate d found q) = snd (arrive d found) ++ o
    /\ drain0 (fst (arrive d found)) q =
       (it_d (iterate d found q), o, it_goodbyes (iterate d found q), it_exited (iterate d found q))
    /\ it_rest (iterate d found q) = [].
Proof.
  unfold iterate. destruct (arrive d found) as [d0 oa]. cbn [fst snd].
  destruct (deliver [] oa) as [[o c] b] eqn:E.
  destruct b; [simpl; discriminate|].
  apply deliver_unstuck in E. subst o. cbn [it_stuck it_d it_out it_goodbyes it_exited it_rest].
  intros H. destruct (drain_unstuck q d0 c H) as [A B]. eauto.
Qed.

Lemma forallb_evs_refl l chs : forallb (fun ch => evs_eqb (evs_of ch l) (evs_of ch l)) chs = true.
Proof. apply forallb_forall. intros ch _. apply evs_eqb_refl. Qed.

(* the observation of an unstuck iteration passes chk_shutdown; somebody reads Shutdown exactly if
   the daemon ended (x); if it did not, its state is that of the commands executed *)
Lemma shutdown_ok d found q rs d' oo g x :
  drain0 (fst (arrive d found)) q = (d', oo, g, x) ->
  chk_shutdown d found q (mkObs rs (snd (arrive d found) ++ oo) (if x then g else []) x false) = true
  /\ shutdown_seen (mkObs rs (snd (arrive d found) ++ oo) (if x then g else []) x false) = x
  /\ (x = false -> d' = fst (exec_seq (fst (arrive d found)) (before_exit q))).
Proof.
  rewrite drain0_spec. intros H. unfold chk_shutdown, shutdown_seen.
  cbn [so_events so_exited so_goodbyes].
  pose proof (arrive_no_shutdown found d) as NA.
  destruct (arrive d found) as [d0 oa]. cbn [fst snd] in *.
  destruct (from_exit q) as [[y rest]|] eqn:F.
  - cbn zeta in H. pose proof (exec_seq_no_shutdown (before_exit q) d0) as NE.
    destruct (exec_seq d0 (before_exit q)) as [d1 o1]. cbn [fst snd] in *.
    injection H as E1 E2 E3 E4. subst d' oo g x. repeat split.
    + rewrite same_multiset_refl. cbn [andb]. apply forallb_evs_refl.
    + apply existsb_exists. exists (y, EShutdown). split; [|reflexivity].
      apply in_or_app. right. apply in_or_app. right. apply shutdown_outputs_seen.
  - injection H as E1 E2 E3 E4. subst d' oo g x. pose proof (proj2 (exit_split q)) as B. rewrite F, app_nil_r in B.
    pose proof (exec_seq_no_shutdown q d0) as NE. repeat split.
    + cbn [negb andb]. apply forallb_forall. intros ch _. rewrite no_shutdown_has_ev; [reflexivity|].
      apply no_shutdown_app; assumption.
    + apply no_shutdown_seen. apply no_shutdown_app; assumption.
    + intros _. rewrite <- B. reflexivity.
Qed.

Record step_alive_facts (s : sys) (i : stepin) (s' : sys) (o : sobs) : Prop := {
  saf_results : forall evs, chk_results false (in_calls i) (s_next s) (so_results o) 0 evs = true;
  saf_resolves : chk_resolves (accepted (in_calls i) (s_next s) (so_results o)) (so_exited o) (so_events o) = true;
  saf_shutdown : chk_shutdown (mark (s_d s) (in_announced i)) (in_found i)
                   (accepted (in_calls i) (s_next s) (so_results o)) o = true;
  saf_stuck : s_stuck s' = false;
  saf_items : q_items (s_chan s') = [];
  saf_next : s_next s' = s_next s + N.of_nat (length (in_calls i));
  saf_gone : q_gone (s_chan s') = so_exited o;
  saf_seen : shutdown_seen o = so_exited o;
  saf_d : so_exited o = false ->
          s_d s' = fst (exec_seq (fst (arrive (mark (s_d s) (in_announced i)) (in_found i)))
                                 (before_exit (accepted (in_calls i) (s_next s) (so_results o)))) }.

Lemma step_alive s i s' o :
  Forall wf_call (in_calls i) ->
  s_stuck s = false -> q_gone (s_chan s) = false -> q_items (s_chan s) = [] ->
  step s i = (s', o) -> so_stuck o = false ->
  step_alive_facts s i s' o.
Proof.
  intros W St G It H Hs. unfold step in H.
  destruct s as [[items gone] d nxt stuck]. simpl in St, G, It. subst items gone stuck.
  cbn [s_chan s_next s_d s_stuck] in *.
  destruct (do_calls (mkChan [] false) (in_calls i) nxt) as [[q1 rs] o0] eqn:E.
  destruct (do_calls_alive (in_calls i) [] nxt q1 rs o0 W E) as (Eq & Eo & Cr). subst q1 o0.
  cbn [q_gone q_items orb app] in H.
  remember (accepted (in_calls i) nxt rs) as q eqn:Hq.
  set (dm := mark d (in_announced i)) in *.
  remember (iterate dm (in_found i) q) as r eqn:Hr.
  injection H as Hs' Ho. subst s' o. cbn [so_stuck] in Hs.
  assert (Hst : it_stuck (iterate dm (in_found i) q) = false) by (rewrite <- Hr; exact Hs).
  destruct (iterate_unstuck_out dm (in_found i) q Hst) as (oo & Eout & Edr & Erest).
  rewrite <- Hr in Eout, Edr, Erest.
  pose proof (resolves_ok (fst (arrive dm (in_found i))) q (snd (arrive dm (in_found i)))) as R.
  rewrite Edr in R.
  destruct (shutdown_ok dm (in_found i) q rs _ _ _ _ Edr) as (S1 & S2 & S3).
  rewrite Hs, Eout.
  constructor; cbn [s_chan s_next s_d s_stuck q_gone q_items so_results so_events so_goodbyes so_exited];
    rewrite <- ?Hq.
  - (* saf_results *) exact Cr.
  - (* saf_resolves *) exact R.
  - (* saf_shutdown *) exact S1.
  - (* saf_stuck *) reflexivity.
  - (* saf_items *) exact Erest.
  - (* saf_next *) reflexivity.
  - (* saf_gone *) reflexivity.
  - (* saf_seen *) exact S2.
  - (* saf_d *) exact S3.
Qed.

Lemma step_gone s i s' o :
  Forall wf_call (in_calls i) -> q_gone (s_chan s) = true -> step s i = (s', o) ->
  chk_results true (in_calls i) (s_next s) (so_results o) 0 (so_events o) = true
  /\ chk_quiet o = true /\ so_stuck o = false /\ so_exited o = false
  /\ q_gone (s_chan s') = true /\ s_stuck s' = s_stuck s /\ q_items (s_chan s') = q_items (s_chan s)
  /\ s_next s' = s_next s + N.of_nat (length (in_calls i)).
Proof.
  intros W G H. unfold step in H.
  destruct s as [[items gone] d nxt stuck]. simpl in G. subst gone. cbn [s_chan s_next s_d s_stuck] in *.
  destruct (do_calls (mkChan items true) (in_calls i) nxt) as [[q1 rs] o0] eqn:E.
  destruct (do_calls_gone (in_calls i) items nxt q1 rs o0 W E) as (Eq & Osc & Cr). subst q1.
  cbn [q_gone orb] in H. inversion H; subst s' o. clear H.
  cbn [so_results so_events so_goodbyes so_exited so_stuck s_chan s_next s_stuck q_gone q_items].
  repeat split; try reflexivity.
  - apply (Cr []). constructor.
  - unfold chk_quiet. cbn [so_exited so_goodbyes so_events]. simpl.
    apply forallb_forall. intros p Hp. rewrite Forall_forall in Osc.
    destruct (Osc p Hp) as [_ [-> | ->]]; reflexivity.
Qed.

(* d is the checker's tracked daemon state; it has to be the daemon's only while the receiver is
   alive: afterwards the checker no longer looks at it *)
Lemma run_from_chk : forall h s d,
  wf_hist h -> s_stuck s = false -> q_items (s_chan s) = [] ->
  never_stuck (run_from s h) = true ->
  (q_gone (s_chan s) = false -> d = s_d s) ->
  chk_from d (s_next s) (q_gone (s_chan s)) h (run_from s h) = true.
Proof.
  induction h as [|i t IH]; intros s d W St It Ns Hd; [reflexivity|].
  inversion W as [|? ? Wi Wt]; subst.
  cbn [run_from] in *. destruct (step s i) as [s' o] eqn:E.
  cbn [never_stuck forallb] in Ns. apply andb_true_iff in Ns as [Ns1 Ns2].
  apply negb_true_iff in Ns1. cbn [chk_from]. rewrite Ns1. cbn [negb andb].
  destruct (q_gone (s_chan s)) eqn:G.
  - destruct (step_gone s i s' o Wi G E) as (A & B & _ & _ & G' & St' & It' & Nx).
    rewrite A, B. cbn [andb]. rewrite <- Nx.
    assert (X : chk_from d (s_next s') (q_gone (s_chan s')) t (run_from s' t) = true).
    { apply IH; [exact Wt|congruence|congruence|exact Ns2|]. intros X. congruence. }
    rewrite G' in X. exact X.
  - pose proof (step_alive s i s' o Wi St G It E Ns1) as F.
    rewrite (Hd eq_refl). rewrite (saf_results _ _ _ _ F), (saf_resolves _ _ _ _ F), (saf_shutdown _ _ _ _ F).
    cbn [andb]. rewrite <- (saf_next _ _ _ _ F). rewrite (saf_seen _ _ _ _ F).
    assert (X : forall d', (q_gone (s_chan s') = false -> d' = s_d s') ->
                chk_from d' (s_next s') (q_gone (s_chan s')) t (run_from s' t) = true).
    { intros d' Hd'. apply IH; [exact Wt|exact (saf_stuck _ _ _ _ F)|exact (saf_items _ _ _ _ F)|exact Ns2|exact Hd']. }
    rewrite (saf_gone _ _ _ _ F) in X. apply X.
    intros Ex. symmetry. apply (saf_d _ _ _ _ F). exact Ex.
Qed.

Theorem model_passes_monitor h : wf_hist h -> never_stuck (run h) = true -> chk_C14 h (run h) = true.
Proof.
  intros W N. unfold chk_C14, run in *.
  apply (run_from_chk h sys_init d_init W eq_refl eq_refl N). intros _. reflexivity.
Qed.

Definition fails_after_shutdown (cs : list call) (rs : list cres) : Prop :=
  Forall2 (fun c r => r = RMsg \/ r = RShutdown \/ (is_status c = true /\ r = ROk)) cs rs.

Lemma chk_results_seen : forall cs base rs q evs,
  chk_results true cs base rs q evs = true -> fails_after_shutdown cs rs.
Proof.
  induction cs as [|c t IH]; intros base rs q evs H; destruct rs as [|r rt]; simpl in H; try discriminate.
  - constructor.
  - destruct (prepare c base) as [k| | |]; try discriminate.
    + apply andb_true_iff in H as [H1 H2]. constructor; [|eapply IH; exact H2].
      destruct (is_status c) eqn:S.
      * apply andb_true_iff in H1 as [H1 _]. apply cres_eqb_eq in H1. right. right. auto.
      * apply cres_eqb_eq in H1. right. left. exact H1.
    + apply andb_true_iff in H as [H1 H2]. apply cres_eqb_eq in H1.
      constructor; [left; exact H1|eapply IH; exact H2].
Qed.

Definition quiet_step (i : stepin) (o : sobs) : Prop :=
  fails_after_shutdown (in_calls i) (so_results o) /\ chk_quiet o = true.

Lemma chk_from_seen : forall h tr d b, chk_from d b true h tr = true -> Forall2 quiet_step h tr.
Proof.
  induction h as [|i t IH]; intros tr d b H; destruct tr as [|o tr1]; simpl in H; try discriminate.
  - constructor.
  - apply andb_true_iff in H as [H H3]. apply andb_true_iff in H as [_ H1].
    apply andb_true_iff in H3 as [H2 H3].
    constructor; [split; [eapply chk_results_seen; exact H1|exact H2]|eapply IH; exact H3].
Qed.

Lemma chk_from_after : forall h tr d b seen k o,
  chk_from d b seen h tr = true -> nth_error tr k = Some o -> shutdown_seen o = true ->
  Forall2 quiet_step (skipn (S k) h) (skipn (S k) tr).
Proof.
  induction h as [|i t IH]; intros tr d b seen k o H Hk Hs; destruct tr as [|o1 tr1]; simpl in H; try discriminate.
  - destruct k; discriminate.
  - apply andb_true_iff in H as [_ H3].
    (* the rest of the trace is checked with seen = true, or with seen = shutdown_seen o1 *)
    assert (T : exists d' b', chk_from d' b' (seen || shutdown_seen o1) t tr1 = true).
    { destruct seen; apply andb_true_iff in H3 as [_ H3]; eauto. }
    destruct T as (d' & b' & T). destruct k as [|k]; simpl in Hk; simpl skipn.
    + inversion Hk; subst o1. rewrite Hs, orb_true_r in T. eapply chk_from_seen. exact T.
    + eapply IH; eassumption.
Qed.

Lemma do_call_flag q c ch : q_gone (fst (fst (do_call q c ch))) = q_gone q.
Proof.
  assert (T : forall k, q_gone (fst (try_send q k)) = q_gone q).
  { intros k. unfold try_send. destruct (q_gone q) eqn:G; [exact G|].
    destruct (cmd_queue_bound <=? _); simpl; [exact G|reflexivity]. }
  unfold do_call. destruct (prepare c ch) as [k| | |]; try reflexivity.
  specialize (T k). destruct c; try (destruct (try_send q k); exact T).
  destruct (q_gone q) eqn:G; [exact G|]. destruct (try_send q k). simpl in *. congruence.
Qed.

Lemma do_calls_flag : forall cs q base, q_gone (fst (fst (do_calls q cs base))) = q_gone q.
Proof.
  induction cs as [|c t IH]; intros q base; [reflexivity|].
  cbn [do_calls]. pose proof (do_call_flag q c base) as F.
  destruct (do_call q c base) as [[q1 r] o]. simpl in F.
  specialize (IH q1 (base + 1)). destruct (do_calls q1 t (base + 1)) as [[q2 rs] os]. simpl in *. congruence.
Qed.

Lemma step_exit_flag s i : so_exited (snd (step s i)) = true -> q_gone (s_chan (fst (step s i))) = true.
Proof.
  unfold step. destruct (do_calls (s_chan s) (in_calls i) (s_next s)) as [[q1 rs] o0].
  destruct (q_gone q1 || s_stuck s); simpl; [discriminate|]. intros H. exact H.
Qed.

Lemma step_gone_flag s i : q_gone (s_chan s) = true ->
  q_gone (s_chan (fst (step s i))) = true /\ so_exited (snd (step s i)) = false.
Proof.
  intros G. unfold step. pose proof (do_calls_flag (in_calls i) (s_chan s) (s_next s)) as F.
  destruct (do_calls (s_chan s) (in_calls i) (s_next s)) as [[q1 rs] o0]. simpl in F.
  rewrite G in F. rewrite F. simpl. split; [exact F|reflexivity].
Qed.

Lemma gone_never_exits : forall h s, q_gone (s_chan s) = true -> filter so_exited (run_from s h) = [].
Proof.
  induction h as [|i t IH]; intros s G; [reflexivity|].
  cbn [run_from]. destruct (step_gone_flag s i G) as [G' E]. destruct (step s i) as [s' o]. simpl in *.
  rewrite E. apply IH. exact G'.
Qed.

Lemma exits_at_most_once_from : forall h s, (length (filter so_exited (run_from s h)) <= 1)%nat.
Proof.
  induction h as [|i t IH]; intros s; [simpl; lia|].
  cbn [run_from]. pose proof (step_exit_flag s i) as F. destruct (step s i) as [s' o]. simpl in *.
  destruct (so_exited o) eqn:E.
  - rewrite (gone_never_exits t s' (F eq_refl)). simpl. lia.
  - apply IH.
Qed.

(* exactly once: one entry per registered service, per browsed type, per resolved host *)
Definition dinv (d : dstate) : Prop :=
  NoDup (d_services d) /\ NoDup (map fst (d_queriers d)) /\ NoDup (map fst (d_resolvers d)).

Lemma sinsert_NoDup k l : NoDup l -> NoDup (sinsert k l).
Proof.
  intros H. unfold sinsert, sremove. apply NoDup_snoc; [apply NoDup_filter; exact H|].
  intros X. apply filter_In in X as [_ X]. rewrite beq_refl in X. discriminate.
Qed.

Lemma map_fst_aremove k l : map fst (aremove k l) = filter (fun e => negb (beq k e)) (map fst l).
Proof.
  unfold aremove. induction l as [|[a b] l IH]; [reflexivity|]. simpl.
  destruct (negb (beq k a)); simpl; rewrite IH; reflexivity.
Qed.

Lemma aremove_NoDup k l : NoDup (map fst l) -> NoDup (map fst (aremove k l)).
Proof. intros H. rewrite map_fst_aremove. apply NoDup_filter. exact H. Qed.

Lemma ainsert_NoDup k v l : NoDup (map fst l) -> NoDup (map fst (ainsert k v l)).
Proof.
  intros H. unfold ainsert. rewrite map_app. simpl. apply NoDup_snoc; [apply aremove_NoDup; exact H|].
  rewrite map_fst_aremove. intros X. apply filter_In in X as [_ X]. rewrite beq_refl in X. discriminate.
Qed.

Lemma exec_dinv d c : dinv d -> dinv (fst (exec d c)).
Proof.
  intros (A & B & C). destruct c as [ty cache_only ch0|ty|host ch0|host|tyd full|fullname ch0|ch0|ch0|ch0|ch0|n| ]; simpl; try (repeat split; assumption).
  - repeat split; try assumption. apply ainsert_NoDup. exact B.
  - destruct (alookup ty (d_queriers d)); simpl; repeat split; try assumption. apply aremove_NoDup. exact B.
  - repeat split; try assumption. apply ainsert_NoDup. exact C.
  - destruct (alookup (lower host) (d_resolvers d)); simpl; repeat split; try assumption. apply aremove_NoDup. exact C.
  - destruct (check_service_name_length _ _); simpl; repeat split; try assumption. apply sinsert_NoDup. exact A.
  - destruct (mem fullname (d_services d)); simpl; repeat split; try assumption.
    unfold sremove. apply NoDup_filter. exact A.
Qed.

Lemma exec_seq_dinv q d : dinv d -> dinv (fst (exec_seq d q)).
Proof. apply exec_seq_inv. exact exec_dinv. Qed.

Lemma arrive_dinv : forall a d, dinv d -> dinv (fst (arrive d a)).
Proof.
  induction a as [|[ty n] t IH]; intros d H; [exact H|].
  cbn [arrive]. destruct (alookup ty (d_queriers d)); [|apply IH; exact H].
  specialize (IH (set_found d (ainsert ty (found_count ty d + n) (d_found d)))).
  destruct (arrive _ t) as [d2 o]. apply IH. exact H.
Qed.

Lemma drain_dinv : forall q d c, dinv d -> dinv (it_d (drain d c q)).
Proof.
  induction q as [|k rest IH]; intros d c H; [exact H|].
  destruct (is_exit k) eqn:K.
  - apply is_exit_true in K as [x ->]. simpl.
    destruct (deliver c (shutdown_outputs d x rest)) as [[o c1] b]. destruct b; exact H.
  - rewrite drain_cons by exact K. pose proof (exec_dinv d k H) as H1.
    destruct (exec d k) as [d1 o1]. simpl in H1. destruct (deliver c o1) as [[o c1] b].
    destruct b; [exact H1|]. simpl. apply IH. exact H1.
Qed.

Lemma step_dinv s i : dinv (s_d s) -> dinv (s_d (fst (step s i))).
Proof.
  intros H. unfold step. destruct (do_calls (s_chan s) (in_calls i) (s_next s)) as [[q1 rs] o0].
  destruct (q_gone q1 || s_stuck s); simpl; [exact H|].
  unfold iterate. pose proof (arrive_dinv (in_found i) _ (H : dinv (mark (s_d s) (in_announced i)))) as H0.
  destruct (arrive (mark (s_d s) (in_announced i)) (in_found i)) as [d0 oa]. simpl in H0.
  destruct (deliver [] oa) as [[o c] b]. destruct b; [exact H0|]. simpl. apply drain_dinv. exact H0.
Qed.

Lemma state_after_dinv : forall h s, dinv (s_d s) -> dinv (s_d (state_after s h)).
Proof.
  unfold state_after. induction h as [|i t IH]; intros s H; [exact H|].
  simpl. apply IH. apply step_dinv. exact H.
Qed.

Lemma prepare_chan c ch k :
  prepare c ch = Ok k -> call_has_chan c = true ->
  cmd_chan k = Some ch /\ (c <> CMonitor -> forall x, k <> QMonitor x).
Proof.
  intros P H. destruct c; simpl in H; try discriminate; simpl in P; try apply bind_ok_unit in P as [_ P].
  (* every call with a channel puts it into its command; only monitor() makes a QMonitor *)
  all: injection P as <-; (split; [reflexivity|]); intros N x; try discriminate.
  exfalso. apply N. reflexivity.
Qed.

Lemma resolves_in q exited evs k ch :
  chk_resolves q exited evs = true -> In k q -> cmd_chan k = Some ch -> (forall x, k <> QMonitor x) ->
  evs_of ch evs <> [].
Proof.
  intros H Hk Hc Hm. unfold chk_resolves in H. rewrite forallb_forall in H. specialize (H k Hk).
  destruct k; simpl in Hc; try discriminate; inversion Hc; subst; simpl in H;
    try (intros E; rewrite E in H; discriminate).
  exfalso. exact (Hm ch eq_refl).
Qed.

Lemma resolves_at : forall cs base rs q evs seen exited j c,
  chk_results seen cs base rs q evs = true ->
  (seen = false -> chk_resolves (accepted cs base rs) exited evs = true) ->
  nth_error cs j = Some c -> nth_error rs j = Some ROk -> call_has_chan c = true -> c <> CMonitor ->
  evs_of (base + N.of_nat j) evs <> [].
Proof.
  induction cs as [|c0 t IH]; intros base rs q evs seen exited j c H R Hc Hr HC NM; [destruct j; discriminate|].
  destruct rs as [|r0 rt]; [destruct j; discriminate|]. cbn [chk_results accepted] in H, R.
  destruct j as [|j]; simpl in Hc, Hr.
  - injection Hc as ->. injection Hr as ->. rewrite N.add_0_r.
    destruct (prepare c base) as [k| | |] eqn:P; try discriminate.
    destruct seen.
    + apply andb_true_iff in H as [H _]. destruct (is_status c); [|discriminate].
      apply andb_true_iff in H as [_ H]. intros E. rewrite E in H. discriminate.
    + destruct (prepare_chan c base k P HC) as [Ck Mk].
      eapply resolves_in; [exact (R eq_refl)|left; reflexivity|exact Ck|exact (Mk NM)].
  - replace (base + N.of_nat (S j)) with (base + 1 + N.of_nat j) by lia.
    assert (R' : seen = false -> chk_resolves (accepted t (base + 1) rt) exited evs = true).
    { intros S. specialize (R S). destruct r0; try exact R. destruct (prepare c0 base); try exact R.
      unfold chk_resolves in R. cbn [forallb] in R. apply andb_true_iff in R as [_ R]. exact R. }
    destruct (prepare c0 base); try discriminate.
    + destruct seen; [|destruct (cmd_queue_bound <=? q)]; apply andb_true_iff in H as [_ H];
        eapply IH; eassumption.
    + apply andb_true_iff in H as [_ H]. eapply IH; eassumption.
Qed.

Theorem every_call_resolves s i :
  Forall wf_call (in_calls i) -> s_stuck s = false -> q_items (s_chan s) = [] ->
  so_stuck (snd (step s i)) = false ->
  forall j c r, nth_error (in_calls i) j = Some c -> nth_error (so_results (snd (step s i))) j = Some r ->
    r <> ROk \/ call_has_chan c = false \/ c = CMonitor
    \/ evs_of (s_next s + N.of_nat j) (so_events (snd (step s i))) <> [].
Proof.
  intros W St It Hs j c r Hc Hr.
  destruct (step s i) as [s' o] eqn:E. cbn [snd] in *.
  destruct r; try (left; discriminate).
  destruct (call_has_chan c) eqn:HC; [|right; left; reflexivity].
  assert (D : c = CMonitor \/ c <> CMonitor) by (destruct c; (left; reflexivity) || (right; discriminate)).
  destruct D as [D|D]; [right; right; left; exact D|]. right. right. right.
  destruct (q_gone (s_chan s)) eqn:G.
  - destruct (step_gone s i s' o W G E) as (A & _).
    eapply (resolves_at _ _ _ _ _ true false); [exact A|discriminate|eassumption..].
  - pose proof (step_alive s i s' o W St G It E Hs) as F.
    eapply (resolves_at _ _ _ _ _ false); [exact (saf_results _ _ _ _ F _)|intros _; exact (saf_resolves _ _ _ _ F)|eassumption..].
Qed.

Theorem reachable_queue_empty : forall h s,
  wf_hist h -> s_stuck s = false -> q_items (s_chan s) = [] -> never_stuck (run_from s h) = true ->
  s_stuck (state_after s h) = false /\ q_items (s_chan (state_after s h)) = [].
Proof.
  induction h as [|i t IH]; intros s W St It N; [split; assumption|].
  inversion W as [|? ? Wi Wt]; subst. cbn [run_from] in N. unfold state_after. simpl.
  destruct (step s i) as [s' o] eqn:E. simpl.
  cbn [never_stuck forallb] in N. apply andb_true_iff in N as [N1 N2]. apply negb_true_iff in N1.
  destruct (q_gone (s_chan s)) eqn:G.
  - destruct (step_gone s i s' o Wi G E) as (_ & _ & _ & _ & _ & St' & It' & _).
    apply (IH s'); try assumption; congruence.
  - pose proof (step_alive s i s' o Wi St G It E N1) as F.
    apply (IH s'); try assumption; [exact (saf_stuck _ _ _ _ F)|exact (saf_items _ _ _ _ F)].
Qed.
