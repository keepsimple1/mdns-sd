(* C15: lemmas about the validators and renaming functions of Model/SafetyNames.v.

   The regenerated guards (Gen/ParamsSafety.v) are pinned to the literal numbers here.
   Panic-freedom rests on one invariant: valid UTF-8 has no continuation byte directly after an
   ASCII byte (`nca`), which is what makes `&s[i+1..]` safe after an ASCII character was found
   at i; substrings inherit it.  `wfs` says the same of text that follows an ASCII byte (a full
   name put together from escaped instance, dot and type).
   Encodability rests on the encoder's own label split (WireOut.pen; more about it in
   EscapeProofs.v): a label is never empty, so a name that passes the fit test has labels of
   1..63 bytes and write_name cannot panic.  Bounds on labels come from one lemma about the
   scanner over text that does not end inside an escape (`esc_closed`, `pen_esc_closed`): it
   serves the names read from the wire (`present`) and the renamed names.  A renamed name
   (`renamed_of`, built by `label_with_suffix_spec`) keeps `wfs` and the fit, hence any number of
   renames does. *)
From Coq Require Import List NArith Bool Lia PeanoNat.
From Mdns Require Import Res Bytes Utf8 WireOut ParamsSafety SafetyNames ListFacts EscapeProofs.
Import ListNotations.
Open Scope N_scope.

Lemma domain_len_pinned : DOMAIN_LEN = 12.
Proof. reflexivity. Qed.
Lemma svc_type_too_short_pinned n : svc_type_too_short n DOMAIN_LEN = (n <=? 13).
Proof. reflexivity. Qed.
Lemma svc_name_len_pinned n : svc_name_len n DOMAIN_LEN = n - 12 - 1.
Proof. reflexivity. Qed.
Lemma svc_name_too_long_pinned n l : svc_name_too_long n l = (l <? n).
Proof. reflexivity. Qed.
Lemma hostname_too_long_pinned n : hostname_too_long n = (255 <? n).
Proof. reflexivity. Qed.
Lemma label_fits_pinned n : label_fits n = (n <? 64).
Proof. reflexivity. Qed.
Lemma write_utf8_assert_pinned n : write_utf8_assert n = (n <? 64).
Proof. reflexivity. Qed.
Lemma len_max_refused_pinned n : len_max_refused n = (30 <? n).
Proof. reflexivity. Qed.
Lemma service_name_len_max_default_pinned : service_name_len_max_default = 15.
Proof. reflexivity. Qed.
Lemma instance_min_parts_pinned : instance_min_parts = 5.
Proof. reflexivity. Qed.
Lemma cmd_queue_bound_pinned : cmd_queue_bound = 100.
Proof. reflexivity. Qed.
Lemma listener_bounds_pinned : browse_listener_bound = 10 /\ resolver_listener_bound = 10.
Proof. split; reflexivity. Qed.

(* byte strings the statements of Props/C15.v use *)
Definition x_tcp : bytes := [95;120;46;95;116;99;112;46;108;111;99;97;108;46].   (* _x._tcp.local. *)
Definition h_local : bytes := [104;46;108;111;99;97;108;46].                      (* h.local. *)
Definition rep (b : N) (n : nat) : bytes := repeat b n.

Lemma prefixb_spec p : forall s, prefixb p s = true <-> exists t, s = p ++ t.
Proof.
  induction p as [|x p IH]; intros s; simpl.
  - split; [intros _; exists s; reflexivity | reflexivity].
  - destruct s as [|y s].
    + split; [discriminate | intros [t H]; discriminate].
    + rewrite andb_true_iff, N.eqb_eq, IH. split.
      * intros [-> [t ->]]. exists t. reflexivity.
      * intros [t H]. inversion H; subst. split; [reflexivity | exists t; reflexivity].
Qed.

Lemma ends_with_spec s suf : ends_with s suf = true <-> exists a, s = a ++ suf.
Proof.
  unfold ends_with. rewrite prefixb_spec. split.
  - intros [t H]. exists (rev t).
    apply (f_equal (@rev N)) in H. rewrite rev_involutive, rev_app_distr, rev_involutive in H.
    exact H.
  - intros [a ->]. exists (rev a). apply rev_app_distr.
Qed.

Lemma nth_error_app_r {A} (a b : list A) k : nth_error (a ++ b) (length a + k) = nth_error b k.
Proof. rewrite nth_error_app2 by lia. f_equal. lia. Qed.

Lemma boundary_0 s : is_char_boundary s 0 = true.
Proof. reflexivity. Qed.

Lemma boundary_len s : is_char_boundary s (length s) = true.
Proof.
  unfold is_char_boundary. destruct (length s) eqn:E; [reflexivity|].
  rewrite <- E.
  assert (H : nth_error s (length s) = None) by (apply nth_error_None; lia).
  rewrite H. apply Nat.eqb_refl.
Qed.

Lemma boundary_at_noncont s i b :
  nth_error s i = Some b -> cont b = false -> is_char_boundary s i = true.
Proof.
  intros H Hc. unfold is_char_boundary. destruct i; [reflexivity|]. rewrite H, Hc. reflexivity.
Qed.

Lemma slice_ok s a b :
  (a <= b)%nat -> (b <= length s)%nat ->
  is_char_boundary s a = true -> is_char_boundary s b = true ->
  slice s a b = Ok (firstn (b - a) (skipn a s)).
Proof.
  intros H1 H2 H3 H4. unfold slice.
  apply Nat.leb_le in H1. apply Nat.leb_le in H2. rewrite H1, H2, H3, H4. reflexivity.
Qed.

(* &s[..e] and &s[i..] *)
Lemma slice_to s e :
  (e <= length s)%nat -> is_char_boundary s e = true -> slice s 0 e = Ok (firstn e s).
Proof. intros L B. rewrite slice_ok; [rewrite Nat.sub_0_r; reflexivity|lia|exact L|reflexivity|exact B]. Qed.

Lemma slice_from s i :
  (i <= length s)%nat -> is_char_boundary s i = true -> slice s i (length s) = Ok (skipn i s).
Proof.
  intros L B. rewrite slice_ok; [|exact L|lia|exact B|apply boundary_len].
  rewrite firstn_all2; [reflexivity|rewrite skipn_length; lia].
Qed.

Lemma boundary_app a b t : cont b = false -> is_char_boundary (a ++ b :: t) (length a) = true.
Proof.
  intros C. apply (boundary_at_noncont _ _ b); [|exact C].
  rewrite <- (Nat.add_0_r (length a)), nth_error_app_r. reflexivity.
Qed.

Lemma slice_app_l m b :
  is_char_boundary (m ++ b) (length m) = true -> slice (m ++ b) 0 (length m) = Ok m.
Proof.
  intros B. rewrite slice_to; [|rewrite app_length; lia|exact B].
  rewrite firstn_exact. reflexivity.
Qed.

Lemma slice_app_r a m :
  is_char_boundary (a ++ m) (length a) = true -> slice (a ++ m) (length a) (length (a ++ m)) = Ok m.
Proof.
  intros B. rewrite slice_from; [|rewrite app_length; lia|exact B].
  rewrite skipn_exact. reflexivity.
Qed.

Lemma ascii_not_cont b : b < 128 -> cont b = false.
Proof.
  intros H. unfold cont, in_range. apply andb_false_iff. left. apply N.leb_gt. lia.
Qed.

Lemma find_sub_some p : forall s i, find_sub p s = Some i -> prefixb p (skipn i s) = true.
Proof.
  induction s as [|x s IH]; intros i H; simpl in H.
  - destruct (prefixb p []) eqn:E; [|discriminate]. inversion H; subst. exact E.
  - destruct (prefixb p (x :: s)) eqn:E.
    + inversion H; subst. exact E.
    + destruct (find_sub p s) as [j|] eqn:F; [|discriminate].
      inversion H; subst. simpl. apply IH. reflexivity.
Qed.

Lemma rfind_sub_some p : forall s i, rfind_sub p s = Some i -> prefixb p (skipn i s) = true.
Proof.
  induction s as [|x s IH]; intros i H; simpl in H.
  - destruct (prefixb p []) eqn:E; [|discriminate]. inversion H; subst. exact E.
  - destruct (rfind_sub p s) as [j|] eqn:F.
    + inversion H; subst. simpl. apply IH. reflexivity.
    + destruct (prefixb p (x :: s)) eqn:E; [|discriminate]. inversion H; subst. exact E.
Qed.

Lemma prefixb_skipn_nth p s i k b :
  prefixb p (skipn i s) = true -> nth_error p k = Some b -> nth_error s (i + k) = Some b.
Proof.
  intros H Hk. apply prefixb_spec in H as [t H].
  rewrite <- (firstn_skipn i s) at 1.
  assert (Hi : (i <= length s)%nat).
  { destruct (Nat.le_gt_cases i (length s)) as [L|L]; [exact L|].
    rewrite skipn_all2 in H by lia. destruct p; [destruct k; discriminate|discriminate]. }
  replace (i + k)%nat with (length (firstn i s) + k)%nat by (rewrite firstn_length; lia).
  rewrite nth_error_app_r, H.
  rewrite nth_error_app1; [exact Hk|]. apply nth_error_Some. congruence.
Qed.

Lemma found_at p s i k b :
  prefixb p (skipn i s) = true -> nth_error p k = Some b -> cont b = false ->
  nth_error s (i + k) = Some b /\ (i + k < length s)%nat /\ is_char_boundary s (i + k) = true.
Proof.
  intros H Hk C. pose proof (prefixb_skipn_nth p s i k b H Hk) as E.
  split; [exact E|]. split; [apply nth_error_Some; congruence|exact (boundary_at_noncont _ _ _ E C)].
Qed.

Lemma split_on_nonempty c s : split_on c s <> [].
Proof.
  destruct s as [|x s]; simpl; [discriminate|].
  destruct (x =? c); [discriminate|]. destruct (split_on c s); discriminate.
Qed.

Lemma split_on_head c : forall s h r, split_on c s = h :: r -> exists b, s = h ++ b.
Proof.
  induction s as [|y s IH]; intros h r E; simpl in E.
  - inversion E; subst. exists []. reflexivity.
  - destruct (y =? c).
    + inversion E; subst. exists (y :: s). reflexivity.
    + destruct (split_on c s) as [|h' r'] eqn:E'; [exfalso; exact (split_on_nonempty c s E')|].
      injection E as Eh Er. subst h r. destruct (IH h' r' eq_refl) as [b ->]. exists b. reflexivity.
Qed.

Lemma split_on_substr c : forall s p, In p (split_on c s) -> exists a b, s = a ++ p ++ b.
Proof.
  induction s as [|x s IH]; intros p H; simpl in H.
  - destruct H as [<-|[]]. exists [], []. reflexivity.
  - destruct (x =? c).
    + destruct H as [<-|H].
      * exists [], (x :: s). reflexivity.
      * destruct (IH p H) as (a & b & ->). exists (x :: a), b. reflexivity.
    + destruct (split_on c s) as [|h r] eqn:E; [exfalso; exact (split_on_nonempty c s E)|].
      destruct H as [<-|H].
      * destruct (split_on_head c s h r E) as [b ->]. exists [], b. reflexivity.
      * destruct (IH p (or_intror H)) as (a & b & ->). exists (x :: a), b. reflexivity.
Qed.

(* nca = No Continuation byte directly after an Ascii byte *)
Fixpoint nca (s : bytes) : bool :=
  match s with
  | [] => true
  | a :: t =>
    match t with
    | b :: _ => negb (a <? 128) || negb (cont b)
    | [] => true
    end && nca t
  end.

Lemma cont_ge b : cont b = true -> 128 <= b.
Proof. unfold cont, in_range. intros H. apply andb_true_iff in H as [H _]. apply N.leb_le in H. exact H. Qed.

Lemma in_range_spec lo hi b : in_range lo hi b = true -> lo <= b /\ b <= hi.
Proof. unfold in_range. intros H. apply andb_true_iff in H as [H1 H2]. apply N.leb_le in H1, H2. lia. Qed.

Lemma nca_cons_hi a t : 128 <= a -> nca (a :: t) = nca t.
Proof.
  intros H. simpl. destruct t as [|b t']; [reflexivity|].
  replace (a <? 128) with false by (symmetry; apply N.ltb_ge; exact H). reflexivity.
Qed.

Lemma in_range_hi lo hi b : 128 <= lo -> in_range lo hi b = true -> 128 <= b.
Proof. intros H I. apply in_range_spec in I. lia. Qed.

Lemma hi_not_cont b : 191 < b -> cont b = false.
Proof. intros H. unfold cont, in_range. apply andb_false_iff. right. apply N.leb_gt. exact H. Qed.

(* A valid string one character at a time: a first byte that is not a continuation byte, the
   rest c of the character (bytes >= 128; none after an ASCII byte), then a valid string. *)
Lemma utf8_valid_ind (P : bytes -> Prop) :
  P [] ->
  (forall b c r, cont b = false -> Forall (fun x => 128 <= x) c -> (b < 128 -> c = []) ->
     utf8_valid r = true -> P r -> P (b :: c ++ r)) ->
  forall s, utf8_valid s = true -> P s.
Proof.
  intros P0 Pc.
  enough (G : forall n s, (length s <= n)%nat -> utf8_valid s = true -> P s)
    by (intros s; apply (G (length s)); lia).
  induction n as [|n IH]; intros s Hl Hv; (destruct s as [|b0 t]; [exact P0|]); simpl in Hl; [lia|].
  simpl in Hv.
  assert (K : forall c r, cont b0 = false -> t = c ++ r -> Forall (fun x => 128 <= x) c ->
                (b0 < 128 -> c = []) -> utf8_valid r = true -> P (b0 :: t)).
  { intros c r C0 -> Fc Ha Vr. apply Pc; try assumption. apply IH; [|exact Vr]. rewrite app_length in Hl. lia. }
  destruct (b0 <? 128) eqn:E1.
  { apply (K [] t); auto. apply ascii_not_cont, N.ltb_lt, E1. }
  apply N.ltb_ge in E1.
  assert (HI : forall c : bytes, b0 < 128 -> c = []) by (intros c X; exfalso; lia).
  (* the shapes of a three- and a four-byte character; cont is in_range 128 191 *)
  assert (THREE : forall lo hi, 191 < b0 -> 128 <= lo ->
            match t with b1 :: b2 :: t2 => in_range lo hi b1 && cont b2 && utf8_valid t2 | _ => false end = true ->
            P (b0 :: t)).
  { intros lo hi B L H. destruct t as [|b1 [|b2 t2]]; try discriminate.
    apply andb_true_iff in H as [H V]. apply andb_true_iff in H as [C1 C2].
    apply (K [b1; b2] t2 (hi_not_cont b0 B) eq_refl); [|apply HI|exact V].
    constructor; [exact (in_range_hi _ _ _ L C1)|]. constructor; [exact (cont_ge b2 C2)|constructor]. }
  assert (FOUR : forall lo hi, 191 < b0 -> 128 <= lo ->
            match t with b1 :: b2 :: b3 :: t3 => in_range lo hi b1 && cont b2 && cont b3 && utf8_valid t3
                       | _ => false end = true ->
            P (b0 :: t)).
  { intros lo hi B L H. destruct t as [|b1 [|b2 [|b3 t3]]]; try discriminate.
    apply andb_true_iff in H as [H V]. apply andb_true_iff in H as [H C3]. apply andb_true_iff in H as [C1 C2].
    apply (K [b1; b2; b3] t3 (hi_not_cont b0 B) eq_refl); [|apply HI|exact V].
    constructor; [exact (in_range_hi _ _ _ L C1)|]. constructor; [exact (cont_ge b2 C2)|].
    constructor; [exact (cont_ge b3 C3)|constructor]. }
  destruct (in_range 194 223 b0) eqn:R1.
  { apply in_range_spec in R1. destruct t as [|b1 t1]; [discriminate|]. apply andb_true_iff in Hv as [C1 V].
    apply (K [b1] t1 (hi_not_cont b0 ltac:(lia)) eq_refl); [|apply HI|exact V].
    constructor; [exact (cont_ge b1 C1)|constructor]. }
  destruct (b0 =? 224) eqn:R2; [apply N.eqb_eq in R2; apply (THREE 160 191); [lia|lia|exact Hv]|].
  destruct (in_range 225 236 b0 || in_range 238 239 b0) eqn:R3.
  { apply (THREE 128 191); [|lia|exact Hv]. apply orb_true_iff in R3 as [R|R]; apply in_range_spec in R; lia. }
  destruct (b0 =? 237) eqn:R4; [apply N.eqb_eq in R4; apply (THREE 128 159); [lia|lia|exact Hv]|].
  destruct (b0 =? 240) eqn:R5; [apply N.eqb_eq in R5; apply (FOUR 144 191); [lia|lia|exact Hv]|].
  destruct (in_range 241 243 b0) eqn:R6; [apply in_range_spec in R6; apply (FOUR 128 191); [lia|lia|exact Hv]|].
  destruct (b0 =? 244) eqn:R7; [apply N.eqb_eq in R7; apply (FOUR 128 143); [lia|lia|exact Hv]|].
  discriminate.
Qed.

Lemma valid_head_not_cont b t : utf8_valid (b :: t) = true -> cont b = false.
Proof.
  exact (utf8_valid_ind (fun s => match s with [] => True | b :: _ => cont b = false end)
           I (fun b c r C _ _ _ _ => C) (b :: t)).
Qed.

Lemma valid_nca s : utf8_valid s = true -> nca s = true.
Proof.
  apply (utf8_valid_ind (fun s => nca s = true)); [reflexivity|].
  intros b c r _ Fc Ha Vr IHr. destruct (b <? 128) eqn:E.
  - rewrite (Ha (proj1 (N.ltb_lt _ _) E)). cbn [app nca]. rewrite IHr, E, andb_true_r.
    destruct r as [|b1 r1]; [reflexivity|]. rewrite (valid_head_not_cont b1 r1 Vr). reflexivity.
  - rewrite nca_cons_hi by (apply N.ltb_ge; exact E). clear Ha.
    induction Fc as [|x c Hx _ IHc]; [exact IHr|]. cbn [app]. rewrite nca_cons_hi by exact Hx. exact IHc.
Qed.

Lemma nca_app_l a : forall b, nca (a ++ b) = true -> nca a = true.
Proof.
  induction a as [|x a IH]; intros b H; [reflexivity|].
  simpl in H. apply andb_true_iff in H as [H1 H2].
  simpl. rewrite (IH b H2), andb_true_r.
  destruct a as [|y a']; [reflexivity|]. exact H1.
Qed.

Lemma nca_app_r a : forall b, nca (a ++ b) = true -> nca b = true.
Proof.
  induction a as [|x a IH]; intros b H; [exact H|].
  simpl in H. apply andb_true_iff in H as [_ H2]. apply IH. exact H2.
Qed.

Lemma nca_substr s a p b : s = a ++ p ++ b -> nca s = true -> nca p = true.
Proof. intros -> H. apply nca_app_r in H. apply nca_app_l in H. exact H. Qed.

Lemma first_part_nca s first rest :
  utf8_valid s = true -> split_on DOT s = first :: rest -> nca first = true.
Proof.
  intros Hv Hs.
  destruct (split_on_substr DOT s first) as (a & b & Ha); [rewrite Hs; left; reflexivity|].
  eapply nca_substr; [exact Ha|apply valid_nca; exact Hv].
Qed.

Lemma nca_boundary_after : forall s i a,
  nca s = true -> nth_error s i = Some a -> a < 128 -> is_char_boundary s (S i) = true.
Proof.
  induction s as [|x s IH]; intros i a Hn Hi Ha; [destruct i; discriminate|].
  simpl in Hn. apply andb_true_iff in Hn as [H1 H2].
  destruct i as [|i].
  - simpl in Hi. inversion Hi; subst x.
    unfold is_char_boundary. simpl. destruct s as [|y s']; [reflexivity|]. simpl.
    replace (a <? 128) with true in H1 by (symmetry; apply N.ltb_lt; exact Ha).
    simpl in H1. exact H1.
  - simpl in Hi. specialize (IH i a H2 Hi Ha).
    unfold is_char_boundary in *. simpl. exact IH.
Qed.

Lemma check_domain_suffix_total s : safe (check_domain_suffix s).
Proof. unfold check_domain_suffix. destruct (_ || _); split; discriminate. Qed.

Lemma check_domain_suffix_ok s :
  check_domain_suffix s = Ok tt -> exists a suf, s = a ++ DOT :: suf /\ length suf = 11%nat.
Proof.
  unfold check_domain_suffix. destruct (ends_with s tcp_suffix) eqn:E1.
  - intros _. apply ends_with_spec in E1 as [a ->]. exists a, (tl tcp_suffix). split; reflexivity.
  - destruct (ends_with s udp_suffix) eqn:E2; [|discriminate].
    intros _. apply ends_with_spec in E2 as [a ->]. exists a, (tl udp_suffix). split; reflexivity.
Qed.

Lemma last_map_some {A} (l : list A) : l <> [] -> exists x, last (map Some l) None = Some x /\ In x l.
Proof.
  induction l as [|x l IH]; [congruence|]. intros _.
  destruct l as [|y l'].
  - exists x. split; [reflexivity|left; reflexivity].
  - destruct IH as (z & Hz & Hin); [discriminate|].
    exists z. split; [exact Hz|right; exact Hin].
Qed.

Lemma ex_ok_total {A} (r : res A) (P : A -> Prop) : (exists a, r = Ok a /\ P a) -> safe r.
Proof. intros (a & -> & _). apply safe_ok. Qed.

Lemma service_label_slice_safe name :
  nca name = true -> first_is USC name = true -> exists r, slice name 1 (length name) = Ok r.
Proof.
  intros Hn F. destruct name as [|x rest]; [discriminate|].
  simpl in F. apply N.eqb_eq in F. subst x.
  rewrite slice_from; [eauto|simpl; lia|].
  eapply nca_boundary_after; [exact Hn|reflexivity|unfold USC; lia].
Qed.

Lemma check_service_name_total_nca s : nca s = true -> safe (check_service_name s).
Proof.
  intros Hv. unfold check_service_name.
  destruct (check_domain_suffix s) as [[]| | |] eqn:E; simpl; try apply safe_err.
  2:{ exfalso. apply (proj1 (check_domain_suffix_total s)). exact E. }
  2:{ exfalso. apply (proj2 (check_domain_suffix_total s)). exact E. }
  apply check_domain_suffix_ok in E as (a & suf & -> & Hl).
  assert (Hlen : length (a ++ DOT :: suf) = (length a + 12)%nat) by (rewrite app_length; simpl; lia).
  replace (blen (a ++ DOT :: suf) <? DOMAIN_LEN) with false
    by (symmetry; apply N.ltb_ge; unfold blen; rewrite Hlen, domain_len_pinned; lia).
  replace (length (a ++ DOT :: suf) - Pos.to_nat 12)%nat with (length a)
    by (rewrite Hlen; change (Pos.to_nat 12) with 12%nat; lia).
  rewrite slice_app_l by (apply boundary_app; reflexivity). cbn [bind].
  destruct (last_map_some (split_on DOT a) (split_on_nonempty DOT a)) as (name & -> & Hin).
  destruct (first_is USC name) eqn:F; simpl; [|apply safe_err].
  assert (Hn : nca name = true).
  { destruct (split_on_substr DOT a _ Hin) as (p & q & Ha).
    eapply nca_substr; [exact Ha|]. apply nca_app_l with (b := DOT :: suf). exact Hv. }
  destruct (service_label_slice_safe name Hn F) as [nm ->]. simpl bind.
  destruct (contains_sub _ _); [apply safe_err|].
  destruct (_ || _); [apply safe_err|].
  destruct (existsb _ _); [apply safe_ok|apply safe_err].
Qed.

Lemma check_service_name_length_total s l : safe (check_service_name_length s l).
Proof.
  unfold check_service_name_length. rewrite svc_type_too_short_pinned.
  destruct (blen s <=? 13) eqn:E; [apply safe_err|].
  apply N.leb_gt in E.
  replace (blen s <? DOMAIN_LEN + 1) with false
    by (symmetry; apply N.ltb_ge; rewrite domain_len_pinned; lia).
  destruct (svc_name_too_long _ _); [apply safe_err|apply safe_ok].
Qed.

Lemma check_hostname_total s : safe (check_hostname s).
Proof.
  unfold check_hostname. destruct (negb _); [apply safe_err|].
  destruct (beq _ _); [apply safe_err|]. destruct (hostname_too_long _); [apply safe_err|apply safe_ok].
Qed.

Lemma check_label_lengths_total lc s : safe (check_label_lengths lc s).
Proof. unfold check_label_lengths. destruct (labels_fit s && labels_fit (lc s)); [apply safe_ok|apply safe_err]. Qed.

Lemma normalize_hostname_total s : exists r, normalize_hostname s = Ok r.
Proof.
  unfold normalize_hostname. destruct (ends_with s local_local_suffix) eqn:E; [|eauto].
  apply ends_with_spec in E as [a ->].
  (* ".local." ++ "local.": the cut falls in front of an 'l' *)
  change local_local_suffix with (local_suffix ++ [108;111;99;97;108;46]).
  rewrite app_assoc, app_length. cbn [length].
  replace (length (a ++ local_suffix) + 6 <? 6)%nat with false by (symmetry; apply Nat.ltb_ge; lia).
  replace (length (a ++ local_suffix) + 6 - 6)%nat with (length (a ++ local_suffix)) by lia.
  rewrite slice_app_l by (apply boundary_app; reflexivity). eauto.
Qed.

Lemma si_names_total ty nm host : exists r, si_names ty nm host = Ok r.
Proof.
  unfold si_names. destruct (split_sub_domain ty) as [t sub].
  destruct (normalize_hostname_total host) as [r ->]. simpl. eauto.
Qed.

Lemma api_browse_total lc s : safe (api_browse lc s).
Proof.
  unfold api_browse. apply bind_safe; [apply check_domain_suffix_total|].
  intros _ _. apply check_label_lengths_total.
Qed.

Lemma api_resolve_hostname_total lc s : safe (api_resolve_hostname lc s).
Proof.
  unfold api_resolve_hostname. apply bind_safe; [apply check_hostname_total|].
  intros _ _. apply check_label_lengths_total.
Qed.

(* `wfs s`: s could follow an ASCII character: its first byte is not a continuation byte and
   no continuation byte follows an ASCII byte inside it *)
Definition wfs (s : bytes) : Prop := nca (DOT :: s) = true.

Lemma valid_wfs s : utf8_valid s = true -> wfs s.
Proof.
  intros H. unfold wfs. simpl. rewrite (valid_nca s H), andb_true_r.
  destruct s as [|b t]; [reflexivity|]. rewrite (valid_head_not_cont b t H). reflexivity.
Qed.

Lemma wfs_nca s : wfs s -> nca s = true.
Proof. unfold wfs. simpl. intros H. apply andb_true_iff in H as [_ H]. exact H. Qed.

Lemma wfs_cons_ascii a s : a < 128 -> wfs (a :: s) <-> wfs s.
Proof.
  intros Ha. unfold wfs. simpl.
  replace (a <? 128) with true by (symmetry; apply N.ltb_lt; exact Ha).
  rewrite (ascii_not_cont a Ha). simpl. reflexivity.
Qed.

Lemma nca_app_noncont a : forall b y,
  nca a = true -> nca (y :: b) = true -> cont y = false -> nca (a ++ y :: b) = true.
Proof.
  induction a as [|x a IH]; intros b y Ha Hb Hy; [exact Hb|].
  simpl in Ha. apply andb_true_iff in Ha as [H1 H2].
  change ((x :: a) ++ y :: b) with (x :: (a ++ y :: b)).
  cbn [nca]. rewrite (IH b y H2 Hb Hy), andb_true_r.
  destruct a as [|z a']; simpl app; cbv iota.
  - rewrite Hy. apply orb_true_r.
  - exact H1.
Qed.

Lemma wfs_app a b : wfs a -> wfs b -> wfs (a ++ DOT :: b).
Proof.
  unfold wfs. intros Ha Hb.
  change (DOT :: a ++ DOT :: b) with ((DOT :: a) ++ DOT :: b).
  apply nca_app_noncont; [exact Ha|exact Hb|reflexivity].
Qed.

Lemma nca_head_ascii a a' s : a < 128 -> a' < 128 -> nca (a :: s) = nca (a' :: s).
Proof.
  intros H H'. simpl.
  replace (a <? 128) with true by (symmetry; apply N.ltb_lt; exact H).
  replace (a' <? 128) with true by (symmetry; apply N.ltb_lt; exact H'). reflexivity.
Qed.

Lemma nca_cons2 x y l : nca (x :: y :: l) = (negb (x <? 128) || negb (cont y)) && nca (y :: l).
Proof. reflexivity. Qed.

Lemma nca_escape : forall s x, nca (x :: s) = true -> nca (x :: escape_label s) = true.
Proof.
  induction s as [|a t IH]; intros x H; [exact H|].
  unfold escape_label. cbn [flat_map]. fold (escape_label t).
  rewrite nca_cons2 in H. apply andb_true_iff in H as [H1 H2].
  destruct ((a =? DOT) || (a =? BSL)) eqn:E.
  - assert (Ca : cont a = false).
    { apply orb_true_iff in E as [E|E]; apply N.eqb_eq in E; subst a; reflexivity. }
    change ([BSL; a] ++ escape_label t) with (BSL :: a :: escape_label t).
    rewrite !nca_cons2. rewrite Ca. change (cont BSL) with false.
    rewrite !orb_true_r. simpl andb. apply IH. exact H2.
  - change ([a] ++ escape_label t) with (a :: escape_label t).
    rewrite nca_cons2, H1. simpl andb. apply IH. exact H2.
Qed.

Lemma wfs_escape s : wfs s -> wfs (escape_label s).
Proof. unfold wfs. apply nca_escape. Qed.

Lemma wfs_skipn_after d i a :
  nca d = true -> nth_error d i = Some a -> a < 128 -> wfs (skipn (S i) d).
Proof.
  intros Hn Hi Ha. apply nth_error_split in Hi as (l1 & l2 & -> & <-). apply nca_app_r in Hn.
  replace (skipn (S (length l1)) (l1 ++ a :: l2)) with l2.
  - unfold wfs. rewrite (nca_head_ascii DOT a); [|unfold DOT; lia|exact Ha]. exact Hn.
  - rewrite skipn_app, skipn_all2 by lia.
    replace (S (length l1) - length l1)%nat with 1%nat by lia. reflexivity.
Qed.

Lemma split_sub_domain_wfs ty : utf8_valid ty = true -> wfs (fst (split_sub_domain ty)).
Proof.
  intros Hv. unfold split_sub_domain.
  destruct (rfind_sub sub_marker ty) as [i|] eqn:R; simpl; [|apply valid_wfs; exact Hv].
  apply rfind_sub_some in R.
  assert (P5 : nth_error ty (i + 5) = Some DOT) by (eapply prefixb_skipn_nth; [exact R|reflexivity]).
  change (length sub_marker) with 6%nat. replace (i + 6)%nat with (S (i + 5)) by lia.
  eapply wfs_skipn_after; [apply valid_nca; exact Hv|exact P5|unfold DOT; lia].
Qed.

Lemma api_register_names_total lc full server sub :
  nca full = true -> safe (api_register_names lc full server sub).
Proof.
  intros Hn. unfold api_register_names.
  apply bind_safe; [apply check_service_name_total_nca; exact Hn|]. intros _ _.
  apply bind_safe; [apply check_hostname_total|]. intros _ _.
  apply bind_safe; [apply check_label_lengths_total|]. intros _ _.
  apply bind_safe; [apply check_label_lengths_total|]. intros _ _.
  destruct sub; [apply check_label_lengths_total|apply safe_ok].
Qed.

Lemma si_names_fullname ty nm host tyd sub full server :
  si_names ty nm host = Ok (tyd, sub, full, server) ->
  tyd = fst (split_sub_domain ty) /\ sub = snd (split_sub_domain ty)
  /\ full = escape_label nm ++ DOT :: tyd /\ normalize_hostname host = Ok server.
Proof.
  unfold si_names. destruct (split_sub_domain ty) as [t sb].
  destruct (normalize_hostname host) as [r| | |]; simpl; try discriminate.
  intros H. inversion H; subst. auto.
Qed.

(* the argument checks of register(), as used by the command-queue model (C14) *)
Lemma register_names_safe lc ty nm host tyd sub full server :
  utf8_valid ty = true -> utf8_valid nm = true ->
  si_names ty nm host = Ok (tyd, sub, full, server) ->
  safe (api_register_names lc full server sub).
Proof.
  intros Hty Hnm E. apply si_names_fullname in E as (-> & _ & -> & _).
  apply api_register_names_total. apply wfs_nca.
  apply wfs_app; [apply wfs_escape, valid_wfs; exact Hnm|apply split_sub_domain_wfs; exact Hty].
Qed.

Lemma api_register_total lc ty nm host :
  utf8_valid ty = true -> utf8_valid nm = true -> safe (api_register lc ty nm host).
Proof.
  intros Hty Hnm. unfold api_register.
  destruct (si_names_total ty nm host) as [[[[tyd sub] full] server] E]. rewrite E. cbn [bind].
  exact (register_names_safe lc ty nm host tyd sub full server Hty Hnm E).
Qed.

(* pen skips two bytes at an escape: induction with the tail and the tail's tail at hand *)
Lemma list_ind_skip {A} (P : list A -> Prop) :
  P [] -> (forall c t, P t -> P (tl t) -> P (c :: t)) -> forall l, P l.
Proof.
  intros H0 H2 l. enough (P l /\ P (tl l)) by tauto.
  induction l as [|a l [IH1 IH2]]; simpl; auto.
Qed.

Lemma push_label_nonempty cur acc :
  Forall (fun l : bytes => l <> []) acc -> Forall (fun l : bytes => l <> []) (push_label cur acc).
Proof. intros Ha. destruct cur; [exact Ha|]. constructor; [discriminate|exact Ha]. Qed.

Lemma pen_nonempty s : forall cur acc,
  Forall (fun l : bytes => l <> []) acc -> Forall (fun l : bytes => l <> []) (pen s cur acc).
Proof.
  induction s as [|c t IH IH'] using list_ind_skip; intros cur acc Ha; cbn [pen].
  { apply Forall_rev, push_label_nonempty, Ha. }
  destruct (c =? BSL).
  - destruct t as [|m t']; [apply IH, Ha|].
    destruct ((m =? DOT) || (m =? BSL)); [apply IH'|apply IH]; exact Ha.
  - destruct (c =? DOT); [apply IH, push_label_nonempty, Ha|apply IH, Ha].
Qed.

Lemma name_labels_nonempty name : Forall (fun l : bytes => l <> []) (name_labels name).
Proof. apply pen_nonempty. constructor. Qed.

Lemma wf_bytesb_Forall l : Forall (fun b => b < 256) l -> wf_bytesb l = true.
Proof.
  intros H. unfold wf_bytesb. apply forallb_forall. intros x Hx.
  apply N.ltb_lt. rewrite Forall_forall in H. apply H. exact Hx.
Qed.

(* write_name's only panic is write_utf8's assertion on a label of 64 bytes or more *)
Lemma write_labels_fit : forall ls t pos,
  Forall (fun l => blen l < 64) ls -> exists r, write_labels t pos ls = Ok r.
Proof.
  induction ls as [|l ls IH]; intros t pos H; [simpl; eauto|].
  inversion H as [|? ? Hl Hr]; subst. cbn [write_labels].
  destruct (lookup (l :: ls) t); [eauto|].
  replace (64 <=? blen l) with false by (symmetry; apply N.leb_gt; exact Hl).
  edestruct IH as [[bs t2] E]; [exact Hr|]. rewrite E. simpl. eauto.
Qed.

(* every label under the encoder's split has 1..63 bytes, and the encoder model cannot panic
   (which follows from the bounds: bounds_enc_ok) *)
Definition enc_ok (name : bytes) : Prop :=
  Forall (fun l => 1 <= blen l /\ blen l <= 63) (name_labels name)
  /\ forall t pos, exists r, write_name t pos name = Ok r.

Lemma bounds_enc_ok name :
  Forall (fun l => 1 <= blen l /\ blen l <= 63) (name_labels name) -> enc_ok name.
Proof.
  intros H. split; [exact H|]. intros t pos. apply write_labels_fit.
  eapply Forall_impl; [|exact H]. intros l [_ Hl]. lia.
Qed.

(* The fit test alone is enough: the split never yields an empty label. *)
Lemma labels_fit_enc_ok name : labels_fit name = true -> enc_ok name.
Proof.
  intros F. apply bounds_enc_ok. unfold labels_fit in F. rewrite forallb_forall in F.
  pose proof (name_labels_nonempty name) as G.
  rewrite Forall_forall in *. intros l Hl. pose proof (G l Hl) as Ne.
  specialize (F l Hl). rewrite label_fits_pinned in F. apply N.ltb_lt in F.
  unfold blen in *. destruct l; [congruence|]. cbn [length] in *. lia.
Qed.

Lemma check_label_lengths_enc lc name :
  check_label_lengths lc name = Ok tt -> enc_ok name /\ enc_ok (lc name).
Proof.
  unfold check_label_lengths. destruct (labels_fit name) eqn:F; [|discriminate].
  destruct (labels_fit (lc name)) eqn:Fl; [|discriminate].
  intros _. split; apply labels_fit_enc_ok; assumption.
Qed.

Lemma bind_ok_unit {B} (r : res unit) (f : unit -> res B) b : bind r f = Ok b -> r = Ok tt /\ f tt = Ok b.
Proof. destruct r as [[]| | |]; simpl; try discriminate. auto. Qed.

Lemma pen_instance_dot nm rest :
  pen (escape_label nm ++ DOT :: rest) [] [] = rev (push_label nm []) ++ pen rest [] [].
Proof.
  rewrite pen_escape_label. simpl app. cbn [pen].
  replace (DOT =? BSL) with false by reflexivity. rewrite N.eqb_refl. apply pen_acc.
Qed.

Lemma strip_dot_app_cons a x b : strip_dot (a ++ x :: b) = a ++ strip_dot (x :: b).
Proof.
  unfold strip_dot. rewrite rev_app_distr.
  destruct (rev (x :: b)) as [|c r] eqn:E.
  - exfalso. apply (f_equal (@length N)) in E. rewrite rev_length in E. simpl in E. lia.
  - change ((c :: r) ++ rev a) with (c :: (r ++ rev a)). cbv iota.
    destruct (c =? DOT); [|reflexivity].
    rewrite rev_app_distr, rev_involutive. reflexivity.
Qed.

Lemma strip_dot_cons_dot ty : ty <> [] -> strip_dot (DOT :: ty) = DOT :: strip_dot ty.
Proof.
  intros H. destruct ty as [|y t]; [congruence|].
  change (DOT :: y :: t) with ([DOT] ++ y :: t). rewrite strip_dot_app_cons. reflexivity.
Qed.

Lemma Forall_app_r {A} (P : A -> Prop) a b : Forall P (a ++ b) -> Forall P b.
Proof. intros H. apply Forall_app in H. tauto. Qed.

Lemma fullname_type_labels P nm ty :
  Forall P (name_labels (escape_label nm ++ DOT :: ty)) -> Forall P (name_labels ty).
Proof.
  unfold name_labels, parse_escaped_name. intros H.
  destruct ty as [|y t].
  - simpl. constructor.
  - rewrite strip_dot_app_cons, strip_dot_cons_dot in H by discriminate.
    rewrite pen_instance_dot in H. apply Forall_app_r in H. exact H.
Qed.

Lemma wf_bytes_app a b : wf_bytes a -> wf_bytes b -> wf_bytes (a ++ b).
Proof. intros. apply Forall_app. tauto. Qed.

Lemma escape_label_wf s : wf_bytes s -> wf_bytes (escape_label s).
Proof.
  intros H. unfold escape_label. induction H as [|x l Hx Hl IH]; [constructor|].
  cbn [flat_map]. destruct ((x =? DOT) || (x =? BSL)).
  - constructor; [unfold BSL; lia|]. constructor; [exact Hx|exact IH].
  - constructor; [exact Hx|exact IH].
Qed.

Lemma firstn_wf n s : wf_bytes s -> wf_bytes (firstn n s).
Proof.
  intros H. unfold wf_bytes in *. rewrite <- (firstn_skipn n s) in H. apply Forall_app in H. tauto.
Qed.

Lemma normalize_hostname_wf h r : wf_bytes h -> normalize_hostname h = Ok r -> wf_bytes r.
Proof.
  unfold normalize_hostname. intros Hw. destruct (ends_with h local_local_suffix).
  - destruct (length h <? 6)%nat; [discriminate|]. unfold slice.
    destruct (_ && _); [|discriminate]. intros H. inversion H; subst.
    apply firstn_wf. exact Hw.
  - intros H. inversion H; subst. exact Hw.
Qed.

Lemma register_accepted lc ty nm host tyd sub full server :
  wf_bytes ty -> wf_bytes nm -> wf_bytes host ->
  si_names ty nm host = Ok (tyd, sub, full, server) ->
  api_register lc ty nm host = Ok tt ->
  enc_ok full /\ enc_ok tyd /\ enc_ok server /\ (forall s, sub = Some s -> enc_ok s)
  /\ (wf_bytes (lc full) -> enc_ok (lc full)) /\ (wf_bytes (lc server) -> enc_ok (lc server))
  /\ (forall s, sub = Some s -> wf_bytes (lc s) -> enc_ok (lc s)).
Proof.
  intros _ _ _ E H. unfold api_register in H. rewrite E in H. cbn [bind] in H.
  apply si_names_fullname in E as (_ & _ & Ef & _).
  unfold api_register_names in H.
  apply bind_ok_unit in H as [_ H]. apply bind_ok_unit in H as [_ H].
  apply bind_ok_unit in H as [H1 H]. apply bind_ok_unit in H as [H2 H].
  apply check_label_lengths_enc in H1 as [F Fl]. apply check_label_lengths_enc in H2 as [S Sl].
  assert (Hsub : forall s, sub = Some s -> enc_ok s /\ enc_ok (lc s)).
  { intros s ->. exact (check_label_lengths_enc lc s H). }
  assert (T : enc_ok tyd).
  { apply bounds_enc_ok. apply (fullname_type_labels _ nm). rewrite <- Ef. apply F. }
  split; [exact F|]. split; [exact T|]. split; [exact S|].
  split; [intros s Hs; apply (Hsub s Hs)|]. split; [intros _; exact Fl|].
  split; [intros _; exact Sl|]. intros s Hs _. apply (Hsub s Hs).
Qed.

Definition Bnd (n : nat) (acc : list bytes) : Prop := Forall (fun x => (length x <= n)%nat) acc.

Lemma push_label_Bnd n cur acc : (length cur <= n)%nat -> Bnd n acc -> Bnd n (push_label cur acc).
Proof.
  intros H1 H2. destruct cur; [exact H2|]. simpl. constructor; assumption.
Qed.

Lemma labels_fit_Bnd s : labels_fit s = true <-> Bnd 63 (name_labels s).
Proof.
  unfold labels_fit, Bnd. rewrite forallb_forall, Forall_forall. split; intros H l Hl; specialize (H l Hl).
  - rewrite label_fits_pinned in H. apply N.ltb_lt in H. unfold blen in H. lia.
  - rewrite label_fits_pinned. apply N.ltb_lt. unfold blen. lia.
Qed.

(* text that does not end inside an escape sequence: after it the scanner is between two
   characters, whatever follows; it has then added at most the length of the text to the
   label under way (bound m, which may be smaller than the bound n on finished labels) *)
Inductive esc_closed : bytes -> Prop :=
| cl_nil : esc_closed []
| cl_esc e a : esc_closed a -> esc_closed (BSL :: e :: a)
| cl_plain c a : (c =? BSL) = false -> esc_closed a -> esc_closed (c :: a).

Lemma pen_esc_closed n x : esc_closed x -> forall t cur acc m,
  (length cur + length x <= m)%nat -> (m <= n)%nat -> Bnd n acc ->
  exists cur' acc', pen (x ++ t) cur acc = pen t cur' acc' /\ (length cur' <= m)%nat /\ Bnd n acc'.
Proof.
  induction 1 as [|e a _ IH|c a Hc _ IH]; intros t cur acc m Hm Hn Hb.
  - exists cur, acc. repeat split; [simpl in Hm; lia|exact Hb].
  - cbn [app pen length] in *. rewrite N.eqb_refl. destruct ((e =? DOT) || (e =? BSL)) eqn:Sp.
    + apply IH; [rewrite app_length; simpl; lia|exact Hn|exact Hb].
    + apply orb_false_iff in Sp as [S1 S2]. cbn [pen]. rewrite S2, S1.
      apply IH; [rewrite !app_length; simpl; lia|exact Hn|exact Hb].
  - cbn [app pen length] in *. rewrite Hc. destruct (c =? DOT).
    + apply IH; [simpl; lia|exact Hn|apply push_label_Bnd; [lia|exact Hb]].
    + apply IH; [rewrite app_length; simpl; lia|exact Hn|exact Hb].
Qed.

Lemma pen_esc_closed_eq x : esc_closed x -> forall t cur,
  exists cur' acc', pen (x ++ t) cur [] = pen t cur' acc'.
Proof.
  intros Hx t cur.
  destruct (pen_esc_closed (length cur + length x) x Hx t cur [] (length cur + length x))
    as (cur' & acc' & E & _); [lia|lia|constructor|eauto].
Qed.

Lemma nobsl_esc_closed l : ~ In BSL l -> esc_closed l.
Proof.
  induction l as [|c l IH]; intros H; [constructor|]. apply cl_plain.
  - apply N.eqb_neq. intros ->. apply H. left. reflexivity.
  - apply IH. intros X. apply H. right. exact X.
Qed.

Lemma esc_closed_snoc x c : (c =? BSL) = false -> esc_closed (x ++ [c]).
Proof.
  intros Hc. induction x as [|a x IH IH'] using list_ind_skip; [apply cl_plain; [exact Hc|constructor]|].
  destruct (a =? BSL) eqn:E; [|apply cl_plain; assumption].
  apply N.eqb_eq in E. subst a. destruct x as [|b x']; apply cl_esc; [constructor|exact IH'].
Qed.

Lemma pen_present_nobsl : forall ls tail acc,
  Forall (fun l => ~ In BSL l /\ (length l <= 63)%nat) ls ->
  ~ In BSL tail -> (length tail <= 63)%nat -> Bnd 63 acc ->
  Bnd 63 (pen (present ls ++ tail) [] acc).
Proof.
  induction ls as [|l ls IH]; intros tail acc Hls Ht Hl Hb.
  - simpl app.
    destruct (pen_esc_closed 63 tail (nobsl_esc_closed _ Ht) [] [] acc 63) as (cur' & acc' & E & L & B);
      [simpl; lia|lia|exact Hb|].
    rewrite app_nil_r in E. rewrite E. simpl. unfold Bnd. apply Forall_rev.
    apply push_label_Bnd; [simpl in L; lia|exact B].
  - inversion Hls as [|? ? [Hl1 Hl2] Hls']; subst.
    unfold present. cbn [flat_map]. fold (present ls). rewrite <- !app_assoc. simpl app.
    destruct (pen_esc_closed 63 l (nobsl_esc_closed _ Hl1) (DOT :: present ls ++ tail) [] acc 63) as (cur' & acc' & E & L & B);
      [simpl; lia|lia|exact Hb|].
    rewrite E. cbn [pen]. replace (DOT =? BSL) with false by reflexivity. rewrite N.eqb_refl.
    apply IH; [exact Hls'|exact Ht|exact Hl|].
    apply push_label_Bnd; [simpl in L; lia|exact B].
Qed.

Lemma present_snoc ls l : present (ls ++ [l]) = present ls ++ l ++ [DOT].
Proof. unfold present. rewrite flat_map_app. simpl. rewrite app_nil_r. reflexivity. Qed.

(* names from the wire whose labels contain no backslash re-split into labels no longer than
   the wire labels (a dot inside a wire label only splits it further) *)
Lemma present_nobsl_fits ls :
  Forall (fun l => ~ In BSL l /\ blen l <= 63) ls -> labels_fit (present ls) = true.
Proof.
  intros H. apply labels_fit_Bnd. unfold name_labels, parse_escaped_name.
  assert (H' : Forall (fun l => ~ In BSL l /\ (length l <= 63)%nat) ls).
  { eapply Forall_impl; [|exact H]. intros l [A B]. split; [exact A|unfold blen in B; lia]. }
  destruct ls as [|l0 ls0]; [simpl; constructor|].
  destruct (@exists_last _ (l0 :: ls0)) as (ls' & l & E); [discriminate|]. rewrite E in *.
  apply Forall_app in H' as [H1 H2]. inversion H2 as [|? ? [A B] _]; subst.
  rewrite present_snoc, !app_assoc, strip_dot_app_dot.
  apply pen_present_nobsl; [exact H1|exact A|exact B|constructor].
Qed.

(* a piece of text without an unescaped dot, as split_first_label scans it: a backslash
   skips the next byte *)
Inductive dotfree : bytes -> Prop :=
| df_nil : dotfree []
| df_esc n a : dotfree a -> dotfree (BSL :: n :: a)
| df_plain c a : (c =? BSL) = false -> (c =? DOT) = false -> dotfree a -> dotfree (c :: a).

Lemma fdp_some s : forall i, first_dot_pos s = Some i ->
  exists a r, s = a ++ DOT :: r /\ length a = i /\ dotfree a.
Proof.
  induction s as [|c t IH IH'] using list_ind_skip; intros i H; [discriminate|]. simpl in H.
  destruct (c =? BSL) eqn:E1.
  - apply N.eqb_eq in E1. subst c. destruct t as [|m t']; [discriminate|]. cbn [tl] in IH'.
    destruct (first_dot_pos t') as [j|] eqn:F; [|discriminate]. simpl in H. inversion H; subst i.
    destruct (IH' j eq_refl) as (a & r & -> & La & Da).
    exists (BSL :: m :: a), r. repeat split; [simpl; rewrite La; reflexivity|constructor; exact Da].
  - destruct (c =? DOT) eqn:E2.
    + apply N.eqb_eq in E2. subst c. inversion H; subst i. exists [], t. repeat split. constructor.
    + destruct (first_dot_pos t) as [j|] eqn:F; [|discriminate]. simpl in H. inversion H; subst i.
      destruct (IH j eq_refl) as (a & r & -> & La & Da).
      exists (c :: a), r. repeat split; [simpl; rewrite La; reflexivity|constructor; assumption].
Qed.

(* what split_first_label returns behind the first label: nothing, or the rest from the first
   unescaped dot on (and then the label has no unescaped dot) *)
Definition rest_ok (first rest : bytes) : Prop :=
  rest = [] \/ exists r, rest = DOT :: r /\ dotfree first.

Lemma split_first_label_spec s :
  exists first rest, split_first_label s = Ok (first, rest) /\ s = first ++ rest /\ rest_ok first rest.
Proof.
  unfold split_first_label. destruct (first_dot_pos s) as [i|] eqn:F.
  - destruct (fdp_some s i F) as (a & r & -> & La & Da). subst i.
    rewrite slice_app_l by (apply boundary_app; reflexivity). cbn [bind].
    rewrite slice_app_r by (apply boundary_app; reflexivity). cbn [bind].
    exists a, (DOT :: r). split; [reflexivity|]. split; [reflexivity|].
    right. exists r. split; [reflexivity|exact Da].
  - exists s, []. split; [reflexivity|]. split; [rewrite app_nil_r; reflexivity|left; reflexivity].
Qed.

Lemma back_to_boundary_spec s : forall e,
  is_char_boundary s (back_to_boundary s e) = true /\ (back_to_boundary s e <= e)%nat.
Proof.
  induction e as [|e IH].
  - split; [reflexivity|simpl; lia].
  - cbn [back_to_boundary]. destruct (is_char_boundary s (S e)) eqn:B; [split; [exact B|lia]|].
    destruct IH as [I1 I2]. split; [exact I1|lia].
Qed.

Lemma leading_bsl_odd_head s : Nat.odd (leading_bsl s) = true -> exists t, s = BSL :: t.
Proof.
  destruct s as [|c t]; simpl; [discriminate|]. destruct (c =? BSL) eqn:E; [|discriminate].
  apply N.eqb_eq in E. subst c. eauto.
Qed.

Definition is_prefix (k b : bytes) : Prop := exists t, b = k ++ t.

Lemma is_prefix_refl s : is_prefix s s.
Proof. exists []. symmetry. apply app_nil_r. Qed.

Lemma is_prefix_trans a b c : is_prefix a b -> is_prefix b c -> is_prefix a c.
Proof. intros [t ->] [u ->]. exists (t ++ u). rewrite app_assoc. reflexivity. Qed.

Lemma nca_prefix k s : is_prefix k s -> nca s = true -> nca k = true.
Proof. intros [t ->]. apply nca_app_l. Qed.

Lemma firstn_is_prefix n s : is_prefix (firstn n s) s.
Proof. exists (skipn n s). symmetry. apply firstn_skipn. Qed.

Lemma label_with_suffix_spec base suffix :
  (length suffix <= 63)%nat ->
  exists kept, label_with_suffix base suffix = Ok (kept ++ suffix) /\ is_prefix kept base
    /\ (length (kept ++ suffix) <= 63)%nat.
Proof.
  intros Hs. unfold label_with_suffix, MAX_LABEL_LEN.
  set (e0 := Nat.min (length base) (63 - length suffix)).
  destruct (back_to_boundary_spec base e0) as [B1 B2].
  set (e := back_to_boundary base e0) in *.
  assert (He : (e <= length base)%nat) by (unfold e0 in B2; lia).
  assert (He2 : (e + length suffix <= 63)%nat) by (unfold e0 in B2; lia).
  rewrite (slice_to base e He B1). cbn [bind].
  assert (Lk : length (firstn e base) = e) by (rewrite firstn_length; lia).
  pose proof (firstn_is_prefix e base) as Pk.
  set (k := firstn e base) in *. clearbody k.
  destruct ((e <? length base)%nat && Nat.odd (trailing_bsl k)) eqn:C.
  - apply andb_true_iff in C as [_ C]. unfold trailing_bsl in C.
    apply leading_bsl_odd_head in C as [t C].
    apply (f_equal (@rev N)) in C. rewrite rev_involutive in C. cbn [rev] in C. subst k.
    rewrite app_length in *. cbn [length] in *.
    replace (length (rev t) + 1 =? 0)%nat with false by (symmetry; apply Nat.eqb_neq; lia).
    replace (length (rev t) + 1 - 1)%nat with (length (rev t)) by lia.
    rewrite slice_app_l by (apply boundary_app; reflexivity). cbn [bind].
    exists (rev t). split; [reflexivity|]. split.
    + destruct Pk as [u Pu]. exists ([BSL] ++ u). rewrite Pu, <- app_assoc. reflexivity.
    + rewrite app_length. lia.
  - cbn [bind]. exists k. split; [reflexivity|]. split; [exact Pk|].
    rewrite app_length. lia.
Qed.

Definition plain (b : N) : Prop := b < 128 /\ (b =? DOT) = false /\ (b =? BSL) = false.

Lemma dec_fuel_plain f : forall n acc, Forall plain acc -> Forall plain (dec_fuel f n acc).
Proof.
  induction f as [|f IH]; intros n acc H; [exact H|]. simpl.
  assert (P : plain (48 + n mod 10)).
  { pose proof (N.mod_upper_bound n 10 ltac:(discriminate)) as U. revert U.
    generalize (n mod 10). intros m U. unfold plain, DOT, BSL.
    repeat split; [lia|apply N.eqb_neq; lia|apply N.eqb_neq; lia]. }
  destruct (n / 10 =? 0); [constructor; assumption|]. apply IH. constructor; assumption.
Qed.

Lemma dec_fuel_len f : forall n acc, (length (dec_fuel f n acc) <= f + length acc)%nat.
Proof.
  induction f as [|f IH]; intros n acc; [simpl; lia|]. simpl.
  destruct (n / 10 =? 0); [simpl; lia|]. specialize (IH (n / 10) ((48 + n mod 10) :: acc)). simpl in IH. lia.
Qed.

Lemma dec_plain n : Forall plain (dec n).
Proof. apply dec_fuel_plain. constructor. Qed.
(* 20 is the fuel of Model dec: the digits of a u64 *)
Lemma dec_len n : (length (dec n) <= 20)%nat.
Proof. unfold dec. pose proof (dec_fuel_len 20 n []) as H. cbn [length] in H. lia. Qed.

Local Opaque dec.

Lemma plain_2 : plain 50. Proof. repeat split. Qed.

Definition suffix_ok (s : bytes) : Prop := Forall plain s /\ s <> [] /\ (length s <= 63)%nat.

Lemma paren_suffix_ok n : suffix_ok ([SPC; LPAR] ++ dec n ++ [RPAR]).
Proof.
  repeat split.
  - apply (Forall_app plain [SPC; LPAR]). split; [repeat constructor|].
    apply Forall_app. split; [apply dec_plain|repeat constructor].
  - discriminate.
  - rewrite !app_length. pose proof (dec_len n). cbn [length]. lia.
Qed.

Lemma hyphen_suffix_ok n : suffix_ok ([HYP] ++ dec n).
Proof.
  repeat split.
  - constructor; [repeat split|apply dec_plain].
  - discriminate.
  - rewrite app_length. pose proof (dec_len n). cbn [length]. lia.
Qed.

Lemma default_paren_ok : suffix_ok [SPC; LPAR; 50; RPAR].
Proof. repeat split; [repeat constructor; repeat split|discriminate|simpl; lia]. Qed.
Lemma default_hyphen_ok : suffix_ok [HYP; 50].
Proof. repeat split; [repeat constructor; repeat split|discriminate|simpl; lia]. Qed.

(* res is orig with the first label `first` replaced by (a prefix of first) ++ suffix *)
Definition renamed_of (orig res : bytes) : Prop :=
  exists first rest kept suffix,
    orig = first ++ rest /\ rest_ok first rest /\ is_prefix kept first /\ suffix_ok suffix
    /\ (length (kept ++ suffix) <= 63)%nat /\ res = kept ++ suffix ++ rest.

Lemma lws_renamed first rest base suffix :
  rest_ok first rest -> is_prefix base first -> suffix_ok suffix ->
  exists new, label_with_suffix base suffix = Ok new /\ renamed_of (first ++ rest) (new ++ rest).
Proof.
  intros R P S. destruct S as (S1 & S2 & S3).
  destruct (label_with_suffix_spec base suffix S3) as (kept & E & Pk & L).
  exists (kept ++ suffix). split; [exact E|].
  exists first, rest, kept, suffix. repeat split; try assumption.
  - eapply is_prefix_trans; eassumption.
  - rewrite <- app_assoc. reflexivity.
Qed.

(* what both renaming functions do first: split off the first label and build the default
   new label; every branch that does not find a number to increment falls back to it *)
Lemma rename_head s dsuf : wfs s -> suffix_ok dsuf ->
  exists first rest dflt,
    split_first_label s = Ok (first, rest) /\ s = first ++ rest /\ rest_ok first rest
    /\ nca first = true /\ label_with_suffix first dsuf = Ok dflt /\ renamed_of s (dflt ++ rest).
Proof.
  intros Hw Hd. destruct (split_first_label_spec s) as (first & rest & E & -> & R).
  destruct (lws_renamed first rest first dsuf R (is_prefix_refl first) Hd) as (dflt & Ed & Rd).
  exists first, rest, dflt. repeat split; try assumption.
  eapply nca_prefix; [exists rest; reflexivity|apply wfs_nca; exact Hw].
Qed.

Lemma nth_error_skipn {A} : forall n (l : list A) k, nth_error (skipn n l) k = nth_error l (n + k).
Proof.
  induction n as [|n IH]; intros l k; [reflexivity|].
  destruct l as [|x l]; [destruct k; reflexivity|]. simpl. apply IH.
Qed.

Lemma find_rpar_ge2 rest ep : find_sub [RPAR] (SPC :: LPAR :: rest) = Some ep -> (2 <= ep)%nat.
Proof.
  simpl. unfold RPAR, SPC, LPAR. simpl.
  destruct (find_sub [41] rest); simpl; intros H; inversion H; lia.
Qed.

Lemma name_change_renamed s : wfs s -> exists r, name_change s = Ok r /\ renamed_of s r.
Proof.
  intros Hw. unfold name_change.
  destruct (rename_head s _ Hw default_paren_ok) as (first & rest & dflt & E & -> & R & Hn & Ed & Rd).
  rewrite E. cbn [bind]. rewrite Ed. cbn [bind].
  assert (DONE : exists r, Ok (dflt ++ rest) = Ok r /\ renamed_of (first ++ rest) r) by eauto.
  destruct (rfind_sub [SPC; LPAR] first) as [pp|] eqn:Rf; [|exact DONE].
  apply rfind_sub_some in Rf.
  (* each slice below is cut at a byte that is found there: pp at ' ' (no continuation byte),
     pp + 2 behind the ASCII '(' (nca), pp + ep at ')'; and ep >= 2 since ')' is behind " (" *)
  destruct (found_at _ _ _ 0 SPC Rf eq_refl eq_refl) as (_ & L0 & Bpp). rewrite Nat.add_0_r in L0, Bpp.
  destruct (found_at _ _ _ 1 LPAR Rf eq_refl eq_refl) as (P1 & L1 & _).
  rewrite slice_from; [|lia|exact Bpp]. cbn [bind].
  destruct (find_sub [RPAR] (skipn pp first)) as [ep|] eqn:F; [|exact DONE].
  pose proof (find_sub_some _ _ _ F) as Fp.
  assert (Hsk : exists r2, skipn pp first = SPC :: LPAR :: r2).
  { apply prefixb_spec in Rf as [t Rf]. exists t. exact Rf. }
  destruct Hsk as [r2 Hsk]. rewrite Hsk in F. apply find_rpar_ge2 in F.
  destruct (found_at _ _ _ 0 RPAR Fp eq_refl eq_refl) as (PE & LE & _). rewrite Nat.add_0_r in PE, LE.
  rewrite nth_error_skipn in PE. rewrite skipn_length in LE.
  replace (length first =? 0)%nat with false by (symmetry; apply Nat.eqb_neq; lia).
  destruct (pp + ep =? length first - 1)%nat eqn:EQ; [|exact DONE].
  rewrite (slice_ok first (pp + 2) (pp + ep)); [|lia|lia| |].
  2:{ replace (pp + 2)%nat with (S (pp + 1)) by lia.
      eapply nca_boundary_after; [exact Hn|exact P1|unfold LPAR; lia]. }
  2:{ exact (boundary_at_noncont _ _ _ PE eq_refl). }
  cbn [bind].
  destruct (parse_u32 _) as [number|]; [|exact DONE].
  destruct (number =? 4294967295); [exact DONE|].
  rewrite slice_to; [|lia|exact Bpp]. cbn [bind].
  destruct (lws_renamed first rest _ _ R (firstn_is_prefix pp first) (paren_suffix_ok (number + 1))) as (new & En & Rn).
  rewrite En. cbn [bind]. eauto.
Qed.

Lemma hostname_change_renamed s : wfs s -> exists r, hostname_change s = Ok r /\ renamed_of s r.
Proof.
  intros Hw. unfold hostname_change.
  destruct (rename_head s _ Hw default_hyphen_ok) as (first & rest & dflt & E & -> & R & Hn & Ed & Rd).
  rewrite E. cbn [bind]. rewrite Ed. cbn [bind].
  assert (DONE : exists r, Ok (dflt ++ rest) = Ok r /\ renamed_of (first ++ rest) r) by eauto.
  destruct (rfind_sub [HYP] first) as [hp|] eqn:Rf; [|exact DONE].
  apply rfind_sub_some in Rf.
  (* hp is at '-': a character starts there, and the next one right behind it (ASCII, nca) *)
  destruct (found_at _ _ _ 0 HYP Rf eq_refl eq_refl) as (P0 & L0 & Bhp). rewrite Nat.add_0_r in P0, L0, Bhp.
  rewrite slice_from; [|lia|].
  2:{ replace (hp + 1)%nat with (S hp) by lia.
      eapply nca_boundary_after; [exact Hn|exact P0|unfold HYP; lia]. }
  cbn [bind].
  destruct (parse_u32 _) as [number|]; [|exact DONE].
  destruct (number =? 4294967295); [exact DONE|].
  rewrite slice_to; [|lia|exact Bhp]. cbn [bind].
  destruct (lws_renamed first rest _ _ R (firstn_is_prefix hp first) (hyphen_suffix_ok (number + 1))) as (new & En & Rn).
  rewrite En. cbn [bind]. eauto.
Qed.

Lemma dotfree_esc_closed a : dotfree a -> esc_closed a.
Proof. induction 1; [constructor|apply cl_esc; assumption|apply cl_plain; assumption]. Qed.

Lemma strip_dot_last_nondot x c : (c =? DOT) = false -> strip_dot (x ++ [c]) = x ++ [c].
Proof. intros H. unfold strip_dot. rewrite rev_app_distr. simpl. rewrite H. reflexivity. Qed.

Lemma renamed_fits orig res : renamed_of orig res -> Bnd 63 (name_labels orig) -> Bnd 63 (name_labels res).
Proof.
  intros (first & rest & kept & suffix & -> & R & _ & (S1 & S2 & _) & L & ->) Ho.
  destruct (@exists_last _ suffix S2) as (s0 & c & ->).
  assert (Pc : plain c). { apply Forall_app in S1 as [_ S1]. inversion S1; assumption. }
  replace (kept ++ (s0 ++ [c]) ++ rest) with (((kept ++ s0) ++ [c]) ++ rest) by (rewrite <- !app_assoc; reflexivity).
  rewrite app_assoc in L. set (x := (kept ++ s0) ++ [c]) in *.
  (* the first label of the result, whatever follows: c is no backslash *)
  pose proof (fun t => pen_esc_closed 63 x (esc_closed_snoc _ c (proj2 (proj2 Pc))) t [] [] 63 L (le_n _) (Forall_nil _)) as HEAD.
  assert (ALONE : Bnd 63 (parse_escaped_name x)).
  { unfold parse_escaped_name. destruct (HEAD []) as (cur' & acc' & E & L' & B). rewrite app_nil_r in E.
    rewrite E. simpl. apply Forall_rev. apply push_label_Bnd; assumption. }
  destruct R as [->|(r & -> & Df)].
  { rewrite app_nil_r. unfold name_labels, x. rewrite strip_dot_last_nondot by (apply Pc). exact ALONE. }
  destruct r as [|y r0].
  { unfold name_labels. rewrite strip_dot_app_dot. exact ALONE. }
  unfold name_labels, parse_escaped_name in *.
  rewrite strip_dot_app_cons, strip_dot_cons_dot in * by discriminate.
  set (r' := strip_dot (y :: r0)) in *.
  destruct (HEAD (DOT :: r')) as (cur' & acc' & E & L' & B). rewrite E. cbn [pen].
  replace (DOT =? BSL) with false by reflexivity. rewrite N.eqb_refl. rewrite pen_acc.
  apply Forall_app. split; [apply Forall_rev; apply push_label_Bnd; assumption|].
  (* the labels behind the first dot are those of the original *)
  destruct (pen_esc_closed_eq first (dotfree_esc_closed _ Df) (DOT :: r') []) as (cu & ac & E2).
  rewrite E2 in Ho. cbn [pen] in Ho. replace (DOT =? BSL) with false in Ho by reflexivity.
  rewrite N.eqb_refl, pen_acc in Ho. apply Forall_app_r in Ho. exact Ho.
Qed.

Lemma wfs_ascii_app l tail : Forall plain l -> wfs tail -> wfs (l ++ tail).
Proof.
  induction 1 as [|a l Pa _ IH]; intros H; [exact H|].
  simpl app. apply wfs_cons_ascii; [apply Pa|apply IH; exact H].
Qed.

Lemma renamed_wfs orig res : renamed_of orig res -> wfs orig -> wfs res.
Proof.
  intros (first & rest & kept & suffix & -> & R & (t & ->) & (S1 & S2 & _) & L & ->) Hw.
  unfold wfs in *.
  assert (Wk : nca (DOT :: kept) = true).
  { replace (DOT :: (kept ++ t) ++ rest) with ((DOT :: kept) ++ (t ++ rest)) in Hw by (simpl; rewrite <- app_assoc; reflexivity).
    apply nca_app_l in Hw. exact Hw. }
  assert (Wr : wfs rest).
  { destruct R as [->|(r & -> & _)]; [reflexivity|].
    replace (DOT :: (kept ++ t) ++ DOT :: r) with ((DOT :: kept ++ t) ++ DOT :: r) in Hw by reflexivity.
    apply nca_app_r in Hw. apply wfs_cons_ascii; [unfold DOT; lia|exact Hw]. }
  pose proof (wfs_ascii_app suffix rest S1 Wr) as Ws.
  destruct suffix as [|y b]; [congruence|]. simpl app in *.
  change (DOT :: kept ++ y :: b ++ rest) with ((DOT :: kept) ++ y :: (b ++ rest)).
  apply nca_app_noncont; [exact Wk|apply wfs_nca; exact Ws|].
  inversion S1 as [|? ? Py _]; subst. apply ascii_not_cont. apply Py.
Qed.

Definition name_inv (s : bytes) : Prop := wfs s /\ labels_fit s = true.

Lemma renamed_inv orig res : renamed_of orig res -> name_inv orig -> name_inv res.
Proof.
  intros R (A & C). split.
  - eapply renamed_wfs; eassumption.
  - apply labels_fit_Bnd. eapply renamed_fits; [exact R|apply labels_fit_Bnd; exact C].
Qed.

Lemma iter_rename_inv f :
  (forall s, wfs s -> exists r, f s = Ok r /\ renamed_of s r) ->
  forall n s, name_inv s -> exists r, iter_rename f n s = Ok r /\ name_inv r.
Proof.
  intros Hf. induction n as [|n IH]; intros s Hs; [exists s; split; [reflexivity|exact Hs]|].
  cbn [iter_rename]. destruct (Hf s (proj1 Hs)) as (r & -> & R). cbn [bind].
  apply IH. eapply renamed_inv; eassumption.
Qed.

Lemma iter_rename_encodable f :
  (forall s, wfs s -> exists r, f s = Ok r /\ renamed_of s r) ->
  forall n s, wfs s -> labels_fit s = true ->
  exists r, iter_rename f n s = Ok r /\ labels_fit r = true /\ enc_ok r.
Proof.
  intros Hf n s W F. destruct (iter_rename_inv f Hf n s (conj W F)) as (r & E & _ & Fr).
  exists r. split; [exact E|]. split; [exact Fr|apply labels_fit_enc_ok; exact Fr].
Qed.

Lemma present_wf ls : Forall wf_bytes ls -> wf_bytes (present ls).
Proof.
  induction 1 as [|l ls Hl _ IH]; [constructor|]. unfold present. cbn [flat_map]. fold (present ls).
  apply wf_bytes_app; [apply wf_bytes_app; [exact Hl|constructor; [unfold DOT; lia|constructor]]|exact IH].
Qed.

Lemma validators_total lc s :
  utf8_valid s = true ->
  safe (check_domain_suffix s) /\ safe (check_service_name s)
  /\ (forall lim, safe (check_service_name_length s lim)) /\ safe (check_hostname s)
  /\ safe (check_label_lengths lc s) /\ safe (name_change s) /\ safe (hostname_change s)
  /\ (exists r, normalize_hostname s = Ok r)
  /\ safe (api_browse lc s) /\ safe (api_resolve_hostname lc s).
Proof.
  intros H.
  exact (conj (check_domain_suffix_total s) (conj (check_service_name_total_nca s (valid_nca s H))
    (conj (check_service_name_length_total s) (conj (check_hostname_total s)
    (conj (check_label_lengths_total lc s) (conj (ex_ok_total _ _ (name_change_renamed s (valid_wfs s H)))
    (conj (ex_ok_total _ _ (hostname_change_renamed s (valid_wfs s H)))
    (conj (normalize_hostname_total s) (conj (api_browse_total lc s) (api_resolve_hostname_total lc s)))))))))).
Qed.
