(* C06 over histories of the daemon model, with a ghost log of everything emitted so far: a service
   is Announced on an interface only after an announcement of it went out for that interface; hence
   every answer of every reachable history is for a service whose announcement went out before. *)
From Coq Require Import List NArith.
From Mdns Require Import Bytes Intf Responder IntfDaemon ListFacts IntfDaemonProofs IntfHistoryProofs
     ResponderHistoryProofs IntfCheckerProofs.
Import ListNotations.
Open Scope N_scope.

(* o is an announcement of the service registered under `key`, built for interface idx *)
Definition ann_pkt (key : bytes) (idx : N) (o : obs) : Prop :=
  exists s intf v4 p os, o = OSent (reroute os intf p) /\ announce_on s intf v4 = Some p /\
                         mi_index intf = idx /\ lower (s_fullname s) = key.
Definition announced_in (L : list obs) (key : bytes) (idx : N) : Prop := exists o, In o L /\ ann_pkt key idx o.

(* the ghost invariant: L = everything emitted so far *)
Definition AInv (L : list obs) (d : dstate) : Prop :=
  forall key ds, In (key, ds) (d_svcs d) ->
    key = lower (s_fullname (ds_svc ds)) /\
    forall idx, status_get idx (ds_status ds) = Announced -> announced_in L key idx.

Lemma announced_in_incl L L' key idx : incl L L' -> announced_in L key idx -> announced_in L' key idx.
Proof. intros Hi (x & H1 & H2). exists x. auto. Qed.
Lemma announced_in_l L o key idx : announced_in L key idx -> announced_in (L ++ o) key idx.
Proof. apply announced_in_incl, incl_appl, incl_refl. Qed.
Lemma announced_in_r L o key idx : announced_in o key idx -> announced_in (L ++ o) key idx.
Proof. apply announced_in_incl, incl_appr, incl_refl. Qed.

Lemma AInv_mono L o d : AInv L d -> AInv (L ++ o) d.
Proof. intros H key ds Hin. destruct (H key ds Hin) as [H1 H2]. split; [exact H1|]. intros idx Hs. apply announced_in_l. auto. Qed.

Lemma AInv_svcs L d d' : d_svcs d' = d_svcs d -> AInv L d -> AInv L d'.
Proof. unfold AInv. intros E H. rewrite E. exact H. Qed.

Lemma svc_put_in k v l key ds : In (key, ds) (svc_put k v l) -> (key, ds) = (k, v) \/ In (key, ds) l.
Proof.
  induction l as [|[k' v'] t IH]; simpl; [intros [H|[]]; auto|].
  destruct (beq k' k); simpl; intros [H|H]; auto. destruct (IH H); auto.
Qed.

Lemma fullname_remove a ds : s_fullname (ds_svc (svc_remove_ip a ds)) = s_fullname (ds_svc ds) /\
                             ds_status (svc_remove_ip a ds) = ds_status ds.
Proof. unfold svc_remove_ip. destruct (ds_auto ds); simpl; auto. Qed.
Lemma fullname_insert a ds : s_fullname (ds_svc (svc_insert_ip a ds)) = s_fullname (ds_svc ds) /\
                             ds_status (svc_insert_ip a ds) = ds_status ds.
Proof. unfold svc_insert_ip. destruct (ds_auto ds); simpl; auto. Qed.

(* AInv speaks of my_services only *)
Definition AInvS (L : list obs) (sv : list (bytes * dsvc)) : Prop :=
  forall key ds, In (key, ds) sv ->
    key = lower (s_fullname (ds_svc ds)) /\
    forall idx, status_get idx (ds_status ds) = Announced -> announced_in L key idx.

Lemma AInv_S L d : AInv L d <-> AInvS L (d_svcs d).
Proof. reflexivity. Qed.

Lemma AInvS_remove L a sv : AInvS L sv -> AInvS L (map (fun kv => (fst kv, svc_remove_ip a (snd kv))) sv).
Proof.
  intros H key ds Hin. apply in_map_iff in Hin as [[k0 ds0] [E Hin]].
  inversion E; subst. destruct (H _ _ Hin) as [H1 H2]. destruct (fullname_remove a ds0) as [F1 F2].
  rewrite F1, F2. auto.
Qed.

Lemma opt_pk_in s intf os :
  let pk := opt_list (announce_on s intf true) ++ opt_list (announce_on s intf false) in
  is_nil pk = false ->
  announced_in (map (fun p => OSent (reroute os intf p)) pk) (lower (s_fullname s)) (mi_index intf).
Proof.
  cbv zeta. destruct (announce_on s intf true) as [p|] eqn:E4.
  - intros _. exists (OSent (reroute os intf p)). split; [simpl; auto|]. exists s, intf, true, p, os. auto.
  - destruct (announce_on s intf false) as [p|] eqn:E6; [|discriminate].
    intros _. exists (OSent (reroute os intf p)). split; [simpl; auto|]. exists s, intf, false, p, os. auto.
Qed.

Lemma do_register_A L now d s auto : AInv L d -> AInv (L ++ snd (do_register now d s auto)) (fst (do_register now d s auto)).
Proof.
  intros HA. destruct (do_register_eq now d s auto) as (s1 & status & regs & resend & out & -> & _ & _ & Hst).
  cbn [fst snd]. intros key ds Hin. cbn [d_svcs] in Hin. apply svc_put_in in Hin as [E|Hin].
  - inversion E; subst. simpl. split; [reflexivity|]. intros idx Hs. apply announced_in_r.
    destruct (Hst idx Hs) as (intf & v4 & p & Hi & Ea & Ho). exists (OSent (reroute (d_os d) intf p)).
    split; [exact Ho|]. exists s1, intf, v4, p, (d_os d). auto.
  - apply (AInv_mono L out d HA). exact Hin.
Qed.

Lemma do_unregister_A L now d key : AInv L d -> AInv (L ++ snd (do_unregister now d key)) (fst (do_unregister now d key)).
Proof.
  intros HA. pose proof (do_unregister_eq now d key) as E.
  destruct (svc_get key (d_svcs d)); [|rewrite E; simpl; rewrite app_nil_r; exact HA].
  destruct E as (resend & out & -> & _). cbn [fst snd].
  intros k ds Hin. apply filter_In in Hin as [Hin _]. apply (AInv_mono L out d HA). exact Hin.
Qed.

Lemma svc_get_in k l v : svc_get k l = Some v -> In (k, v) l.
Proof.
  induction l as [|[k' v'] t IH]; simpl; [discriminate|]. destruct (beq k' k) eqn:E.
  - intros H. inversion H; subst. apply beq_eq in E. subst. auto.
  - auto.
Qed.

Lemma do_retrans_A L d c : AInv L d -> AInv (L ++ snd (do_retrans d c)) (fst (do_retrans d c)).
Proof.
  intros HA. apply do_retrans_cases.
  - simpl. rewrite app_nil_r. exact HA.
  - intros key idx ds intf _ Es Eg En. cbn [fst snd]. apply svc_get_in in Es. destruct (HA key ds Es) as [Hk Hst].
    intros k ds' Hin. apply svc_put_in in Hin as [E|Hin]; [|apply (AInv_mono L _ d HA); exact Hin].
    inversion E; subst k ds'. simpl. split; [exact Hk|]. intros idx' Hs. rewrite status_get_set in Hs.
    destruct (idx =? idx') eqn:Ei; [|apply announced_in_l; apply Hst; exact Hs].
    apply N.eqb_eq in Ei. subst idx'. apply announced_in_r. rewrite Hk, <- (intf_get_index _ _ _ Eg).
    apply opt_pk_in. exact En.
  - intros p idx v4 intf _ _ _. apply AInv_mono. exact HA.
Qed.

Lemma add_interface_A L now d i : AInv L d -> AInv (L ++ snd (add_interface now d i)) (fst (add_interface now d i)).
Proof.
  intros HA. destruct (held (d_intfs d) (i_index i) (i_addr i)) eqn:Eh.
  { rewrite (add_interface_held _ _ _ Eh). simpl. rewrite app_nil_r. exact HA. }
  destruct (add_interface_new now d i Eh) as (my_intf & Eg & ->). cbn [fst snd].
  pose proof (intf_get_index _ _ _ Eg) as Hidx.
  intros key ds Hin. cbn [d_svcs] in Hin. apply in_map_iff in Hin as ([k0 ds0] & E & Hin). cbn [fst snd] in E.
  inversion E; subst key ds; clear E. destruct (HA k0 ds0 Hin) as [Hk Hst].
  (* the entry of a service with automatic addresses: Announced on the new interface only if its
     announcement is among the packets of this call *)
  assert (Hsent : forall p, In p (snd (ai_svc my_intf i ds0)) ->
            In (OSent (reroute (d_os d) my_intf p))
               (flat_map (fun kv => map (fun p => OSent (reroute (d_os d) my_intf p)) (snd (ai_svc my_intf i (snd kv)))) (d_svcs d))).
  { intros p Hp. apply in_flat_map. exists (k0, ds0). split; [exact Hin|].
    apply (in_map (fun p => OSent (reroute (d_os d) my_intf p))). exact Hp. }
  revert Hsent. unfold ai_svc. destruct (ds_auto ds0).
  2:{ intros _. split; [exact Hk|]. intros idx Hs. apply announced_in_l. auto. }
  destruct (fullname_insert (i_ip i) ds0) as [F1 F2].
  destruct (announce_on _ my_intf _) as [p|] eqn:Ea; cbn [fst snd ds_svc ds_status]; intros Hsent; rewrite F1;
    (split; [exact Hk|]); intros idx Hs; rewrite status_get_set, F2 in Hs;
    (destruct (i_index i =? idx) eqn:Ei; [|apply announced_in_l; auto]); [|discriminate].
  apply N.eqb_eq in Ei. subst idx. apply announced_in_r. exists (OSent (reroute (d_os d) my_intf p)).
  split; [apply in_or_app; left; apply Hsent; left; reflexivity|].
  exists (ds_svc (svc_insert_ip (i_ip i) ds0)), my_intf, (is_v4 (i_ip i)), p, (d_os d). rewrite F1. auto.
Qed.

Lemma del_interface_addr_A L d i : AInv L d -> AInv (L ++ snd (del_interface_addr d i)) (fst (del_interface_addr d i)).
Proof.
  intros HA. destruct (del_interface_addr_eq d i) as (regs & svcs & c & -> & Hs & _). cbn [fst snd]. apply AInv_mono.
  apply AInv_S. cbn [d_svcs]. destruct Hs as [->| ->]; [apply AInv_S; exact HA|apply AInvS_remove, AInv_S; exact HA].
Qed.

Lemma apply_A now tbl : forall L d, AInv L d ->
  AInv (L ++ snd (apply_intf_selections now d tbl)) (fst (apply_intf_selections now d tbl)).
Proof.
  intros L d HA. rewrite apply_intf_selections_fold.
  apply (apply_fold_ind now _ (fun st out => AInv (L ++ out) st)); [|rewrite app_nil_r; exact HA].
  intros st out e _ H. rewrite app_assoc. destruct (last_match _ e); [apply add_interface_A|apply del_interface_addr_A]; exact H.
Qed.

Lemma check_A L now d : AInv L d -> AInv (L ++ snd (check_ip_changes now d)) (fst (check_ip_changes now d)).
Proof.
  intros HA. rewrite check_phases. cbn [fst snd]. rewrite !app_assoc. apply apply_A. apply AInv_mono. apply AInv_mono.
  apply AInv_S. rewrite (rf_svcs (check_mid_frame d)). cbn [mid_start upd_svcs set_intfs d_svcs].
  apply (fold_left_inv (AInvS L)); [intros sv a _; apply AInvS_remove|apply AInv_S; exact HA].
Qed.

Lemma handle_dgram_svcs d g : d_svcs (fst (handle_dgram d g)) = d_svcs d.
Proof.
  apply handle_dgram_cases; [reflexivity|reflexivity|]. intros intf m _ _.
  destruct (handle_response_eq d intf m) as (c & res & out & -> & _). reflexivity.
Qed.

Lemma do_call_A L now d c : AInv L d -> AInv (L ++ snd (do_call now d c)) (fst (do_call now d c)).
Proof.
  intros HA. destruct c as [ks|ks|s auto|key|secs|ty]; simpl do_call.
  - apply apply_A. exact HA.
  - apply apply_A. exact HA.
  - apply do_register_A. exact HA.
  - apply do_unregister_A. exact HA.
  - simpl. rewrite app_nil_r. exact HA.
  - destruct (do_browse_eq d ty) as (res & out & -> & _). apply AInv_mono. exact HA.
Qed.

Lemma run_list_A {A} (f : dstate -> A -> dstate * list obs) :
  (forall L d x, AInv L d -> AInv (L ++ snd (f d x)) (fst (f d x))) ->
  forall l L d, AInv L d -> AInv (L ++ snd (run_list f l d)) (fst (run_list f l d)).
Proof.
  intros Hf l L d HA. apply (run_list_ind f (fun d' out => AInv (L ++ out) d')); [|rewrite app_nil_r; exact HA].
  intros d' out x _ H. rewrite app_assoc. apply Hf. exact H.
Qed.

Theorem iterate_A L d s : AInv L d -> AInv (L ++ snd (iterate d s)) (fst (iterate d s)).
Proof.
  intros HA.
  destruct (run_list handle_dgram (dgrams_of s) (set_os (st_os s) d)) as [d1 o1] eqn:E1.
  destruct (run_list (do_call (st_now s)) (st_calls s) d1) as [d2 o2] eqn:E2.
  destruct (run_list (fun st r => do_retrans st (snd r)) (due (st_now s) d2) (drop_due (st_now s) d2)) as [d3 o3] eqn:E3.
  rewrite (iterate_phases d s _ _ _ _ _ _ E1 E2 E3). cbn [fst snd]. rewrite !app_assoc.
  assert (H0 : AInv L (set_os (st_os s) d)) by (destruct (st_os s); exact HA).
  pose proof (run_list_A handle_dgram (fun L d g H => AInv_mono L _ _ (AInv_svcs L d _ (handle_dgram_svcs d g) H))
                         (dgrams_of s) L _ H0) as H1. rewrite E1 in H1. cbn [fst snd] in H1.
  pose proof (run_list_A (do_call (st_now s)) (fun L d c => do_call_A L (st_now s) d c) (st_calls s) _ _ H1) as H2.
  rewrite E2 in H2. cbn [fst snd] in H2.
  pose proof (run_list_A (fun st (x : N * rcmd) => do_retrans st (snd x)) (fun L d x => do_retrans_A L d (snd x))
                         (due (st_now s) d2) _ (drop_due (st_now s) d2) H2) as H3. rewrite E3 in H3. cbn [fst snd] in H3.
  apply ip_check_cases.
  - intros n. simpl. rewrite app_nil_r. exact H3.
  - simpl. rewrite app_nil_r. exact H3.
  - apply check_A. exact H3.
Qed.

(* everything emitted by a history *)
Fixpoint log_of (d : dstate) (steps : list step) : list obs :=
  match steps with [] => [] | s :: t => snd (iterate d s) ++ log_of (fst (iterate d s)) t end.

Theorem history_A steps : forall L d, AInv L d -> AInv (L ++ log_of d steps) (state_after d steps).
Proof.
  induction steps as [|s t IH]; intros L d HA; simpl; [rewrite app_nil_r; exact HA|].
  rewrite app_assoc. apply IH. apply iterate_A. exact HA.
Qed.

(* every record of every response in every reachable state belongs to a registered service that
   is Announced on the receiving interface, and an announcement of that service went out for
   that interface earlier in the history *)
Theorem answers_after_announcement t0 os0 steps g o :
  let d := state_after (initial_state t0 os0) steps in
  In o (snd (handle_dgram d g)) ->
  match o with
  | OSent p => exists intf p0,
      intf_get (dg_if g) (d_intfs d) = Some intf /\ p = reroute (d_os d) intf p0 /\
      Forall (fun r => exists k ds, In (k, ds) (d_svcs d) /\ status_get (dg_if g) (ds_status ds) = Announced /\
                                    ResponderJustProofs.svc_rec [] intf (ds_svc ds) r /\
                                    announced_in (log_of (initial_state t0 os0) steps) k (dg_if g))
             (p_answers p0 ++ p_additionals p0)
  | _ => True
  end.
Proof.
  intros d Hin. pose proof (daemon_answers_justified d g o Hin) as H. destruct o; auto.
  destruct H as (intf & p0 & H1 & H2 & H3). exists intf, p0. split; [exact H1|]. split; [exact H2|].
  eapply Forall_impl; [|exact H3]. intros r (k & ds & Hk & Hs & Hr). exists k, ds.
  split; [exact Hk|]. split; [exact Hs|]. split; [exact Hr|].
  assert (HA : AInv ([] ++ log_of (initial_state t0 os0) steps) d).
  { apply history_A. intros key ds0 []. }
  simpl in HA. destruct (HA k ds Hk) as [_ HA2]. apply HA2. exact Hs.
Qed.
