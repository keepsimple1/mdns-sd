(* What DnsCache::remove_service_type (stop_browse) removes and what it leaves, Vec by Vec.
   Model: Model/LifeTimers.v. *)
From Coq Require Import List NArith Bool.
From Mdns Require Import LifeCache LifeTimers LifeMapProofs.
Import ListNotations.
Open Scope N_scope.

Notation getl := (get_bucket lrec).
Notation setl := (set_bucket lrec).

Lemma fold_srvtxt_look : forall insts (c : lcache) k,
  wf lrec c ->
  wf lrec (fold_left (fun c i => setl (setl c (1, i) []) (2, i) []) insts c) /\
  getl (fold_left (fun c i => setl (setl c (1, i) []) (2, i) []) insts c) k =
  if existsb (fun i => key_eqb k (1, i) || key_eqb k (2, i)) insts then [] else getl c k.
Proof.
  induction insts as [|i insts IH]; intros c k Hw; simpl; [auto|].
  assert (W1 : wf lrec (setl (setl c (1, i) []) (2, i) [])) by auto using set_wf.
  destruct (IH _ k W1) as [W' G']. split; [exact W'|]. rewrite G'.
  rewrite get_set by auto using set_wf. rewrite get_set by assumption.
  destruct (key_eqb k (1, i)), (key_eqb k (2, i)); simpl; destruct (existsb _ insts); reflexivity.
Qed.

Lemma stop_core_look ty (c : lcache) k :
  wf lrec c ->
  wf lrec (stop_core ty c) /\
  getl (stop_core ty c) k =
  if key_eqb k (0, ty) || existsb (fun i => key_eqb k (1, i) || key_eqb k (2, i)) (stop_instances ty c)
  then [] else getl c k.
Proof.
  intros Hw. unfold stop_core. destruct (fold_srvtxt_look (stop_instances ty c) c k Hw) as [W1 G1].
  split; [apply set_wf; exact W1|]. rewrite get_set by exact W1. rewrite G1.
  destruct (key_eqb k (0, ty)); reflexivity.
Qed.

Lemma names_host_set3 h h' (c : lcache) : names_host lrec h (setl c (3, h') []) = names_host lrec h c.
Proof.
  unfold names_host. induction c as [|[k1 b1] c IH]; [reflexivity|]. simpl.
  destruct (key_eqb (3, h') k1) eqn:E.
  - apply key_eqb_eq in E. subst k1. simpl. reflexivity.
  - simpl. rewrite IH. reflexivity.
Qed.

(* names_host looks at SRV Vecs only, so emptying an address Vec does not change it
   (names_host_set3): the test made on the cache as it shrinks is the test on the cache it began with *)
Lemma fold_hosts_look : forall hosts (c : lcache) k,
  wf lrec c ->
  wf lrec (fold_left (fun c h => if names_host lrec h c then c else setl c (3, h) []) hosts c) /\
  getl (fold_left (fun c h => if names_host lrec h c then c else setl c (3, h) []) hosts c) k =
  if existsb (fun h => key_eqb k (3, h) && negb (names_host lrec h c)) hosts then [] else getl c k.
Proof.
  induction hosts as [|h hosts IH]; intros c k Hw; simpl; [auto|].
  destruct (names_host lrec h c) eqn:En.
  - destruct (IH c k Hw) as [W' G']. split; [exact W'|]. rewrite G'. rewrite andb_false_r. reflexivity.
  - assert (W1 : wf lrec (setl c (3, h) [])) by auto using set_wf.
    destruct (IH _ k W1) as [W' G']. split; [exact W'|]. rewrite G'. rewrite get_set by assumption.
    assert (Hx : existsb (fun h0 => key_eqb k (3, h0) && negb (names_host lrec h0 (setl c (3, h) []))) hosts
                 = existsb (fun h0 => key_eqb k (3, h0) && negb (names_host lrec h0 c)) hosts).
    { clear. induction hosts as [|x hosts IHh]; [reflexivity|]. simpl. rewrite names_host_set3, IHh. reflexivity. }
    rewrite Hx. simpl negb. rewrite andb_true_r.
    set (X := existsb (fun h0 => key_eqb k (3, h0) && negb (names_host lrec h0 c)) hosts).
    destruct X, (key_eqb k (3, h)); reflexivity.
Qed.

Theorem remove_service_type_look ty (c : lcache) k :
  wf lrec c ->
  wf lrec (remove_service_type lrec ty c) /\
  getl (remove_service_type lrec ty c) k = if removed_key ty c k then [] else getl c k.
Proof.
  intros Hw. destruct (stop_core_look ty c k Hw) as [W1 G1].
  change (remove_service_type lrec ty c)
    with (fold_left (fun c h => if names_host lrec h c then c else setl c (3, h) []) (stop_hosts ty c) (stop_core ty c)).
  destruct (fold_hosts_look (stop_hosts ty c) (stop_core ty c) k W1) as [W2 G2].
  split; [exact W2|]. rewrite G2, G1. unfold removed_key.
  destruct (key_eqb k (0, ty) || existsb _ (stop_instances ty c)); simpl; [|reflexivity].
  destruct (existsb _ (stop_hosts ty c)); reflexivity.
Qed.

Lemma removed_key_iff ty (c : lcache) k :
  removed_key ty c k = true <->
  k = (0, ty) \/
  (exists i, In i (stop_instances ty c) /\ (k = (1, i) \/ k = (2, i))) \/
  (exists h, In h (stop_hosts ty c) /\ k = (3, h) /\ names_host lrec h (stop_core ty c) = false).
Proof.
  unfold removed_key. rewrite !orb_true_iff, !existsb_exists, key_eqb_eq. split.
  - intros [[H | (i & Hi & H)] | (h & Hh & H)]; [left; exact H | right; left | right; right].
    + exists i. rewrite orb_true_iff, !key_eqb_eq in H. auto.
    + exists h. rewrite andb_true_iff, key_eqb_eq, negb_true_iff in H. tauto.
  - intros [H | [(i & Hi & H) | (h & Hh & H1 & H2)]]; [left; left; exact H | left; right | right].
    + exists i. rewrite orb_true_iff, !key_eqb_eq. auto.
    + exists h. rewrite andb_true_iff, key_eqb_eq, negb_true_iff. auto.
Qed.

Lemma removed_ptr ty c : removed_key ty c (0, ty) = true.
Proof. apply removed_key_iff. left. reflexivity. Qed.

Lemma removed_srv_txt ty c i :
  In i (stop_instances ty c) -> removed_key ty c (1, i) = true /\ removed_key ty c (2, i) = true.
Proof. intros Hi. split; apply removed_key_iff; right; left; exists i; auto. Qed.

Lemma removed_addr ty c h :
  In h (stop_hosts ty c) -> names_host lrec h (stop_core ty c) = false -> removed_key ty c (3, h) = true.
Proof. intros Hh Hn. apply removed_key_iff. right. right. exists h. auto. Qed.

