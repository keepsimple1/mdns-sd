(* Invariants of the scheduling model over ALL histories (no hypothesis on the schedule):
   every pending retransmission, resolver deadline and the interface check has its timer
   (C12 wake_covers_work), added timers lie in the future (C12 no_spin), at most one
   retransmission chain per search (C19 "browsing again replaces").
   Also what the refinement in SchedSpecProofs.v builds on: the state change shared by the start and
   stop commands (rekey, exec_start_eq, exec_stop_eq), case principles for the command loop and for
   histories (run_cmds_ind, final_ind), and the two equations for iterate. *)
From Coq Require Import List NArith Bool Lia.
From Mdns Require Import Bytes ListFacts ParamsSched Sched SchedSpec SchedParamsProofs.
Import ListNotations.
Open Scope N_scope.

Lemma okey_eqb_eq a b : okey_eqb a b = true <-> a = b.
Proof.
  destruct a as [h1 n1], b as [h2 n2]. unfold okey_eqb. simpl.
  rewrite andb_true_iff, eqb_true_iff, beq_eq. split.
  - intros [-> ->]. reflexivity.
  - intros H. inversion H. auto.
Qed.

Lemma okey_eqb_refl a : okey_eqb a a = true.
Proof. apply okey_eqb_eq. reflexivity. Qed.

Lemma okey_eqb_neq a b : okey_eqb a b = false <-> a <> b.
Proof.
  split.
  - intros H E. apply okey_eqb_eq in E. congruence.
  - intros H. destruct (okey_eqb a b) eqn:E; [apply okey_eqb_eq in E; contradiction | reflexivity].
Qed.

Lemma okey_eqb_sym a b : okey_eqb a b = okey_eqb b a.
Proof.
  destruct (okey_eqb a b) eqn:E.
  - apply okey_eqb_eq in E. subst. symmetry. apply okey_eqb_refl.
  - apply okey_eqb_neq in E. symmetry. apply okey_eqb_neq. congruence.
Qed.

Lemma lookup_In k l o : lookup k l = Some o -> In (k, o) l.
Proof.
  induction l as [|[k' o'] t IH]; simpl; [discriminate|].
  destruct (okey_eqb k k') eqn:E.
  - intros H. inversion H; subst. apply okey_eqb_eq in E. subst. left. reflexivity.
  - intros H. right. auto.
Qed.

Lemma lookup_None k l : lookup k l = None <-> ~ In k (map fst l).
Proof.
  induction l as [|[k' o'] t IH]; simpl.
  - split; auto.
  - destruct (okey_eqb k k') eqn:E.
    + apply okey_eqb_eq in E. subst. split; [discriminate | intros H; exfalso; apply H; left; reflexivity].
    + apply okey_eqb_neq in E. rewrite IH. split.
      * intros H [H1|H1]; [congruence | contradiction].
      * intros H H1. apply H. right. exact H1.
Qed.

Lemma In_lookup k o l : NoDup (map fst l) -> In (k, o) l -> lookup k l = Some o.
Proof.
  induction l as [|[k' o'] t IH]; simpl; [tauto|].
  intros ND [H|H].
  - inversion H; subst. rewrite okey_eqb_refl. reflexivity.
  - inversion ND as [|x xs Hn ND']; subst.
    destruct (okey_eqb k k') eqn:E.
    + apply okey_eqb_eq in E. subst. exfalso. apply Hn. apply (in_map fst) in H. exact H.
    + auto.
Qed.

Lemma lookup_remove_same k l : lookup k (remove_key k l) = None.
Proof.
  apply lookup_None. unfold remove_key. intros H. apply in_map_iff in H as [[k' o] [H1 H2]].
  simpl in H1. subst k'. apply filter_In in H2 as [_ H2]. simpl in H2. rewrite okey_eqb_refl in H2. discriminate.
Qed.

Lemma lookup_filter_other (P : okey * owner -> bool) k l :
  (forall e, okey_eqb k (fst e) = true -> P e = true) -> lookup k (filter P l) = lookup k l.
Proof.
  intros HP. induction l as [|e t IH]; simpl; [reflexivity|].
  destruct (P e) eqn:EP; simpl.
  - rewrite IH. reflexivity.
  - destruct (okey_eqb k (fst e)) eqn:E; [rewrite HP in EP by exact E; discriminate | exact IH].
Qed.

Lemma lookup_remove_other k k' l : k <> k' -> lookup k (remove_key k' l) = lookup k l.
Proof.
  intros H. apply lookup_filter_other. intros e E. apply okey_eqb_eq in E. subst.
  apply negb_true_iff. apply okey_eqb_neq. congruence.
Qed.

Lemma lookup_filter_keep (P : okey * owner -> bool) k l o :
  lookup k l = Some o -> P (k, o) = true -> lookup k (filter P l) = Some o.
Proof.
  induction l as [|[k' o'] t IH]; simpl; [discriminate|].
  destruct (okey_eqb k k') eqn:E.
  - intros H HP. inversion H; subst. apply okey_eqb_eq in E. subst. rewrite HP. simpl.
    rewrite okey_eqb_refl. reflexivity.
  - intros H HP. destruct (P (k', o')); simpl; [rewrite E|]; auto.
Qed.

Lemma lookup_filter_some (P : okey * owner -> bool) k l o :
  lookup k (filter P l) = Some o -> NoDup (map fst l) -> lookup k l = Some o.
Proof.
  intros H ND. apply lookup_In in H. apply filter_In in H as [H _]. apply In_lookup; assumption.
Qed.

Lemma min_list_spec l :
  match min_list l with
  | Some w => In w l /\ forall t, In t l -> w <= t
  | None => l = []
  end.
Proof.
  induction l as [|x l IH]; simpl; [reflexivity|].
  destruct (min_list l) as [m|].
  - destruct IH as [Hin Hle]. split.
    + destruct (N.min_spec x m) as [[_ ->]|[_ ->]]; auto.
    + intros t [<-|Ht]; [lia | specialize (Hle t Ht); lia].
  - subst l. split; [left; reflexivity|]. intros t [<-|[]]. lia.
Qed.

Lemma min_list_In l w : min_list l = Some w -> In w l.
Proof. intros E. pose proof (min_list_spec l) as H. rewrite E in H. apply H. Qed.

Lemma in_deadlines d l :
  In d (deadlines l) <-> exists e, In e l /\ ow_deadline (snd e) = Some d.
Proof.
  unfold deadlines. rewrite in_flat_map. split.
  - intros [e [H1 H2]]. exists e. split; [exact H1|]. destruct (ow_deadline (snd e)); simpl in H2; [|contradiction].
    destruct H2 as [->|[]]. reflexivity.
  - intros [e [H1 H2]]. exists e. split; [exact H1|]. rewrite H2. left. reflexivity.
Qed.

(* a queued ReRun: its stored delay was doubled from >= 1, it is not yet due, and add_retransmission
   pushed a timer for it *)
Definition retr_inv (clock : N) (timers : list N) (r : rerun) : Prop :=
  1 <= r_delay r /\ clock < r_time r /\ In (r_time r) timers.

(* between iterations *)
Record Inv (s : state) : Prop := mkInv {
  inv_ret : forall r, In r (st_retrans s) -> retr_inv (st_clock s) (st_timers s) r;
  inv_dead : forall d, In d (deadlines (st_owners s)) -> In d (st_timers s);
  inv_ip : (st_ip_ival s = 0 -> st_next_ip s = 0)
           /\ (st_ip_ival s <> 0 -> st_clock s < st_next_ip s /\ In (st_next_ip s) (st_timers s));
  inv_own : NoDup (map fst (st_owners s));
  inv_one : NoDup (map rkey (st_retrans s)) }.

(* inside the iteration at `now`, after the timers were popped and the deadlines handled;
   z = a search with timeout 0 was started in this iteration *)
Record Mid (now : N) (z : bool) (s : state) : Prop := mkMid {
  mid_clock : st_clock s = now;
  mid_ret : forall r, In r (st_retrans s) ->
                      1 <= r_delay r /\ (now < r_time r -> In (r_time r) (st_timers s));
  mid_dead : forall d, In d (deadlines (st_owners s)) -> In d (st_timers s);
  mid_ip : st_next_ip s = 0 \/ st_next_ip s <= now \/ In (st_next_ip s) (st_timers s);
  mid_own : NoDup (map fst (st_owners s));
  mid_one : NoDup (map rkey (st_retrans s));
  mid_tim : forall t, In t (st_timers s) -> now < t \/ (z = true /\ t = now) }.

Lemma Mid_weaken now z s : Mid now z s -> Mid now true s.
Proof.
  intros [H1 H2 H3 H4 H5 H6 H7]. constructor; auto.
  intros t Ht. destruct (H7 t Ht) as [H|[_ H]]; auto.
Qed.

Lemma inv_init t0 : Inv (init t0).
Proof.
  rewrite init_spec. constructor; simpl.
  - intros r [].
  - intros d [].
  - split; [discriminate|]. intros _. split; [lia | left; reflexivity].
  - constructor.
  - constructor.
Qed.

Lemma inv_mid s now : Inv s -> Mid now false (timeout_phase now s).
Proof.
  intros [Hr Hd [Hi0 Hi1] Ho H1]. unfold timeout_phase. constructor; simpl.
  - reflexivity.
  - intros r Hin. destruct (Hr r Hin) as [A [B C]]. split; [exact A|].
    intros Hlt. apply filter_In. split; [exact C|]. rewrite timer_kept_pinned. apply N.ltb_lt. exact Hlt.
  - intros d Hin. apply in_deadlines in Hin as [e [He Hdl]]. apply filter_In in He as [He Hne].
    apply filter_In. split.
    + apply Hd. apply in_deadlines. eauto.
    + unfold expired in Hne. rewrite Hdl in Hne. rewrite resolver_expired_pinned in Hne.
      rewrite timer_kept_pinned. apply negb_true_iff in Hne. apply N.leb_gt in Hne. apply N.ltb_lt. exact Hne.
  - destruct (N.eq_dec (st_ip_ival s) 0) as [E|E].
    + left. auto.
    + destruct (Hi1 E) as [A B]. destruct (N.le_gt_cases (st_next_ip s) now) as [L|L].
      * right. left. exact L.
      * right. right. apply filter_In. split; [exact B|]. rewrite timer_kept_pinned. apply N.ltb_lt. exact L.
  - apply NoDup_map_filter. exact Ho.
  - exact H1.
  - intros t Ht. apply filter_In in Ht as [_ Ht]. rewrite timer_kept_pinned in Ht. apply N.ltb_lt in Ht. left. exact Ht.
Qed.

Lemma requeue_shape now owners host nm d ch :
  requeue now owners host nm d ch =
  if requeue_ok (okey_of host nm) owners (now + d * 1000)
  then [mkRerun (now + d * 1000) host nm (spec_next_delay d) ch] else [].
Proof. unfold requeue. rewrite next_time_spec, next_delay_spec. reflexivity. Qed.

Lemma in_requeue now owners host nm d ch r :
  In r (requeue now owners host nm d ch) ->
  r = mkRerun (now + d * 1000) host nm (spec_next_delay d) ch
  /\ requeue_ok (okey_of host nm) owners (now + d * 1000) = true.
Proof.
  rewrite requeue_shape. destruct (requeue_ok _ _ _); simpl; [|tauto].
  intros [H|[]]. subst. auto.
Qed.

(* what one execution of Browse / ResolveHostname for the search with key k queues: nothing, or
   its one next retransmission *)
Definition one_of (k : okey) (new : list rerun) : Prop :=
  new = [] \/ exists r, new = [r] /\ rkey r = k.

Lemma one_of_requeue now owners host nm d ch : one_of (okey_of host nm) (requeue now owners host nm d ch).
Proof.
  rewrite requeue_shape. destruct (requeue_ok _ _ _); [right; eexists; split; reflexivity | left; reflexivity].
Qed.

Lemma in_purge k l r : In r (purge k l) <-> In r l /\ rkey r <> k.
Proof.
  unfold purge. rewrite filter_In. rewrite negb_true_iff, okey_eqb_neq. tauto.
Qed.

Lemma in_remove_key k l e : In e (remove_key k l) <-> In e l /\ fst e <> k.
Proof.
  unfold remove_key. rewrite filter_In, negb_true_iff, okey_eqb_neq. split; intros [A B]; split; auto.
Qed.

(* Browse, ResolveHostname and the two stop commands all do this to the scheduling state: the
   search with key k loses its listener and its queued retransmission and gets the new ones,
   if any; the timers of what is new are pushed. *)
Definition rekey (s : state) (k : okey) (o : option owner) (new : list rerun) : state :=
  let ow := match o with Some w => [(k, w)] | None => [] end in
  set_sched s (map r_time new ++ deadlines ow ++ st_timers s)
            (purge k (st_retrans s) ++ new) (ow ++ remove_key k (st_owners s)).

(* a first execution queues the query of one second later, unless it is browse_cache or the
   resolver's deadline comes no later ("Only add retransmission if it does not exceed the hostname
   resolver timeout") *)
Definition start_new (now : N) (host : bool) (nm : name) (cache : bool) (dl : option N) (ch : chan) : list rerun :=
  if negb cache && match dl with Some d => now + 1 * 1000 <? d | None => true end
  then [mkRerun (now + 1 * 1000) host nm (spec_next_delay 1) ch] else [].

Lemma exec_start_eq now host nm (cache : bool) timeout ch s :
  let dl := option_map (sat_add now) timeout in
  exec_start now host nm cache timeout ch s =
  (rekey s (okey_of host nm) (Some (mkOwner ch dl)) (start_new now host nm cache dl ch),
   if cache then [] else [pkt host nm], (ch, EStarted nm) :: if cache then [(ch, EStopped nm)] else []).
Proof.
  unfold exec_start, rekey, start_new. rewrite first_delay_spec, requeue_shape.
  unfold requeue_ok. cbn [lookup fst snd]. rewrite okey_eqb_refl. cbn [ow_deadline].
  destruct cache, timeout as [t|]; cbn [option_map negb andb deadlines flat_map snd ow_deadline map app];
    rewrite ?app_nil_r; reflexivity.
Qed.

Lemma in_start_new now host nm cache dl ch r :
  In r (start_new now host nm cache dl ch) ->
  r = mkRerun (now + 1 * 1000) host nm (spec_next_delay 1) ch /\ cache = false
  /\ forall d, dl = Some d -> now + 1 * 1000 < d.
Proof.
  unfold start_new. destruct cache; [intros []|]. cbn [negb andb]. destruct dl as [d|].
  - destruct (now + 1 * 1000 <? d) eqn:E; [|intros []]. intros [<-|[]]. repeat split.
    intros d' [= <-]. apply N.ltb_lt. exact E.
  - intros [<-|[]]. repeat split. discriminate.
Qed.

Lemma one_of_start_new now host nm cache dl ch : one_of (okey_of host nm) (start_new now host nm cache dl ch).
Proof. unfold start_new. destruct (_ && _); [right; eexists; split; reflexivity | left; reflexivity]. Qed.

Lemma exec_stop_eq host nm s :
  let k := okey_of host nm in
  exec_stop host nm s =
  match lookup k (st_owners s) with
  | None => (s, [], [])
  | Some o => (rekey s k None [], [], [(ow_ch o, EStopped (snd k))])
  end.
Proof.
  unfold exec_stop, rekey. destruct (lookup _ _); [|reflexivity].
  cbn [map app deadlines flat_map]. rewrite app_nil_r. reflexivity.
Qed.

Lemma lookup_rekey_same s k o new : lookup k (st_owners (rekey s k o new)) = o.
Proof.
  unfold rekey, set_sched. cbn [st_owners]. destruct o; cbn [app lookup fst snd].
  - rewrite okey_eqb_refl. reflexivity.
  - apply lookup_remove_same.
Qed.

Lemma lookup_rekey_other s k o new k' : k' <> k -> lookup k' (st_owners (rekey s k o new)) = lookup k' (st_owners s).
Proof.
  intros H. unfold rekey, set_sched. cbn [st_owners]. destruct o; cbn [app lookup fst snd].
  - apply okey_eqb_neq in H as E. rewrite E. apply lookup_remove_other. exact H.
  - apply lookup_remove_other. exact H.
Qed.

Lemma in_retrans_rekey s k o new r :
  In r (st_retrans (rekey s k o new)) <-> (In r (st_retrans s) /\ rkey r <> k) \/ In r new.
Proof. unfold rekey, set_sched. cbn [st_retrans]. rewrite in_app_iff, in_purge. reflexivity. Qed.

Lemma in_owners_rekey s k o new e :
  In e (st_owners (rekey s k o new)) <-> (fst e = k /\ o = Some (snd e)) \/ (In e (st_owners s) /\ fst e <> k).
Proof.
  unfold rekey, set_sched. cbn [st_owners]. rewrite in_app_iff, in_remove_key.
  destruct o as [w|]; simpl; split.
  - intros [[<-|[]]|H]; auto.
  - intros [[E1 E2]|H]; [|auto]. left. left. destruct e. simpl in *. congruence.
  - intros [[]|H]. auto.
  - intros [[_ E]|H]; [discriminate | auto].
Qed.

Lemma nodup_owners_rekey s k o new :
  NoDup (map fst (st_owners s)) -> NoDup (map fst (st_owners (rekey s k o new))).
Proof.
  intros ND. unfold rekey, set_sched. cbn [st_owners].
  assert (ND' : NoDup (map fst (remove_key k (st_owners s)))) by (apply NoDup_map_filter; exact ND).
  destruct o; [|exact ND']. simpl. constructor; [|exact ND'].
  intros H. apply in_map_iff in H as [e [H2 H3]]. apply in_remove_key in H3 as [_ H3]. congruence.
Qed.

Lemma nodup_retrans_rekey s k o new :
  one_of k new -> NoDup (map rkey (st_retrans s)) -> NoDup (map rkey (st_retrans (rekey s k o new))).
Proof.
  intros [->|[r [-> Hk]]] ND; unfold rekey, set_sched; cbn [st_retrans].
  - rewrite app_nil_r. apply NoDup_map_filter. exact ND.
  - rewrite map_app. simpl. apply NoDup_snoc.
    + apply NoDup_map_filter. exact ND.
    + intros H. apply in_map_iff in H as [r' [H1 H2]]. apply in_purge in H2 as [_ H2]. congruence.
Qed.

(* z' is z, or true if the owner that comes in has its deadline at `now` (a call with timeout 0) *)
Lemma mid_rekey now z z' s k o new :
  Mid now z s -> one_of k new ->
  (forall r, In r new -> 1 <= r_delay r /\ now < r_time r) ->
  (forall w d, o = Some w -> ow_deadline w = Some d -> now < d \/ (z' = true /\ d = now)) ->
  (z = true -> z' = true) ->
  Mid now z' (rekey s k o new).
Proof.
  intros [Hc Hr Hd Hi Ho H1 Ht] Hone Hnew Ho' Hz.
  assert (Hsub : forall t, In t (st_timers s) -> In t (st_timers (rekey s k o new))).
  { intros t H. unfold rekey, set_sched. cbn [st_timers]. rewrite !in_app_iff. auto. }
  constructor.
  - exact Hc.
  - intros r H. apply in_retrans_rekey in H as [[H _]|H].
    + destruct (Hr r H) as [A B]. auto.
    + split; [apply Hnew; exact H|]. intros _. unfold rekey, set_sched. cbn [st_timers].
      apply in_or_app. left. apply in_map. exact H.
  - intros d H. apply in_deadlines in H as [e [He Hdl]]. apply in_owners_rekey in He as [[_ ->]|[He _]].
    + unfold rekey, set_sched. cbn [st_timers]. apply in_or_app. right. apply in_or_app. left.
      apply in_deadlines. exists (k, snd e). split; [left; reflexivity | exact Hdl].
    + apply Hsub. apply Hd. apply in_deadlines. eauto.
  - change (st_next_ip (rekey s k o new)) with (st_next_ip s). destruct Hi as [A|[A|A]]; auto.
  - apply nodup_owners_rekey. exact Ho.
  - apply nodup_retrans_rekey; assumption.
  - intros t H. unfold rekey, set_sched in H. cbn [st_timers] in H.
    apply in_app_or in H as [H|H]; [|apply in_app_or in H as [H|H]].
    + apply in_map_iff in H as [r [<- H]]. left. apply Hnew. exact H.
    + destruct o as [w|]; [|contradiction]. apply in_deadlines in H as [e [[<-|[]] Hdl]]. eapply Ho'; eauto.
    + destruct (Ht t H) as [A|[A B]]; auto.
Qed.

Lemma sat_add_ge now t : now <= u64_max -> now <= sat_add now t.
Proof. unfold sat_add. intros H. apply N.min_glb; lia. Qed.

Lemma sat_add_eq now t : now < u64_max -> sat_add now t = now -> t = 0.
Proof.
  unfold sat_add. intros H E.
  destruct (N.min_spec (now + t) u64_max) as [[_ E1]|[_ E1]]; rewrite E1 in E; lia.
Qed.

Lemma mid_cmd now z s c :
  now < u64_max -> Mid now z s -> c <> CShutdown ->
  Mid now (z || zero_timeout [c]) (fst (fst (exec_cmd now c s))).
Proof.
  intros Hnow M Hc. destruct c as [host nm cache timeout ch|host nm|secs|]; cbn [exec_cmd zero_timeout existsb]; rewrite orb_false_r.
  - rewrite exec_start_eq. cbn [fst]. apply (mid_rekey now z); [exact M | apply one_of_start_new | | |].
    + intros r H. apply in_start_new in H as [-> _]. simpl. split; [apply spec_next_delay_pos|]; lia.
    + (* the deadline now + t of the new search: in the future unless t = 0 *)
      intros w d [= <-] Hd. destruct timeout as [t|]; [|discriminate]. injection Hd as <-.
      destruct (N.eq_dec (sat_add now t) now) as [E|E].
      * right. split; [|exact E]. apply sat_add_eq in E; [|exact Hnow]. subst. apply orb_true_r.
      * left. pose proof (sat_add_ge now t). lia.
    + intros ->. reflexivity.
  - rewrite exec_stop_eq. destruct (lookup _ _); [|exact M]. cbn [fst].
    apply (mid_rekey now z); [exact M | left; reflexivity | intros r [] | discriminate | auto].
  - destruct M as [H1 H2 H3 H4 H5 H6 H7]. constructor; assumption.
  - congruence.
Qed.

Lemma has_shutdown_other c rest : c <> CShutdown -> has_shutdown (c :: rest) = has_shutdown rest.
Proof. intros H. destruct c; try reflexivity. congruence. Qed.

Lemma zero_timeout_cons c cmds : zero_timeout (c :: cmds) = zero_timeout [c] || zero_timeout cmds.
Proof. unfold zero_timeout. simpl. rewrite orb_false_r. reflexivity. Qed.

Lemma run_cmds_ind now (P : list cmd -> state -> result -> Prop) :
  (forall s, P [] s (s, [], [])) ->
  (forall rest s, P (CShutdown :: rest) s (exec_shutdown s)) ->
  (forall c rest s s1 p1 e1 s2 p2 e2, c <> CShutdown ->
     exec_cmd now c s = (s1, p1, e1) -> run_cmds now rest s1 = (s2, p2, e2) ->
     P rest s1 (s2, p2, e2) -> P (c :: rest) s (s2, p1 ++ p2, e1 ++ e2)) ->
  forall cmds s, P cmds s (run_cmds now cmds s).
Proof.
  intros H0 HX HS. induction cmds as [|c rest IH]; intros s; [apply H0|].
  cbn [run_cmds]. destruct (exec_cmd now c s) as [[s1 p1] e1] eqn:E1.
  specialize (IH s1). destruct (run_cmds now rest s1) as [[s2 p2] e2] eqn:E2.
  destruct c; try (eapply HS; eauto; discriminate).
  cbn in E1. rewrite <- E1. apply HX.
Qed.

Lemma run_cmds_inv now (P : state -> Prop) (Q : cmd -> Prop) :
  (forall c s, Q c -> c <> CShutdown -> P s -> P (fst (fst (exec_cmd now c s)))) ->
  forall cmds s, Forall Q cmds -> has_shutdown cmds = false -> P s -> P (fst (fst (run_cmds now cmds s))).
Proof.
  intros Hstep cmds s. pattern cmds, s, (run_cmds now cmds s). apply run_cmds_ind; clear cmds s.
  - auto.
  - discriminate.
  - intros c rest s s1 p1 e1 s2 p2 e2 Hc E1 _ IH HQ HS Hs. rewrite has_shutdown_other in HS by exact Hc.
    inversion HQ as [|c' rest' Q1 Q2]; subst. apply IH; [exact Q2 | exact HS|].
    specialize (Hstep c s Q1 Hc Hs). rewrite E1 in Hstep. exact Hstep.
Qed.

Lemma alive_exec_cmd now c s :
  st_alive (fst (fst (exec_cmd now c s))) = match c with CShutdown => false | _ => st_alive s end.
Proof.
  destruct c as [host nm cache timeout ch|host nm|secs|]; cbn [exec_cmd]; try reflexivity.
  - rewrite exec_start_eq. reflexivity.
  - rewrite exec_stop_eq. destruct (lookup _ _); reflexivity.
Qed.

Lemma alive_run_cmds now cmds s :
  st_alive s = true -> st_alive (fst (fst (run_cmds now cmds s))) = negb (has_shutdown cmds).
Proof.
  pattern cmds, s, (run_cmds now cmds s). apply run_cmds_ind; clear cmds s.
  - auto.
  - reflexivity.
  - intros c rest s s1 p1 e1 s2 p2 e2 Hc E1 _ IH A. rewrite has_shutdown_other by exact Hc.
    pose proof (alive_exec_cmd now c s) as A1. rewrite E1 in A1. cbn [fst] in A1.
    apply IH. rewrite A1. destruct c; congruence.
Qed.

(* `now < u64_max` is needed only by a start call (its deadline now + timeout must not saturate below
   now); an iteration without commands needs no bound, and the silent schedule of C19, whose
   wake-up times are not bounded by anything, consists of such iterations *)
Lemma mid_cmds now cmds s : forall z,
  (cmds = [] \/ now < u64_max) -> has_shutdown cmds = false -> Mid now z s ->
  Mid now (z || zero_timeout cmds) (fst (fst (run_cmds now cmds s))).
Proof.
  pattern cmds, s, (run_cmds now cmds s). apply run_cmds_ind; clear cmds s.
  - intros s z _ _ M. rewrite orb_false_r. exact M.
  - discriminate.
  - intros c rest s s1 p1 e1 s2 p2 e2 Hc E1 _ IH z [Hnow|Hnow] HS M; [discriminate|].
    rewrite has_shutdown_other in HS by exact Hc. rewrite zero_timeout_cons, orb_assoc.
    apply IH; [right; exact Hnow | exact HS|].
    pose proof (mid_cmd now z s c Hnow M Hc) as M1. rewrite E1 in M1. exact M1.
Qed.

(* the second conjunct is there for the induction only *)
Lemma nodup_partition_map {A B} (f : A -> B) (P : A -> bool) (g : A -> list A) (l : list A) :
  (forall x y, In y (g x) -> f y = f x) ->
  (forall x, g x = [] \/ exists y, g x = [y]) ->
  NoDup (map f l) ->
  NoDup (map f (filter (fun x => negb (P x)) l ++ flat_map g (filter P l)))
  /\ (forall b, In b (map f (filter (fun x => negb (P x)) l ++ flat_map g (filter P l))) -> In b (map f l)).
Proof.
  intros Hf Hg. induction l as [|x t IH]; simpl; intros ND.
  - split; [constructor | tauto].
  - inversion ND as [|y ys Hn ND']; subst. destruct (IH ND') as [IH1 IH2].
    destruct (P x) eqn:EP; simpl.
    + destruct (Hg x) as [E|[y E]]; rewrite E; simpl.
      * split; [exact IH1 | intros b Hb; right; apply IH2; exact Hb].
      * assert (Hy : f y = f x) by (apply Hf; rewrite E; left; reflexivity).
        rewrite map_app in *. simpl.
        split.
        { apply (NoDup_Add (a := f y) (l := map f (filter (fun x0 => negb (P x0)) t) ++ map f (flat_map g (filter P t)))).
          - apply Add_app.
          - split; [exact IH1|]. rewrite Hy. intros Hb. apply Hn. apply IH2. exact Hb. }
        { intros b Hb. apply in_app_or in Hb as [Hb|[Hb|Hb]].
          - right. apply IH2. apply in_or_app. left. exact Hb.
          - left. congruence.
          - right. apply IH2. apply in_or_app. right. exact Hb. }
    + split.
      * constructor; [|exact IH1]. intros Hb. apply Hn. apply IH2. exact Hb.
      * intros b [Hb|Hb]; [left; exact Hb | right; apply IH2; exact Hb].
Qed.

Lemma flat_map_filter {A B} (g : A -> list B) (Q : A -> bool) l :
  flat_map g (filter Q l) = flat_map (fun x => if Q x then g x else []) l.
Proof.
  induction l as [|x t IH]; simpl; [reflexivity|]. destruct (Q x); simpl; rewrite IH; reflexivity.
Qed.

Lemma in_rerun_new now owners l r :
  In r (flat_map (rerun_one now owners) (filter (rerun_live owners) (filter (due now) l))) ->
  exists r0, In r0 l /\ due now r0 = true /\ rerun_live owners r0 = true /\ In r (rerun_one now owners r0).
Proof.
  intros H. apply in_flat_map in H as [r0 [H0 H]]. apply filter_In in H0 as [H0 HL].
  apply filter_In in H0 as [H0 HD]. exists r0. auto.
Qed.

Lemma ip_phase_cases now s :
  (st_ip_ival s = 0
   /\ ip_phase now s = mkState (st_clock s) (st_timers s) (st_retrans s) (st_owners s) 0 (st_ip_ival s) (st_alive s))
  \/ (st_ip_ival s <> 0 /\ (st_next_ip s = 0 \/ st_next_ip s <= now)
      /\ ip_phase now s = mkState (st_clock s) (now + st_ip_ival s :: st_timers s) (st_retrans s) (st_owners s)
                                  (now + st_ip_ival s) (st_ip_ival s) (st_alive s))
  \/ (st_ip_ival s <> 0 /\ now < st_next_ip s /\ ip_phase now s = s).
Proof.
  unfold ip_phase, ip_check_rearm_time, ip_check_next_time.
  rewrite ip_check_disabled_pinned, ip_check_unarmed_pinned, ip_check_due_pinned.
  destruct (st_ip_ival s =? 0) eqn:E0; [left; apply N.eqb_eq in E0; auto|]. apply N.eqb_neq in E0. right.
  destruct (st_next_ip s =? 0) eqn:E1; [left; apply N.eqb_eq in E1; auto|].
  destruct (st_next_ip s <=? now) eqn:E2; [left; apply N.leb_le in E2; auto|].
  right. apply N.leb_gt in E2. auto.
Qed.

Lemma ip_phase_frame now s :
  st_clock (ip_phase now s) = st_clock s /\ st_retrans (ip_phase now s) = st_retrans s
  /\ st_owners (ip_phase now s) = st_owners s /\ st_alive (ip_phase now s) = st_alive s
  /\ st_ip_ival (ip_phase now s) = st_ip_ival s
  /\ (forall t, In t (st_timers s) -> In t (st_timers (ip_phase now s))).
Proof.
  destruct (ip_phase_cases now s) as [[_ ->]|[[_ [_ ->]]|[_ [_ ->]]]]; simpl; auto 10.
Qed.

Lemma ip_phase_step now s :
  (st_next_ip (ip_phase now s), st_ip_ival (ip_phase now s)) = ip_step now [] (st_next_ip s, st_ip_ival s).
Proof.
  unfold ip_phase, ip_check_rearm_time, ip_check_next_time.
  rewrite ip_check_disabled_pinned, ip_check_unarmed_pinned, ip_check_due_pinned. unfold ip_step.
  cbn [fst snd ip_cmds fold_left].
  destruct (st_ip_ival s =? 0); [reflexivity|]. destruct (st_next_ip s =? 0); [reflexivity|].
  destruct (st_next_ip s <=? now); reflexivity.
Qed.

Lemma mid_rerun now z s :
  Mid now z s ->
  let s3 := fst (fst (rerun_phase now s)) in
  Mid now z s3 /\ forall r, In r (st_retrans s3) -> now < r_time r.
Proof.
  intros [Hc Hr Hd Hi Ho H1 Ht]. cbv zeta.
  set (new := flat_map (rerun_one now (st_owners s))
                       (filter (rerun_live (st_owners s)) (filter (due now) (st_retrans s)))).
  assert (Hnew : forall r, In r new -> 1 <= r_delay r /\ now < r_time r).
  { intros r H. apply in_rerun_new in H as [r0 [H0 [_ [_ H]]]]. apply in_requeue in H as [-> _]. simpl.
    destruct (Hr r0 H0) as [A _]. split; [apply spec_next_delay_pos; exact A | lia]. }
  split; [constructor|]; cbn [rerun_phase fst set_sched st_clock st_timers st_retrans st_owners st_next_ip]; fold new.
  - exact Hc.
  - intros r H. apply in_app_or in H as [H|H].
    + apply filter_In in H as [H _]. destruct (Hr r H) as [A B]. split; [exact A|].
      intros L. apply in_or_app. right. auto.
    + split; [apply Hnew; exact H|]. intros _. apply in_or_app. left. apply in_map. exact H.
  - intros d H. apply in_or_app. right. auto.
  - destruct Hi as [A|[A|A]]; auto. right. right. apply in_or_app. right. exact A.
  - exact Ho.
  - unfold new. rewrite flat_map_filter.
    apply (nodup_partition_map rkey (due now)
             (fun x => if rerun_live (st_owners s) x then rerun_one now (st_owners s) x else []) (st_retrans s)).
    + intros x y H. destruct (rerun_live (st_owners s) x); [|contradiction]. apply in_requeue in H as [-> _]. reflexivity.
    + intros x. destruct (rerun_live (st_owners s) x); [|left; reflexivity].
      destruct (one_of_requeue now (st_owners s) (r_host x) (r_name x) (r_delay x) (r_ch x)) as [E|[y [E _]]]; eauto.
    + exact H1.
  - intros t H. apply in_app_or in H as [H|H]; [|auto].
    apply in_map_iff in H as [r [<- H]]. left. apply Hnew. exact H.
  - intros r H. apply in_app_or in H as [H|H]; [|apply Hnew; exact H].
    apply filter_In in H as [_ H]. unfold due in H. apply negb_true_iff, N.leb_gt in H. exact H.
Qed.

Lemma mid_close now z s :
  Mid now z s -> (forall r, In r (st_retrans s) -> now < r_time r) ->
  Inv (ip_phase now s) /\ st_clock (ip_phase now s) = now
  /\ forall t, In t (st_timers (ip_phase now s)) -> now < t \/ (z = true /\ t = now).
Proof.
  intros [Hc Hr Hd Hi Ho H1 Ht] Hnd.
  assert (Hret : forall timers, (forall t, In t (st_timers s) -> In t timers) ->
                 forall r, In r (st_retrans s) -> retr_inv now timers r).
  { intros timers Hs r H. destruct (Hr r H) as [A B]. specialize (Hnd r H). repeat split; auto. }
  destruct (ip_phase_cases now s) as [[E ->]|[[E [C ->]]|[E [C ->]]]].
  - split; [|auto]. constructor; cbn [st_retrans st_clock st_timers st_owners st_next_ip st_ip_ival]; rewrite ?Hc; auto.
    split; [reflexivity | contradiction].
  - split; [|split; [exact Hc|]].
    + constructor; cbn [st_retrans st_clock st_timers st_owners st_next_ip st_ip_ival]; rewrite ?Hc; auto.
      * apply Hret. intros t H. right. exact H.
      * intros d H. right. auto.
      * split; [contradiction|]. intros _. split; [lia | left; reflexivity].
    + intros t [<-|H]; [left; lia | auto].
  - split; [|auto]. constructor; rewrite ?Hc; auto.
    split; [contradiction|]. intros _. split; [exact C|]. destruct Hi as [A|[A|A]]; [lia | lia | exact A].
Qed.

Lemma iterate_no_exit s it :
  has_shutdown (i_cmds it) = false ->
  let now := i_now it in
  let r2 := run_cmds now (i_cmds it) (timeout_phase now s) in
  let r3 := rerun_phase now (fst (fst r2)) in
  let s4 := ip_phase now (fst (fst r3)) in
  iterate s it = (s4, mkOut now (snd (fst r2) ++ snd (fst r3))
                    (timeout_events now (st_owners s) ++ snd r2 ++ snd r3 ++ closed_events s (i_cmds it) s4)
                    (min_list (st_timers s4)) false).
Proof.
  intros HS. cbv zeta. unfold iterate.
  pose proof (alive_run_cmds (i_now it) (i_cmds it) (timeout_phase (i_now it) s) eq_refl) as A.
  destruct (run_cmds _ _ _) as [[s2 p] e]. cbn [fst snd] in *. rewrite A, HS. cbn [negb].
  destruct (rerun_phase _ s2) as [[s3 p3] e3]. reflexivity.
Qed.

Lemma iterate_exit s it :
  has_shutdown (i_cmds it) = true ->
  let now := i_now it in
  let r2 := run_cmds now (i_cmds it) (timeout_phase now s) in
  iterate s it = (fst (fst r2), mkOut now (snd (fst r2))
                    (timeout_events now (st_owners s) ++ snd r2 ++ closed_events s (i_cmds it) (fst (fst r2))) None true).
Proof.
  intros HS. cbv zeta. unfold iterate.
  pose proof (alive_run_cmds (i_now it) (i_cmds it) (timeout_phase (i_now it) s) eq_refl) as A.
  destruct (run_cmds _ _ _) as [[s2 p] e]. cbn [fst snd] in *. rewrite A, HS. reflexivity.
Qed.

Lemma iterate_state s it :
  has_shutdown (i_cmds it) = false ->
  fst (iterate s it)
  = ip_phase (i_now it) (fst (fst (rerun_phase (i_now it)
      (fst (fst (run_cmds (i_now it) (i_cmds it) (timeout_phase (i_now it) s))))))).
Proof. intros HS. rewrite (iterate_no_exit s it HS). reflexivity. Qed.

Lemma iterate_shape s it :
  o_now (snd (iterate s it)) = i_now it
  /\ o_exited (snd (iterate s it)) = has_shutdown (i_cmds it)
  /\ st_alive (fst (iterate s it)) = negb (has_shutdown (i_cmds it)).
Proof.
  destruct (has_shutdown (i_cmds it)) eqn:HS.
  - rewrite (iterate_exit s it HS). cbn [fst snd o_now o_exited].
    rewrite alive_run_cmds, HS by reflexivity. auto.
  - rewrite (iterate_no_exit s it HS). cbn [fst snd o_now o_exited].
    destruct (ip_phase_frame (i_now it) (fst (fst (rerun_phase (i_now it)
               (fst (fst (run_cmds (i_now it) (i_cmds it) (timeout_phase (i_now it) s)))))))) as [_ [_ [_ [F4 _]]]].
    rewrite F4. cbn. rewrite alive_run_cmds, HS by reflexivity. auto.
Qed.

Lemma alive_no_exit s it : st_alive (fst (iterate s it)) = true -> has_shutdown (i_cmds it) = false.
Proof.
  intros A. destruct (iterate_shape s it) as [_ [_ AL]]. rewrite A in AL.
  destruct (has_shutdown (i_cmds it)); [discriminate | reflexivity].
Qed.

Lemma iterate_step s it :
  Inv s -> (i_cmds it = [] \/ i_now it < u64_max) -> has_shutdown (i_cmds it) = false ->
  Inv (fst (iterate s it)) /\ st_clock (fst (iterate s it)) = i_now it
  /\ forall t, In t (st_timers (fst (iterate s it))) ->
               i_now it < t \/ (zero_timeout (i_cmds it) = true /\ t = i_now it).
Proof.
  intros I Hnow HS. rewrite (iterate_state s it HS).
  destruct (mid_rerun _ _ _ (mid_cmds _ _ _ false Hnow HS (inv_mid s _ I))) as [M3 ND3].
  exact (mid_close _ _ _ M3 ND3).
Qed.

Lemma o_wake_min s it :
  has_shutdown (i_cmds it) = false ->
  o_wake (snd (iterate s it)) = min_list (st_timers (fst (iterate s it))).
Proof. intros HS. rewrite (iterate_no_exit s it HS). reflexivity. Qed.

Lemma iterate_wake s it :
  Inv s -> (i_cmds it = [] \/ i_now it < u64_max) ->
  forall w, o_wake (snd (iterate s it)) = Some w ->
            i_now it < w \/ (zero_timeout (i_cmds it) = true /\ w = i_now it).
Proof.
  intros I Hnow w. destruct (has_shutdown (i_cmds it)) eqn:HS.
  - rewrite (iterate_exit s it HS). discriminate.
  - destruct (iterate_step s it I Hnow HS) as [_ [_ TF]]. rewrite (o_wake_min s it HS).
    intros Hw. apply TF. apply min_list_In. exact Hw.
Qed.

Lemma final_exited s h : st_alive s = false -> final s h = s.
Proof. destruct h; simpl; [reflexivity|]. intros ->. reflexivity. Qed.

Lemma final_cons s it h : st_alive s = true -> final s (it :: h) = final (fst (iterate s it)) h.
Proof. intros A. simpl. rewrite A. reflexivity. Qed.

Lemma run_exited s h : st_alive s = false -> run s h = [].
Proof. destruct h; simpl; [reflexivity|]. intros ->. reflexivity. Qed.

Lemma run_cons s it h :
  st_alive s = true -> run s (it :: h) = snd (iterate s it) :: run (fst (iterate s it)) h.
Proof. intros A. simpl. rewrite A. destruct (iterate s it). reflexivity. Qed.

Lemma final_ind (P : state -> Prop) (Q : iter -> Prop) :
  (forall s it, P s -> Q it -> has_shutdown (i_cmds it) = false -> P (fst (iterate s it))) ->
  forall h s, P s -> Forall Q h -> st_alive (final s h) = true -> P (final s h).
Proof.
  intros Hstep. induction h as [|it h IH]; intros s Hs HQ A; [exact Hs|].
  destruct (st_alive s) eqn:As; [|rewrite final_exited in A by exact As; congruence].
  rewrite final_cons in * by exact As. inversion HQ as [|x xs Q1 Q2]; subst.
  destruct (iterate_shape s it) as [_ [_ AL]].
  destruct (has_shutdown (i_cmds it)) eqn:HS.
  - simpl in AL. rewrite final_exited in A by exact AL. congruence.
  - apply IH; auto.
Qed.

(* C12 wake_covers_work, on states: every pending piece of time-driven work has a timer at
   its due time, so the requested wake-up (the earliest timer) is no later than any of them *)
Lemma due_work_covered s :
  Inv s -> forall d, In d (due_work s) ->
  In d (st_timers s) /\ exists w, min_list (st_timers s) = Some w /\ w <= d.
Proof.
  intros [Hr Hd [Hi0 Hi1] Ho H1] d H.
  assert (Ht : In d (st_timers s)).
  { unfold due_work in H. apply in_app_or in H as [H|H]; [|apply in_app_or in H as [H|H]].
    - apply in_map_iff in H as [r [E H]]. subst d. apply (Hr r H).
    - auto.
    - rewrite ip_check_disabled_pinned in H. destruct (st_ip_ival s =? 0) eqn:E; [contradiction|].
      destruct H as [H|[]]. subst d. apply N.eqb_neq in E. apply (Hi1 E). }
  split; [exact Ht|]. pose proof (min_list_spec (st_timers s)) as M. destruct (min_list (st_timers s)) as [w|].
  - exists w. split; [reflexivity|]. apply M. exact Ht.
  - rewrite M in Ht. contradiction.
Qed.
