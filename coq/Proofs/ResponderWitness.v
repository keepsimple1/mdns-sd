(* Concrete inputs for the examples of Props/C06.v (each is also replayed on the implementation,
   corpus/C06.cases): one for each way the code deviates from the text, inputs on which the two
   agree where that is easy to get wrong, and a non-vacuity example. *)
From Coq Require Import List NArith String Ascii.
From Mdns Require Import Bytes Rec Intf Responder ResponderSpec.
Import ListNotations.
Open Scope N_scope.

Definition b (s : string) : bytes := map (fun c => N.of_nat (nat_of_ascii c)) (list_ascii_of_string s).

(* eth0 (index 2): 192.168.1.10/24 and fd00:1::10/64 *)
Definition ip4 (a b c d : N) : ip := V4 (((a * 256 + b) * 256 + c) * 256 + d).
Definition w_v6 : ip := V6 (N.shiftl 64768 112 + N.shiftl 1 96 + 16).        (* fd00:1::10 *)
Definition w_intf : myintf :=
  mkMyIntf (b "eth0") 2
    [mkIfAddr (ip4 192 168 1 10) (N.shiftl (N.ones 24) 8); mkIfAddr w_v6 (N.shiftl (N.ones 64) 64)].

Definition w_svc (ty : string) (sub : option string) (inst host : string) (addrs : list ip) (port : N) : entry :=
  let full := b (inst ++ "." ++ ty)%string in
  mkEntry (lower full)
    (mkService (b ty) (option_map b sub) full (b host) addrs port 120 4500 0 0 [0])
    Announced.

Definition w_query (id : N) (qs : list (string * N)) (known : list rr) : msg :=
  mkMsg id 0 (N.of_nat (List.length qs)) (N.of_nat (List.length known)) 0 0
        (map (fun q => mkQ (b (fst q)) (snd q) 1 false) qs) known [] [].

Definition peer4 : ip := ip4 192 168 1 99.

Definition http := "_http._tcp.local."%string.
Definition svc1 := w_svc http None "MyInst" "MyHost.local." [ip4 192 168 1 10] 8080.
Definition svc2 := w_svc http None "Other" "host2.local." [ip4 192 168 1 10] 81.

(* two services of one type under the meta query: the type is listed once
   (C06_meta_query_lists_type_once) *)
Definition w_meta_dup : hq_input :=
  mkHq [svc1; svc2] [] w_intf (w_query 0 [("_services._dns-sd._udp.local."%string, 12)] []) peer4 5353.

(* subtype question: answered with the type PTR, the subtype PTR is only an additional; the text
   wants the subtype PTR as the answer (C06_subtype_answer_refuted) *)
Definition svc_sub := w_svc http (Some "_printer._sub._http._tcp.local."%string) "MyInst" "MyHost.local."
                            [ip4 192 168 1 10] 8080.
Definition w_sub_answer : hq_input :=
  mkHq [svc_sub] [] w_intf (w_query 0 [("_printer._sub._http._tcp.local."%string, 12)] []) peer4 5353.

(* dual-stack service asked over IPv4: the AAAA record of the same link is not among the additionals
   (C06_transport_family_additionals_refuted) *)
Definition svc_dual := w_svc http None "MyInst" "MyHost.local." [ip4 192 168 1 10; w_v6] 8080.
Definition w_family : hq_input :=
  mkHq [svc_dual] [] w_intf (w_query 0 [(http, 12)] []) peer4 5353.

(* IPv6-only service asked over IPv4 on a dual-stack interface: silence
   (C06_transport_family_silence_refuted) *)
Definition svc_v6only := w_svc http None "MyInst" "MyHost.local." [w_v6] 8080.
Definition w_family_silent : hq_input :=
  mkHq [svc_v6only] [] w_intf (w_query 0 [(http, 12)] []) peer4 5353.

(* host renamed after a conflict: the direct SRV answer points to the new host name
   (C06_srv_target_after_rename) *)
Definition w_srv_old_host : hq_input :=
  mkHq [svc1] [(b "MyHost.local.", b "MyHost-2.local.")] w_intf
       (w_query 0 [("MyInst._http._tcp.local."%string, 33)] []) peer4 5353.

(* mixed-case instance renamed after a conflict: a question for the new name is answered
   (C06_renamed_mixed_case_instance_answered) ... *)
Definition w_nc_inst := [(b "MyInst._http._tcp.local.", b "MyInst (2)._http._tcp.local.")].
Definition w_lookup_lower : hq_input :=
  mkHq [svc1] w_nc_inst w_intf (w_query 0 [("MyInst (2)._http._tcp.local."%string, 33)] []) peer4 5353.
(* ... and one for the name the daemon lost is not (C06_lost_name_not_answered) *)
Definition w_lookup_lower_old : hq_input :=
  mkHq [svc1] w_nc_inst w_intf (w_query 0 [("MyInst._http._tcp.local."%string, 16)] []) peer4 5353.

(* legacy unicast: the response carries the id of the query (C06_legacy_id_echoed) *)
Definition w_legacy_id : hq_input :=
  mkHq [svc1] [] w_intf (w_query 4660 [("myhost.local."%string, 1)] []) peer4 40000.

(* the text with deviation n alone: 1 = subtype answer, 2 = transport family *)
Definition only (n : nat) : quirks := mkQuirks (Nat.eqb n 1) (Nat.eqb n 2).

Definition refutes (n : nat) (w : hq_input) : bool :=
  wf_input w && negb (chk_C06 w (handle_query w)) && explained_by (only n) w (handle_query w).

Definition passes (w : hq_input) : bool := wf_input w && chk_C06 w (handle_query w).

(* non-vacuity: two services (one with a subtype, both with mixed-case names), a query with four
   questions in other spellings and two known answers at exactly half the TTL (not suppressing),
   from port 5353 over IPv4: well-formed, outside every deviation class, and answered. *)
Definition svc_a := w_svc "_ipp._tcp.local." (Some "_S1._sub._ipp._tcp.local."%string) "Printer One" "SRV-box.local."
                          [ip4 192 168 1 10; ip4 203 0 113 5] 631.
Definition w_clean : hq_input :=
  mkHq [svc1; svc_a] [] w_intf
       (w_query 0 [(http, 12); ("printer one._IPP._tcp.LOCAL."%string, 255); ("srv-BOX.local."%string, 255);
                   ("_services._dns-sd._udp.local."%string, 12)]
                [mkRR (b http) 12 1 false 2250 (RPtr (b "MyInst._http._tcp.local.")); mkRR (b "SRV-box.local.") 1 1 true 60 (RAddr [192;168;1;10])])
       peer4 5353.

