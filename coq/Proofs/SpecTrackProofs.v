(* The "spec cache" that chk_C04 / chk_C05 (Model/BrowserSpec.v) replay from the history IS the
   model's cache: after every iteration of every history the two agree on every record - name,
   type, class, cache-flush bit, TTL, rdata, created, expires, interface - in the same buckets
   and order, and on the browsed types; they may differ in the refresh marks only (the checkers
   do not replay refresh_active_services).  So the liveness judgements of the checkers
   (alive_strong / alive_weak / death_time, which read only those fields) are judgements
   about the state of the model. *)
From Coq Require Import List NArith Bool.
From Mdns Require Import Bytes Rec ParamsBrowser Cache Browser C03Spec BrowserSpec CacheProofs.
From Mdns Require Import BrowserLoopProofs.
Import ListNotations.
Open Scope N_scope.

Definition eqr (e e' : entry) : Prop :=
  e_rr e = e_rr e' /\ e_created e = e_created e' /\ e_expires e = e_expires e' /\ e_if e = e_if e'.

Definition beqr (b b' : bucket) : Prop := Forall2 eqr b b'.
Definition meqr (m m' : bmap) : Prop :=
  Forall2 (fun kb kb' => fst kb = fst kb' /\ beqr (snd kb) (snd kb')) m m'.
Definition ceqr (c c' : cache) : Prop :=
  meqr (c_ptr c) (c_ptr c') /\ meqr (c_srv c) (c_srv c') /\ meqr (c_txt c) (c_txt c')
  /\ meqr (c_addr c) (c_addr c') /\ meqr (c_nsec c) (c_nsec c') /\ c_sub c = c_sub c'.

Lemma eqr_refl e : eqr e e.
Proof. repeat split. Qed.
Lemma beqr_refl b : beqr b b.
Proof. induction b; constructor; auto using eqr_refl. Qed.
Lemma meqr_refl m : meqr m m.
Proof. induction m; constructor; auto using beqr_refl. Qed.
Lemma ceqr_refl c : ceqr c c.
Proof. repeat split; apply meqr_refl. Qed.

Lemma eqr_trans a b c : eqr a b -> eqr b c -> eqr a c.
Proof. intros (A1 & A2 & A3 & A4) (B1 & B2 & B3 & B4). repeat split; congruence. Qed.
Lemma beqr_trans a : forall b c, beqr a b -> beqr b c -> beqr a c.
Proof.
  induction a as [|x a IH]; intros b c H1 H2.
  - inversion H1; subst. inversion H2; subst. constructor.
  - inversion H1 as [|? y ? b' Hxy Hab]; subst. inversion H2 as [|? z ? c' Hyz Hbc]; subst.
    constructor; [eapply eqr_trans; eauto|eapply IH; eauto].
Qed.
Lemma meqr_trans a : forall b c, meqr a b -> meqr b c -> meqr a c.
Proof.
  induction a as [|x a IH]; intros b c H1 H2.
  - inversion H1; subst. inversion H2; subst. constructor.
  - inversion H1 as [|? y ? b' [Hk1 Hb1] Hab]; subst. inversion H2 as [|? z ? c' [Hk2 Hb2] Hbc]; subst.
    constructor; [split; [congruence|eapply beqr_trans; eauto]|eapply IH; eauto].
Qed.
Lemma ceqr_trans a b c : ceqr a b -> ceqr b c -> ceqr a c.
Proof.
  intros (A1 & A2 & A3 & A4 & A5 & A6) (B1 & B2 & B3 & B4 & B5 & B6).
  repeat split; try (eapply meqr_trans; eauto). congruence.
Qed.

Lemma eqr_sym a b : eqr a b -> eqr b a.
Proof. intros (A & B & C & D). repeat split; auto. Qed.
Lemma beqr_sym a b : beqr a b -> beqr b a.
Proof. intros H. induction H; constructor; auto using eqr_sym. Qed.
Lemma meqr_sym a b : meqr a b -> meqr b a.
Proof. intros H. induction H as [|? ? ? ? [Hk Hb] H IH]; constructor; auto using beqr_sym. Qed.
Lemma ceqr_sym a b : ceqr a b -> ceqr b a.
Proof. intros (A1 & A2 & A3 & A4 & A5 & A6). repeat split; auto using meqr_sym. Qed.

Lemma eqr_is_expired e e' now : eqr e e' -> is_expired e now = is_expired e' now.
Proof. intros (_ & _ & H & _). unfold is_expired. now rewrite H. Qed.

Lemma eqr_matches e e' r i : eqr e e' -> entry_matches e r i = entry_matches e' r i.
Proof. intros (H1 & _ & _ & H4). unfold entry_matches. now rewrite H1, H4. Qed.

Lemma beqr_live_only now b b' : beqr b b' -> beqr (live_only now b) (live_only now b').
Proof.
  intros H. induction H; simpl; [constructor|]. rewrite (eqr_is_expired _ _ now H).
  destruct (negb (is_expired y now)); [constructor|]; auto.
Qed.

Lemma beqr_nil_l b' : beqr [] b' -> b' = [].
Proof. intros H. inversion H. reflexivity. Qed.
Lemma beqr_is_nil b b' : beqr b b' -> match b with [] => true | _ => false end = match b' with [] => true | _ => false end.
Proof. intros H. inversion H; reflexivity. Qed.

Lemma meqr_get k m m' : meqr m m' ->
  match bm_get k m, bm_get k m' with
  | Some b, Some b' => beqr b b'
  | None, None => True
  | _, _ => False
  end.
Proof.
  intros H. induction H as [|[k1 b1] [k2 b2] t t' [Hk Hb] H IH]; simpl; [exact I|].
  simpl in Hk, Hb. subst k2. destruct (beq k k1); [exact Hb|exact IH].
Qed.

Lemma meqr_set k b b' m m' : beqr b b' -> meqr m m' -> meqr (bm_set k b m) (bm_set k b' m').
Proof.
  intros Hb H. induction H as [|[k1 b1] [k2 b2] t t' [Hk Hb1] H IH]; simpl.
  - constructor; [split; auto|constructor].
  - simpl in Hk, Hb1. subst k2. destruct (beq k k1); constructor; auto.
Qed.

Lemma meqr_set_same k b b' m : bm_get k m = Some b -> beqr b b' -> meqr m (bm_set k b' m).
Proof.
  induction m as [|[k1 b1] t IH]; simpl; [discriminate|].
  destruct (beq k k1).
  - intros H Hb. inversion H; subst. constructor; [split; [reflexivity|exact Hb]|apply meqr_refl].
  - intros H Hb. constructor; [split; [reflexivity|apply beqr_refl]|apply IH; assumption].
Qed.

Lemma meqr_remove k m m' : meqr m m' -> meqr (bm_remove k m) (bm_remove k m').
Proof.
  intros H. induction H as [|[k1 b1] [k2 b2] t t' [Hk Hb1] H IH]; simpl; [constructor|].
  simpl in Hk, Hb1. subst k2. destruct (beq k k1); [assumption|constructor; auto].
Qed.

Lemma meqr_sweep now m m' : meqr m m' -> meqr (sweep now m) (sweep now m').
Proof.
  intros H. unfold sweep. induction H as [|[k1 b1] [k2 b2] t t' [Hk Hb1] H IH]; simpl; [constructor|].
  simpl in Hk, Hb1. subst k2. pose proof (beqr_live_only now _ _ Hb1) as Hl.
  inversion Hl as [Ha Hb|x y l l' Hxy Hll Ha Hb]; simpl; [assumption|].
  constructor; [split; [reflexivity|]|assumption]. simpl. constructor; assumption.
Qed.

Lemma get_set_map_eqr c c' k m m' :
  ceqr c c' -> meqr m m' -> ceqr (set_map c k m) (set_map c' k m').
Proof. intros (A1 & A2 & A3 & A4 & A5 & A6) H. destruct k; repeat split; assumption. Qed.

Lemma ceqr_get_map c c' k : ceqr c c' -> meqr (get_map c k) (get_map c' k).
Proof. intros (A1 & A2 & A3 & A4 & A5 & A6). destruct k; assumption. Qed.

Lemma eqr_flush_one r ifx now e e' : eqr e e' -> eqr (flush_one r ifx now e) (flush_one r ifx now e').
Proof.
  intros (H1 & H2 & H3 & H4). unfold flush_one, e_type. rewrite H1, H2, H3, H4.
  match goal with |- context [if ?c then _ else _] => destruct c end; repeat split; simpl; auto.
Qed.

Lemma eqr_reset e e' r now : eqr e e' -> reset_ttl e r now = reset_ttl e' r now.
Proof. intros (H1 & _ & _ & H4). unfold reset_ttl. now rewrite H1, H4. Qed.

Lemma beqr_update_first r ifx now b b' : beqr b b' ->
  match update_first b r ifx now, update_first b' r ifx now with
  | Some (b2, x), Some (b2', x') => beqr b2 b2' /\ x = x'
  | None, None => True
  | _, _ => False
  end.
Proof.
  intros H. induction H as [|e e' t t' He H IH]; simpl; [exact I|].
  rewrite (eqr_matches _ _ r ifx He). destruct (entry_matches e' r ifx).
  - rewrite (eqr_reset _ _ r now He). destruct He as (H1 & _). unfold e_ttl. rewrite H1.
    split; [constructor; [apply eqr_refl|assumption]|reflexivity].
  - destruct (update_first t r ifx now) as [[b2 x]|], (update_first t' r ifx now) as [[b2' x']|]; try contradiction; auto.
    destruct IH as [A B]. split; [constructor; assumption|assumption].
Qed.

Lemma ceqr_note_subtype c c' r fu : ceqr c c' -> ceqr (note_subtype c r fu) (note_subtype c' r fu).
Proof.
  intros H. pose proof H as (A1 & A2 & A3 & A4 & A5 & A6). unfold note_subtype.
  destruct ((r_type r =? TY_PTR) && fu && has_sub_mark (r_name r)); [|assumption].
  destruct (r_data r); try assumption. rewrite A6. destruct (sub_get alias (c_sub c')); [assumption|].
  repeat split; simpl; auto.
Qed.

(* a congruence walk along add_or_update: the same branch is taken on both sides because the
   tests read identity, TTL and expiry only *)
Lemma ceqr_add_or_update c c' now ifx r fu : ceqr c c' ->
  ceqr (fst (add_or_update c now ifx r fu)) (fst (add_or_update c' now ifx r fu))
  /\ match snd (add_or_update c now ifx r fu), snd (add_or_update c' now ifx r fu) with
     | Some (e, f), Some (e', f') => e = e' /\ f = f'
     | None, None => True
     | _, _ => False
     end.
Proof.
  intros H0. pose proof (ceqr_note_subtype c c' r fu H0) as H. unfold add_or_update.
  set (c1 := note_subtype c r fu) in *. set (c1' := note_subtype c' r fu) in *.
  destruct (kind_of_type (r_type r)) as [k|]; [|simpl; auto].
  pose proof (ceqr_get_map _ _ k H) as Hm.
  pose proof (meqr_get (key_of k (r_name r)) _ _ Hm) as Hg.
  destruct (bm_get (key_of k (r_name r)) (get_map c1 k)) as [b|],
           (bm_get (key_of k (r_name r)) (get_map c1' k)) as [b'|]; try contradiction.
  - inversion Hg as [|e e' t t' He Ht]; subst.
    + destruct fu; simpl; (split; [apply get_set_map_eqr; [assumption|apply meqr_set; [|assumption]]|auto]).
      * constructor; [apply eqr_refl|constructor].
      * constructor.
    + set (bb := if r_flush r then map (flush_one r ifx now) (e :: t) else e :: t).
      set (bb' := if r_flush r then map (flush_one r ifx now) (e' :: t') else e' :: t').
      assert (Hbb : beqr bb bb').
      { unfold bb, bb'. destruct (r_flush r); [|assumption].
        clear - Hg. induction Hg; simpl; constructor; auto using eqr_flush_one. }
      pose proof (beqr_update_first r ifx now _ _ Hbb) as Hu.
      destruct (update_first bb r ifx now) as [[b2 [x rv]]|], (update_first bb' r ifx now) as [[b2' [x' rv']]|];
        try contradiction; simpl.
      * destruct Hu as [A B]. inversion B; subst.
        split; [apply get_set_map_eqr; [assumption|apply meqr_set; assumption]|auto].
      * split; [apply get_set_map_eqr; [assumption|apply meqr_set; [|assumption]]|auto].
        constructor; [apply eqr_refl|assumption].
  - destruct fu; simpl; (split; [apply get_set_map_eqr; [assumption|apply meqr_set; [|assumption]]|auto]).
    + constructor; [apply eqr_refl|constructor].
    + constructor.
Qed.

Lemma ceqr_hr_records now ifx q fu rs : forall c c', ceqr c c' ->
  ceqr (fst (fst (hr_records c now ifx q fu rs))) (fst (fst (hr_records c' now ifx q fu rs)))
  /\ snd (hr_records c now ifx q fu rs) = snd (hr_records c' now ifx q fu rs).
Proof.
  induction rs as [|r rest IH]; intros c c' H; simpl; [auto|].
  destruct (ceqr_add_or_update c c' now ifx r fu H) as [H1 H2].
  destruct (add_or_update c now ifx r fu) as [c1 res], (add_or_update c' now ifx r fu) as [c1' res'].
  simpl in H1, H2. destruct (IH _ _ H1) as [H3 H4].
  assert (Hres : res = res').
  { destruct res as [[e f]|], res' as [[e' f']|]; try contradiction; auto. destruct H2; subst; reflexivity. }
  subst res'.
  destruct (hr_records c1 now ifx q fu rest) as [[c2 o2] ch2], (hr_records c1' now ifx q fu rest) as [[c2' o2'] ch2'].
  simpl in *. subst ch2'.
  match goal with |- context [let '(o1, ch1) := ?x in _] => destruct x as [o1 ch1] end. simpl. auto.
Qed.

Lemma meqr_keys m m' : meqr m m' -> map fst m = map fst m'.
Proof. intros H. induction H as [|? ? ? ? [Hk _] H IH]; simpl; [reflexivity|]. now rewrite Hk, IH. Qed.

Lemma srv_expired_eqr now m m' : meqr m m' -> srv_expired_of now m = srv_expired_of now m'.
Proof.
  intros H. unfold srv_expired_of. induction H as [|[k b] [k' b'] t t' [Hk Hb] H IH]; simpl; [reflexivity|].
  simpl in Hk, Hb. subst k'. pose proof (beqr_live_only now _ _ Hb) as Hl.
  rewrite (beqr_is_nil _ _ Hl). destruct (live_only now b'); simpl; now rewrite IH.
Qed.

Lemma beqr_map_filter {A} (F : entry -> A) (P : entry -> bool) b b' :
  (forall e e', eqr e e' -> P e = P e' /\ F e = F e') -> beqr b b' -> map F (filter P b) = map F (filter P b').
Proof.
  intros HPF H. induction H as [|x y l l' Hxy Hl IH]; simpl; [reflexivity|].
  destruct (HPF x y Hxy) as [-> HF]. destruct (P y); simpl; [rewrite HF|]; now rewrite IH.
Qed.

Lemma meqr_map (f : bucket -> bucket) m m' :
  (forall b b', beqr b b' -> beqr (f b) (f b')) -> meqr m m' ->
  meqr (map (fun kb => (fst kb, f (snd kb))) m) (map (fun kb => (fst kb, f (snd kb))) m').
Proof. intros Hf H. induction H as [|? ? ? ? [Hk Hb] H IH]; simpl; constructor; [split; simpl; auto|exact IH]. Qed.

Lemma reported_eqr now se ptr ptr' : meqr ptr ptr' -> flat_map (reported now se) ptr = flat_map (reported now se) ptr'.
Proof.
  intros H. induction H as [|[k b] [k' b'] t t' [Hk Hb] H IH]; simpl; [reflexivity|].
  simpl in Hk, Hb. subst k'. rewrite IH. f_equal. unfold reported. cbn [fst snd]. f_equal.
  - apply beqr_map_filter; [|exact Hb]. intros e e' (H1 & _). now rewrite H1.
  - apply beqr_map_filter; [|exact Hb]. intros e e' He. rewrite (eqr_is_expired _ _ now He). destruct He as (H1 & _). now rewrite H1.
Qed.

Lemma ceqr_evict_services c c' now : ceqr c c' ->
  ceqr (fst (evict_services c now)) (fst (evict_services c' now))
  /\ snd (evict_services c now) = snd (evict_services c' now).
Proof.
  intros (A1 & A2 & A3 & A4 & A5 & A6).
  rewrite !evict_services_cache, !evict_services_report, (srv_expired_eqr now _ _ A2). split.
  - repeat split; simpl; auto using meqr_sweep. apply meqr_map; [apply beqr_live_only|exact A1].
  - now apply reported_eqr.
Qed.

Lemma ceqr_evict_addr c c' now : ceqr c c' ->
  ceqr (fst (evict_addr c now)) (fst (evict_addr c' now)) /\ snd (evict_addr c now) = snd (evict_addr c' now).
Proof.
  intros (A1 & A2 & A3 & A4 & A5 & A6). unfold evict_addr. simpl. split.
  - repeat split; simpl; auto using meqr_sweep.
  - clear - A4. induction A4 as [|[k b] [k' b'] t t' [Hk Hb] H IH]; simpl; [reflexivity|].
    simpl in Hb. rewrite IH. f_equal. apply beqr_map_filter; [|exact Hb].
    intros e e' He. rewrite (eqr_is_expired _ _ now He). destruct He as (H1 & _). unfold e_name. now rewrite H1.
Qed.

Lemma meqr_fold_remove l : forall m m', meqr m m' ->
  meqr (fold_left (fun m i => bm_remove i m) l m) (fold_left (fun m i => bm_remove i m) l m').
Proof. induction l; intros m m' H; simpl; [assumption|]. apply IHl. now apply meqr_remove. Qed.

Lemma meqr_fold_remove_if (still l : list bytes) : forall m m', meqr m m' ->
  meqr (fold_left (fun m h => if mem h still then m else bm_remove h m) l m)
       (fold_left (fun m h => if mem h still then m else bm_remove h m) l m').
Proof.
  induction l as [|h l IH]; intros m m' Hm; simpl; [assumption|].
  apply IH. destruct (mem h still); [assumption|now apply meqr_remove].
Qed.

Lemma beqr_map_rr {A} (f : rr -> A) b b' : beqr b b' -> map (fun e => f (e_rr e)) b = map (fun e => f (e_rr e)) b'.
Proof. intros H. induction H as [|x y l l' (H1 & _) Hl IH]; simpl; [reflexivity|]. now rewrite H1, IH. Qed.

Lemma all_hosts_eqr m m' : meqr m m' -> all_srv_hosts_lower m = all_srv_hosts_lower m'.
Proof.
  intros H. unfold all_srv_hosts_lower. induction H as [|[k b] [k' b'] t t' [Hk Hb] H IH]; simpl; [reflexivity|].
  simpl in Hb. rewrite IH. f_equal. apply (beqr_map_rr (fun r => lower (rr_host r)) _ _ Hb).
Qed.

Lemma ceqr_remove_service_type c c' ty : ceqr c c' -> ceqr (remove_service_type c ty) (remove_service_type c' ty).
Proof.
  intros H. pose proof H as (A1 & A2 & A3 & A4 & A5 & A6). unfold remove_service_type.
  pose proof (meqr_get ty _ _ A1) as Hg.
  destruct (bm_get ty (c_ptr c)) as [ptrs|], (bm_get ty (c_ptr c')) as [ptrs'|]; try contradiction; [|assumption].
  assert (Hi : map (fun p => alias_of (e_rr p)) ptrs = map (fun p => alias_of (e_rr p)) ptrs')
    by apply (beqr_map_rr alias_of _ _ Hg).
  rewrite Hi. set (insts := map (fun p => alias_of (e_rr p)) ptrs').
  assert (Hh : flat_map (fun i => match bm_get i (c_srv c) with Some sb => map (fun e => lower (srv_host e)) sb | None => [] end) insts
             = flat_map (fun i => match bm_get i (c_srv c') with Some sb => map (fun e => lower (srv_host e)) sb | None => [] end) insts).
  { induction insts as [|i l IH]; simpl; [reflexivity|]. rewrite IH. f_equal.
    pose proof (meqr_get i _ _ A2) as Hgi.
    destruct (bm_get i (c_srv c)), (bm_get i (c_srv c')); try contradiction; [|reflexivity].
    apply (beqr_map_rr (fun r => lower (rr_host r)) _ _ Hgi). }
  rewrite Hh. pose proof (meqr_fold_remove insts _ _ A2) as Hs.
  rewrite (all_hosts_eqr _ _ Hs).
  repeat split; simpl; auto using meqr_remove, meqr_fold_remove.
  now apply meqr_fold_remove_if.
Qed.

Lemma eqr_expire_sooner e e' x : eqr e e' -> eqr (expire_sooner e x) (expire_sooner e' x).
Proof.
  intros (H1 & H2 & H3 & H4). unfold expire_sooner. rewrite H3.
  destruct (expire_sooner_guard x (e_expires e')); repeat split; simpl; auto.
Qed.

Lemma beqr_sooner_all at_ b b' : beqr b b' -> beqr (sooner_all at_ b) (sooner_all at_ b').
Proof.
  intros H. destruct at_; simpl; [|assumption]. induction H; simpl; constructor; auto using eqr_expire_sooner.
Qed.

Lemma meqr_verify_addrs at_ : forall srvs srvs' addr addr',
  beqr srvs srvs' -> meqr addr addr' -> meqr (verify_addrs at_ srvs addr) (verify_addrs at_ srvs' addr').
Proof.
  induction srvs as [|s rest IH]; intros srvs' addr addr' Hs Ha; inversion Hs as [|? s' ? rest' Hse Hr]; subst; simpl; [assumption|].
  destruct Hse as (H1 & _). unfold srv_host. rewrite H1.
  pose proof (meqr_get (lower (rr_host (e_rr s'))) _ _ Ha) as Hg.
  apply IH; [assumption|].
  destruct (bm_get (lower (rr_host (e_rr s'))) addr), (bm_get (lower (rr_host (e_rr s'))) addr'); try contradiction; [|assumption].
  apply meqr_set; [now apply beqr_sooner_all|assumption].
Qed.

Lemma ceqr_verify c c' inst at_ : ceqr c c' ->
  ceqr (fst (service_verify_queries c inst at_)) (fst (service_verify_queries c' inst at_))
  /\ snd (service_verify_queries c inst at_) = snd (service_verify_queries c' inst at_).
Proof.
  intros H. pose proof H as (A1 & A2 & A3 & A4 & A5 & A6). unfold service_verify_queries.
  pose proof (meqr_get inst _ _ A2) as Hg.
  destruct (bm_get inst (c_srv c)) as [sb|], (bm_get inst (c_srv c')) as [sb'|]; try contradiction; [|auto].
  simpl. split.
  - repeat split; simpl; auto.
    + apply meqr_set; [now apply beqr_sooner_all|assumption].
    + now apply meqr_verify_addrs.
  - f_equal. clear - Hg. induction Hg as [|x y l l' (H1 & _) Hl IH]; [reflexivity|].
    simpl. unfold srv_host in *. rewrite H1. f_equal. f_equal. exact IH.
Qed.

(* refresh_active_services changes refresh marks only *)
Lemma eqr_refresh_maybe e now : eqr e (fst (refresh_maybe e now)).
Proof. destruct (refresh_maybe_fields e now) as (A & B & C & D). repeat split; auto. Qed.

Lemma beqr_refresh_bucket now b : beqr b (fst (refresh_bucket now b)).
Proof.
  induction b as [|e t IH]; simpl; [constructor|].
  pose proof (eqr_refresh_maybe e now) as He.
  destruct (refresh_maybe e now) as [e' d], (refresh_bucket now t) as [t' d']. simpl in *. constructor; assumption.
Qed.

Lemma meqr_refresh_key now k m : meqr m (fst (refresh_key now k m)).
Proof.
  unfold refresh_key. destruct (bm_get k m) as [b|] eqn:E; [|apply meqr_refl].
  pose proof (beqr_refresh_bucket now b) as Hb. destruct (refresh_bucket now b) as [b' d]. simpl in *.
  eapply meqr_set_same; eauto.
Qed.

Lemma meqr_refresh_srv_txt now : forall insts srv txt,
  meqr srv (fst (fst (refresh_srv_txt now insts srv txt))) /\ meqr txt (snd (fst (refresh_srv_txt now insts srv txt))).
Proof.
  induction insts as [|i rest IH]; intros srv txt; simpl; [split; apply meqr_refl|].
  pose proof (meqr_refresh_key now i srv) as A. pose proof (meqr_refresh_key now i txt) as B.
  destruct (refresh_key now i srv) as [s1 d1], (refresh_key now i txt) as [t1 d2]. simpl in A, B.
  destruct (IH s1 t1) as [C D]. destruct (refresh_srv_txt now rest s1 t1) as [[s2 t2] q]. simpl in *.
  split; eapply meqr_trans; eauto.
Qed.

Lemma meqr_refresh_hosts now : forall hosts addr, meqr addr (fst (refresh_hosts now hosts addr)).
Proof.
  induction hosts as [|h rest IH]; intros addr; simpl; [apply meqr_refl|].
  pose proof (meqr_refresh_key now (lower h) addr) as A.
  destruct (refresh_key now (lower h) addr) as [a1 d]. simpl in A.
  specialize (IH a1). destruct (refresh_hosts now rest a1) as [a2 q]. simpl in *. eapply meqr_trans; eauto.
Qed.

Lemma ceqr_refresh_type c ty now : ceqr c (fst (refresh_type c ty now)).
Proof.
  unfold refresh_type.
  pose proof (meqr_refresh_key now ty (c_ptr c)) as A. destruct (refresh_key now ty (c_ptr c)) as [p1 d0]. simpl in A.
  match goal with |- context [refresh_srv_txt now ?i ?s ?t] =>
    pose proof (meqr_refresh_srv_txt now i s t) as [B C]; destruct (refresh_srv_txt now i s t) as [[s1 t1] q1] end.
  match goal with |- context [refresh_hosts now ?h ?a] =>
    pose proof (meqr_refresh_hosts now h a) as D; destruct (refresh_hosts now h a) as [a1 q2] end.
  simpl in *. repeat split; simpl; auto using meqr_refl.
Qed.

Lemma ceqr_refresh_all now : forall q c, ceqr c (fst (refresh_all c now q)).
Proof.
  induction q as [|[ty ch] rest IH]; intros c; simpl; [apply ceqr_refl|].
  pose proof (ceqr_refresh_type c ty now) as A. destruct (refresh_type c ty now) as [c1 qs]. simpl in A.
  specialize (IH c1). destruct (refresh_all c1 now rest) as [c2 o]. simpl in *. eapply ceqr_trans; eauto.
Qed.

Lemma last_cons_default {A} (l : list A) : forall a d, last (a :: l) d = last l a.
Proof.
  induction l as [|x l IH]; intros a d; [reflexivity|].
  change (last (a :: x :: l) d) with (last (x :: l) d). rewrite IH. symmetry. apply IH.
Qed.

Definition tracks (s : st) (sp : spec) : Prop := ceqr (s_cache s) (sp_c sp) /\ s_q s = sp_q sp.

Lemma tracks_read ifs now s sp d : tracks s sp -> tracks (fst (handle_read ifs s now d)) (spec_dgram ifs now sp d).
Proof.
  intros [Hc Hq]. unfold handle_read, spec_dgram. destruct (accepted_msg ifs d) as [m|]; [|split; assumption].
  rewrite handle_response_eq. cbv zeta. cbn [fst]. unfold spec_msg. rewrite <- Hq.
  destruct (ceqr_hr_records now (d_if d) (s_q s) (for_us (s_q s) (m_answers m)) (msg_records m) _ _ Hc) as [A _].
  destruct (hr_records (sp_c sp) now (d_if d) (s_q s) (for_us (s_q s) (m_answers m)) (msg_records m)) as [[c1' o1'] ch1'].
  match goal with |- tracks (fst (resolve_updated ?s1 now ?u)) _ => destruct (resolve_updated_state s1 now u) as [E F] end.
  split; [rewrite E; exact A|now rewrite F].
Qed.

Lemma tracks_reads ifs now ds : forall s sp, tracks s sp ->
  tracks (fst (run_cmds (handle_read ifs) s now ds)) (last (scan (spec_dgram ifs now) sp ds) sp).
Proof.
  induction ds as [|d rest IH]; intros s sp H; [assumption|].
  rewrite run_cmds_cons. cbn [fst scan]. rewrite last_cons_default. apply IH, tracks_read, H.
Qed.

Lemma tracks_call now s sp cl : tracks s sp -> tracks (fst (exec_call s now cl)) (spec_call now sp cl).
Proof.
  intros [Hc Hq]. destruct cl as [ty ch|ty|inst timeout|ch]; simpl.
  - rewrite exec_browse_eq. cbv zeta.
    destruct (bm_get ty (c_ptr (s_cache s))) as [ptrs|]; cbn [fst]; [|split; simpl; [assumption|now rewrite Hq]].
    split; [rewrite (proj1 (bookkeeping_keeps _ _ _ _))|rewrite (proj2 (bookkeeping_keeps _ _ _ _))]; simpl;
      [assumption|now rewrite Hq].
  - unfold exec_stop. rewrite <- Hq. destruct (q_get ty (s_q s)); [|split; assumption].
    split; simpl; [now apply ceqr_remove_service_type|reflexivity].
  - unfold exec_verify.
    destruct (ceqr_verify _ _ inst (Some (now + timeout)) Hc) as [A B].
    destruct (service_verify_queries (s_cache s) inst (Some (now + timeout))) as [c1 qs]. simpl in *.
    destruct qs; simpl; split; assumption.
  - split; assumption.
Qed.

Lemma tracks_calls now cls : forall s sp, tracks s sp ->
  tracks (fst (run_cmds exec_call s now cls)) (fold_left (spec_call now) cls sp).
Proof.
  induction cls as [|c rest IH]; intros s sp H; [assumption|].
  rewrite run_cmds_cons. cbn [fst fold_left]. apply IH, tracks_call, H.
Qed.

Lemma tracks_rcmd now s sp c : tracks s sp -> tracks (fst (exec_rcmd s now c)) sp.
Proof.
  intros [Hc Hq]. destruct c as [inst n|inst timeout]; simpl.
  - unfold exec_resolve. destruct (if has_ptr_to (s_cache s) inst then query_unresolved (s_cache s) inst else (false, [])) as [sent o].
    destruct (sent && retry_guard n max_try); split; assumption.
  - unfold exec_verify. pose proof (verify_none_cache (s_cache s) inst) as Hn.
    destruct (service_verify_queries (s_cache s) inst None) as [c1 qs]. simpl in Hn. subst c1.
    destruct qs; split; assumption.
Qed.

Lemma tracks_retrans now s sp : tracks s sp -> tracks (fst (run_retrans s now)) sp.
Proof.
  intros [Hc Hq]. unfold run_retrans.
  apply (run_cmds_inv exec_rcmd now (fun s0 => tracks s0 sp)); [intros s0 c; apply tracks_rcmd|split; assumption].
Qed.

Lemma tracks_evict now s sp : tracks s sp -> tracks (fst (evict s now)) (spec_evict now sp).
Proof.
  intros [Hc Hq]. rewrite evict_eq. cbv zeta. cbn [fst]. unfold spec_evict.
  destruct (ceqr_evict_services _ _ now Hc) as [E1 _]. destruct (evict_services (sp_c sp) now) as [c5' ex']. cbn [fst] in E1.
  destruct (ceqr_evict_addr _ _ now E1) as [F1 _]. destruct (evict_addr c5' now) as [c6' names']. cbn [fst] in F1.
  match goal with |- tracks (fst (resolve_hosts ?s0 now ?l)) _ => destruct (resolve_hosts_state now l s0) as [G1 G2] end.
  split; cbn [sp_c sp_q]; [rewrite G1; exact F1|rewrite G2; exact Hq].
Qed.

(* one iteration: the end-of-iteration snapshot of the checkers tracks the model state *)
Lemma tracks_iterate ifs s sp it :
  tracks s sp -> tracks (fst (iterate ifs s it)) (snd (iter_snaps ifs sp it)).
Proof.
  intros H. rewrite iterate_eq. cbv zeta. cbn [fst]. unfold iter_snaps. cbn [snd]. apply tracks_evict.
  destruct (tracks_retrans (i_now it) _ _ (tracks_calls (i_now it) (i_calls it) _ _
             (tracks_reads ifs (i_now it) (deliveries_in_order (i_dgrams it)) s sp H))) as [Hc Hq].
  split; [|exact Hq]. cbn [with_cache s_cache].
  eapply ceqr_trans; [apply ceqr_sym, ceqr_refresh_all|exact Hc].
Qed.

Fixpoint spec_after (ifs : iftab) (sp : spec) (h : list iter) : spec :=
  match h with [] => sp | it :: t => spec_after ifs (snd (iter_snaps ifs sp it)) t end.

Fixpoint model_after (ifs : iftab) (s : st) (h : list iter) : st :=
  match h with [] => s | it :: t => model_after ifs (fst (iterate ifs s it)) t end.

Theorem spec_tracks_model ifs h :
  tracks (model_after ifs init_st h) (spec_after ifs init_spec h).
Proof.
  assert (G : forall hh s sp, tracks s sp -> tracks (model_after ifs s hh) (spec_after ifs sp hh)).
  { induction hh as [|it t IH]; intros s sp H; simpl; [assumption|]. apply IH. now apply tracks_iterate. }
  apply G. split; [apply ceqr_refl|reflexivity].
Qed.
