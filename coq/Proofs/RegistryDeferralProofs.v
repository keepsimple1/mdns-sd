(* C08 clause 29 over histories: after a lost tie-break the probe for the name is due one second
   later, and while the daemon sees only queries and register / monitor / shutdown calls no probe
   query for that name goes out on that interface before then. *)
From Coq Require Import List NArith Lia.
From Mdns Require Import Bytes ListFacts ParamsRegistry Registry RegistryDaemon RegistrySpec RegistryParamsPinned
     RegistryProofs RegistryStepProofs RegistryLiftProofs RegistryHistoryProofs.
Import ListNotations.
Open Scope N_scope.

(* one plain iteration, seen from the registry of interface k: quiet operations, then at most one
   probing pass followed by quiet operations *)
Lemma plain_iterate_regs k st it st' outs e js' :
  d_dead st = false -> NoDup (map if_index (d_intfs st)) -> retrans_ok st -> plain_iter it ->
  iterate st it = (st', outs, e, js') ->
  exists rgA qs,
    QReach (it_now it) (reg_of (d_regs st) k) rgA /\
    tick_step (it_now it) rgA (reg_of (d_regs st') k) qs /\
    (forall n, In n (probe_names_on outs k) -> In n qs) /\
    retrans_ok st' /\ d_intfs st' = d_intfs st.
Proof. intros _. exact (plain_iterate_shape k st it st' outs e js'). Qed.

(* the probe for n exists and its next step is due at D or later *)
Definition deferred (n : bytes) (D : N) (rg : registry) : Prop :=
  NoDup (keys (rg_probing rg)) /\ exists p, aget n (rg_probing rg) = Some p /\ D <= pb_next p.

Lemma op_deferred n D rg now o :
  quiet o -> D <= now + 1000 -> deferred n D rg -> deferred n D (fst (fst (apply_op rg now o))).
Proof.
  intros [Ht Hc] HD [Hnd (p & G & L)]. split; [apply apply_op_nodup; exact Hnd|]. destruct o; try discriminate; cbn [apply_op fst].
  - unfold is_probing_done. destruct (in_active rg r); [exists p; auto|]. cbn [fst rg_probing]. rewrite aget_aset.
    destruct (beq n (p_name r)) eqn:B; [|exists p; auto].
    apply beq_eq in B. subst n. eexists. split; [reflexivity|]. cbn [pb_next]. rewrite G. exact L.
  - unfold apply_tiebreak. destruct (aget qn (rg_probing rg)) as [pb|] eqn:GQ; [|exists p; auto]. cbn [rg_probing]. rewrite aget_aset.
    destruct (beq n qn) eqn:B; [|exists p; auto].
    apply beq_eq in B. subst qn. eexists. split; [reflexivity|].
    rewrite G in GQ. inversion GQ; subst pb. destruct (tiebreak_next p incoming now) as [E|E]; rewrite E; [exact L|exact HD].
Qed.

Lemma QReach_deferred n D now rg rg' : D <= now + 1000 -> QReach now rg rg' -> deferred n D rg -> deferred n D rg'.
Proof. intros HD. apply (Ops_keeps quiet now (deferred n D)). intros rg0 o Q. apply op_deferred; assumption. Qed.

(* a probing pass before D leaves the probe alone and sends nothing for n *)
Lemma tick_deferred n D rg now rg1 qs ex :
  now < D -> deferred n D rg -> tick_names rg now = (rg1, qs, ex) -> deferred n D rg1 /\ ~ In n qs.
Proof.
  intros Hlt [Hnd (p & G & L)] T.
  pose proof (tick_names_nodup rg now Hnd) as N1. rewrite T in N1. cbn [fst] in N1.
  pose proof (tick_names_aget rg now rg1 qs ex n Hnd T) as A. rewrite G in A.
  assert (Hdue : probe_due (pb_next p) now = false) by (rewrite probe_due_pinned; apply N.leb_gt; lia).
  unfold sends, expires in A. rewrite Hdue in A. cbn [andb] in A. destruct A as (A1 & _ & A3).
  split; [split; [exact N1|exists p; auto]|exact A1].
Qed.

Lemma tick_step_deferred n D now rgA rg' qs :
  now < D -> D <= now + 1000 -> tick_step now rgA rg' qs -> deferred n D rgA -> deferred n D rg' /\ ~ In n qs.
Proof.
  intros Hlt HD [[Q ->]|(rg1 & ex & T & Q)] H.
  - split; [exact (QReach_deferred n D now _ _ HD Q H)|intros []].
  - destruct (tick_deferred n D rgA now rg1 qs ex Hlt H T) as [H1 Hn]. split; [exact (QReach_deferred n D now _ _ HD Q H1)|exact Hn].
Qed.

(* Clause 29 of chk_C08: from a state in which the probe for n on interface k is deferred to D (what a lost
   tie-break leaves behind, D = its time + 1000), through any iterations before D that bring only
   queries (competing probes included) and register / monitor / shutdown calls, at any times in
   [D - 1000, D): no probe query for n goes out on interface k *)
Theorem deferral_respected k n D : forall its st,
  NoDup (map if_index (d_intfs st)) -> retrans_ok st -> deferred n D (get_reg st k) ->
  Forall plain_iter its -> Forall (fun it => it_now it < D /\ D <= it_now it + 1000) its ->
  wire_probe_times k n st its = [].
Proof.
  induction its as [|it rest IH]; intros st Hnd Hret Hd Hpl Hts; [reflexivity|]. cbn [wire_probe_times].
  inversion Hpl as [|x l Hp Hpl']; subst. inversion Hts as [|x l [Hlt HD] Hts']; subst.
  destruct (iterate st it) as [[[st' outs] e] js'] eqn:Hit.
  destruct (plain_iterate_shape k st it st' outs e js' Hnd Hret Hp Hit) as (rgA & qs & QA & T & Sub & Hret' & Hif).
  rewrite get_reg_reg_of in Hd.
  pose proof (QReach_deferred n D (it_now it) _ _ HD QA Hd) as HdA.
  destruct (tick_step_deferred n D (it_now it) rgA _ qs Hlt HD T HdA) as [Hd' Hn].
  assert (M : mem n (probe_names_on outs k) = false).
  { destruct (mem n (probe_names_on outs k)) eqn:M; [|reflexivity]. apply mem_In in M. exfalso. apply Hn. apply Sub. exact M. }
  rewrite M. cbn [app]. apply IH; try assumption; try (rewrite Hif; exact Hnd); try (rewrite get_reg_reg_of; exact Hd').
Qed.

(* what a lost tie-break leaves behind (registry step) *)
Lemma lost_tiebreak_defers rg qn incoming now pb :
  NoDup (keys (rg_probing rg)) -> aget qn (rg_probing rg) = Some pb ->
  tiebreak_not_started (pb_start pb) now = false -> tb_cmp (map p_rr (pb_records pb)) incoming = Lt ->
  deferred qn (now + 1000) (apply_tiebreak rg qn incoming now).
Proof.
  intros Hnd G S C. unfold apply_tiebreak. rewrite G. split; [cbn [rg_probing]; apply NoDup_aset; exact Hnd|].
  cbn [rg_probing]. rewrite aget_aset_same. eexists. split; [reflexivity|]. unfold tiebreak. rewrite S, C. cbn [pb_next].
  destruct (tiebreak_defer_pinned now) as [_ ->]. lia.
Qed.

Lemma find_intf_none_notin st i : find_intf st i = None -> ~ In i (map if_index (d_intfs st)).
Proof.
  unfold find_intf. intros F Hin. apply in_map_iff in Hin as (itf & E & Hin).
  pose proof (find_none _ _ F itf Hin) as H. cbn in H. rewrite E, N.eqb_refl in H. discriminate.
Qed.

Definition intfs_nodup (st : dstate) : Prop := NoDup (map if_index (d_intfs st)).

Lemma map_index_replace idx itf (ifs : list intf) :
  if_index itf = idx -> map if_index (map (fun i => if if_index i =? idx then itf else i) ifs) = map if_index ifs.
Proof.
  intros E. rewrite map_map. apply map_ext. intros x. destruct (if_index x =? idx) eqn:E1; [apply N.eqb_eq in E1; congruence|reflexivity].
Qed.

Lemma add_interface_intfs_nodup st r now js : intfs_nodup st -> intfs_nodup (fst (fst (add_interface st r now js))).
Proof.
  intros Hn. destruct (add_interface_cases st r now js) as [E|(itf & intfs & Ei & Hi & H)]; [rewrite E; exact Hn|].
  destruct (add_row_services (d_svcs st) itf (get_reg st (os_index r)) (os_ip r) now js) as [[[[svcs rg] os] rt] js']. rewrite (H _ _ _ _ _ eq_refl).
  unfold intfs_nodup. cbn [fst d_intfs]. destruct Hi as [(itf0 & _ & ->)|[F ->]].
  - rewrite map_index_replace by exact Ei. exact Hn.
  - rewrite map_app. cbn [map]. rewrite Ei. apply NoDup_snoc; [exact Hn|apply find_intf_none_notin; exact F].
Qed.

Lemma del_interface_addr_intfs_nodup st r : intfs_nodup st -> intfs_nodup (fst (del_interface_addr st r)).
Proof.
  intros H. unfold del_interface_addr. destruct (find_intf st (os_index r)) as [itf0|]; [|exact H].
  destruct (negb (has_addr itf0 (os_ip r))); [exact H|]. unfold intfs_nodup. cbn [fst d_intfs].
  destruct (filter (fun a => negb (beq (ia_ip a) (os_ip r))) (if_addrs itf0)) as [|a0 l0].
  - apply NoDup_map_filter. exact H.
  - rewrite map_index_replace by reflexivity. exact H.
Qed.

Lemma exec_call_intfs_nodup st c now js : intfs_nodup st -> intfs_nodup (fst (fst (fst (exec_call st c now js)))).
Proof.
  intros H. destruct c; try (unfold intfs_nodup; rewrite exec_call_intfs by exact I; exact H).
  cbn [exec_call]. unfold select_interfaces.
  match goal with |- context [apply_rows ?a ?b now js] =>
    pose proof (apply_rows_phase (keeps intfs_nodup) (keeps_nil _) (keeps_app _) now) as K; specialize (fun S => K S b a js) end.
  match goal with |- context [apply_rows ?a ?b now js] => destruct (apply_rows a b now js) as [[st1 os1] js1] end.
  apply K; [|exact H]. intros st0 r js0 H0. unfold row_step. destruct (row_selected (d_sel st0) r); [apply add_interface_intfs_nodup; exact H0|].
  pose proof (del_interface_addr_intfs_nodup st0 r H0). destruct (del_interface_addr st0 r). assumption.
Qed.

Lemma iterate_intfs_nodup st it : intfs_nodup st -> intfs_nodup (fst (fst (fst (iterate st it)))).
Proof.
  apply iterate_keeps; unfold intfs_nodup.
  - intros st0 H. exact H.
  - intros st0 js H. destruct (handle_dgrams_frame (it_now it) (it_gs it) st0 js) as (E & _). rewrite E. exact H.
  - intros st0 js. apply (exec_calls_phase (keeps intfs_nodup) (keeps_nil _) (keeps_app _)). intros st1 c js1 _. exact (exec_call_intfs_nodup st1 c (it_now it) js1).
  - intros st0 js H. destruct (retransmit_frame st0 (it_now it) js) as (E & _). rewrite E. exact H.
  - intros st0 js H. destruct (probing_intfs_grows (it_now it) (d_intfs st0) st0 js) as (E & _). rewrite E. exact H.
Qed.

Theorem intfs_nodup_all_histories ifs os : NoDup (map if_index ifs) ->
  forall its, NoDup (map if_index (d_intfs (run_state (d_init_os ifs os) its))).
Proof. intros H0 its. exact (run_state_keeps intfs_nodup iterate_intfs_nodup its (d_init_os ifs os) H0). Qed.

Lemma retrans_ok_all_histories ifs os its : retrans_ok (run_state (d_init_os ifs os) its).
Proof. apply saved_goodbyes_ok, saved_goodbyes_all_histories. Qed.

(* Clause 29 after any history: whatever happened before (responses, interface toggles, unregister),
   once the probe for n on interface k is deferred to D, no probe query for n goes out on k in the
   plain iterations before D *)
Theorem deferral_respected_after_any_history ifs os pre k n D its :
  NoDup (map if_index ifs) ->
  let st := run_state (d_init_os ifs os) pre in
  (exists p, aget n (rg_probing (get_reg st k)) = Some p /\ D <= pb_next p) ->
  Forall plain_iter its -> Forall (fun it => it_now it < D /\ D <= it_now it + 1000) its ->
  wire_probe_times k n st its = [].
Proof.
  intros H0 st Hp Hpl Hts. apply (deferral_respected k n D its st).
  - apply intfs_nodup_all_histories. exact H0.
  - apply retrans_ok_all_histories.
  - split; [|exact Hp]. apply get_reg_nodup. apply regs_nodup_all_histories.
  - exact Hpl.
  - exact Hts.
Qed.
