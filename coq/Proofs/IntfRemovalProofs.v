(* C18, "nothing outlives its removal": the cache as a set of records, which operations only
   shrink it, and what it means that no record is attributed to an interface.  The theorem about
   the IP check is check_forgets_removed_interfaces in IntfCheckerProofs.v. *)
From Coq Require Import List.
From Mdns Require Import Bytes Intf IntfCache IntfDaemon IntfCacheProofs
     IntfDaemonProofs.
Import ListNotations.
Open Scope N_scope.

Definition in_cache (c : cache) (k : bytes) (r : crec) : Prop :=
  In_table (c_ptr c) k r \/ In_table (c_srv c) k r \/ In_table (c_txt c) k r \/
  In_table (c_addr c) k r \/ In_table (c_nsec c) k r.

(* no record of the cache is attributed to the interface *)
Definition no_src (c : cache) (id : intf_id) : Prop := forall k r, in_cache c k r -> on_intf id r = false.
Definition sub_cache (c' c : cache) : Prop := forall k r, in_cache c' k r -> in_cache c k r.

Lemma sub_cache_refl c : sub_cache c c. Proof. intros k r H. exact H. Qed.
Lemma sub_cache_trans a b c : sub_cache a b -> sub_cache b c -> sub_cache a c.
Proof. intros H1 H2 k r H. apply H2. apply H1. exact H. Qed.
Lemma sub_no_src c' c id : sub_cache c' c -> no_src c id -> no_src c' id.
Proof. intros Hs Hn k r H. apply (Hn k). apply Hs. exact H. Qed.

Lemma remove_records_facts c id :
  no_src (rm_cache (remove_records_on_intf c id)) id /\ sub_cache (rm_cache (remove_records_on_intf c id)) c.
Proof.
  pose proof (removal_cache_contents c id) as H. cbv zeta in H. destruct H as (H1 & H2 & H3 & H4 & H5 & _).
  split; intros k r [H|[H|[H|[H|H]]]]; unfold in_cache;
    [apply H1 in H|apply H2 in H|apply H3 in H|apply H4 in H|apply H5 in H
    |apply H1 in H|apply H2 in H|apply H3 in H|apply H4 in H|apply H5 in H]; tauto.
Qed.

Lemma disabled_sub c idx t : sub_cache (remove_addrs_on_disabled_intf c idx t) c.
Proof.
  pose proof (disabled_family_addresses_dropped c idx t) as H. cbv zeta in H.
  destruct H as (H1 & H2 & H3 & H4 & _ & H6).
  intros k r [H|[H|[H|[H|H]]]]; unfold in_cache.
  - rewrite H1 in H. auto.
  - rewrite H2 in H. auto.
  - rewrite H3 in H. auto.
  - apply H6 in H. tauto.
  - rewrite H4 in H. auto.
Qed.

Lemma add_interface_cache now d i : d_cache (fst (add_interface now d i)) = d_cache d.
Proof.
  destruct (held (d_intfs d) (i_index i) (i_addr i)) eqn:Eh.
  - rewrite (add_interface_held _ _ _ Eh). reflexivity.
  - destruct (add_interface_new now d i Eh) as (mi & _ & ->). reflexivity.
Qed.

Lemma del_interface_addr_cache d i : sub_cache (d_cache (fst (del_interface_addr d i))) (d_cache d).
Proof.
  destruct (del_interface_addr_eq d i) as (regs & svcs & c & -> & _ & [->|[t ->]]);
    [apply sub_cache_refl|apply disabled_sub].
Qed.

Lemma apply_cache now tbl d : sub_cache (d_cache (fst (apply_intf_selections now d tbl))) (d_cache d).
Proof.
  rewrite apply_intf_selections_fold.
  apply (apply_fold_ind now _ (fun st _ => sub_cache (d_cache st) (d_cache d))); [|apply sub_cache_refl].
  intros st out e _ H. eapply sub_cache_trans; [|exact H].
  destruct (last_match _ e); [rewrite add_interface_cache; apply sub_cache_refl|apply del_interface_addr_cache].
Qed.

(* the interfaces an IP check removes: held, and none of their addresses is reported any more *)
Definition gone (d : dstate) (m : myintf) : Prop :=
  In m (d_intfs d) /\ forall a, In a (mi_addrs m) -> os_has (d_os d) (mi_index m) a = false.

