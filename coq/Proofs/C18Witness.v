(* Concrete histories for C18 (evaluated in Props/C18.v): a non-vacuity example (selections, a
   service with automatic addresses, an interface that goes away and one that shows up later), the witness of the
   finding in known/C18.json, histories for the findings 694086c and 0f7c6ac of /repo (goodbye
   repetition, address held elsewhere), a moved address, an interface that learns both families,
   the same IPv4 address on two interfaces, a removed interface and, for C06, a ghost log; replays
   in corpus/C18.cases. *)
From Coq Require Import List NArith String.
From Mdns Require Import Bytes Rec Intf IntfCache Responder IntfDaemon C18Spec ResponderWitness
     IntfHistoryProofs IntfRemovalProofs.
Import ListNotations.
Open Scope N_scope.

Definition mask24 : N := N.shiftl (N.ones 24) 8.
Definition mask16 : N := N.shiftl (N.ones 16) 16.
Definition mask64 : N := N.shiftl (N.ones 64) 64.
Definition e_eth0_v4 : iface := mkIface (b "eth0") 2 (mkIfAddr (ip4 192 168 1 10) mask24).
Definition e_eth0_v6 : iface := mkIface (b "eth0") 2 (mkIfAddr w_v6 mask64).
Definition e_eth1_v4 : iface := mkIface (b "eth1") 3 (mkIfAddr (ip4 10 2 0 10) mask16).
Definition e_eth2_v4 : iface := mkIface (b "eth2") 4 (mkIfAddr (ip4 192 168 3 10) mask24).

Definition c18_svc (inst : string) (addrs : list ip) : service :=
  mkService (b "_http._tcp.local.") None (b (inst ++ "._http._tcp.local.")) (b "hosta.local.") addrs 80 120 4500 0 0 [0].

Definition t0 : N := 1000000.

(* ---- non-vacuity ---------------------------------------------------------------------------------- *)
Definition h_ok : list step :=
  [ mkStep t0 None [] [CSetInterval 1; CDisable [KIPv6]; CEnable [KName (b "eth2")];
                       CRegister (c18_svc "Auto" []) true;
                       CRegister (c18_svc "Fixed" [ip4 192 168 1 10; ip4 10 2 0 77; ip4 203 0 113 9]) false];
    mkStep (t0 + 1100) (Some [e_eth0_v4; e_eth0_v6; e_eth2_v4]) [] [];        (* eth1 gone, eth2 new *)
    mkStep (t0 + 2200) None [] [CDisable [KAddr (ip4 192 168 3 10)]];          (* resolved to IndexV4 4 *)
    mkStep (t0 + 3300) None [] [CUnregister (lower (b "Fixed._http._tcp.local."))] ].

Definition os_ok : list iface := [e_eth0_v4; e_eth0_v6; e_eth1_v4].

Definition count_sent (l : list (list obs)) : nat :=
  List.length (List.filter (fun o => match o with OSent _ => true | _ => false end) (List.concat l)).
Definition count_ipev (l : list (list obs)) : nat :=
  List.length (List.filter (fun o => match o with OIpAdd _ => true | OIpDel _ => true | _ => false end) (List.concat l)).

(* ---- finding: a selection made while the OS does not report the interface ------------------------ *)
Definition os_w2 : list iface := [e_eth0_v6].
Definition h_absent : list step :=
  [ mkStep t0 None [] [];
    mkStep (t0 + 1000) (Some []) [] [];                                        (* interface down, not noticed *)
    mkStep (t0 + 1100) None [] [CDisable [KIndexV6 2]];                        (* nothing to apply it to *)
    mkStep (t0 + 1200) (Some [e_eth0_v6]) [] [];                               (* up again *)
    mkStep (t0 + 1300) None [] [CRegister (c18_svc "Svc1" [w_v6]) false] ].    (* announced on the disabled interface *)

(* ---- /repo 694086c: the repeated goodbye leaves through the interface it was built for ---- *)
Definition os_w1 : list iface := [e_eth0_v4; e_eth1_v4].
Definition h_goodbye : list step :=
  [ mkStep t0 None [] [CRegister (c18_svc "Svc0" [ip4 192 168 1 10; ip4 10 2 0 10]) false];
    mkStep (t0 + 2000) None [] [CUnregister (lower (b "Svc0._http._tcp.local."))];
    mkStep (t0 + 2200) None [] [] ].

(* the interfaces the packets of the last iteration (the two repeated goodbyes) leave on *)
Definition last_ifs (l : list (list obs)) : list N :=
  flat_map (fun o => match o with OSent p => [p_if p] | _ => [] end) (List.last l []).

(* ---- an interface disappears: a state with records learned on eth1, then eth1 is gone ------------- *)
Definition src_eth1 : intf_id := mkIntfId (b "eth1") 3.
Definition ptr_peer : rr := mkRR (b "_peer._udp.local.") 12 1 false 4500 (RPtr (b "Peer0._peer._udp.local.")).
Definition srv_peer : rr := mkRR (b "Peer0._peer._udp.local.") 33 1 true 4500 (RSrv 0 0 7000 (b "peerhost0.local.")).
Definition a_peer : rr := mkRR (b "peerhost0.local.") 1 1 true 4500 (RAddr [198; 18; 3; 60]).
Definition d_before_removal : dstate :=
  let d0 := initial_state t0 [e_eth0_v4; e_eth1_v4] in
  mkD [e_eth0_v4] (d_intfs d0) (d_regs d0) [] [] (cache_insert (cache_insert (cache_insert empty_cache ptr_peer src_eth1) srv_peer src_eth1) a_peer src_eth1)
      [b "_peer._udp.local."] [b "Peer0._peer._udp.local."] 1000 (t0 + 1000) [].
Definition m_eth1 : myintf := mkMyIntf (b "eth1") 3 [mkIfAddr (ip4 10 2 0 10) mask16].

Definition cache_size (c : cache) : nat :=
  List.length (List.concat (List.map snd (c_ptr c ++ c_srv c ++ c_txt c ++ c_addr c ++ c_nsec c))).

Lemma removal_example :
  gone d_before_removal m_eth1 /\ cache_size (d_cache d_before_removal) = 3%nat /\
  cache_size (d_cache (fst (check_ip_changes (t0 + 1000) d_before_removal))) = 0%nat /\
  snd (check_ip_changes (t0 + 1000) d_before_removal)
  = [OIpDel (ip4 10 2 0 10); ORemoved (b "_peer._udp.local.") (b "Peer0._peer._udp.local.")].
Proof.
  split; [|vm_compute; repeat split].
  split.
  - right. left. vm_compute. reflexivity.
  - intros a [<-|[]]. vm_compute. reflexivity.
Qed.

(* ---- an address moves to another interface within one IP check ----------------------------------- *)
(* eth0 has only w_v6; between two IP checks the address moves to eth1.  The check withdraws it
   (IpDel) and then adds it again (IpAdd), the service with automatic addresses keeps it and is
   announced with it on eth1; the checker accepts this order and rejects the reverse one *)
Definition e_eth1_v6m : iface := mkIface (b "eth1") 3 (mkIfAddr w_v6 mask64).
Definition os_mv : list iface := [e_eth0_v6; e_eth1_v4].
Definition h_moved : list step :=
  [ mkStep t0 None [] [CSetInterval 1; CRegister (c18_svc "Auto" []) true];
    mkStep (t0 + 5100) (Some [e_eth1_v4; e_eth1_v6m]) [] [];                  (* the first IP check is at t0 + 5000 *)
    mkStep (t0 + 6200) None [] [] ].

Definition ip_events (a : ip) (l : list obs) : list obs :=
  List.filter (fun o => match o with OIpAdd x => ip_eqb x a | OIpDel x => ip_eqb x a | _ => false end) l.
Definition carries (a : ip) (o : obs) : bool :=
  match o with
  | OSent p => existsb (fun r => match r_data r with RAddr oc => ip_eqb (ip_of_octets oc) a | _ => false end)
                       (p_answers p ++ p_additionals p)
  | _ => false
  end.
Definition swap_second (h : list (step * list obs)) : list (step * list obs) :=
  match h with x :: (s, os) :: t => x :: (s, List.rev os) :: t | _ => h end.

(* ---- a one-family interface learns both families, then it is disabled ----------------------------- *)
(* eth0 has only an IPv4 address.  The announcement of Peer0 that arrives there over IPv4 carries
   the peer's A and AAAA records; both are attributed to eth0 and reported.  After
   disable_interface("eth0") a fresh browse finds the instance (PTR, SRV, TXT stay) but reports no
   address; the checker rejects a trace in which the addresses learned on eth0 are reported again *)
Definition w_cross : bytes :=
  [0; 0; 132; 0; 0; 0; 0; 5; 0; 0; 0; 0; 5; 95; 112; 101; 101; 114; 4; 95; 117; 100; 112; 5; 108; 111; 99; 97; 108; 0;
   0; 12; 0; 1; 0; 0; 17; 148; 0; 8; 5; 80; 101; 101; 114; 48; 192; 12; 192; 40; 0; 33; 128; 1; 0; 0; 17; 148; 0; 18;
   0; 0; 0; 0; 27; 88; 9; 112; 101; 101; 114; 104; 111; 115; 116; 48; 192; 23; 192; 40; 0; 16; 128; 1; 0; 0; 17; 148;
   0; 4; 3; 97; 61; 98; 192; 66; 0; 1; 128; 1; 0; 0; 17; 148; 0; 4; 198; 18; 2; 60; 192; 66; 0; 28; 128; 1; 0; 0; 17;
   148; 0; 16; 253; 153; 0; 2; 0; 0; 0; 0; 0; 0; 0; 0; 0; 0; 6; 0].
Definition peer_ty : bytes := b "_peer._udp.local.".
Definition os_x : list iface := [e_eth0_v4; e_eth1_v4].
Definition h_xfam : list step :=
  [ mkStep t0 None [] [CBrowse peer_ty];
    mkStep (t0 + 100) None [mkDgram 2 (ip4 198 18 2 60) 5353 w_cross] [];
    mkStep (t0 + 200) None [] [CDisable [KName (b "eth0")]];
    mkStep (t0 + 300) None [] [CBrowse peer_ty] ].

Definition resolved_addrs (l : list obs) : list (list (ip * N)) :=
  flat_map (fun o => match o with OResolved _ _ _ _ a => [a] | _ => [] end) l.
Definition founds (l : list obs) : nat :=
  List.length (List.filter (fun o => match o with OFound _ _ => true | _ => false end) l).
(* the trace in which the last browse reports what the first announcement reported *)
Definition stale_report (h : list (step * list obs)) : list (step * list obs) :=
  match h with
  | x0 :: (s1, o1) :: x2 :: (s3, o3) :: t => x0 :: (s1, o1) :: x2 :: (s3, o3 ++ List.filter (fun o => match o with OResolved _ _ _ _ _ => true | _ => false end) o1) :: t
  | _ => h
  end.

(* ---- /repo 0f7c6ac: an address the daemon still holds on another entry is not withdrawn ------ *)
(* The address of eth0 moves to eth1.  Before the next IP check an enable call makes the daemon
   take up (eth1, w_v6) from the fresh table while it still holds (eth0, w_v6): IpAdd, announced
   with w_v6 on eth1.  The IP check then drops the entry of eth0; the address is still held on
   eth1, so there is no IpDel and the services keep it: the repeated announcement one second
   later carries it.  (A check that reports IpDel here and withdraws the bare address from the
   services is rejected by the checker: clause last_word_ok.) *)
Definition h_held : list step :=
  [ mkStep t0 None [] [CSetInterval 1; CRegister (c18_svc "Auto" []) true];
    mkStep (t0 + 5100) None [] [];                                             (* first IP check *)
    mkStep (t0 + 5300) (Some [e_eth1_v4; e_eth1_v6m]) [] [];                  (* the address moves *)
    mkStep (t0 + 5400) None [] [CEnable [KName (b "eth1")]];                   (* fresh table: eth1 gets it *)
    mkStep (t0 + 6200) None [] [];                                             (* IP check: eth0's entry goes *)
    mkStep (t0 + 7300) None [] [] ].                                           (* repeated announcement *)

(* that trace: IpDel in the iteration of the second IP check *)
Definition with_del (h : list (step * list obs)) : list (step * list obs) :=
  match h with
  | x0 :: x1 :: x2 :: x3 :: (s4, o4) :: t => x0 :: x1 :: x2 :: x3 :: (s4, o4 ++ [OIpDel w_v6]) :: t
  | _ => h
  end.

(* the same IPv4 address on two interfaces (outside hist_wf): eth0 is disabled by name, the service
   is announced on eth1 - but the IPv4 socket is told the ADDRESS, and the first interface that
   owns it is eth0: the packet is seen to leave on the disabled interface and the checker rejects *)
Definition e_eth1_same : iface := mkIface (b "eth1") 3 (mkIfAddr (ip4 192 168 1 10) mask24).
Definition os_dup : list iface := [e_eth0_v4; e_eth1_same].
Definition h_dup : list step :=
  [ mkStep t0 None [] [CDisable [KName (b "eth0")]];
    mkStep (t0 + 100) None [] [CRegister (c18_svc "Svc0" [ip4 192 168 1 10]) false] ].
(* ---- C06: the ghost log on a concrete history ---------------------------------------------------------- *)
From Mdns Require Import ResponderLogProofs.

Definition h_reg : list step :=
  [ mkStep t0 None [] [CRegister (c18_svc "Svc0" [ip4 192 168 1 10; ip4 10 2 0 10]) false] ].
Definition key_svc0 : bytes := lower (b "Svc0._http._tcp.local.").

(* after the registration Svc0 is Announced on eth0 (2) and eth1 (3), the log is not empty, and the
   ghost invariant yields the announcements in the log *)
Lemma log_example :
  let d := state_after (initial_state t0 os_w1) h_reg in
  (exists ds, In (key_svc0, ds) (d_svcs d) /\ status_get 2 (ds_status ds) = Announced /\ status_get 3 (ds_status ds) = Announced) /\
  List.length (log_of (initial_state t0 os_w1) h_reg) = 2%nat /\
  announced_in (log_of (initial_state t0 os_w1) h_reg) key_svc0 2 /\
  announced_in (log_of (initial_state t0 os_w1) h_reg) key_svc0 3.
Proof.
  cbv zeta.
  assert (HA : AInv ([] ++ log_of (initial_state t0 os_w1) h_reg) (state_after (initial_state t0 os_w1) h_reg))
    by (apply history_A; intros key ds []).
  simpl app in HA.
  assert (Hs : exists ds, In (key_svc0, ds) (d_svcs (state_after (initial_state t0 os_w1) h_reg)) /\
                          status_get 2 (ds_status ds) = Announced /\ status_get 3 (ds_status ds) = Announced).
  { destruct (svc_get key_svc0 (d_svcs (state_after (initial_state t0 os_w1) h_reg))) as [ds|] eqn:E.
    - exists ds. split; [apply svc_get_in; exact E|]. revert E. vm_compute. intros E. inversion E. split; reflexivity.
    - exfalso. revert E. vm_compute. discriminate. }
  split; [exact Hs|]. split; [vm_compute; reflexivity|].
  destruct Hs as (ds & Hin & H2 & H3). destruct (HA _ _ Hin) as [_ Hl]. split; apply Hl; assumption.
Qed.
