(* RFC 6763 escaping: the instance label a service is registered with survives
   escape_instance_name (src/service_info.rs) followed by the encoder's escape-aware label
   split (DnsOutPacket::parse_escaped_name), for every byte string. *)
From Coq Require Import List NArith Bool Lia.
From Mdns Require Import WireOut.
Import ListNotations.
Open Scope N_scope.

(* escape_instance_name is WireOut.escape_label: '.' -> '\.', '\' -> '\\' *)

Lemma pen_escape_label : forall l s cur acc,
  pen (escape_label l ++ s) cur acc = pen s (cur ++ l) acc.
Proof.
  induction l as [|c l IH]; intros s cur acc.
  - simpl. rewrite app_nil_r. reflexivity.
  - unfold escape_label in *. cbn [flat_map].
    destruct ((c =? DOT) || (c =? BSL)) eqn:E.
    + cbn [app pen]. rewrite N.eqb_refl. rewrite E.
      rewrite IH. rewrite <- app_assoc. reflexivity.
    + cbn [app pen].
      apply orb_false_iff in E as [E1 E2].
      rewrite E2, E1. rewrite IH. rewrite <- app_assoc. reflexivity.
Qed.

(* the accumulator of finished labels only ever grows at its front; the induction is on a
   bound of the length because pen skips two bytes after a backslash *)
Lemma pen_acc_len : forall n s cur acc, (length s <= n)%nat ->
  pen s cur acc = rev acc ++ pen s cur [].
Proof.
  induction n as [|n IH]; intros s cur acc Hn.
  - destruct s; [|simpl in Hn; lia].
    cbn [pen]. destruct cur; simpl; [rewrite app_nil_r; reflexivity|reflexivity].
  - destruct s as [|c t].
    + cbn [pen]. destruct cur; simpl; [rewrite app_nil_r; reflexivity|reflexivity].
    + simpl in Hn. cbn [pen]. destruct (c =? BSL).
      * destruct t as [|m t'].
        -- apply IH. simpl; lia.
        -- destruct ((m =? DOT) || (m =? BSL)).
           ++ apply IH. simpl in Hn. lia.
           ++ apply IH. lia.
      * destruct (c =? DOT).
        -- rewrite (IH t [] (push_label cur acc)) by lia.
           rewrite (IH t [] (push_label cur [])) by lia.
           destruct cur; simpl; [reflexivity|]. rewrite <- app_assoc. reflexivity.
        -- apply IH. lia.
Qed.

Lemma pen_acc s cur acc : pen s cur acc = rev acc ++ pen s cur [].
Proof. apply (pen_acc_len (length s)). lia. Qed.

(* l is any non-empty instance label (dots and backslashes included), r the rest of the
   name, e.g. "_ipp._tcp.local" *)
Theorem escape_then_split : forall l r, l <> [] ->
  parse_escaped_name (escape_label l ++ DOT :: r) = l :: parse_escaped_name r.
Proof.
  intros l r Hl. unfold parse_escaped_name.
  rewrite pen_escape_label. cbn [app pen].
  replace (DOT =? BSL) with false by reflexivity. rewrite N.eqb_refl.
  destruct l as [|x l']; [congruence|]. cbn [push_label].
  rewrite pen_acc. reflexivity.
Qed.

Lemma strip_dot_app_dot s : strip_dot (s ++ [DOT]) = s.
Proof.
  unfold strip_dot. rewrite rev_app_distr. cbn [rev app]. rewrite N.eqb_refl. apply rev_involutive.
Qed.

(* the full name as ServiceInfo::new builds it, "<escaped>.<ty_domain>", where ty_domain ends
   with a dot (stripped by write_name before splitting) *)
Theorem fullname_labels : forall l ty, l <> [] ->
  name_labels (escape_label l ++ DOT :: ty ++ [DOT]) = l :: name_labels (ty ++ [DOT]).
Proof.
  intros l ty Hl. unfold name_labels.
  replace (escape_label l ++ DOT :: ty ++ [DOT]) with ((escape_label l ++ DOT :: ty) ++ [DOT])
    by (rewrite <- app_assoc; reflexivity).
  rewrite !strip_dot_app_dot. apply escape_then_split. exact Hl.
Qed.
