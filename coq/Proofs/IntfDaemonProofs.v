(* The daemon model (Model/IntfDaemon.v).  my_intfs as a set of (interface, address) pairs (`held`)
   under adding, deleting and applying the selections to a table; which addresses the packets the
   daemon sends on its own carry (C18); then the operations one by one: which fields of the state
   an operation changes and what it emits (the *_eq, *_new, *_cases lemmas), from which the
   invariants of C18 (Inv, CInv) and C06 (AInv) are carried through the operations.  The IP check
   and the iteration are taken apart in IntfCheckerProofs.v (check_phases, iterate_phases). *)
From Coq Require Import List NArith Bool.
From Mdns Require Import Bytes Rec Wire Intf IntfCache Responder IntfDaemon ListFacts IntfProofs IntfCacheProofs.
Import ListNotations.
Open Scope N_scope.

Lemma ip_eqb_eq a b : ip_eqb a b = true <-> a = b.
Proof.
  destruct a, b; simpl; rewrite ?N.eqb_eq; split; intros H; try congruence; try discriminate.
Qed.

Lemma ifaddr_eqb_eq a b : ifaddr_eqb a b = true <-> a = b.
Proof.
  unfold ifaddr_eqb. rewrite andb_true_iff, ip_eqb_eq, N.eqb_eq. destruct a, b; simpl.
  split; [intros [-> ->]; reflexivity|intros H; inversion H; auto].
Qed.

Lemma ifaddr_eqb_refl a : ifaddr_eqb a a = true.
Proof. apply ifaddr_eqb_eq. reflexivity. Qed.

Lemma ifaddr_eqb_sym a b : ifaddr_eqb a b = ifaddr_eqb b a.
Proof.
  destruct (ifaddr_eqb a b) eqn:E.
  - apply ifaddr_eqb_eq in E. subst. symmetry. apply ifaddr_eqb_refl.
  - destruct (ifaddr_eqb b a) eqn:E'; [|reflexivity]. apply ifaddr_eqb_eq in E'. subst.
    rewrite ifaddr_eqb_refl in E. discriminate.
Qed.

(* my_intfs l has an entry for interface idx that carries address a *)
Definition held (l : list myintf) (idx : N) (a : ifaddr) : bool :=
  match intf_get idx l with Some m => has_ifaddr a (mi_addrs m) | None => false end.

Lemma intf_get_put x l idx :
  intf_get idx (intf_put x l) = if mi_index x =? idx then Some x else intf_get idx l.
Proof.
  induction l as [|i l IH]; simpl.
  - reflexivity.
  - destruct (mi_index i =? mi_index x) eqn:E; simpl.
    + apply N.eqb_eq in E. rewrite E. destruct (mi_index x =? idx); reflexivity.
    + rewrite IH. destruct (mi_index i =? idx) eqn:E2; [|reflexivity].
      apply N.eqb_eq in E2. subst idx. rewrite N.eqb_sym, E. reflexivity.
Qed.

Lemma intf_get_app_new l x idx : intf_get (mi_index x) l = None ->
  intf_get idx (l ++ [x]) = if mi_index x =? idx then Some x else intf_get idx l.
Proof.
  induction l as [|i l IH]; simpl; intros H.
  - reflexivity.
  - destruct (mi_index i =? mi_index x) eqn:E; [discriminate|].
    destruct (mi_index i =? idx) eqn:E2.
    + apply N.eqb_eq in E2. subst idx. rewrite N.eqb_sym, E. reflexivity.
    + apply IH. exact H.
Qed.

Lemma intf_get_remove l idx idx' :
  intf_get idx' (intf_remove idx l) = if idx' =? idx then None else intf_get idx' l.
Proof.
  unfold intf_remove. induction l as [|i l IH]; simpl.
  - destruct (idx' =? idx); reflexivity.
  - destruct (mi_index i =? idx) eqn:E; simpl.
    + rewrite IH. apply N.eqb_eq in E. destruct (idx' =? idx) eqn:E2; [reflexivity|].
      destruct (mi_index i =? idx') eqn:E3; [|reflexivity].
      apply N.eqb_eq in E3. rewrite <- E3, E, N.eqb_refl in E2. discriminate.
    + destruct (mi_index i =? idx') eqn:E3.
      * apply N.eqb_eq in E3. rewrite <- E3, E. reflexivity.
      * exact IH.
Qed.

Lemma intf_get_index l idx m : intf_get idx l = Some m -> mi_index m = idx.
Proof.
  induction l as [|i l IH]; simpl; [discriminate|].
  destruct (mi_index i =? idx) eqn:E; [|exact IH]. intros H. inversion H; subst. apply N.eqb_eq. exact E.
Qed.

Lemma has_ifaddr_app a l b : has_ifaddr a (l ++ [b]) = has_ifaddr a l || ifaddr_eqb a b.
Proof. unfold has_ifaddr. rewrite existsb_app. simpl. rewrite orb_false_r. reflexivity. Qed.

Lemma has_ifaddr_del a b l : has_ifaddr a (del_ifaddr b l) = has_ifaddr a l && negb (ifaddr_eqb b a).
Proof.
  unfold has_ifaddr, del_ifaddr. induction l as [|x l IH]; simpl; [reflexivity|].
  destruct (ifaddr_eqb b x) eqn:E; simpl.
  - rewrite IH. apply ifaddr_eqb_eq in E. subst x.
    destruct (ifaddr_eqb a b) eqn:E2; simpl.
    + rewrite ifaddr_eqb_sym, E2. simpl. rewrite andb_false_r. reflexivity.
    + reflexivity.
  - rewrite IH. destruct (ifaddr_eqb a x) eqn:E2; simpl; [|reflexivity].
    apply ifaddr_eqb_eq in E2. subst x. rewrite E. reflexivity.
Qed.

Lemma del_ifaddr_nil b l a : del_ifaddr b l = [] -> has_ifaddr a l = true -> a = b.
Proof.
  intros Hn Hh. assert (H := has_ifaddr_del a b l). rewrite Hn, Hh in H. simpl in H.
  symmetry in H. apply negb_false_iff in H. apply ifaddr_eqb_eq in H. congruence.
Qed.

(* the OS entry e is (interface idx, address a) *)
Definition key_is (e : iface) (idx : N) (a : ifaddr) : bool := (i_index e =? idx) && ifaddr_eqb a (i_addr e).

Lemma key_is_eq e idx a : key_is e idx a = true <-> i_index e = idx /\ i_addr e = a.
Proof.
  unfold key_is. rewrite andb_true_iff, N.eqb_eq, ifaddr_eqb_eq. split; intros [H1 H2]; auto.
Qed.

Lemma key_is_self e : key_is e (i_index e) (i_addr e) = true.
Proof. apply key_is_eq. auto. Qed.

(* what add_interface / del_interface_addr do to my_intfs (add_interface_intfs, del_interface_addr_intfs) *)
Definition add_tbl (l : list myintf) (i : iface) : list myintf :=
  match intf_get (i_index i) l with
  | Some m => if has_ifaddr (i_addr i) (mi_addrs m) then l
              else intf_put (mkMyIntf (mi_name m) (i_index i) (mi_addrs m ++ [i_addr i])) l
  | None => l ++ [mkMyIntf (i_name i) (i_index i) [i_addr i]]
  end.

Definition del_tbl (l : list myintf) (i : iface) : list myintf :=
  match intf_get (i_index i) l with
  | None => l
  | Some m =>
    if has_ifaddr (i_addr i) (mi_addrs m) then
      let addrs' := del_ifaddr (i_addr i) (mi_addrs m) in
      if is_nil addrs' then intf_remove (i_index i) l
      else intf_put (mkMyIntf (mi_name m) (i_index i) addrs') l
    else l
  end.

Lemma held_add_tbl l i idx a : held (add_tbl l i) idx a = held l idx a || key_is i idx a.
Proof.
  unfold add_tbl, held, key_is.
  destruct (intf_get (i_index i) l) as [m|] eqn:Eg.
  - destruct (has_ifaddr (i_addr i) (mi_addrs m)) eqn:Eh.
    + (* already there *)
      destruct (i_index i =? idx) eqn:Ei; [|rewrite orb_false_r; reflexivity].
      apply N.eqb_eq in Ei. subst idx. rewrite Eg. simpl.
      destruct (ifaddr_eqb a (i_addr i)) eqn:Ea; [|rewrite orb_false_r; reflexivity].
      apply ifaddr_eqb_eq in Ea. subst a. rewrite Eh. reflexivity.
    + rewrite intf_get_put. simpl. destruct (i_index i =? idx) eqn:Ei.
      * apply N.eqb_eq in Ei. subst idx. rewrite Eg. simpl. apply has_ifaddr_app.
      * rewrite orb_false_r. reflexivity.
  - rewrite intf_get_app_new by exact Eg. simpl. destruct (i_index i =? idx) eqn:Ei.
    + apply N.eqb_eq in Ei. subst idx. rewrite Eg. simpl. unfold has_ifaddr. simpl.
      rewrite orb_false_r. reflexivity.
    + rewrite orb_false_r. reflexivity.
Qed.

Lemma held_del_tbl l i idx a : held (del_tbl l i) idx a = held l idx a && negb (key_is i idx a).
Proof.
  unfold del_tbl, held, key_is.
  destruct (intf_get (i_index i) l) as [m|] eqn:Eg.
  - destruct (has_ifaddr (i_addr i) (mi_addrs m)) eqn:Eh.
    + destruct (is_nil (del_ifaddr (i_addr i) (mi_addrs m))) eqn:En.
      * (* the interface goes away *)
        rewrite intf_get_remove. destruct (idx =? i_index i) eqn:Ei.
        -- apply N.eqb_eq in Ei. subst idx. rewrite Eg, N.eqb_refl. simpl.
           destruct (has_ifaddr a (mi_addrs m)) eqn:Ea; [|reflexivity]. simpl.
           destruct (del_ifaddr (i_addr i) (mi_addrs m)) eqn:Ed; [|discriminate].
           rewrite (del_ifaddr_nil _ _ _ Ed Ea), ifaddr_eqb_refl. reflexivity.
        -- rewrite N.eqb_sym, Ei. simpl. rewrite andb_true_r. reflexivity.
      * rewrite intf_get_put. simpl. destruct (i_index i =? idx) eqn:Ei.
        -- apply N.eqb_eq in Ei. subst idx. rewrite Eg. simpl. rewrite has_ifaddr_del.
           rewrite (ifaddr_eqb_sym a). reflexivity.
        -- simpl. rewrite andb_true_r. reflexivity.
    + (* not held: nothing changes *)
      destruct (i_index i =? idx) eqn:Ei; [|simpl; rewrite andb_true_r; reflexivity].
      apply N.eqb_eq in Ei. subst idx. rewrite Eg. simpl.
      destruct (ifaddr_eqb a (i_addr i)) eqn:Ea; [|simpl; rewrite andb_true_r; reflexivity].
      apply ifaddr_eqb_eq in Ea. subst a. rewrite Eh. reflexivity.
  - destruct (i_index i =? idx) eqn:Ei; [|simpl; rewrite andb_true_r; reflexivity].
    apply N.eqb_eq in Ei. subst idx. rewrite Eg. reflexivity.
Qed.

Lemma add_tbl_held l i : held l (i_index i) (i_addr i) = true -> add_tbl l i = l.
Proof.
  unfold held, add_tbl. destruct (intf_get (i_index i) l) as [m|]; [|discriminate]. intros ->. reflexivity.
Qed.

Definition apply_tbl (f : iface -> bool) (l : list myintf) (tbl : list iface) : list myintf :=
  fold_left (fun acc e => if f e then add_tbl acc e else del_tbl acc e) tbl l.

Lemma held_apply_tbl f tbl : forall l idx a,
  held (apply_tbl f l tbl) idx a =
  match find (fun e => key_is e idx a) (rev tbl) with
  | Some e => f e
  | None => held l idx a
  end.
Proof.
  induction tbl as [|e tbl IH]; intros l idx a; simpl; [reflexivity|].
  unfold apply_tbl in *. simpl. rewrite IH. rewrite find_app. simpl.
  destruct (find (fun e0 => key_is e0 idx a) (rev tbl)); [reflexivity|].
  destruct (f e) eqn:Ef.
  - rewrite held_add_tbl. destruct (key_is e idx a); simpl; [rewrite orb_true_r, Ef; reflexivity|apply orb_false_r].
  - rewrite held_del_tbl. destruct (key_is e idx a); simpl; [rewrite andb_false_r, Ef; reflexivity|apply andb_true_r].
Qed.

Lemma intf_get_map g l idx : (forall m, mi_index (g m) = mi_index m) ->
  intf_get idx (map g l) = option_map g (intf_get idx l).
Proof.
  intros Hg. induction l as [|m l IH]; simpl; [reflexivity|].
  rewrite Hg. destruct (mi_index m =? idx); [reflexivity|exact IH].
Qed.

Lemma has_ifaddr_filter a p l : has_ifaddr a (filter p l) = has_ifaddr a l && p a.
Proof.
  unfold has_ifaddr. induction l as [|x l IH]; simpl; [reflexivity|].
  destruct (p x) eqn:Ep; simpl.
  - rewrite IH. destruct (ifaddr_eqb a x) eqn:E; simpl; [|reflexivity].
    apply ifaddr_eqb_eq in E. subst x. rewrite Ep. reflexivity.
  - rewrite IH. destruct (ifaddr_eqb a x) eqn:E; simpl; [|reflexivity].
    apply ifaddr_eqb_eq in E. subst x. rewrite Ep, andb_false_r. reflexivity.
Qed.

Lemma os_has_find tbl idx a :
  os_has tbl idx a = match find (fun e => key_is e idx a) (rev tbl) with Some _ => true | None => false end.
Proof.
  unfold os_has. rewrite <- existsb_find_rev. unfold key_is.
  induction tbl as [|e l IH]; simpl; [reflexivity|].
  rewrite IH, (ifaddr_eqb_sym (i_addr e) a). reflexivity.
Qed.

Lemma in_intf_addrs_of v4 s intf a :
  In a (intf_addrs_of v4 s intf) ->
  In a (s_addrs s) /\ is_v4 a = v4 /\ exists x, In x (mi_addrs intf) /\ valid_ip_on_intf a x = true.
Proof.
  unfold intf_addrs_of. destruct v4; intros H.
  - apply addrs_on_intf_v4_spec in H. tauto.
  - apply addrs_on_intf_v6_spec in H. tauto.
Qed.

(* an announcement leaves on an interface only with
   address records, all of them addresses of the service that lie in a subnet of an address of
   that interface and have the family of the socket *)
Theorem announcement_carries_link_addresses s intf v4 p :
  announce_on s intf v4 = Some p ->
  intf_addrs_of v4 s intf <> [] /\
  forall r o, In r (p_answers p) -> r_data r = RAddr o ->
    exists a x, In a (s_addrs s) /\ o = ip_octets a /\ is_v4 a = v4 /\
                In x (mi_addrs intf) /\ valid_ip_on_intf a x = true.
Proof.
  unfold announce_on. destruct (is_nil (intf_addrs_of v4 s intf)) eqn:En; [discriminate|].
  destruct (family_enabled intf v4); [|discriminate]. intros H. inversion H; subst p; clear H. simpl.
  split; [intros E; rewrite E in En; discriminate|].
  intros r o Hin Hd. unfold announce_records in Hin.
  simpl in Hin. destruct Hin as [<-|Hin]; [discriminate|].
  apply in_app_or in Hin as [Hin|Hin].
  { destruct (s_sub s); [destruct Hin as [<-|[]]; discriminate|destruct Hin]. }
  destruct Hin as [<-|[<-|Hin]]; try discriminate.
  apply in_map_iff in Hin as [a [<- Ha]]. simpl in Hd. inversion Hd; subst o.
  apply in_intf_addrs_of in Ha as (H1 & H2 & x & H3 & H4). exists a, x. auto.
Qed.

Theorem goodbye_carries_link_addresses s intf v4 p :
  goodbye_on s intf v4 = Some p ->
  forall r o, In r (p_answers p) -> r_data r = RAddr o ->
    exists a x, In a (s_addrs s) /\ o = ip_octets a /\ is_v4 a = v4 /\
                In x (mi_addrs intf) /\ valid_ip_on_intf a x = true.
Proof.
  unfold goodbye_on. destruct (announce_on s intf v4) as [q|] eqn:Ea; [|discriminate].
  intros H. inversion H; subst p; clear H. simpl. intros r o Hin Hd.
  apply in_map_iff in Hin as [r0 [<- Hin]]. simpl in Hd.
  eapply (proj2 (announcement_carries_link_addresses _ _ _ _ Ea)); eassumption.
Qed.

(* o is an event about cached instances; packets and IpAdd / IpDel are not.  The addresses of a
   resolved instance are address records of c, with the interface they were learned on. *)
Definition cache_ev (c : cache) (o : obs) : Prop :=
  match o with
  | OFound _ _ | ORemoved _ _ => True
  | OResolved _ _ _ _ addrs =>
    forall ai, In ai addrs -> exists k r, In_table (c_addr c) k r /\ ii_index (c_src r) = snd ai
  | _ => False
  end.

Lemma cache_ev_sub c c' o :
  (forall k r, In_table (c_addr c) k r -> In_table (c_addr c') k r) -> cache_ev c o -> cache_ev c' o.
Proof.
  intros Hs. destruct o; simpl; auto. intros H ai Hai. destruct (H ai Hai) as (k & r & Hr & Hi). exists k, r. auto.
Qed.

Lemma tget_in k t r : In r (tget k t) -> exists k', In_table t k' r.
Proof.
  induction t as [|[k' v] t IH]; simpl; [intros []|]. destruct (beq k' k).
  - intros H. exists k', v. simpl. auto.
  - intros H. destruct (IH H) as [k2 [v2 [H1 H2]]]. exists k2, v2. simpl. auto.
Qed.

Lemma resolve_from_cache_ev c ty inst ev : resolve_from_cache c ty inst = Some ev -> cache_ev c ev.
Proof.
  unfold resolve_from_cache. destruct (tget inst (c_srv c)) as [|r l]; [discriminate|].
  destruct (r_data (c_rr r)); try discriminate. destruct (_ || _); [discriminate|].
  intros H. inversion H; subst ev; clear H. simpl. intros ai Hai. apply in_flat_map in Hai as [a [Ha Hai]].
  destruct (r_data (c_rr a)); try (destruct Hai; fail). destruct Hai as [<-|[]]. simpl.
  apply tget_in in Ha as [k' Hk]. exists k', a. auto.
Qed.

Lemma resolve_updated_eq d u : exists res out,
  resolve_updated d u = (set_cache (d_cache d) res d, out) /\ Forall (cache_ev (d_cache d)) out.
Proof.
  unfold resolve_updated.
  match goal with |- context [fold_left ?f ?l ([], [], [])] =>
    assert (G : Forall (cache_ev (d_cache d)) (snd (fold_left f l ([], [], []))));
    [apply (fold_left_inv (fun acc => Forall (cache_ev (d_cache d)) (snd acc)) f); [|constructor]|] end.
  { intros [[nr nl] out] [ty inst] _ Ho. simpl in Ho |- *.
    destruct (resolve_from_cache (d_cache d) ty inst) as [ev|] eqn:Er; simpl.
    - apply Forall_snoc; [exact Ho|]. eapply resolve_from_cache_ev. exact Er.
    - destruct (mem inst (d_resolved d)); simpl; [apply Forall_snoc; [exact Ho|exact I]|exact Ho]. }
  destruct (fold_left _ _ ([], [], [])) as [[nr nl] out]. eexists _, out. split; [reflexivity|exact G].
Qed.

Lemma notify_removed_ev c d rm : Forall (cache_ev c) (notify_removed d rm).
Proof.
  unfold notify_removed. apply Forall_flat_map, Forall_forall. intros kv _.
  destruct (mem _ _); [|constructor]. apply Forall_map, Forall_forall. intros x _. exact I.
Qed.

Lemma do_browse_eq d ty : exists res out,
  do_browse d ty =
    (mkD (d_os d) (d_intfs d) (d_regs d) (d_sels d) (d_svcs d) (d_cache d) (add_set ty (d_browsed d)) res
         (d_interval d) (d_next_check d) (d_retrans d), out) /\
  Forall (cache_ev (d_cache d)) out.
Proof.
  unfold do_browse.
  match goal with |- context [fold_left ?f ?l (d_resolved d, [])] =>
    assert (G : Forall (cache_ev (d_cache d)) (snd (fold_left f l (d_resolved d, []))));
    [apply (fold_left_inv (fun acc => Forall (cache_ev (d_cache d)) (snd acc)) f); [|constructor]|] end.
  { intros [res out] r _ Ho. simpl in Ho |- *. destruct (alias_of r) as [inst|]; [|exact Ho].
    destruct (resolve_from_cache (d_cache d) ty inst) as [ev|] eqn:Er; simpl.
    - apply Forall_app. split; [exact Ho|]. constructor; [exact I|].
      constructor; [eapply resolve_from_cache_ev; exact Er|constructor].
    - apply Forall_snoc; [exact Ho|exact I]. }
  destruct (fold_left _ _ (d_resolved d, [])) as [res out]. exists res, out. split; [reflexivity|exact G].
Qed.

Lemma upsert_in key f t k v' : In (k, v') (upsert key f t) ->
  In (k, v') t \/ exists v, v' = f v /\ (v = [] \/ In (k, v) t).
Proof.
  induction t as [|[k0 v0] t IH]; simpl.
  - intros [H|[]]. inversion H; subst. right. exists []. auto.
  - destruct (beq k0 key); simpl.
    + intros [H|H]; [|auto]. inversion H; subst. right. exists v0. auto.
    + intros [H|H]; [auto|]. destruct (IH H) as [H'|[v [H1 [H2|H2]]]]; [auto| |]; right; exists v; auto.
Qed.

Lemma cache_insert_addr c r src k x : In_table (c_addr (cache_insert c r src)) k x ->
  In_table (c_addr c) k x \/ (x = mkCrec r src /\ ((r_type r =? TY_A) || (r_type r =? TY_AAAA)) = true).
Proof.
  unfold cache_insert. destruct (r_type r =? TY_PTR); [auto|]. destruct (r_type r =? TY_SRV); [auto|].
  destruct (r_type r =? TY_TXT); [auto|]. destruct ((r_type r =? TY_A) || (r_type r =? TY_AAAA)) eqn:Et; [|auto].
  cbn [c_addr]. intros [v' [H1 H2]]. apply upsert_in in H1 as [H1|[v [Hv Hin]]].
  - left. exists v'. auto.
  - subst v'. unfold insert_rec in H2. destruct (existsb _ v).
    + destruct Hin as [->|Hin]; [destruct H2|]. left. exists v. auto.
    + destruct H2 as [<-|H2]; [right; auto|]. destruct Hin as [->|Hin]; [destruct H2|]. left. exists v. auto.
Qed.

Definition learned_on (intf : myintf) (x : crec) : Prop :=
  c_src x = mkIntfId (mi_name intf) (mi_index intf) /\
  ((r_type (c_rr x) =? TY_A) || (r_type (c_rr x) =? TY_AAAA)) = true.

Lemma handle_response_eq d intf m : exists c res out,
  handle_response d intf m = (set_cache c res d, out) /\ Forall (cache_ev c) out /\
  forall k x, In_table (c_addr c) k x -> In_table (c_addr (d_cache d)) k x \/ learned_on intf x.
Proof.
  unfold handle_response. destruct (negb (for_us d m)).
  { exists (d_cache d), (d_resolved d), []. split; [destruct d; reflexivity|]. split; [constructor|auto]. }
  set (src := mkIntfId (mi_name intf) (mi_index intf)).
  (* the loop over the records: the cache grows only by address records learned on intf; the
     events found so far are OFound, cache events of whatever the cache will be *)
  set (P := fun acc : cache * list obs * list (N * bytes) =>
              (forall k x, In_table (c_addr (fst (fst acc))) k x ->
                           In_table (c_addr (d_cache d)) k x \/ learned_on intf x) /\
              Forall (fun o => forall c, cache_ev c o) (snd (fst acc))).
  match goal with |- context [fold_left ?f ?l (d_cache d, [], [])] => set (step := f); set (recs := l) end.
  assert (G : P (fold_left step recs (d_cache d, [], []))).
  { apply fold_left_inv; [|split; [auto|constructor]].
    intros [[c found] changes] r _ [Hc Hf]. unfold P, step. simpl in Hc, Hf |- *.
    assert (Hc' : forall k x, In_table (c_addr (cache_insert c r src)) k x ->
                              In_table (c_addr (d_cache d)) k x \/ learned_on intf x).
    { intros k x Hx. apply cache_insert_addr in Hx as [Hx|[-> Ht]]; [auto|]. right. split; [reflexivity|exact Ht]. }
    destruct (is_new c r src); [|simpl; auto].
    destruct ((r_type r =? TY_PTR) && (1 <? r_ttl r)); [|simpl; auto].
    destruct (r_data r); simpl; auto. split; [exact Hc'|].
    apply Forall_app. split; [exact Hf|]. destruct (mem (r_name r) (d_browsed d)); constructor; [|constructor].
    intros c0. exact I. }
  destruct (fold_left step recs (d_cache d, [], [])) as [[c found] changes]. destruct G as [Gc Gf]. simpl in Gc, Gf.
  match goal with |- context [resolve_updated ?d0 ?u] =>
    destruct (resolve_updated_eq d0 u) as (res & evs & -> & Hev) end.
  exists c, res, (found ++ evs). split; [reflexivity|]. split; [|exact Gc].
  apply Forall_app. split; [|exact Hev]. eapply Forall_impl; [|exact Gf]. intros o H. apply H.
Qed.

Lemma del_interface_addr_eq st i : exists regs svcs c,
  del_interface_addr st i =
    (mkD (d_os st) (del_tbl (d_intfs st) i) regs (d_sels st) svcs c (d_browsed st) (d_resolved st)
         (d_interval st) (d_next_check st) (d_retrans st),
     if held (d_intfs st) (i_index i) (i_addr i) && negb (holds_ip (del_tbl (d_intfs st) i) (i_ip i))
     then [OIpDel (i_ip i)] else []) /\
  (svcs = d_svcs st \/ svcs = map (fun kv => (fst kv, svc_remove_ip (i_ip i) (snd kv))) (d_svcs st)) /\
  (c = d_cache st \/ exists t, c = remove_addrs_on_disabled_intf (d_cache st) (i_index i) t).
Proof.
  unfold del_interface_addr, del_tbl, held. destruct st as [os l regs sels svcs c br res iv nx rt]. simpl.
  destruct (intf_get (i_index i) l) as [m|]; [|exists regs, svcs, c; auto].
  destruct (has_ifaddr (i_addr i) (mi_addrs m)); [|exists regs, svcs, c; auto]. simpl.
  destruct (is_nil (del_ifaddr (i_addr i) (mi_addrs m))); simpl.
  - destruct (holds_ip _ _); simpl; eexists _, _, _; (split; [reflexivity|simpl]); eauto.
  - destruct (negb (family_enabled _ _)); simpl; destruct (holds_ip _ _); simpl;
      eexists _, _, _; (split; [reflexivity|simpl]); eauto.
Qed.

Lemma add_interface_held now d i :
  held (d_intfs d) (i_index i) (i_addr i) = true -> add_interface now d i = (d, []).
Proof.
  unfold held, add_interface. destruct (intf_get (i_index i) (d_intfs d)) as [m|]; [|discriminate].
  intros ->. reflexivity.
Qed.

(* add_interface, one service: its new entry, and its announcement on the new address if there is one *)
Definition ai_svc (my_intf : myintf) (i : iface) (ds : dsvc) : dsvc * list packet :=
  if ds_auto ds then
    let ds1 := svc_insert_ip (i_ip i) ds in
    match announce_on (ds_svc ds1) my_intf (is_v4 (i_ip i)) with
    | Some p => (mkDsvc (ds_svc ds1) true (status_set (i_index i) Announced (ds_status ds1)), [p])
    | None => (mkDsvc (ds_svc ds1) true (status_set (i_index i) Probing (ds_status ds1)), [])
    end
  else (ds, []).

Lemma add_interface_new now d i : held (d_intfs d) (i_index i) (i_addr i) = false ->
  exists my_intf, intf_get (i_index i) (add_tbl (d_intfs d) i) = Some my_intf /\
  add_interface now d i =
    (mkD (d_os d) (add_tbl (d_intfs d) i) (addN (i_index i) (d_regs d)) (d_sels d)
         (map (fun kv => (fst kv, fst (ai_svc my_intf i (snd kv)))) (d_svcs d))
         (d_cache d) (d_browsed d) (d_resolved d) (d_interval d) (d_next_check d)
         (d_retrans d ++ flat_map (fun kv => map (fun _ => (now + 1000, RRegisterResend (fst kv) (i_index i)))
                                                 (snd (ai_svc my_intf i (snd kv)))) (d_svcs d)),
     flat_map (fun kv => map (fun p => OSent (reroute (d_os d) my_intf p)) (snd (ai_svc my_intf i (snd kv)))) (d_svcs d)
     ++ [OIpAdd (i_ip i)]).
Proof.
  intros Hh.
  assert (Hg : exists my_intf, intf_get (i_index i) (add_tbl (d_intfs d) i) = Some my_intf).
  { assert (H : held (add_tbl (d_intfs d) i) (i_index i) (i_addr i) = true).
    { rewrite held_add_tbl. unfold key_is. rewrite N.eqb_refl, ifaddr_eqb_refl. apply orb_true_r. }
    unfold held in H. destruct (intf_get _ (add_tbl _ _)) as [m|]; [eauto|discriminate]. }
  destruct Hg as [my_intf Hg]. exists my_intf. split; [exact Hg|].
  revert Hg Hh. unfold add_interface, add_tbl, held. cbv zeta.
  destruct (intf_get (i_index i) (d_intfs d)) as [m|]; [destruct (has_ifaddr _ _); [discriminate|]|].
  (* in both cases: one step of the loop extends each of the three lists by what ai_svc says *)
  all: intros Hg _; cbv beta iota delta [negb]; rewrite Hg; cbn [d_svcs set_intfs].
  all: rewrite (fold_left_out3 _ (fun kv => [(fst kv, fst (ai_svc my_intf i (snd kv)))])
             (fun kv => map (fun p => OSent (reroute (d_os d) my_intf p)) (snd (ai_svc my_intf i (snd kv))))
             (fun kv => map (fun _ => (now + 1000, RRegisterResend (fst kv) (i_index i))) (snd (ai_svc my_intf i (snd kv)))));
    [rewrite flat_map_single; reflexivity|].
  all: intros a b c [k ds]; unfold ai_svc; cbn [fst snd]; destruct (ds_auto ds); [destruct (announce_on _ _ _)|];
    cbn [fst snd map]; rewrite ?app_nil_r; reflexivity.
Qed.

(* o is a packet p with Q intf v4 p, leaving through intf *)
Definition sent_by (Q : myintf -> bool -> packet -> Prop) (os : list iface) (o : obs) : Prop :=
  exists intf v4 p, Q intf v4 p /\ o = OSent (reroute os intf p).

Lemma sent_by_impl (Q Q' : myintf -> bool -> packet -> Prop) os o :
  (forall intf v4 p, Q intf v4 p -> Q' intf v4 p) -> sent_by Q os o -> sent_by Q' os o.
Proof. intros H (intf & v4 & p & Hq & E). exists intf, v4, p. auto. Qed.

Lemma sent_pair (f : myintf -> bool -> option packet) intf os :
  Forall (sent_by (fun x v4 p => x = intf /\ f x v4 = Some p) os)
         (map (fun p => OSent (reroute os intf p)) (opt_list (f intf true) ++ opt_list (f intf false))).
Proof.
  rewrite map_app. apply Forall_app. split.
  - destruct (f intf true) as [p|] eqn:E; constructor; [|constructor]. exists intf, true, p. auto.
  - destruct (f intf false) as [p|] eqn:E; constructor; [|constructor]. exists intf, false, p. auto.
Qed.

Definition is_reg_resend (x : N * rcmd) : Prop := match snd x with RRegisterResend _ _ => True | _ => False end.

Lemma status_get_set idx idx' v l : status_get idx (status_set idx' v l) = if idx' =? idx then v else status_get idx l.
Proof.
  induction l as [|[i s0] t IH]; simpl; [reflexivity|].
  destruct (i =? idx') eqn:E1; simpl.
  - apply N.eqb_eq in E1. subst i. destruct (idx' =? idx); reflexivity.
  - rewrite IH. destruct (i =? idx) eqn:E2; [|reflexivity]. apply N.eqb_eq in E2. subst i. rewrite N.eqb_sym in E1. rewrite E1. reflexivity.
Qed.

Lemma do_register_eq now d s auto : exists s1 status regs resend out,
  do_register now d s auto =
    (mkD (d_os d) (d_intfs d) regs (d_sels d)
         (svc_put (lower (s_fullname s1)) (mkDsvc s1 auto status) (d_svcs d))
         (d_cache d) (d_browsed d) (d_resolved d) (d_interval d) (d_next_check d) (d_retrans d ++ resend), out) /\
  Forall is_reg_resend resend /\
  Forall (sent_by (fun intf v4 p => In intf (d_intfs d) /\ announce_on s1 intf v4 = Some p) (d_os d)) out /\
  forall idx, status_get idx status = Announced ->
    exists intf v4 p, mi_index intf = idx /\ announce_on s1 intf v4 = Some p /\ In (OSent (reroute (d_os d) intf p)) out.
Proof.
  unfold do_register.
  set (s1 := if auto then _ else s).
  exists s1.
  (* the loop over my_intfs: (status, packets, repetitions to schedule) *)
  set (P := fun acc : list (N * status) * list obs * list (N * rcmd) =>
              Forall is_reg_resend (snd acc) /\
              Forall (sent_by (fun intf v4 p => In intf (d_intfs d) /\ announce_on s1 intf v4 = Some p) (d_os d)) (snd (fst acc)) /\
              forall idx, status_get idx (fst (fst acc)) = Announced ->
                exists intf v4 p, mi_index intf = idx /\ announce_on s1 intf v4 = Some p /\
                                  In (OSent (reroute (d_os d) intf p)) (snd (fst acc))).
  match goal with |- context [fold_left ?f (d_intfs d) ([], [], [])] => set (step := f) end.
  assert (G : P (fold_left step (d_intfs d) ([], [], []))).
  { apply fold_left_inv; [|split; [constructor|split; [constructor|intros idx H; discriminate]]].
    intros [[st sent] resend] intf Hin (H1 & H2 & H3). unfold P, step. cbn [fst snd] in H1, H2, H3 |- *.
    pose proof (sent_pair (announce_on s1) intf (d_os d)) as Hp.
    destruct (is_nil (opt_list (announce_on s1 intf true) ++ opt_list (announce_on s1 intf false))) eqn:En; cbn [fst snd].
    - split; [exact H1|]. split; [exact H2|]. intros idx. rewrite status_get_set.
      destruct (mi_index intf =? idx); [discriminate|apply H3].
    - split; [apply Forall_snoc; [exact H1|exact I]|]. split.
      + apply Forall_app. split; [exact H2|]. eapply Forall_impl; [|exact Hp].
        intros o. apply sent_by_impl. intros x v4 p [-> E]. auto.
      + intros idx. rewrite status_get_set. destruct (mi_index intf =? idx) eqn:Ei.
        * intros _. apply N.eqb_eq in Ei. subst idx. destruct (opt_list _ ++ opt_list _) as [|p0 l] eqn:El; [discriminate|].
          apply Forall_inv in Hp. destruct Hp as (x & v4 & p & [-> E] & Ho). exists intf, v4, p.
          split; [reflexivity|]. split; [exact E|]. apply in_or_app. right. left. exact Ho.
        * intros Hs. destruct (H3 idx Hs) as (x & v4 & p & A & B & C). exists x, v4, p. auto using in_or_app. }
  destruct (fold_left step (d_intfs d) ([], [], [])) as [[status sent] resend]. destruct G as (G1 & G2 & G3).
  cbn [fst snd] in G1, G2, G3.
  eexists status, _, resend, sent. split; [reflexivity|]. auto.
Qed.

Lemma do_unregister_eq now d key :
  match svc_get key (d_svcs d) with
  | None => do_unregister now d key = (d, [])
  | Some ds => exists resend out,
      do_unregister now d key =
        (mkD (d_os d) (d_intfs d) (d_regs d) (d_sels d) (filter (fun kv => negb (beq (fst kv) key)) (d_svcs d))
             (d_cache d) (d_browsed d) (d_resolved d) (d_interval d) (d_next_check d) (d_retrans d ++ resend), out) /\
      Forall (sent_by (fun intf v4 p => In intf (d_intfs d) /\ goodbye_on (ds_svc ds) intf v4 = Some p) (d_os d)) out /\
      Forall (fun x => exists intf v4 p, In intf (d_intfs d) /\ goodbye_on (ds_svc ds) intf v4 = Some p /\
                                         snd x = RUnregisterResend p (mi_index intf) v4) resend
  end.
Proof.
  unfold do_unregister. destruct (svc_get key (d_svcs d)) as [ds|]; [|reflexivity].
  set (Q := fun intf v4 p => In intf (d_intfs d) /\ goodbye_on (ds_svc ds) intf v4 = Some p).
  (* the loop over my_intfs: (goodbyes, their repetitions to schedule) *)
  set (P := fun acc : list obs * list (N * rcmd) =>
              Forall (sent_by Q (d_os d)) (fst acc) /\
              Forall (fun x => exists intf v4 p, Q intf v4 p /\ snd x = RUnregisterResend p (mi_index intf) v4) (snd acc)).
  match goal with |- context [fold_left ?f (d_intfs d) ([], [])] => set (step := f) end.
  assert (G : P (fold_left step (d_intfs d) ([], []))).
  { apply fold_left_inv; [|split; constructor].
    intros [sent resend] intf Hin [H1 H2]. unfold P, step. cbn [fst snd] in H1, H2 |- *.
    destruct (negb (is_announced _)); [split; assumption|]. cbn [fst snd]. split.
    - apply Forall_app. split; [exact H1|]. eapply Forall_impl; [|apply (sent_pair (goodbye_on (ds_svc ds)))].
      intros o. apply sent_by_impl. intros x v4 p [-> E]. split; assumption.
    - apply Forall_app. split; [exact H2|]. apply Forall_app. split.
      + destruct (goodbye_on (ds_svc ds) intf true) as [p|] eqn:E; constructor; [|constructor].
        exists intf, true, p. repeat split; assumption.
      + destruct (goodbye_on (ds_svc ds) intf false) as [p|] eqn:E; constructor; [|constructor].
        exists intf, false, p. repeat split; assumption. }
  destruct (fold_left step (d_intfs d) ([], [])) as [sent resend]. destruct G as [G1 G2]. cbn [fst snd] in G1, G2.
  exists resend, sent. split; [reflexivity|]. split; [exact G1|].
  eapply Forall_impl; [|exact G2]. intros x (intf & v4 & p & [A B] & C). exists intf, v4, p. auto.
Qed.

Lemma add_interface_intfs now d i :
  d_intfs (fst (add_interface now d i)) = add_tbl (d_intfs d) i /\
  d_sels (fst (add_interface now d i)) = d_sels d /\ d_os (fst (add_interface now d i)) = d_os d.
Proof.
  destruct (held (d_intfs d) (i_index i) (i_addr i)) eqn:Eh.
  - rewrite (add_interface_held _ _ _ Eh), (add_tbl_held _ _ Eh). auto.
  - destruct (add_interface_new now d i Eh) as (mi & _ & ->). auto.
Qed.

Lemma del_interface_addr_intfs d i :
  d_intfs (fst (del_interface_addr d i)) = del_tbl (d_intfs d) i /\
  d_sels (fst (del_interface_addr d i)) = d_sels d /\ d_os (fst (del_interface_addr d i)) = d_os d.
Proof. destruct (del_interface_addr_eq d i) as (regs & svcs & c & -> & _). auto. Qed.

(* one round of the loop of apply_intf_selections *)
Definition apply_step (now : N) (acc : dstate * list obs) (im : iface * bool) : dstate * list obs :=
  let '(st, out) := acc in
  let '(st', o) := if snd im then add_interface now st (fst im) else del_interface_addr st (fst im) in
  (st', out ++ o).

Lemma apply_intf_selections_fold now d tbl :
  apply_intf_selections now d tbl
  = fold_left (apply_step now) (combine tbl (map (last_match (d_sels d)) tbl)) (d, []).
Proof. unfold apply_intf_selections. rewrite apply_marks_last_match. reflexivity. Qed.

Lemma apply_step_eq now st out e (b : bool) :
  apply_step now (st, out) (e, b)
  = (fst (if b then add_interface now st e else del_interface_addr st e),
     out ++ snd (if b then add_interface now st e else del_interface_addr st e)).
Proof. unfold apply_step. cbn [fst snd]. destruct (if b then _ else _). reflexivity. Qed.

Lemma apply_fold_ind now (f : iface -> bool) (P : dstate -> list obs -> Prop) tbl :
  (forall st out e, In e tbl -> P st out ->
     P (fst (if f e then add_interface now st e else del_interface_addr st e))
       (out ++ snd (if f e then add_interface now st e else del_interface_addr st e))) ->
  forall st out, P st out ->
  P (fst (fold_left (apply_step now) (combine tbl (map f tbl)) (st, out)))
    (snd (fold_left (apply_step now) (combine tbl (map f tbl)) (st, out))).
Proof.
  induction tbl as [|e tbl IH]; intros Hs st out HP; [exact HP|].
  cbn [map combine fold_left]. rewrite apply_step_eq.
  apply IH; [intros st' out' e' He'; apply Hs; right; exact He'|]. apply Hs; [left; reflexivity|exact HP].
Qed.

Lemma apply_fold_intfs now (f : iface -> bool) tbl : forall st out,
  let r := fold_left (apply_step now) (combine tbl (map f tbl)) (st, out) in
  d_intfs (fst r) = apply_tbl f (d_intfs st) tbl /\ d_sels (fst r) = d_sels st /\ d_os (fst r) = d_os st.
Proof.
  induction tbl as [|e tbl IH]; intros st out; [cbn; auto|].
  cbn [map combine fold_left]. rewrite apply_step_eq. cbv zeta in IH |- *.
  destruct (IH (fst (if f e then add_interface now st e else del_interface_addr st e))
               (out ++ snd (if f e then add_interface now st e else del_interface_addr st e))) as (I1 & I2 & I3).
  rewrite I1, I2, I3. unfold apply_tbl. cbn [fold_left].
  destruct (f e); [destruct (add_interface_intfs now st e) as (H1 & H2 & H3)
                  |destruct (del_interface_addr_intfs st e) as (H1 & H2 & H3)]; rewrite H1, H2, H3; auto.
Qed.

(* an (interface, address) pair the table names is held afterwards
   iff the last matching selection enables its entry; pairs the table does not name are untouched *)
Theorem interface_table_after_apply now d tbl idx a :
  let d' := fst (apply_intf_selections now d tbl) in
  held (d_intfs d') idx a =
  match find (fun e => key_is e idx a) (rev tbl) with
  | Some e => last_match (d_sels d) e
  | None => held (d_intfs d) idx a
  end
  /\ d_sels d' = d_sels d.
Proof.
  cbv zeta. rewrite apply_intf_selections_fold.
  destruct (apply_fold_intfs now (last_match (d_sels d)) tbl d []) as (H1 & H2 & _).
  rewrite H1, H2. split; [apply held_apply_tbl|reflexivity].
Qed.

Lemma ai_svc_sent my_intf i ds p : In p (snd (ai_svc my_intf i ds)) ->
  exists s, announce_on s my_intf (is_v4 (i_ip i)) = Some p.
Proof.
  unfold ai_svc. destruct (ds_auto ds); [|intros []].
  destruct (announce_on _ my_intf _) as [q|] eqn:E; [|intros []]. intros [<-|[]]. eauto.
Qed.

Lemma apply_keeps_sels_os now d tbl :
  d_sels (fst (apply_intf_selections now d tbl)) = d_sels d /\ d_os (fst (apply_intf_selections now d tbl)) = d_os d.
Proof.
  rewrite apply_intf_selections_fold.
  destruct (apply_fold_intfs now (last_match (d_sels d)) tbl d []) as (_ & H2 & H3). auto.
Qed.

Lemma handle_dgram_cases d g (Q : dstate * list obs -> Prop) :
  Q (d, []) ->
  (forall intf m p, intf_get (dg_if g) (d_intfs d) = Some intf -> family_enabled intf (is_v4 (dg_src g)) = true ->
     handle_query (mkHq (entries_on d (dg_if g)) [] intf m (dg_src g) (dg_port g)) = Some p ->
     Q (d, [OSent (reroute (d_os d) intf p)])) ->
  (forall intf m, intf_get (dg_if g) (d_intfs d) = Some intf -> family_enabled intf (is_v4 (dg_src g)) = true ->
     Q (handle_response d intf m)) ->
  Q (handle_dgram d g).
Proof.
  intros H0 Hq Hr. unfold handle_dgram.
  destruct (intf_get (dg_if g) (d_intfs d)) as [intf|] eqn:Eg; [|exact H0].
  destruct (negb (family_enabled intf (is_v4 (dg_src g)))) eqn:Ef; [exact H0|]. apply negb_false_iff in Ef.
  destruct (decode (dg_data g)) as [m| | |]; try exact H0.
  destruct (N.land (m_flags m) 32768 =? 0); [|exact (Hr intf m eq_refl Ef)].
  destruct (memN (dg_if g) (d_regs d)); [|exact H0].
  destruct (handle_query _) as [p|] eqn:Eq; [|exact H0]. exact (Hq intf m p eq_refl Ef Eq).
Qed.

Lemma do_retrans_cases d c (Q : dstate * list obs -> Prop) :
  Q (d, []) ->
  (forall key idx ds intf, c = RRegisterResend key idx -> svc_get key (d_svcs d) = Some ds ->
     intf_get idx (d_intfs d) = Some intf ->
     is_nil (opt_list (announce_on (ds_svc ds) intf true) ++ opt_list (announce_on (ds_svc ds) intf false)) = false ->
     Q (upd_svcs (svc_put key (mkDsvc (ds_svc ds) (ds_auto ds) (status_set idx Announced (ds_status ds)))) d,
        map (fun p => OSent (reroute (d_os d) intf p))
            (opt_list (announce_on (ds_svc ds) intf true) ++ opt_list (announce_on (ds_svc ds) intf false)))) ->
  (forall p idx v4 intf, c = RUnregisterResend p idx v4 -> intf_get idx (d_intfs d) = Some intf ->
     family_enabled intf v4 = true -> Q (d, [OSent (reroute (d_os d) intf p)])) ->
  Q (do_retrans d c).
Proof.
  intros H0 Hr Hu. destruct c as [key idx|p idx v4]; simpl.
  - destruct (svc_get key (d_svcs d)) as [ds|] eqn:Es; [|exact H0].
    destruct (intf_get idx (d_intfs d)) as [intf|] eqn:Eg; [|exact H0].
    destruct (memN idx (d_regs d)); [|exact H0].
    destruct (is_nil _) eqn:En; [exact H0|]. eapply Hr; eauto.
  - destruct (intf_get idx (d_intfs d)) as [intf|] eqn:Eg; [|exact H0].
    destruct (family_enabled intf v4) eqn:Ef; [|exact H0]. eapply Hu; eauto.
Qed.
