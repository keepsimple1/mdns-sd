(* C20: properties of the size model (Model/BoundedModel.v): what the phases of an iteration leave
   alone (frame, keeps), properties of the record maps that survive commands and refresh (Section
   CacheShape), expired records gone after one iteration, the iteration with nothing to do
   (idle_step), and the two acceptance rules agreeing while nothing unneeded is stored.  No axioms. *)
From Coq Require Import List NArith Bool Lia.
From Mdns Require Import Bytes ListFacts ParamsHostres HostresBase BoundedModel BoundedSpec HostresPinned HostresBaseFacts.
Import ListNotations.
Open Scope N_scope.

Definition all_kinds : list kind := [KPtr; KSrv; KTxt; KAddr; KNsec].
Definition entries_of (k : kind) (c : bcache) : list crec := flat_map snd (get_map k c).

Lemma get_set_same k m c : k <> KNone -> get_map k (set_map k m c) = m.
Proof. destruct k; simpl; intros H; try reflexivity. contradiction. Qed.

Lemma get_set_other k k' m c : k <> k' -> get_map k' (set_map k m c) = get_map k' c.
Proof. destruct k, k'; simpl; intros H; try reflexivity; contradiction. Qed.

Lemma sub_set_map k m c : bc_sub (set_map k m c) = bc_sub c.
Proof. destruct k; reflexivity. Qed.

Lemma count_app_empty m key : count (m ++ [(key, [])]) = count m.
Proof. unfold count. rewrite flat_map_app. simpl. rewrite app_nil_r. reflexivity. Qed.

Lemma entries_total_kinds c :
  entries_total c = count (get_map KPtr c) + count (get_map KSrv c) + count (get_map KTxt c)
                    + count (get_map KAddr c) + count (get_map KNsec c).
Proof. reflexivity. Qed.

Lemma aou_kind_not_ok k now fu x c :
  aou_kind k now fu false x c
  = (set_map k (if ahas (match k with KAddr => lower (c_name x) | _ => c_name x end) (get_map k c)
                then get_map k c
                else get_map k c ++ [(match k with KAddr => lower (c_name x) | _ => c_name x end, [])]) c, [], None).
Proof.
  unfold aou_kind. rewrite andb_false_r. cbn [andb negb]. rewrite orb_true_r. reflexivity.
Qed.

Theorem unneeded_never_cached now fu x c :
  let '(c', tm, res) := add_or_update now fu false x c in
  res = None /\ tm = []
  /\ bc_sub c' = bc_sub c
  /\ forall k, count (get_map k c') = count (get_map k c).
Proof.
  unfold add_or_update.
  assert (G : forall k0, k0 <> KNone ->
            let '(c', tm, res) := aou_kind k0 now fu false x c in
            res = None /\ tm = [] /\ bc_sub c' = bc_sub c /\ forall k, count (get_map k c') = count (get_map k c)).
  { intros k0 Hk. rewrite aou_kind_not_ok. repeat split; [apply sub_set_map|].
    intros k. destruct k0, k; try contradiction; cbn [get_map set_map]; try reflexivity;
      destruct (ahas _ _); try reflexivity; apply count_app_empty. }
  destruct (kind_of (c_ty x)); try (apply G; discriminate).
  repeat split; reflexivity.
Qed.

Definition ext (l l' : list N) : Prop := exists e, l' = l ++ e.
Lemma ext_refl l : ext l l. Proof. exists []. rewrite app_nil_r. reflexivity. Qed.
Lemma ext_trans a b c : ext a b -> ext b c -> ext a c.
Proof. intros [e1 ->] [e2 ->]. exists (e1 ++ e2). rewrite app_assoc. reflexivity. Qed.
Lemma ext_app l e : ext l (l ++ e). Proof. exists e. reflexivity. Qed.

(* queueing a retransmission, resolve_updated_instances and the retransmission phase only touch
   the retransmission list, the pending/resolved sets, and push timers *)
Record frame (s s' : bst) : Prop := mkFrame {
  fr_cache : b_cache s' = b_cache s;
  fr_queriers : b_queriers s' = b_queriers s;
  fr_resolvers : b_resolvers s' = b_resolvers s;
  fr_next_ip : b_next_ip s' = b_next_ip s;
  fr_ip_interval : b_ip_interval s' = b_ip_interval s;
  fr_excess : b_excess s' = b_excess s;
  fr_timers : ext (b_timers s) (b_timers s') }.

Lemma frame_refl s : frame s s.
Proof. split; try reflexivity. apply ext_refl. Qed.

Lemma frame_trans a b c : frame a b -> frame b c -> frame a c.
Proof.
  intros [A1 A2 A3 A4 A5 A6 A7] [B1 B2 B3 B4 B5 B6 B7]. split; try congruence.
  eapply ext_trans; eassumption.
Qed.

Lemma frame_fold {B} (f : bst -> B -> bst) l :
  (forall s x, frame s (f s x)) -> forall s, frame s (fold_left f l s).
Proof.
  intros H s. apply (fold_left_inv (frame s)); [|apply frame_refl].
  intros a x _ Ha. eapply frame_trans; [exact Ha|apply H].
Qed.

Lemma frame_add_retr t c s : frame s (add_retr t c s).
Proof. split; try reflexivity. apply ext_app. Qed.

Lemma frame_add_pending now s i : frame s (add_pending now s i).
Proof.
  unfold add_pending. destruct (mem i (b_pending s)); [apply frame_refl|].
  split; try reflexivity. apply ext_app.
Qed.

Lemma frame_settle u now s l : frame s (settle u now s l).
Proof.
  unfold settle. eapply frame_trans; [|apply frame_fold; intros; apply frame_add_pending].
  split; try reflexivity. apply ext_refl.
Qed.

Lemma frame_resolve_updated now s l : frame s (resolve_updated now s l).
Proof. unfold resolve_updated. destruct l; [apply frame_refl|apply frame_settle]. Qed.

Lemma frame_host_send now host delay s : frame s (host_send now host delay s).
Proof.
  unfold host_send. destruct (match aget _ _ with Some (Some d) => _ | _ => true end);
    [apply frame_add_retr|apply frame_refl].
Qed.

Lemma frame_exec_rerun now s x : frame s (exec_rerun now s x).
Proof.
  unfold exec_rerun. destruct (snd x).
  - apply frame_add_retr.
  - destruct (_ && _); [apply frame_add_retr|]. split; try reflexivity. apply ext_refl.
  - destruct (ahas _ _); [apply frame_host_send|apply frame_refl].
Qed.

Lemma frame_do_reruns now s : frame s (do_reruns now s).
Proof.
  unfold do_reruns. eapply frame_trans; [|apply frame_fold; intros; apply frame_exec_rerun].
  split; try reflexivity. apply ext_refl.
Qed.

(* the phases that do change the cache or the searches still keep the excess counter and only
   push timers *)
Definition keeps (s s' : bst) : Prop := b_excess s' = b_excess s /\ ext (b_timers s) (b_timers s').

Lemma keeps_refl s : keeps s s.
Proof. split; [reflexivity|apply ext_refl]. Qed.

Lemma keeps_trans a b c : keeps a b -> keeps b c -> keeps a c.
Proof. intros [A1 A2] [B1 B2]. split; [congruence|eapply ext_trans; eassumption]. Qed.

Lemma frame_keeps s s' : frame s s' -> keeps s s'.
Proof. intros H. split; [apply (fr_excess _ _ H)|apply (fr_timers _ _ H)]. Qed.

Lemma keeps_exec_call now acc c : keeps (fst acc) (fst (exec_call now acc c)).
Proof.
  destruct acc as [s out]. destruct c; cbn [exec_call fst].
  - unfold browse_send. eapply keeps_trans; [|apply frame_keeps, frame_add_retr].
    eapply keeps_trans; [|apply frame_keeps, frame_settle]. split; [reflexivity|apply ext_refl].
  - destruct (mem ty (b_queriers s)); split; try reflexivity; apply ext_refl.
  - eapply keeps_trans; [|apply frame_keeps, frame_host_send]. split; [reflexivity|apply ext_app].
  - destruct (ahas (lower host) (b_resolvers s)); split; try reflexivity; apply ext_refl.
  - apply keeps_refl.
  - split; [reflexivity|apply ext_refl].
Qed.

Lemma keeps_fold_calls now cs acc : keeps (fst acc) (fst (fold_left (exec_call now) cs acc)).
Proof.
  apply (fold_left_inv (fun a => keeps (fst acc) (fst a))); [|apply keeps_refl].
  intros a c _ Ha. eapply keeps_trans; [exact Ha|apply keeps_exec_call].
Qed.

Lemma keeps_do_refresh now s : keeps s (do_refresh now s).
Proof.
  unfold do_refresh. destruct (fold_left (refresh_type now) (b_queriers s) (b_cache s, [])).
  split; [reflexivity|apply ext_app].
Qed.

(* eviction: the expired records go (the PTR map keeps its emptied buckets), then
   resolve_updated_instances for the hosts that lost an address *)
Lemma do_evict_split now s : exists s0,
  frame s0 (do_evict now s) /\ keeps s s0
  /\ forall k,
       get_map k (b_cache s0)
       = (match k with KPtr => fun m => m | _ => drop_empty end) (live_only now (get_map k (b_cache s))).
Proof.
  unfold do_evict. eexists. split; [apply frame_fold; intros; apply frame_resolve_updated|]. split.
  - split; [reflexivity|apply ext_refl].
  - intros k. destruct k; reflexivity.
Qed.

Lemma do_evict_cache now s k :
  get_map k (b_cache (do_evict now s))
  = (match k with KPtr => fun m => m | _ => drop_empty end) (live_only now (get_map k (b_cache s))).
Proof.
  destruct (do_evict_split now s) as [s0 [Hf [_ Hc]]]. rewrite (fr_cache _ _ Hf). apply Hc.
Qed.

Lemma keeps_do_evict now s : keeps s (do_evict now s).
Proof.
  destruct (do_evict_split now s) as [s0 [Hf [Hk _]]]. eapply keeps_trans; [exact Hk|apply frame_keeps; exact Hf].
Qed.

Lemma ip_check_cache now s : b_cache (ip_check now s) = b_cache s.
Proof.
  unfold ip_check. destruct (b_ip_interval s =? 0); [reflexivity|].
  destruct (b_next_ip s =? 0); [reflexivity|]. destruct (hp_ip_check_due now (b_next_ip s)); reflexivity.
Qed.

Lemma keeps_ip_check now s : keeps s (ip_check now s).
Proof.
  unfold ip_check. destruct (b_ip_interval s =? 0); [split; [reflexivity|apply ext_app]|].
  destruct (b_next_ip s =? 0); [split; [reflexivity|apply ext_app]|].
  destruct (hp_ip_check_due now (b_next_ip s)); [split; [reflexivity|apply ext_app]|apply keeps_refl].
Qed.

Lemma keeps_after_calls now s : keeps s (ip_check now (do_evict now (do_refresh now (do_reruns now s)))).
Proof.
  eapply keeps_trans; [apply frame_keeps, frame_do_reruns|]. eapply keeps_trans; [apply keeps_do_refresh|].
  eapply keeps_trans; [apply keeps_do_evict|apply keeps_ip_check].
Qed.

(* Commands drop buckets (stop_browse), the refresh pass rewrites lifetimes bucket by bucket; a
   property of the maps, one per record kind, that survives these two survives the whole part of
   an iteration between the responses and the eviction. *)
Section CacheShape.
Variable P : kind -> amap -> Prop.
Hypothesis P_adel : forall k key m, P k m -> P k (adel key m).
Hypothesis P_refresh_key : forall k now m t key, P k m -> P k (fst (refresh_key now (m, t) key)).
Hypothesis P_refresh_host : forall now m key b,
  P KAddr m -> aget key m = Some b -> P KAddr (aset key (refresh_host_bucket now b) m).

Definition shape (c : bcache) : Prop := forall k, k <> KNone -> P k (get_map k c).

Lemma shape_remove_service_type ty c : shape c -> shape (remove_service_type ty c).
Proof.
  intros H. unfold remove_service_type. destruct (aget ty (bc_ptr c)) as [ptrs|]; [|exact H].
  intros k Hk. destruct k; cbn [get_map bc_ptr bc_srv bc_txt bc_addr bc_nsec]; try contradiction.
  - apply P_adel. apply (H KPtr Hk).
  - apply (fold_left_inv (P KSrv)); [intros; apply P_adel; assumption|apply (H KSrv Hk)].
  - apply (fold_left_inv (P KTxt)); [intros; apply P_adel; assumption|apply (H KTxt Hk)].
  - apply (fold_left_inv (P KAddr)); [|apply (H KAddr Hk)].
    intros m h _ Hm. destruct (existsb _ _); [exact Hm|apply P_adel; exact Hm].
  - apply (H KNsec Hk).
Qed.

Lemma shape_exec_call now acc c : shape (b_cache (fst acc)) -> shape (b_cache (fst (exec_call now acc c))).
Proof.
  destruct acc as [s out]. cbn [fst]. intros H. destruct c; cbn [exec_call fst].
  - unfold browse_send. rewrite (fr_cache _ _ (frame_add_retr _ _ _)), (fr_cache _ _ (frame_settle _ _ _ _)). exact H.
  - destruct (mem ty (b_queriers s)); cbn [fst b_cache]; [apply shape_remove_service_type|]; exact H.
  - rewrite (fr_cache _ _ (frame_host_send _ _ _ _)). exact H.
  - destruct (ahas (lower host) (b_resolvers s)); exact H.
  - exact H.
  - exact H.
Qed.

Lemma shape_fold_calls now cs acc :
  shape (b_cache (fst acc)) -> shape (b_cache (fst (fold_left (exec_call now) cs acc))).
Proof.
  intros H. apply (fold_left_inv (fun a => shape (b_cache (fst a)))); [|exact H].
  intros a c _. apply shape_exec_call.
Qed.

Lemma shape_refresh_type now acc ty : shape (fst acc) -> shape (fst (refresh_type now acc ty)).
Proof.
  destruct acc as [c tm]. cbn [fst]. intros H. unfold refresh_type.
  pose proof (P_refresh_key KPtr now (bc_ptr c) [] ty (H KPtr ltac:(discriminate))) as Hp.
  destruct (refresh_key now (bc_ptr c, []) ty) as [ptr1 t1]. cbn [fst] in Hp.
  destruct (fold_left _ _ (bc_srv (set_map KPtr ptr1 c), bc_txt (set_map KPtr ptr1 c), [])) as [[srv2 txt2] t2] eqn:E2.
  assert (G : P KSrv (fst (fst (srv2, txt2, t2))) /\ P KTxt (snd (fst (srv2, txt2, t2)))).
  { rewrite <- E2. apply (fold_left_inv (fun a => P KSrv (fst (fst a)) /\ P KTxt (snd (fst a)))).
    - intros [[sm tmx] t] i _ [Hs Ht]. cbn [fst snd] in Hs, Ht.
      pose proof (P_refresh_key KSrv now sm [] i Hs) as H1. pose proof (P_refresh_key KTxt now tmx [] i Ht) as H2.
      destruct (refresh_key now (sm, []) i) as [sm1 ts]. destruct (refresh_key now (tmx, []) i) as [tm1 tt].
      exact (conj H1 H2).
    - split; [apply (H KSrv)|apply (H KTxt)]; discriminate. }
  destruct G as [Hs Ht]. cbn [fst snd] in Hs, Ht.
  destruct (fold_left _ _ (bc_addr (set_map KPtr ptr1 c), [])) as [addr3 t3] eqn:E3.
  assert (Ha : P KAddr (fst (addr3, t3))).
  { rewrite <- E3. apply (fold_left_inv (fun a => P KAddr (fst a))); [|apply (H KAddr); discriminate].
    intros [am t] h _ Hm. apply P_refresh_key. exact Hm. }
  intros k Hk. destruct k; cbn [get_map bc_ptr bc_srv bc_txt bc_addr bc_nsec fst]; try assumption.
  - apply (H KNsec Hk).
  - contradiction.
Qed.

Lemma shape_do_refresh now s : shape (b_cache s) -> shape (b_cache (do_refresh now s)).
Proof.
  intros H. unfold do_refresh.
  assert (G : shape (fst (fold_left (refresh_type now) (b_queriers s) (b_cache s, [])))).
  { apply (fold_left_inv (fun a => shape (fst a))); [|exact H]. intros a ty _. apply shape_refresh_type. }
  destruct (fold_left (refresh_type now) (b_queriers s) (b_cache s, [])) as [c1 tm]. cbn [fst] in G. cbn [b_cache].
  intros k Hk. destruct (kind_eqb KAddr k) eqn:E.
  - destruct k; try discriminate. cbn [get_map set_map bc_addr].
    apply (fold_left_inv (P KAddr)); [|apply (G KAddr Hk)].
    intros m kr _ Hm. destruct (aget (fst kr) m) as [b|] eqn:Eb; [|exact Hm]. apply P_refresh_host; assumption.
  - rewrite get_set_other; [apply G; exact Hk|]. intros <-. discriminate.
Qed.

Lemma shape_before_evict now cs acc :
  shape (b_cache (fst acc)) ->
  shape (b_cache (do_refresh now (do_reruns now (fst (fold_left (exec_call now) cs acc))))).
Proof.
  intros H. apply shape_do_refresh. rewrite (fr_cache _ _ (frame_do_reruns _ _)). apply shape_fold_calls. exact H.
Qed.
End CacheShape.

Definition expired_by (now : N) (x : crec) : Prop := l_expires (c_life x) <= now.
Definition all_expired (now : N) (c : bcache) : Prop :=
  forall k x, In x (entries_of k c) -> expired_by now x.

(* all_expired, map by map *)
Definition expired_map (now : N) (_ : kind) (m : amap) : Prop := forall x, In x (ents m) -> expired_by now x.

Lemma all_expired_shape now c : all_expired now c -> shape (expired_map now) c.
Proof. intros H k _ x Hx. apply (H k). exact Hx. Qed.

(* refresh only moves refresh marks: the expiry times stay *)
Lemma refresh_maybe_fields now l l' :
  life_refresh_maybe now l = Some l' ->
  l_ttl l' = l_ttl l /\ l_created l' = l_created l /\ l_expires l' = l_expires l.
Proof. unfold life_refresh_maybe. destruct (_ || _); [discriminate|]. intros H. inversion H. auto. Qed.

Lemma expired_adel now k key m : expired_map now k m -> expired_map now k (adel key m).
Proof. intros H x Hx. apply H. eapply ents_adel_in. exact Hx. Qed.

Lemma expired_aset_map now k m key b (f : crec -> crec) :
  (forall x, l_expires (c_life (f x)) = l_expires (c_life x)) ->
  expired_map now k m -> aget key m = Some b -> expired_map now k (aset key (map f b) m).
Proof.
  intros Hf H E x Hx. apply ents_aset_in in Hx as [Hx|Hx]; [|apply H; exact Hx].
  apply in_map_iff in Hx as [y [<- Hy]]. unfold expired_by. rewrite Hf. apply H. eapply aget_in_ents; eassumption.
Qed.

Lemma expired_refresh_key now0 k now m t key :
  expired_map now0 k m -> expired_map now0 k (fst (refresh_key now (m, t) key)).
Proof.
  intros H. unfold refresh_key. cbn [fst snd]. destruct (aget key m) as [b|] eqn:E; [|exact H].
  unfold refresh_bucket. cbn [fst]. apply expired_aset_map; [|exact H|exact E].
  intros x. destruct (life_refresh_maybe now (c_life x)) as [l|] eqn:El; [|reflexivity].
  apply (refresh_maybe_fields _ _ _ El).
Qed.

Lemma expired_refresh_host now0 now m key b :
  expired_map now0 KAddr m -> aget key m = Some b ->
  expired_map now0 KAddr (aset key (refresh_host_bucket now b) m).
Proof.
  intros H E. unfold refresh_host_bucket. apply expired_aset_map; [|exact H|exact E].
  intros x. destruct (_ && _); reflexivity.
Qed.

Lemma count_evicted now s k :
  k <> KNone -> expired_map now k (get_map k (b_cache s)) -> count (get_map k (b_cache (do_evict now s))) = 0.
Proof.
  intros Hk H. rewrite do_evict_cache. unfold count.
  assert (E : flat_map snd (live_only now (get_map k (b_cache s))) = []).
  { change (ents (map (fun kb => (fst kb, filter (fun r => negb (r_expired now r)) (snd kb))) (get_map k (b_cache s))) = []).
    rewrite ents_filter_buckets.
    unfold expired_map in H. induction (ents (get_map k (b_cache s))) as [|r l IH]; [reflexivity|]. simpl.
    assert (Er : r_expired now r = true).
    { unfold r_expired, life_expired. rewrite pin_is_expired. apply N.leb_le. apply H. left. reflexivity. }
    rewrite Er. apply IH. intros x Hx. apply H. right. exact Hx. }
  destruct k; try contradiction; unfold drop_empty; rewrite ?flat_map_drop_empty, E; reflexivity.
Qed.

Theorem quiescent_counters pol s i :
  bi_msgs i = [] -> all_expired (bi_now i) (b_cache s) ->
  entries_total (b_cache (fst (step pol s i))) = 0.
Proof.
  intros Hm H. unfold step. rewrite Hm. simpl fold_left at 1.
  set (now := bi_now i).
  pose proof (shape_before_evict (expired_map now) (expired_adel now) (expired_refresh_key now) (expired_refresh_host now)
                now (bi_calls i) (do_timeouts now (pop_timers now s), []) (all_expired_shape now _ H)) as H5.
  destruct (fold_left (exec_call now) (bi_calls i) (do_timeouts now (pop_timers now s), [])) as [s3 out].
  cbn [fst] in *. rewrite ip_check_cache, entries_total_kinds.
  rewrite !count_evicted by (discriminate || (apply H5; discriminate)). reflexivity.
Qed.

Lemma resolve_updated_noq now s l : b_queriers s = [] -> resolve_updated now s l = s.
Proof.
  intros H. unfold resolve_updated. destruct l; [reflexivity|].
  assert (E : forall u, touched now s u = []).
  { intros u. unfold touched. rewrite H. induction (bc_ptr (b_cache s)) as [|kb t IH]; simpl; [reflexivity|exact IH]. }
  rewrite E. destruct s; reflexivity.
Qed.

(* No response, no call, no browsed type, no retransmission due: the iteration pops the timers
   whose time has come and runs the interface check; nothing else touches the heap or the
   interface-check clock. *)
Lemma idle_step pol s i :
  bi_msgs i = [] -> bi_calls i = [] -> b_queriers s = [] ->
  Forall (fun x => hp_rerun_due (bi_now i) (fst x) = false) (b_retr s) ->
  exists s6, fst (step pol s i) = ip_check (bi_now i) s6
             /\ b_timers s6 = filter (fun v => bi_now i <? v) (b_timers s)
             /\ b_next_ip s6 = b_next_ip s /\ b_ip_interval s6 = b_ip_interval s.
Proof.
  intros Hm Hc Hq Hr. unfold step. rewrite Hm, Hc. simpl fold_left. set (now := bi_now i).
  set (s2 := do_timeouts now (pop_timers now s)).
  assert (Hnd : filter (fun x => hp_rerun_due now (fst x)) (b_retr s2) = []).
  { change (b_retr s2) with (b_retr s). induction Hr as [|x t Hx _ IH]; simpl; [reflexivity|].
    fold now in Hx. rewrite Hx. exact IH. }
  set (s4 := do_reruns now s2).
  assert (E4 : b_timers s4 = filter (fun v => now <? v) (b_timers s) /\ b_queriers s4 = []
               /\ b_next_ip s4 = b_next_ip s /\ b_ip_interval s4 = b_ip_interval s).
  { unfold s4, do_reruns. rewrite Hnd. simpl. auto. }
  destruct E4 as [E4t [E4q [E4n E4i]]].
  set (s5 := do_refresh now s4).
  assert (E5 : b_timers s5 = b_timers s4 /\ b_queriers s5 = []
               /\ b_next_ip s5 = b_next_ip s4 /\ b_ip_interval s5 = b_ip_interval s4).
  { unfold s5, do_refresh. rewrite E4q. simpl. rewrite app_nil_r. auto. }
  destruct E5 as [E5t [E5q [E5n E5i]]].
  exists (do_evict now s5). split; [reflexivity|].
  (* with no browsed type resolve_updated_instances does nothing *)
  unfold do_evict. match goal with |- context [fold_left ?f ?l (set_cache ?c s5)] =>
    assert (E6 : fold_left f l (set_cache c s5) = set_cache c s5) end.
  { apply fold_left_inv; [|reflexivity]. intros a h _ ->. apply resolve_updated_noq. exact E5q. }
  rewrite E6. cbn [set_cache b_timers b_next_ip b_ip_interval]. rewrite E5t, E5n, E5i. auto.
Qed.

Theorem quiescent_timers pol s i :
  bi_msgs i = [] -> bi_calls i = [] -> b_queriers s = [] -> b_retr s = [] ->
  exists ip, b_timers (fst (step pol s i)) = filter (fun v => bi_now i <? v) (b_timers s) ++ ip
             /\ (ip = [] \/ ip = [bi_now i + b_ip_interval s]).
Proof.
  intros Hm Hc Hq Hr.
  destruct (idle_step pol s i Hm Hc Hq) as [s6 [-> [Et [En Ei]]]]; [rewrite Hr; constructor|].
  unfold ip_check. rewrite En, Ei.
  destruct (b_ip_interval s =? 0); cbn [b_timers]; [exists []; rewrite Et; auto|].
  destruct (b_next_ip s =? 0); cbn [b_timers]; [rewrite Et; eauto|].
  destruct (hp_ip_check_due (bi_now i) (b_next_ip s)); cbn [b_timers]; [rewrite Et; eauto|].
  exists []. rewrite app_nil_r, Et. auto.
Qed.

Lemma absorb_excess_mono pol now fu ifx q res acc r :
  snd acc <= snd (absorb pol now fu ifx q res acc r).
Proof.
  destruct acc as [[[c tm] ch] ex]. unfold absorb. cbn [snd].
  destruct (add_or_update now fu _ (crec_of now ifx r) c) as [[c' ft] [[u isnew]|]]; cbn [snd]; [|lia].
  destruct isnew.
  - destruct ((c_ty u =? ty_PTR) && hp_ptr_ttl_ok (l_ttl (c_life u))); cbn [snd];
      destruct (needed now q res c r); lia.
  - cbn [snd]. destruct (needed now q res c r); lia.
Qed.

Lemma aou_kind_refused_same k now fu x c :
  snd (aou_kind k now fu true x c) = None ->
  aou_kind k now fu false x c = aou_kind k now fu true x c.
Proof.
  rewrite aou_kind_not_ok. unfold aou_kind. destruct fu.
  - (* for us: the code never refuses *)
    cbn [negb]. rewrite orb_false_r.
    match goal with |- context [if ?bb then set_sub ?a c else c] => generalize (if bb then set_sub a c else c); intros c1 end.
    destruct (bucket (get_map k c1) _); cbn [orb];
      destruct (update_rec now x _) as [[[b2 u] rv]|]; cbn [snd]; intros H; discriminate H.
  - rewrite andb_false_r. cbn [andb negb]. rewrite orb_false_r.
    destruct (bucket (get_map k c) _) eqn:Eb; [intros _; reflexivity|].
    destruct (update_rec now x _) as [[[b2 u] rv]|]; cbn [snd]; intros H; discriminate H.
Qed.

Lemma aou_refused_same now fu x c :
  snd (add_or_update now fu true x c) = None ->
  add_or_update now fu false x c = add_or_update now fu true x c.
Proof.
  unfold add_or_update. destruct (kind_of (c_ty x)); try apply aou_kind_refused_same. reflexivity.
Qed.

Lemma absorb_same_when_no_excess now fu ifx q res acc r :
  snd (absorb PCode now fu ifx q res acc r) = snd acc ->
  absorb PNeed now fu ifx q res acc r = absorb PCode now fu ifx q res acc r.
Proof.
  destruct acc as [[[c tm] ch] ex]. unfold absorb. cbn [snd].
  destruct (needed now q res c r) eqn:En; [reflexivity|].
  destruct (add_or_update now fu true (crec_of now ifx r) c) as [[c' ft] result] eqn:Ea.
  destruct result as [[u isnew]|].
  - (* stored although not needed: the counter moved *)
    destruct isnew; [destruct ((c_ty u =? ty_PTR) && hp_ptr_ttl_ok (l_ttl (c_life u)))|]; cbn [snd]; intros H; lia.
  - intros _. rewrite aou_refused_same by (rewrite Ea; reflexivity). rewrite Ea. reflexivity.
Qed.

Lemma handle_response_excess pol now s m :
  b_excess (handle_response pol now s m)
  = snd (fold_left (absorb pol now (is_for_us s m) (bm_if m) (b_queriers s) (b_resolvers s)) (bm_recs m)
                   (b_cache s, [], [], b_excess s)).
Proof.
  unfold handle_response.
  destruct (fold_left _ (bm_recs m) (b_cache s, [], [], b_excess s)) as [[[c tm] ch] ex].
  rewrite (fr_excess _ _ (frame_resolve_updated _ _ _)). reflexivity.
Qed.

Lemma handle_response_mono pol now s m : b_excess s <= b_excess (handle_response pol now s m).
Proof.
  rewrite handle_response_excess.
  apply (fold_left_mono snd _ _ (absorb_excess_mono pol now _ _ _ _) (b_cache s, [], [], b_excess s)).
Qed.

Lemma handle_response_same now s m :
  b_excess (handle_response PCode now s m) = b_excess s ->
  handle_response PNeed now s m = handle_response PCode now s m.
Proof.
  rewrite handle_response_excess. intros H. unfold handle_response.
  rewrite (fold_left_agree snd _ _ _ (absorb_excess_mono PCode now _ _ _ _)
             (absorb_same_when_no_excess now _ _ _ _) (b_cache s, [], [], b_excess s) H). reflexivity.
Qed.

Lemma step_excess pol s i :
  b_excess (fst (step pol s i)) = b_excess (fold_left (handle_response pol (bi_now i)) (bi_msgs i) s).
Proof.
  unfold step.
  pose proof (keeps_fold_calls (bi_now i) (bi_calls i)
     (do_timeouts (bi_now i) (pop_timers (bi_now i) (fold_left (handle_response pol (bi_now i)) (bi_msgs i) s)), [])) as [Hc _].
  destruct (fold_left (exec_call (bi_now i)) (bi_calls i) _) as [s3 out]. cbn [fst] in *.
  rewrite (proj1 (keeps_after_calls _ _)), Hc. reflexivity.
Qed.

Lemma step_mono pol s i : b_excess s <= b_excess (fst (step pol s i)).
Proof. rewrite step_excess. apply (fold_left_mono b_excess). apply handle_response_mono. Qed.

Lemma step_same s i :
  b_excess (fst (step PCode s i)) = b_excess s -> step PNeed s i = step PCode s i.
Proof.
  rewrite step_excess. intros H. unfold step.
  rewrite (fold_left_agree b_excess _ _ _ (handle_response_mono PCode _) (handle_response_same _) s H). reflexivity.
Qed.

Lemma state_after_mono pol h : forall s, b_excess s <= b_excess (state_after pol s h).
Proof.
  induction h as [|i t IH]; intros s; simpl; [lia|].
  eapply N.le_trans; [apply (step_mono pol s i)|apply IH].
Qed.

(* if, over the whole history, the code's rule never stored a record that no active search
   needed on arrival, then it behaved exactly like the need rule *)
Theorem no_excess_runs_agree h : forall s,
  b_excess (state_after PCode s h) = b_excess s ->
  run_from PNeed s h = run_from PCode s h /\ state_after PNeed s h = state_after PCode s h.
Proof.
  induction h as [|i t IH]; intros s H; simpl; [auto|]. simpl in H.
  pose proof (step_mono PCode s i) as M1.
  pose proof (state_after_mono PCode t (fst (step PCode s i))) as M2.
  assert (E : b_excess (fst (step PCode s i)) = b_excess s) by lia.
  rewrite (step_same s i E).
  destruct (step PCode s i) as [s' o] eqn:Es. cbn [fst] in *.
  destruct (IH s') as [H1 H2]; [lia|]. rewrite H1, H2. auto.
Qed.

Lemma all2_refl {A} (f : A -> A -> bool) l : (forall x, f x x = true) -> all2 f l l = true.
Proof. intros H. induction l as [|x t IH]; simpl; [reflexivity|]. rewrite H, IH. reflexivity. Qed.

(* ... and then the cache part of the checker accepts the code's samples *)
Theorem cache_within_need_when_no_excess t0 h :
  b_excess (state_after PCode (b_init t0) h) = 0 ->
  chk_cache t0 h (run PCode t0 h) = true.
Proof.
  intros H. unfold chk_cache, chk_with, run.
  destruct (no_excess_runs_agree h (b_init t0) H) as [H1 _]. rewrite H1.
  apply all2_refl. intros l. apply all2_refl. intros x. unfold cache_within.
  rewrite !N.leb_refl. reflexivity.
Qed.
