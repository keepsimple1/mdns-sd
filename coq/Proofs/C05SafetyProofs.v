(* C05, safety, one iteration (over histories: C05HistoryProofs.removed_only_when_true): outside
   the classes known_ptr_variant / known_srv_targets every ServiceRemoved the model emits comes in
   an iteration in which, at one of the checker's snapshots (after a datagram, after the commands,
   after the eviction), the instance does NOT have a PTR under that type, an SRV and an address of
   the SRV's host with more than one second left.

   Shape of the proof: the invariant  Inv L (cache)  of C03 (every cached record is a delivery of
   the log) together with  tracks  (the checker's spec cache is the model's cache) is carried
   through one loop iteration; at each of the three places where the model emits ServiceRemoved
   (resolve_updated_instances inside handle_response, the report of evict_expired_services,
   resolve_updated_instances after evict_expired_addr) the cache at that moment is shown not to
   be "strongly alive" for the instance, and that cache is one of the checker's snapshots.
   The file begins with the transport of liveness along ceqr (spec cache = model cache up to
   refresh marks). *)
From Coq Require Import List NArith Bool.
From Mdns Require Import Bytes Rec Cache Browser C03Spec BrowserSpec BrowserKnown CacheProofs CacheInvProofs
  BrowserProofs BrowserStepProofs SpecTrackProofs BrowserLoopProofs.
Import ListNotations.
Open Scope N_scope.

Lemma existsb_beqr (f g : entry -> bool) b b' :
  beqr b b' -> (forall e e', eqr e e' -> f e = g e') -> existsb f b = existsb g b'.
Proof. intros H Hfg. induction H; simpl; [reflexivity|]. now rewrite (Hfg _ _ H), IHForall2. Qed.

Lemma beqr_filter_rr (f : rr -> bool) b b' :
  beqr b b' -> beqr (filter (fun e => f (e_rr e)) b) (filter (fun e => f (e_rr e)) b').
Proof.
  intros H. induction H as [|x y l l' Hxy Hl IH]; simpl; [constructor|].
  destruct Hxy as (H1 & H2 & H3 & H4). rewrite H1. destruct (f (e_rr y)); [constructor|]; auto.
  repeat split; auto.
Qed.

Lemma eqr_expires_soon e e' now : eqr e e' -> expires_soon e now = expires_soon e' now.
Proof. intros (_ & _ & H & _). unfold expires_soon. now rewrite H. Qed.

Lemma lower_nil_iff (l : bytes) : lower l = [] <-> l = [].
Proof. destruct l; simpl; split; intros H; try reflexivity; discriminate. Qed.

Lemma ptr_entries_ceqr c c' ty i : ceqr c c' -> beqr (ptr_entries c ty i) (ptr_entries c' ty i).
Proof.
  intros (A1 & _). unfold ptr_entries. pose proof (meqr_get ty _ _ A1) as Hg.
  destruct (bm_get ty (c_ptr c)), (bm_get ty (c_ptr c')); try contradiction; [|constructor].
  apply (beqr_filter_rr (fun r => beq (alias_of r) i) _ _ Hg).
Qed.

Lemma srv_entries_ceqr c c' i : ceqr c c' -> beqr (srv_entries c i) (srv_entries c' i).
Proof.
  intros (_ & A2 & _). unfold srv_entries. pose proof (meqr_get i _ _ A2) as Hg.
  destruct (bm_get i (c_srv c)), (bm_get i (c_srv c')); try contradiction; [assumption|constructor].
Qed.

Lemma addr_entries_ceqr c c' h : ceqr c c' -> beqr (addr_entries c h) (addr_entries c' h).
Proof.
  intros (_ & _ & _ & A4 & _). unfold addr_entries, get_addr. pose proof (meqr_get (lower h) _ _ A4) as Hg.
  destruct (bm_get (lower h) (c_addr c)), (bm_get (lower h) (c_addr c')); try contradiction; [assumption|constructor].
Qed.

Lemma alive_strong_ceqr c c' now ty i : ceqr c c' -> alive_strong c now ty i = alive_strong c' now ty i.
Proof.
  intros H. unfold alive_strong. f_equal.
  - apply existsb_beqr; [now apply ptr_entries_ceqr|]. intros e e' He. now rewrite (eqr_expires_soon _ _ now He).
  - apply existsb_beqr; [now apply srv_entries_ceqr|]. intros e e' He.
    rewrite (eqr_expires_soon _ _ now He). destruct He as (H1 & _). unfold srv_host. rewrite H1. f_equal.
    apply existsb_beqr; [now apply addr_entries_ceqr|]. intros a a' Ha. now rewrite (eqr_expires_soon _ _ now Ha).
Qed.

Section Facts.
  Variable Lf : list dlv.
  Hypothesis Hvar : known_ptr_variant Lf = false.
  Hypothesis Htgt : known_srv_targets Lf = false.
  Hypothesis Hnames : ptr_names_ok Lf = true.

  Variables (L : list dlv) (c : cache).
  Hypothesis HI : Inv L c.
  Hypothesis Hsub : incl L Lf.

  Lemma entry_delivery k key b e :
    In (key, b) (get_map c k) -> In e b ->
    exists d, In d Lf /\ dl_rr d = e_rr e /\ kind_of_type (e_type e) = Some k /\ key = key_of k (e_name e).
  Proof.
    intros Hb He. destruct (HI k) as [_ H]. destruct (H key b Hb) as [_ Hok].
    destruct (entry_ok_delivered _ _ _ _ (Hok e He)) as (d & Hd & Hrr & _ & _ & _ & Hk & Hkey).
    exists d. auto.
  Qed.

  Lemma rr_matches_nonaddr a ai b bi aj bj :
    is_addr_type (r_type a) = false -> rr_matches a ai b bi = rr_matches a aj b bj.
  Proof. intros H. unfold rr_matches. now rewrite H. Qed.

  Lemma one_ptr_per_instance ty b p p' :
    In (ty, b) (c_ptr c) -> In p b -> In p' b -> alias_of (e_rr p) = alias_of (e_rr p') -> p = p'.
  Proof.
    intros Hb Hp Hp' Ha.
    destruct (entry_delivery KPtr ty b p Hb Hp) as (d & Hd & Hrr & Hk & Hkey).
    destruct (entry_delivery KPtr ty b p' Hb Hp') as (d' & Hd' & Hrr' & Hk' & Hkey').
    apply kind_of_type_ptr in Hk, Hk'. unfold e_type, e_name in *. simpl in Hkey, Hkey'.
    pose proof (existsb_false_forall _ _ (existsb_false_forall _ _ Hvar d Hd) d' Hd') as Hv.
    unfold ptr_var in Hv. rewrite Hrr, Hrr', Hk, Hk', <- Hkey, <- Hkey', Ha in Hv.
    rewrite !N.eqb_refl, !beq_refl in Hv. simpl in Hv. apply negb_false_iff in Hv.
    assert (Hna : is_addr_type (r_type (e_rr p)) = false) by (rewrite Hk; reflexivity).
    destruct (HI KPtr) as [_ H]. destruct (H ty b Hb) as [Hnd _].
    destruct (ForallOrdPairs_In Hnd p p' Hp Hp') as [E|[E|E]]; [assumption| |]; exfalso.
    - unfold entry_matches in E. rewrite (rr_matches_nonaddr _ _ _ _ 0 0 Hna) in E. congruence.
    - unfold entry_matches in E. rewrite rr_matches_sym in E.
      rewrite (rr_matches_nonaddr _ _ _ _ 0 0 Hna) in E. congruence.
  Qed.

  (* all SRV records of an instance name the same host (up to ASCII case) *)
  Lemma one_srv_target i sb e e' :
    In (i, sb) (c_srv c) -> In e sb -> In e' sb -> lower (srv_host e) = lower (srv_host e').
  Proof.
    intros Hb He He'.
    destruct (entry_delivery KSrv i sb e Hb He) as (d & Hd & Hrr & Hk & Hkey).
    destruct (entry_delivery KSrv i sb e' Hb He') as (d' & Hd' & Hrr' & Hk' & Hkey').
    apply kind_of_type_srv in Hk, Hk'. unfold e_type, e_name in *. simpl in Hkey, Hkey'.
    pose proof (existsb_false_forall _ _ (existsb_false_forall _ _ Htgt d Hd) d' Hd') as Hv.
    unfold srv_tgt in Hv. rewrite Hrr, Hrr', Hk, Hk', <- Hkey, <- Hkey' in Hv.
    rewrite !N.eqb_refl, !beq_refl in Hv. simpl in Hv. apply negb_false_iff in Hv. apply beq_eq in Hv.
    exact Hv.
  Qed.

  Lemma ptr_names ty b p : In (ty, b) (c_ptr c) -> In p b -> ty <> [] /\ alias_of (e_rr p) <> [].
  Proof.
    intros Hb Hp. destruct (entry_delivery KPtr ty b p Hb Hp) as (d & Hd & Hrr & Hk & Hkey).
    apply kind_of_type_ptr in Hk. unfold e_type, e_name in *. simpl in Hkey.
    unfold ptr_names_ok in Hnames. rewrite forallb_forall in Hnames. specialize (Hnames d Hd).
    rewrite Hrr, Hk, N.eqb_refl in Hnames. simpl in Hnames. apply andb_true_iff in Hnames as [A B].
    rewrite <- Hkey in A. split.
    - intros E. rewrite E in A. discriminate.
    - intros E. rewrite E in B. discriminate.
  Qed.

  Lemma invalid_not_alive now ty ptrs p :
    In (ty, ptrs) (c_ptr c) -> In p ptrs ->
    is_valid (resolve_from_cache c now ty (alias_of (e_rr p))) = false ->
    alive_strong c now ty (alias_of (e_rr p)) = false.
  Proof.
    intros Hb Hp Hinv. set (i := alias_of (e_rr p)) in *.
    destruct (ptr_names ty ptrs p Hb Hp) as [Hty Hi]. fold i in Hi.
    destruct (alive_strong c now ty i) eqn:Ea; [|reflexivity]. exfalso.
    unfold alive_strong in Ea. apply andb_true_iff in Ea as [_ Ea].
    apply existsb_exists in Ea as [e [He Hc]].
    apply andb_true_iff in Hc as [Hc Haddr]. apply andb_true_iff in Hc as [Hsoon Hhost].
    apply negb_true_iff in Hsoon. apply negb_true_iff in Hhost.
    apply existsb_exists in Haddr as [a [Ha Hasoon]]. apply negb_true_iff in Hasoon.
    unfold srv_entries in He. destruct (bm_get i (c_srv c)) as [sb|] eqn:Esb; [|destruct He].
    (* the first SRV record with more than a second left *)
    destruct (find (fun e0 => negb (expires_soon e0 now)) sb) as [e0|] eqn:Ef.
    2:{ pose proof (find_none _ _ Ef e He) as Hn. simpl in Hn. rewrite Hsoon in Hn. discriminate. }
    pose proof (find_some _ _ Ef) as [He0 _].
    pose proof (one_srv_target i sb e0 e (bm_get_In _ _ _ Esb) He0 He) as Hsame.
    unfold addr_entries, get_addr in Ha. rewrite <- Hsame in Ha.
    destruct (bm_get (lower (srv_host e0)) (c_addr c)) as [ab|] eqn:Eab; [|destruct Ha].
    assert (Hh0 : srv_host e0 <> []).
    { intros E. rewrite E in Hsame. simpl in Hsame. symmetry in Hsame. apply (proj1 (lower_nil_iff _)) in Hsame.
      rewrite Hsame in Hhost. discriminate. }
    rewrite (valid_when_complete c now ty i sb e0 ab a Hty Hi Esb Ef Hh0 Eab Ha Hasoon) in Hinv. discriminate.
  Qed.
End Facts.

Lemma bm_get_map_live now t m :
  bm_get t (map (fun kb : bytes * bucket => (fst kb, live_only now (snd kb))) m)
  = option_map (live_only now) (bm_get t m).
Proof. induction m as [|[k b] r IH]; simpl; [reflexivity|]. destruct (beq t k); [reflexivity|assumption]. Qed.

Lemma sweep_get_dead now i sb m :
  NoDup (map fst m) -> In (i, sb) m -> live_only now sb = [] -> bm_get i (sweep now m) = None.
Proof.
  intros ND Hin Hd. destruct (bm_get i (sweep now m)) as [b'|] eqn:E; [|reflexivity]. exfalso.
  apply bm_get_In in E. apply sweep_In in E as [b [Hb [Hb' Hne]]].
  rewrite (nodup_keys_functional m i b sb ND Hb Hin) in Hb'. congruence.
Qed.

Lemma evicted_not_alive Lf L c now t i :
  known_ptr_variant Lf = false -> Inv L c -> incl L Lf ->
  In (t, i) (snd (evict_services c now)) ->
  alive_strong (fst (evict_addr (fst (evict_services c now)) now)) now t i = false.
Proof.
  intros Hvar HI Hsub Hrep. rewrite evict_services_cache. unfold evict_addr. simpl.
  destruct (evict_reports_only_when_true c now t i Hrep) as (ptrs & p & Hb & Hp & Ha & [Hexp|[sb [Hsb Hd]]]).
  - (* the PTR expired, and it is the only PTR t -> i *)
    unfold alive_strong.
    assert (Hnone : existsb (fun p0 => negb (expires_soon p0 now))
              (ptr_entries {| c_ptr := map (fun kb => (fst kb, live_only now (snd kb))) (c_ptr c);
                              c_srv := sweep now (c_srv c); c_txt := sweep now (c_txt c);
                              c_addr := sweep now (c_addr c); c_nsec := sweep now (c_nsec c);
                              c_sub := c_sub c |} t i) = false).
    { destruct (existsb _ _) eqn:E; [|reflexivity]. exfalso.
      apply existsb_exists in E as [p' [Hp' _]]. unfold ptr_entries in Hp'. simpl in Hp'.
      rewrite bm_get_map_live in Hp'.
      rewrite (In_bm_get t ptrs (c_ptr c) (Inv_nodup _ _ KPtr HI) Hb) in Hp'. simpl in Hp'.
      apply filter_In in Hp' as [Hp' Hal]. apply beq_eq in Hal. apply live_only_In in Hp' as [Hp' Hlive].
      assert (p' = p).
      { apply (one_ptr_per_instance Lf Hvar L c HI Hsub t ptrs p' p Hb Hp' Hp). congruence. }
      subst p'. congruence. }
    now rewrite Hnone.
  - (* the SRV bucket of the instance is swept away *)
    unfold alive_strong, srv_entries. simpl.
    rewrite (sweep_get_dead now i sb (c_srv c) (Inv_nodup _ _ KSrv HI) Hsb Hd). simpl. apply andb_false_r.
Qed.

Definition rmok (snaps : list spec) (now : N) (x : out) : Prop :=
  match x with
  | OEvt _ (ERemoved ty i) => existsb (fun sp => negb (alive_strong (sp_c sp) now ty i)) snaps = true
  | _ => True
  end.

Lemma rmok_incl snaps snaps' now x : incl snaps snaps' -> rmok snaps now x -> rmok snaps' now x.
Proof.
  intros Hi. destruct x as [ch [ | | ty i]| |]; simpl; auto. intros H.
  apply existsb_exists in H as [sp [H1 H2]]. apply existsb_exists. exists sp. auto.
Qed.

Lemma Forall_rmok_incl snaps snaps' now o :
  incl snaps snaps' -> Forall (rmok snaps now) o -> Forall (rmok snaps' now) o.
Proof. intros Hi H. eapply Forall_impl; [|exact H]. intros x. now apply rmok_incl. Qed.

(* a property of the state kept by every command, and a property of every output *)
Lemma run_cmds_outs {C} (f : st -> N -> C -> st * list out) now (P : st -> Prop) (Q : out -> Prop) :
  (forall s c, P s -> P (fst (f s now c)) /\ forall x, In x (snd (f s now c)) -> Q x) ->
  forall l s, P s -> P (fst (run_cmds f s now l)) /\ forall x, In x (snd (run_cmds f s now l)) -> Q x.
Proof.
  intros Hf. induction l as [|c t IH]; intros s H; [split; [exact H|intros x []]|]. rewrite run_cmds_cons. cbn [fst snd].
  destruct (Hf s c H) as [H1 Q1]. destruct (IH _ H1) as [H2 Q2]. split; [exact H2|].
  intros x Hx. apply in_app_iff in Hx as [Hx|Hx]; auto.
Qed.

Lemma rmok_not_removed snaps now o :
  (forall ch ty i, ~ In (OEvt ch (ERemoved ty i)) o) -> Forall (rmok snaps now) o.
Proof. intros H. apply Forall_forall. intros [ch [ | |ty i]| |] Hx; simpl; auto. destruct (H _ _ _ Hx). Qed.

Lemma Forall_not_removed (P : out -> Prop) o ch ty i :
  (forall x, P x -> x <> OEvt ch (ERemoved ty i)) -> Forall P o -> ~ In (OEvt ch (ERemoved ty i)) o.
Proof. intros HP Ho Hin. rewrite Forall_forall in Ho. exact (HP _ (Ho _ Hin) eq_refl). Qed.

Lemma no_event_not_removed o ch ty i : Forall no_event o -> ~ In (OEvt ch (ERemoved ty i)) o.
Proof. apply Forall_not_removed. intros x Hx ->. exact Hx. Qed.

Lemma exec_call_no_removed s now cl ch ty i : ~ In (OEvt ch (ERemoved ty i)) (snd (exec_call s now cl)).
Proof.
  pose proof (exec_call_quiet s now cl) as Hq. destruct cl as [ty0 ch0|ty0|inst timeout|ch0].
  - intros H. apply (exec_browse_out s now ty0 ch0) in H as (ptrs & p & _ & _ & _ & [E|[_ E]]); discriminate.
  - intros [].
  - apply no_event_not_removed, Hq.
  - apply no_event_not_removed, Hq.
Qed.

Section Iteration.
  Variable Lf : list dlv.
  Hypothesis Hvar : known_ptr_variant Lf = false.
  Hypothesis Htgt : known_srv_targets Lf = false.
  Hypothesis Hnames : ptr_names_ok Lf = true.

  (* resolve_updated_instances on a state whose cache satisfies Inv and is tracked by sp *)
  Lemma resolve_updated_rmok L s sp now updated :
    Inv L (s_cache s) -> incl L Lf -> ceqr (s_cache s) (sp_c sp) ->
    Forall (rmok [sp] now) (snd (resolve_updated s now updated)).
  Proof.
    intros HI Hsub Hc. apply Forall_forall. intros x Hx.
    apply resolve_updated_out in Hx as [(ty & ch & p & _ & _ & ->)|(ty & ch & i & _ & (c0 & p & (ptrs & Hb & Hp & _) & Hv & _ & <-) & ->)];
      [exact I|].
    simpl. rewrite <- (alive_strong_ceqr _ _ now ty (alias_of (e_rr p)) Hc).
    now rewrite (invalid_not_alive Lf Htgt Hnames L (s_cache s) HI Hsub now ty ptrs p Hb Hp Hv).
  Qed.

  Lemma handle_read_rmok ifs L now s sp d :
    Inv L (s_cache s) -> tracks s sp -> incl (L ++ dgram_dlvs ifs now d) Lf ->
    Inv (L ++ dgram_dlvs ifs now d) (s_cache (fst (handle_read ifs s now d)))
    /\ Forall (rmok [spec_dgram ifs now sp d] now) (snd (handle_read ifs s now d)).
  Proof.
    intros HI Htr Hsub. pose proof (tracks_read ifs now s sp d Htr) as [Hc' _].
    unfold handle_read, dgram_dlvs, spec_dgram in *. destruct (accepted_msg ifs d) as [m|].
    2:{ rewrite app_nil_r. split; [exact HI|constructor]. }
    rewrite handle_response_eq in *. cbv zeta in *. cbn [fst snd] in *.
    destruct (hr_records_ok now (d_if d) (s_q s) (for_us (s_q s) (m_answers m)) (msg_records m) _ _ HI) as [HI1 _].
    set (c1 := fst (fst (hr_records (s_cache s) now (d_if d) (s_q s) (for_us (s_q s) (m_answers m)) (msg_records m)))) in *.
    destruct (resolve_updated_state (with_cache s c1) now (updated_of c1 (snd (hr_records (s_cache s) now (d_if d) (s_q s) (for_us (s_q s) (m_answers m)) (msg_records m))))) as [E1 _].
    rewrite E1 in *. split; [exact HI1|]. apply Forall_app. split.
    - apply rmok_not_removed. intros ch ty i. apply (Forall_not_removed is_found); [|apply hr_records_found].
      intros x Hx ->. exact Hx.
    - now apply (resolve_updated_rmok (L ++ map (mkDlv now (d_if d)) (msg_records m)) (with_cache s c1)).
  Qed.

  Lemma reads_rmok ifs now ds : forall L s sp,
    Inv L (s_cache s) -> tracks s sp -> incl (L ++ flat_map (dgram_dlvs ifs now) ds) Lf ->
    Inv (L ++ flat_map (dgram_dlvs ifs now) ds) (s_cache (fst (run_cmds (handle_read ifs) s now ds)))
    /\ Forall (rmok (scan (spec_dgram ifs now) sp ds) now) (snd (run_cmds (handle_read ifs) s now ds)).
  Proof.
    induction ds as [|d rest IH]; intros L s sp HI Htr Hsub.
    - simpl. rewrite app_nil_r. split; [exact HI|constructor].
    - rewrite run_cmds_cons. cbn [fst snd scan flat_map] in *. rewrite app_assoc in *.
      destruct (handle_read_rmok ifs L now s sp d HI Htr) as [HI1 H1]; [intros x Hx; apply Hsub, in_app_iff; now left|].
      destruct (IH _ _ _ HI1 (tracks_read ifs now s sp d Htr) Hsub) as [HI2 H2]. split; [exact HI2|].
      apply Forall_app. split.
      + eapply Forall_rmok_incl; [|exact H1]. intros x [<-|[]]. now left.
      + eapply Forall_rmok_incl; [|exact H2]. intros x Hx. now right.
  Qed.

  Lemma resolve_hosts_rmok L now sp names s :
    Inv L (s_cache s) -> incl L Lf -> ceqr (s_cache s) (sp_c sp) ->
    Forall (rmok [sp] now) (snd (resolve_hosts s now names)).
  Proof.
    intros HI Hsub Hc. rewrite resolve_hosts_run. apply Forall_forall.
    apply (run_cmds_outs resolve_host now (fun s1 => s_cache s1 = s_cache s)); [|reflexivity].
    intros s1 h E. split; [unfold resolve_host; now rewrite (proj1 (resolve_updated_state _ _ _))|].
    apply Forall_forall, (resolve_updated_rmok L); [rewrite E; exact HI|exact Hsub|rewrite E; exact Hc].
  Qed.

  Lemma evict_rmok L now s sp :
    Inv L (s_cache s) -> incl L Lf -> tracks s sp ->
    Forall (rmok [spec_evict now sp] now) (snd (evict s now)).
  Proof.
    intros HI Hsub Htr. pose proof (tracks_evict now s sp Htr) as [Hc' _].
    pose proof (evicted_not_alive Lf L (s_cache s) now) as Hev.
    pose proof (cshr_evict_services _ _ now HI) as Hs1.
    unfold evict in *.
    destruct (evict_services (s_cache s) now) as [c1 expired]. cbn [fst snd] in Hs1, Hev.
    assert (H1 : Inv L c1) by (eapply Inv_shr; eauto).
    pose proof (cshr_evict_addr _ _ now H1) as Hs2.
    destruct (evict_addr c1 now) as [c2 names]. cbn [fst snd] in Hs2, Hev.
    assert (H2 : Inv L c2) by (eapply Inv_shr; eauto).
    destruct (resolve_hosts_state now (dedup names) (with_cache s c2)) as [E1 _].
    pose proof (resolve_hosts_rmok L now (spec_evict now sp) (dedup names) (with_cache s c2) H2 Hsub) as Hrh.
    destruct (resolve_hosts (with_cache s c2) now (dedup names)) as [s2 o2]. cbn [fst snd with_cache s_cache] in *.
    rewrite E1 in Hc'. apply Forall_app. split; [|now apply Hrh].
    apply Forall_forall. intros [ch [ty i|r|ty i]|qs|ch l] Hx; cbn [rmok]; try exact I.
    apply notify_removal_In in Hx. cbn [existsb].
    rewrite <- (alive_strong_ceqr _ _ now ty i Hc'). now rewrite (Hev ty i Hvar HI Hsub Hx).
  Qed.

  Theorem iterate_rmok ifs prev s sp it :
    Inv prev (s_cache s) -> times_le prev (i_now it) -> tracks s sp ->
    incl (prev ++ iter_dlvs ifs it) Lf ->
    let '(ds, sp2, sp3) := iter_snaps ifs sp it in
    Forall (rmok (ds ++ [sp2; sp3]) (i_now it)) (snd (iterate ifs s it)).
  Proof.
    intros HI Ht Htr Hsub. rewrite iterate_eq. unfold iter_snaps, iter_dlvs in *. cbv zeta. cbn [snd].
    set (now := i_now it) in *. set (dgs := deliveries_in_order (i_dgrams it)) in *.
    set (cur := flat_map (dgram_dlvs ifs now) dgs) in *.
    destruct (reads_rmok ifs now dgs prev s sp HI Htr Hsub) as [H1 O1].
    pose proof (tracks_reads ifs now dgs s sp Htr) as T1.
    set (s1 := fst (run_cmds (handle_read ifs) s now dgs)) in *.
    destruct (run_cmds_ok prev cur now exec_call (exec_call_ok prev cur now Ht) (i_calls it) s1 H1) as [H2 _].
    pose proof (tracks_calls now (i_calls it) s1 _ T1) as T2.
    set (s2 := fst (run_cmds exec_call s1 now (i_calls it))) in *.
    pose proof (tracks_retrans now s2 _ T2) as [C3 Q3].
    destruct (retrans_refresh_quiet s2 now) as (Q1 & Q2 & _ & Q4). cbv zeta in *.
    pose proof (ceqr_refresh_all now (s_q (fst (run_retrans s2 now))) (s_cache (fst (run_retrans s2 now)))) as C4.
    set (s4 := with_cache (fst (run_retrans s2 now)) (fst (refresh_all (s_cache (fst (run_retrans s2 now))) now (s_q (fst (run_retrans s2 now)))))) in *.
    destruct (csteps_shr _ _ _ Q1 H2) as [H4 _].
    assert (T4 : tracks s4 (fold_left (spec_call now) (i_calls it) (last (scan (spec_dgram ifs now) sp dgs) sp))).
    { split; [|exact Q3]. eapply ceqr_trans; [apply ceqr_sym; exact C4|exact C3]. }
    pose proof (evict_rmok (prev ++ cur) now s4 _ H4 Hsub T4) as O5.
    apply Forall_app in Q4 as [Q4 Q5]. repeat (apply Forall_app; split).
    - eapply Forall_rmok_incl; [|exact O1]. intros x Hx. apply in_app_iff. now left.
    - apply rmok_not_removed. intros ch ty i Hin.
      refine (proj2 (run_cmds_outs exec_call now (fun _ => True) (fun x => x <> OEvt ch (ERemoved ty i)) _ _ _ I) _ Hin eq_refl).
      intros s0 c _. split; [exact I|]. intros x Hx ->. exact (exec_call_no_removed _ _ _ _ _ _ Hx).
    - apply rmok_not_removed. intros ch ty i. now apply no_event_not_removed.
    - apply rmok_not_removed. intros ch ty i. now apply no_event_not_removed.
    - eapply Forall_rmok_incl; [|exact O5]. intros x [<-|[]]. apply in_app_iff. right. right. now left.
  Qed.
End Iteration.
