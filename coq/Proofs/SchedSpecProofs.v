(* Refinement of the scheduling model to the per-question and per-channel specifications of
   Model/SchedSpec.v: on EVERY well-formed history the model's trace satisfies chk_C19, chk_C13
   and chk_C12.  Also: closed form of the back-off ladder on the timer-exact silent schedule. *)
From Coq Require Import List NArith Bool Lia PeanoNat.
From Mdns Require Import Bytes ListFacts Sched SchedSpec SchedParamsProofs SchedProofs.
Import ListNotations.
Open Scope N_scope.

Lemma beq_sym a b : beq a b = beq b a.
Proof. apply ListFacts.beq_sym. Qed.

Lemma filter_comm {A} (P Q : A -> bool) l : filter P (filter Q l) = filter Q (filter P l).
Proof.
  induction l as [|x t IH]; simpl; [reflexivity|].
  destruct (Q x) eqn:EQ, (P x) eqn:EP; simpl; rewrite ?EQ, ?EP, IH; reflexivity.
Qed.

Lemma filter_flat_map {A} (Q : A -> bool) (g : A -> list A) l :
  (forall x y, In y (g x) -> Q y = Q x) -> filter Q (flat_map g l) = flat_map g (filter Q l).
Proof.
  intros H. induction l as [|x t IH]; simpl; [reflexivity|].
  rewrite filter_app, IH. rewrite (filter_all Q (Q x) (g x)) by (intros y Hy; apply H; exact Hy).
  destruct (Q x); reflexivity.
Qed.

Lemma flat_map_unique {A K B} (f : A -> K) (Q : A -> bool) (g : A -> list B) l e0 :
  NoDup (map f l) -> In e0 l -> (forall e, In e l -> Q e = true -> f e = f e0) ->
  flat_map (fun e => if Q e then g e else []) l = if Q e0 then g e0 else [].
Proof.
  induction l as [|x l IH]; intros ND Hin HQ; [contradiction|].
  inversion ND as [|y ys Hn ND']; subst. simpl. destruct Hin as [->|Hin].
  - rewrite flat_map_nil; [apply app_nil_r|].
    intros e He. destruct (Q e) eqn:E; [|reflexivity]. exfalso. apply Hn.
    rewrite <- (HQ e (or_intror He) E). apply in_map. exact He.
  - replace (Q x) with false.
    + simpl. apply IH; [exact ND' | exact Hin|]. intros e He. apply HQ. right. exact He.
    + symmetry. destruct (Q x) eqn:E; [|reflexivity]. exfalso. apply Hn.
      rewrite (HQ x (or_introl eq_refl) E). apply in_map. exact Hin.
Qed.

Lemma filter_at_most_one {A B} (f : A -> B) (Q : A -> bool) (a : B) l :
  NoDup (map f l) -> (forall x, In x l -> Q x = true -> f x = a) ->
  filter Q l = [] \/ exists x, filter Q l = [x].
Proof.
  induction l as [|x l IH]; intros ND H; simpl; [left; reflexivity|].
  inversion ND as [|y ys Hn ND']; subst.
  destruct (Q x) eqn:E.
  - right. exists x. f_equal. apply filter_none. intros z Hz.
    destruct (Q z) eqn:Ez; [|reflexivity]. exfalso. apply Hn.
    rewrite (H x (or_introl eq_refl) E), <- (H z (or_intror Hz) Ez). apply in_map. exact Hz.
  - apply IH; [exact ND'|]. intros z Hz. apply H. right. exact Hz.
Qed.

Lemma NoDup_app_inv {A} (a b : list A) :
  NoDup (a ++ b) -> NoDup a /\ NoDup b /\ (forall x, In x a -> ~ In x b).
Proof.
  induction a as [|y a IH]; simpl; intros H; [split; [constructor | split; [exact H | tauto]]|].
  inversion H as [|z zs Hn ND]; subst. destruct (IH ND) as [N0 [N1 N2]]. split; [|split; [exact N1|]].
  - constructor; [|exact N0]. intros Hy. apply Hn. apply in_or_app. left. exact Hy.
  - intros x [->|Hx]; [|auto]. intros Hb. apply Hn. apply in_or_app. right. exact Hb.
Qed.

Lemma nodupN_NoDup l : nodupN l = true -> NoDup l.
Proof.
  induction l as [|x l IH]; simpl; intros H; [constructor|].
  apply andb_true_iff in H as [H1 H2]. constructor; [|auto].
  intros Hin. apply negb_true_iff in H1.
  assert (memN x l = true).
  { clear - Hin. induction l as [|y l IHl]; [contradiction|]. simpl. destruct Hin as [->|Hin].
    - rewrite N.eqb_refl. reflexivity.
    - rewrite IHl by exact Hin. apply orb_true_r. }
  congruence.
Qed.

(* the queued retransmissions that will put question k on the wire: same kind and the SAME SPELLING of
   the name.  For host names the listener key (rkey, wkey_okey) is the lower-cased name, so several
   questions share one search; a question is compared as written, with okey_eqb k (host, nm). *)
Definition is_k (k : wkey) (r : rerun) : bool := okey_eqb k (r_host r, r_name r).
Definition pend (k : wkey) (l : list rerun) : list rerun := filter (is_k k) l.

Lemma spelling_eq (k : wkey) host nm : okey_eqb k (host, nm) = true <-> fst k = host /\ snd k = nm.
Proof. rewrite okey_eqb_eq. destruct k. simpl. split; [intros [= -> ->]; auto | intros [-> ->]; reflexivity]. Qed.

Lemma okey_eqb_pair (k : wkey) : okey_eqb k (fst k, snd k) = true.
Proof. apply spelling_eq. auto. Qed.

Lemma is_k_rkey k r : is_k k r = true -> rkey r = wkey_okey k.
Proof. intros H. apply spelling_eq in H as [E1 E2]. unfold rkey, wkey_okey. rewrite E1, E2. reflexivity. Qed.

Lemma is_k_other k key r : rkey r = key -> key <> wkey_okey k -> is_k k r = false.
Proof. intros E H. destruct (is_k k r) eqn:Ek; [|reflexivity]. apply is_k_rkey in Ek. congruence. Qed.

Lemma pkt_eqb_same k host nm : pkt_eqb (pkt (fst k) (snd k)) (pkt host nm) = okey_eqb k (host, nm).
Proof.
  destruct k as [kh kn]. unfold okey_eqb, pkt. simpl.
  destruct kh, host; simpl; unfold q_eqb; simpl; try reflexivity; destruct (beq kn nm); reflexivity.
Qed.

Lemma count_pkt_app k a b : count_pkt k (a ++ b) = (count_pkt k a + count_pkt k b)%nat.
Proof. unfold count_pkt. rewrite filter_app, app_length. reflexivity. Qed.

Lemma count_pkt_one k host nm : count_pkt k [pkt host nm] = if okey_eqb k (host, nm) then 1%nat else 0%nat.
Proof. unfold count_pkt. simpl. rewrite pkt_eqb_same. destruct (okey_eqb k (host, nm)); reflexivity. Qed.

Lemma count_pkt_reruns k (l : list rerun) :
  count_pkt k (map (fun r => pkt (r_host r) (r_name r)) l) = length (pend k l).
Proof.
  unfold count_pkt, pend. induction l as [|r l IH]; [reflexivity|].
  cbn [map filter]. rewrite pkt_eqb_same. fold (is_k k r). destruct (is_k k r); simpl; rewrite IH; reflexivity.
Qed.

Lemma pend_app k a b : pend k (a ++ b) = pend k a ++ pend k b.
Proof. apply filter_app. Qed.

Lemma pend_rekey_same k s o new :
  pend k (st_retrans (rekey s (wkey_okey k) o new)) = pend k new.
Proof.
  unfold rekey, set_sched. cbn [st_retrans]. rewrite pend_app.
  replace (pend k (purge (wkey_okey k) (st_retrans s))) with (@nil rerun); [reflexivity|].
  symmetry. apply filter_none. intros r H. apply in_purge in H as [_ H].
  destruct (is_k k r) eqn:E; [|reflexivity]. apply is_k_rkey in E. contradiction.
Qed.

Lemma pend_rekey_other k s key o new :
  key <> wkey_okey k -> (forall r, In r new -> rkey r = key) ->
  pend k (st_retrans (rekey s key o new)) = pend k (st_retrans s).
Proof.
  intros Hne Hnew. unfold rekey, set_sched, pend. cbn [st_retrans]. rewrite filter_app.
  rewrite (filter_none (is_k k) new) by (intros r H; apply (is_k_other k key); [apply Hnew; exact H | exact Hne]). rewrite app_nil_r.
  unfold purge. rewrite filter_comm. apply filter_true. intros r H. apply filter_In in H as [_ H].
  apply negb_true_iff, okey_eqb_neq. apply is_k_rkey in H. congruence.
Qed.

(* every queued retransmission belongs to the current search of its key: same channel, and
   its time lies before the search's deadline (holds between iterations) *)
Definition InvH (s : state) : Prop :=
  forall r, In r (st_retrans s) ->
  exists o, lookup (rkey r) (st_owners s) = Some o /\ ow_ch o = r_ch r
            /\ (forall d, ow_deadline o = Some d -> r_time r < d).

(* a browse owner never has a deadline (the API offers none: wf_cmd) *)
Definition InvB (s : state) : Prop :=
  forall e, In e (st_owners s) -> fst (fst e) = false -> ow_deadline (snd e) = None.

(* The retransmission of a timed-out search: the deadline block of run leaves it in the list; it
   is due in the same iteration and the re-run drops it (early return of
   exec_command_resolve_hostname).  So between the deadline block and the re-run InvH fails.  The
   refinement is therefore proved about iterate_p, which drops such entries right after the
   deadline block (timeout_phase_p) and re-runs everything that is due (rerun_phase0), and
   iterate_eq shows iterate = iterate_p: purge_dead commutes with every command, and what it drops
   is due (dead_due), so the re-run would have dropped it. *)
Definition purge_dead (s : state) : state :=
  set_sched s (st_timers s) (filter (rerun_live (st_owners s)) (st_retrans s)) (st_owners s).
Definition timeout_phase_p (now : N) (s : state) : state := purge_dead (timeout_phase now s).

Definition rerun_phase0 (now : N) (s : state) : result :=
  let d := filter (due now) (st_retrans s) in
  let keep := filter (fun r => negb (due now r)) (st_retrans s) in
  let new := flat_map (rerun_one now (st_owners s)) d in
  (set_sched s (map r_time new ++ st_timers s) (keep ++ new) (st_owners s),
   map (fun r => pkt (r_host r) (r_name r)) d,
   map (fun r => (r_ch r, EStarted (r_name r))) d).

Definition iterate_p (s : state) (it : iter) : state * out :=
  let now := i_now it in
  let ev_t := timeout_events now (st_owners s) in
  let '(s2, p_c, ev_c) := run_cmds now (i_cmds it) (timeout_phase_p now s) in
  if st_alive s2 then
    let '(s3, p_r, ev_r) := rerun_phase0 now s2 in
    let s4 := ip_phase now s3 in
    (s4, mkOut now (p_c ++ p_r) (ev_t ++ ev_c ++ ev_r ++ closed_events s (i_cmds it) s4)
               (min_list (st_timers s4)) false)
  else
    (s2, mkOut now p_c (ev_t ++ ev_c ++ closed_events s (i_cmds it) s2) None true).

Lemma live_of_lookup owners r o : lookup (rkey r) owners = Some o -> rerun_live owners r = true.
Proof. intros L. unfold rerun_live. rewrite L. apply orb_true_r. Qed.

Lemma owner_entry_unique k o (l : list (okey * owner)) e :
  NoDup (map fst l) -> lookup k l = Some o -> In e l -> fst e = k -> e = (k, o).
Proof.
  intros ND L He Ek. destruct e as [k' o']. simpl in Ek. subst k'.
  rewrite (In_lookup k o' l ND He) in L. congruence.
Qed.

(* a browse has no deadline, and a resolver's retransmission survives purge_dead only with its resolver *)
Lemma purged_not_expired now s e r :
  InvB s -> NoDup (map fst (st_owners s)) -> In e (st_owners s) -> expired now e = true ->
  In r (st_retrans (timeout_phase_p now s)) -> rkey r <> fst e.
Proof.
  intros B ND He Hx Hr E. cbn in Hr. apply filter_In in Hr as [_ HL].
  unfold rerun_live in HL. apply orb_true_iff in HL as [HL|HL].
  - apply negb_true_iff in HL. unfold expired in Hx. rewrite (B e He) in Hx; [discriminate|].
    rewrite <- E. exact HL.
  - destruct (lookup (rkey r) _) as [o'|] eqn:L; [|discriminate].
    apply lookup_In, filter_In in L as [L Hne].
    rewrite (owner_entry_unique (rkey r) o' _ e ND (In_lookup _ _ _ ND L) He (eq_sym E)) in Hx.
    rewrite Hx in Hne. discriminate.
Qed.

Lemma invh_timeout now s :
  InvH s -> InvB s -> NoDup (map fst (st_owners s)) -> InvH (timeout_phase_p now s).
Proof.
  intros H B ND r Hr. pose proof Hr as Hr0. unfold timeout_phase_p, purge_dead in Hr. simpl in Hr.
  apply filter_In in Hr as [Hr _]. destruct (H r Hr) as [o [L [C D]]].
  exists o. split; [|auto]. simpl. apply lookup_filter_keep; [exact L|].
  apply negb_true_iff. destruct (expired now (rkey r, o)) eqn:E; [|reflexivity].
  exfalso. apply (purged_not_expired now s (rkey r, o) r B ND); [apply lookup_In; exact L | exact E | exact Hr0 | reflexivity].
Qed.

Lemma invb_timeout now s : InvB s -> InvB (timeout_phase_p now s).
Proof. intros B e He. simpl in He. apply filter_In in He as [He _]. auto. Qed.

Lemma invb_cmd now c s : InvB s -> wf_cmd c = true -> c <> CShutdown -> InvB (fst (fst (exec_cmd now c s))).
Proof.
  intros B W Hc.
  assert (Hre : forall k o new, (forall w, o = Some w -> fst k = false -> ow_deadline w = None) -> InvB (rekey s k o new)).
  { intros k o new Ho e He Hb. apply in_owners_rekey in He as [[<- E]|[He _]]; [eauto | auto]. }
  destruct c as [host nm cache timeout ch|host nm|secs|]; cbn [exec_cmd].
  - rewrite exec_start_eq. apply Hre. intros w [= <-] Hb. cbn in Hb. subst host. simpl in W.
    destruct timeout; [discriminate | reflexivity].
  - rewrite exec_stop_eq. destruct (lookup _ _); [apply Hre; discriminate | exact B].
  - exact B.
  - congruence.
Qed.

Lemma requeue_ok_lookup key owners nt ch dd :
  lookup key owners = Some (mkOwner ch dd) ->
  requeue_ok key owners nt = match dd with Some d => nt <? d | None => true end.
Proof. intros L. unfold requeue_ok. rewrite L. simpl. destruct dd; reflexivity. Qed.

Lemma lookup_cons_same k o l : lookup k ((k, o) :: l) = Some o.
Proof. simpl. rewrite okey_eqb_refl. reflexivity. Qed.

Lemma invh_rekey s k o new :
  InvH s ->
  (forall r, In r new -> rkey r = k /\ exists w, o = Some w /\ ow_ch w = r_ch r
                                         /\ forall d, ow_deadline w = Some d -> r_time r < d) ->
  InvH (rekey s k o new).
Proof.
  intros H Hnew r Hr. apply in_retrans_rekey in Hr as [[Hr Hk]|Hr].
  - rewrite lookup_rekey_other by exact Hk. exact (H r Hr).
  - destruct (Hnew r Hr) as [-> [w [-> CD]]]. exists w. rewrite lookup_rekey_same. auto.
Qed.

Lemma invh_cmd now c s : InvH s -> c <> CShutdown -> InvH (fst (fst (exec_cmd now c s))).
Proof.
  intros H Hc. destruct c as [host nm cache timeout ch|host nm|secs|]; cbn [exec_cmd].
  - rewrite exec_start_eq. apply invh_rekey; [exact H|]. intros r Hr.
    apply in_start_new in Hr as [-> [_ Hd]]. split; [reflexivity|]. eexists. repeat split. exact Hd.
  - rewrite exec_stop_eq. destruct (lookup _ _); [|exact H]. apply invh_rekey; [exact H | intros r []].
  - exact H.
  - congruence.
Qed.

Lemma invh_cmds now cmds s :
  InvH s -> has_shutdown cmds = false -> InvH (fst (fst (run_cmds now cmds s))).
Proof.
  intros H HS. apply (run_cmds_inv now InvH (fun _ => True)); auto.
  - intros c s' _ Hc H'. apply invh_cmd; assumption.
  - apply Forall_forall. auto.
Qed.

Lemma rerun_phase_all_live now s :
  (forall r, In r (st_retrans s) -> rerun_live (st_owners s) r = true) ->
  rerun_phase now s = rerun_phase0 now s.
Proof.
  intros H. unfold rerun_phase, rerun_phase0.
  rewrite (filter_true (rerun_live (st_owners s)) (filter (due now) (st_retrans s))); [reflexivity|].
  intros r Hr. apply filter_In in Hr as [Hr _]. auto.
Qed.

Lemma rerun_phase_live now s : InvH s -> rerun_phase now s = rerun_phase0 now s.
Proof.
  intros H. apply rerun_phase_all_live. intros r Hr. destruct (H r Hr) as [o [L _]].
  eapply live_of_lookup. exact L.
Qed.

Lemma invh_rerun now s : InvH s -> InvH (fst (fst (rerun_phase0 now s))).
Proof.
  intros H r Hr. cbn in Hr. apply in_app_or in Hr as [Hr|Hr].
  - apply filter_In in Hr as [Hr _]. exact (H r Hr).
  - apply in_flat_map in Hr as [r0 [H0 Hr]]. apply filter_In in H0 as [H0 _].
    destruct (H r0 H0) as [o [L [C D]]].
    apply in_requeue in Hr as [-> Hok]. fold (rkey r0) in Hok. unfold rkey at 1. cbn. fold (rkey r0).
    exists o. split; [exact L|]. split; [exact C|]. intros d Hd.
    unfold requeue_ok in Hok. rewrite L, Hd in Hok. apply N.ltb_lt. exact Hok.
Qed.

Lemma invh_ip now s : InvH s -> InvH (ip_phase now s).
Proof. intros H. destruct (ip_phase_frame now s) as [_ [F2 [F3 _]]]. unfold InvH. rewrite F2, F3. exact H. Qed.

Lemma mid_purge_dead now z s : Mid now z s -> Mid now z (purge_dead s).
Proof.
  intros [Hc Hr Hd Hi Ho H1 Ht]. constructor; simpl; auto.
  - intros r Hr0. apply filter_In in Hr0 as [Hr0 _]. auto.
  - apply NoDup_map_filter. exact H1.
Qed.

Definition dead_due (now : N) (s : state) : Prop :=
  forall r, In r (st_retrans s) -> rerun_live (st_owners s) r = false -> r_time r <= now.

Lemma purge_dead_rekey now s k o new :
  (forall r, In r new -> rerun_live (st_owners (rekey s k o new)) r = true) -> dead_due now s ->
  purge_dead (rekey s k o new) = rekey (purge_dead s) k o new /\ dead_due now (rekey s k o new).
Proof.
  intros Hnew D.
  assert (A : forall r, rkey r <> k -> rerun_live (st_owners (rekey s k o new)) r = rerun_live (st_owners s) r).
  { intros r Hk. unfold rerun_live. rewrite lookup_rekey_other by exact Hk. reflexivity. }
  split.
  - unfold purge_dead, rekey, set_sched.
    cbn [st_timers st_retrans st_owners st_clock st_next_ip st_ip_ival st_alive].
    f_equal. rewrite filter_app. f_equal.
    + unfold purge at 2. rewrite filter_comm. apply filter_ext_in. intros r Hr.
      apply in_purge in Hr as [_ Hr]. apply A. exact Hr.
    + apply filter_true. exact Hnew.
  - intros r Hr HL. apply in_retrans_rekey in Hr as [[Hr Hk]|Hr].
    + apply D; [exact Hr|]. rewrite <- A by exact Hk. exact HL.
    + rewrite (Hnew r Hr) in HL. discriminate.
Qed.

Lemma purge_dead_cmd now c s :
  dead_due now s ->
  exec_cmd now c (purge_dead s)
  = (purge_dead (fst (fst (exec_cmd now c s))), snd (fst (exec_cmd now c s)), snd (exec_cmd now c s))
  /\ dead_due now (fst (fst (exec_cmd now c s))).
Proof.
  intros D. destruct c as [host nm cache timeout ch|host nm|secs|]; cbn [exec_cmd].
  - rewrite !exec_start_eq. change (st_owners (purge_dead s)) with (st_owners s). cbn [fst snd].
    match goal with |- context [rekey s ?k ?o ?new] => destruct (purge_dead_rekey now s k o new) as [E D'] end.
    + intros r Hr. apply in_start_new in Hr as [-> _]. eapply live_of_lookup. apply lookup_rekey_same.
    + exact D.
    + rewrite E. auto.
  - rewrite !exec_stop_eq. change (st_owners (purge_dead s)) with (st_owners s).
    destruct (lookup _ (st_owners s)); [|auto]. cbn [fst snd].
    destruct (purge_dead_rekey now s (okey_of host nm) None []) as [E D']; [intros r [] | exact D|].
    rewrite E. auto.
  - split; [reflexivity | exact D].
  - split; [reflexivity|]. intros r [].
Qed.

Lemma purge_dead_cmds now cmds : forall s,
  dead_due now s ->
  run_cmds now cmds (purge_dead s)
  = (purge_dead (fst (fst (run_cmds now cmds s))), snd (fst (run_cmds now cmds s)), snd (run_cmds now cmds s))
  /\ dead_due now (fst (fst (run_cmds now cmds s))).
Proof.
  induction cmds as [|c rest IH]; intros s D; simpl; [auto|].
  destruct (purge_dead_cmd now c s D) as [E1 D1]. rewrite E1.
  destruct (exec_cmd now c s) as [[s1 p1] e1]. cbn [fst snd] in *.
  destruct (IH s1 D1) as [E2 D2]. rewrite E2.
  destruct (run_cmds now rest s1) as [[s2 p2] e2]. cbn [fst snd] in *.
  destruct c; cbn [fst snd]; auto.
Qed.

Lemma purge_dead_rerun now s : dead_due now s -> rerun_phase0 now (purge_dead s) = rerun_phase now s.
Proof.
  intros D. rewrite <- rerun_phase_all_live by (intros r Hr; cbn in Hr; apply filter_In in Hr as [_ Hr]; exact Hr).
  unfold rerun_phase.
  change (st_owners (purge_dead s)) with (st_owners s).
  change (st_timers (purge_dead s)) with (st_timers s).
  change (st_retrans (purge_dead s)) with (filter (rerun_live (st_owners s)) (st_retrans s)).
  set (live := rerun_live (st_owners s)). set (R := st_retrans s).
  assert (Ed : filter live (filter (due now) (filter live R)) = filter live (filter (due now) R)).
  { rewrite (filter_comm (due now)). apply filter_true. intros r Hr. apply filter_In in Hr as [_ Hr]. exact Hr. }
  (* a dead entry is due, so the entries that are not due are the same with and without it *)
  assert (Ek : filter (fun r => negb (due now r)) (filter live R) = filter (fun r => negb (due now r)) R).
  { rewrite filter_comm. apply filter_true. intros r Hr. apply filter_In in Hr as [Hr Hn].
    destruct (live r) eqn:E; [reflexivity|]. exfalso.
    unfold due in Hn. apply negb_true_iff, N.leb_gt in Hn. specialize (D r Hr E). lia. }
  rewrite Ed, Ek. reflexivity.
Qed.

Lemma iterate_p_no_exit s it :
  has_shutdown (i_cmds it) = false ->
  let now := i_now it in
  let r2 := run_cmds now (i_cmds it) (timeout_phase_p now s) in
  let r3 := rerun_phase0 now (fst (fst r2)) in
  let s4 := ip_phase now (fst (fst r3)) in
  iterate_p s it = (s4, mkOut now (snd (fst r2) ++ snd (fst r3))
                      (timeout_events now (st_owners s) ++ snd r2 ++ snd r3 ++ closed_events s (i_cmds it) s4)
                      (min_list (st_timers s4)) false).
Proof.
  intros HS. cbv zeta. unfold iterate_p.
  pose proof (alive_run_cmds (i_now it) (i_cmds it) (timeout_phase_p (i_now it) s) eq_refl) as A.
  destruct (run_cmds _ _ _) as [[s2 p] e]. cbn [fst snd] in *. rewrite A, HS. cbn [negb].
  destruct (rerun_phase0 _ s2) as [[s3 p3] e3]. reflexivity.
Qed.

Lemma iterate_p_exit s it :
  has_shutdown (i_cmds it) = true ->
  let now := i_now it in
  let r2 := run_cmds now (i_cmds it) (timeout_phase_p now s) in
  iterate_p s it = (fst (fst r2), mkOut now (snd (fst r2))
                      (timeout_events now (st_owners s) ++ snd r2 ++ closed_events s (i_cmds it) (fst (fst r2))) None true).
Proof.
  intros HS. cbv zeta. unfold iterate_p.
  pose proof (alive_run_cmds (i_now it) (i_cmds it) (timeout_phase_p (i_now it) s) eq_refl) as A.
  destruct (run_cmds _ _ _) as [[s2 p] e]. cbn [fst snd] in *. rewrite A, HS. reflexivity.
Qed.

Lemma dead_due_timeout now s : InvH s -> dead_due now (timeout_phase now s).
Proof.
  intros H r Hr HL. simpl in Hr, HL. destruct (H r Hr) as [o [L [_ D]]].
  unfold rerun_live in HL. apply orb_false_iff in HL as [_ HL].
  destruct (expired now (rkey r, o)) eqn:E.
  - unfold expired in E. simpl in E. destruct (ow_deadline o) as [d|]; [|discriminate].
    rewrite resolver_expired_pinned in E. apply N.leb_le in E. specialize (D d eq_refl). lia.
  - rewrite (lookup_filter_keep _ _ _ o L) in HL; [discriminate|]. rewrite E. reflexivity.
Qed.

Lemma run_cmds_exit now cmds s :
  has_shutdown cmds = true -> st_retrans (fst (fst (run_cmds now cmds s))) = [].
Proof.
  pattern cmds, s, (run_cmds now cmds s). apply run_cmds_ind; clear cmds s.
  - discriminate.
  - reflexivity.
  - intros c rest s s1 p1 e1 s2 p2 e2 Hc _ _ IH HS. rewrite has_shutdown_other in HS by exact Hc. auto.
Qed.

Lemma purge_dead_none s : st_retrans s = [] -> purge_dead s = s.
Proof. destruct s. simpl. intros ->. reflexivity. Qed.

Lemma iterate_eq s it : InvH s -> iterate s it = iterate_p s it.
Proof.
  intros H. pose proof (dead_due_timeout (i_now it) s H) as D1.
  destruct (purge_dead_cmds (i_now it) (i_cmds it) _ D1) as [E2 D2].
  destruct (has_shutdown (i_cmds it)) eqn:HS.
  - rewrite (iterate_exit s it HS), (iterate_p_exit s it HS). unfold timeout_phase_p. rewrite E2. cbn [fst snd].
    rewrite (purge_dead_none _ (run_cmds_exit (i_now it) (i_cmds it) (timeout_phase (i_now it) s) HS)). reflexivity.
  - rewrite (iterate_no_exit s it HS), (iterate_p_no_exit s it HS). unfold timeout_phase_p. rewrite E2. cbn [fst snd].
    rewrite (purge_dead_rerun _ _ D2). reflexivity.
Qed.

(* what holds of the daemon's state at the gate, between two iterations *)
Record Good (s : state) : Prop := mkGood { good_inv : Inv s; good_invh : InvH s; good_invb : InvB s }.

Definition wf_cmds (cmds : list cmd) : Prop := forallb wf_cmd cmds = true.

Definition iter_ok (it : iter) : Prop := i_now it < u64_max /\ wf_cmds (i_cmds it).

Lemma invb_cmds now cmds s :
  InvB s -> wf_cmds cmds -> has_shutdown cmds = false -> InvB (fst (fst (run_cmds now cmds s))).
Proof.
  intros B W HS. apply (run_cmds_inv now InvB (fun c => wf_cmd c = true)); auto.
  - intros c s' Wc Hc B'. apply invb_cmd; assumption.
  - apply Forall_forall. apply forallb_forall. exact W.
Qed.

Lemma good_iterate s it :
  Good s -> (i_cmds it = [] \/ iter_ok it) -> has_shutdown (i_cmds it) = false -> Good (fst (iterate s it)).
Proof.
  intros [I H B] Hok HS.
  assert (Hnow : i_cmds it = [] \/ i_now it < u64_max) by (destruct Hok as [E|[Hn _]]; auto).
  assert (W : wf_cmds (i_cmds it)) by (destruct Hok as [E|[_ W]]; [rewrite E; reflexivity | exact W]).
  constructor.
  - apply iterate_step; assumption.
  - rewrite (iterate_eq s it H), (iterate_p_no_exit s it HS). cbn [fst].
    apply invh_ip, invh_rerun, invh_cmds; [|exact HS]. apply invh_timeout; [exact H | exact B | apply inv_own; exact I].
  - rewrite (iterate_eq s it H), (iterate_p_no_exit s it HS). cbn [fst]. unfold InvB.
    destruct (ip_phase_frame (i_now it) (fst (fst (rerun_phase0 (i_now it)
               (fst (fst (run_cmds (i_now it) (i_cmds it) (timeout_phase_p (i_now it) s)))))))) as [_ [_ [F3 _]]].
    rewrite F3. cbn [rerun_phase0 fst set_sched st_owners].
    apply invb_cmds; [apply invb_timeout; exact B | exact W | exact HS].
Qed.

Lemma good_init t0 : Good (init t0).
Proof. constructor; [apply inv_init | |]; rewrite init_spec; intros x []. Qed.

Definition chain_rerun (k : wkey) (c : chain) (ch : chan) : rerun :=
  mkRerun (chain_due c) (fst k) (snd k) (spec_next_delay (c_delay c)) ch.

(* The state s and the specification state st agree about question k.  No search for k (None): no
   retransmission for k is queued.  A search (Some c) that sent its last query at c_last: its key
   has a listener with the search's deadline, the delay is >= 1 s, and the only retransmission
   queued for k is the one for c_last + c_delay s - none if that is not before the deadline.
   chain_rerun is that ReRun record. *)
Definition Rk (k : wkey) (s : state) (st : kstate) : Prop :=
  match st with
  | None => pend k (st_retrans s) = []
  | Some c =>
      1 <= c_delay c
      /\ exists ch, lookup (wkey_okey k) (st_owners s) = Some (mkOwner ch (c_deadline c))
                    /\ pend k (st_retrans s) = if chain_goes_on c then [chain_rerun k c ch] else []
  end.

Lemma is_k_chain_rerun k c ch : is_k k (chain_rerun k c ch) = true.
Proof. apply okey_eqb_pair. Qed.

Lemma pend_own k c ch (b : bool) :
  pend k (if b then [chain_rerun k c ch] else []) = if b then [chain_rerun k c ch] else [].
Proof. destruct b; [|reflexivity]. unfold pend. cbn [filter]. rewrite is_k_chain_rerun. reflexivity. Qed.

Lemma rk_ip k now s st : Rk k s st -> Rk k (ip_phase now s) st.
Proof. intros R. destruct (ip_phase_frame now s) as [_ [F2 [F3 _]]]. unfold Rk. rewrite F2, F3. exact R. Qed.

Lemma rk_rekey_other k s st key o new :
  key <> wkey_okey k -> (forall r, In r new -> rkey r = key) -> Rk k s st -> Rk k (rekey s key o new) st.
Proof.
  intros Hne Hnew R. unfold Rk. rewrite pend_rekey_other by assumption.
  rewrite lookup_rekey_other by congruence. exact R.
Qed.

Lemma rk_rekey_same k s o new st :
  match st with
  | None => pend k new = []
  | Some c => 1 <= c_delay c
              /\ exists ch, o = Some (mkOwner ch (c_deadline c))
                            /\ pend k new = if chain_goes_on c then [chain_rerun k c ch] else []
  end ->
  Rk k (rekey s (wkey_okey k) o new) st.
Proof. unfold Rk. rewrite pend_rekey_same, lookup_rekey_same. auto. Qed.

Lemma pend_purge_dead k s :
  pend k (st_retrans (purge_dead s)) = filter (rerun_live (st_owners s)) (pend k (st_retrans s)).
Proof. unfold purge_dead, pend. simpl. apply filter_comm. Qed.

Lemma rk_timeout k now s st :
  Rk k s st -> InvB s -> NoDup (map fst (st_owners s)) ->
  Rk k (timeout_phase_p now s) (k_timeout now st).
Proof.
  intros R B ND. destruct st as [c|].
  2:{ unfold k_timeout, Rk, timeout_phase_p. rewrite pend_purge_dead.
      change (st_retrans (timeout_phase now s)) with (st_retrans s). unfold Rk in R. rewrite R. reflexivity. }
  destruct R as [Hd [ch [L P]]].
  assert (Hkeep : expired now (wkey_okey k, mkOwner ch (c_deadline c)) = false ->
                  Rk k (timeout_phase_p now s) (Some c)).
  { intros Hx. split; [exact Hd|]. exists ch.
    assert (L1 : lookup (wkey_okey k) (st_owners (timeout_phase_p now s)) = Some (mkOwner ch (c_deadline c))).
    { simpl. apply lookup_filter_keep; [exact L|]. rewrite Hx. reflexivity. }
    split; [exact L1|]. unfold timeout_phase_p. rewrite pend_purge_dead.
    change (st_retrans (timeout_phase now s)) with (st_retrans s). rewrite P.
    destruct (chain_goes_on c); [|reflexivity]. simpl.
    rewrite (live_of_lookup _ (chain_rerun k c ch) (mkOwner ch (c_deadline c))); [reflexivity|].
    simpl in L1. rewrite (is_k_rkey k _ (is_k_chain_rerun k c ch)). exact L1. }
  simpl. destruct (c_deadline c) as [d|] eqn:Ed.
  - destruct (d <=? now) eqn:E.
    + unfold Rk. apply filter_none. intros r Hr. destruct (is_k k r) eqn:Ek; [|reflexivity]. exfalso.
      apply (purged_not_expired now s (wkey_okey k, mkOwner ch (Some d)) r B ND).
      * apply lookup_In. exact L.
      * unfold expired. simpl. rewrite resolver_expired_pinned. exact E.
      * exact Hr.
      * simpl. apply is_k_rkey. exact Ek.
    + apply Hkeep. unfold expired. simpl. rewrite ?Ed, resolver_expired_pinned. exact E.
  - apply Hkeep. unfold expired. simpl. rewrite ?Ed. reflexivity.
Qed.

(* a start call concerns question k when it has the same spelling; another spelling of the
   same key ends the search for k *)
Lemma k_cmd_start now k host nm cache timeout ch st :
  k_cmd now k (CStart host nm cache timeout ch) st =
  if okey_eqb k (host, nm)
  then if cache then (None, 0%nat) else (Some (mkChain now 1 (option_map (sat_add now) timeout)), 1%nat)
  else (if okey_eqb (okey_of host nm) (wkey_okey k) then None else st, 0%nat).
Proof.
  cbn [k_cmd]. destruct (okey_eqb k (host, nm)) eqn:SQ.
  - apply spelling_eq in SQ as [<- <-]. change (okey_of (fst k) (snd k)) with (wkey_okey k).
    rewrite okey_eqb_refl, beq_refl. destruct cache; reflexivity.
  - destruct (okey_eqb (okey_of host nm) (wkey_okey k)) eqn:EK; [|reflexivity].
    destruct (beq nm (snd k)) eqn:EN; [exfalso | reflexivity].
    apply okey_eqb_eq in EK. apply beq_eq in EN. injection EK as Eh _.
    rewrite (proj2 (spelling_eq k host nm)) in SQ by auto. discriminate.
Qed.

Lemma rk_cmd k now c s st :
  c <> CShutdown -> Rk k s st -> InvH s ->
  Rk k (fst (fst (exec_cmd now c s))) (fst (k_cmd now k c st))
  /\ count_pkt k (snd (fst (exec_cmd now c s))) = snd (k_cmd now k c st).
Proof.
  intros Hc R H. destruct c as [host nm cache timeout ch|host nm|secs|]; cbn [exec_cmd].
  - rewrite exec_start_eq, k_cmd_start. cbn [fst snd]. destruct (okey_eqb k (host, nm)) eqn:SQ.
    + apply spelling_eq in SQ as [<- <-]. change (okey_of (fst k) (snd k)) with (wkey_okey k).
      destruct cache; (split; [apply rk_rekey_same | rewrite ?count_pkt_one, ?okey_eqb_pair; reflexivity]); cbn [fst].
      * reflexivity.
      * split; [cbn; lia|]. exists ch. split; [reflexivity|].
        exact (pend_own k (mkChain now 1 (option_map (sat_add now) timeout)) ch _).
    + split; [|destruct cache; [reflexivity | rewrite count_pkt_one, SQ; reflexivity]].
      destruct (okey_eqb (okey_of host nm) (wkey_okey k)) eqn:EK.
      * apply okey_eqb_eq in EK. rewrite EK. apply rk_rekey_same. cbn [fst].
        apply filter_none. intros r Hr. apply in_start_new in Hr as [-> _]. exact SQ.
      * apply okey_eqb_neq in EK. apply rk_rekey_other; [exact EK | | exact R].
        intros r Hr. apply in_start_new in Hr as [-> _]. reflexivity.
  - rewrite exec_stop_eq. cbn [k_cmd]. set (key := okey_of host nm).
    destruct (okey_eqb key (wkey_okey k)) eqn:EK, (lookup key (st_owners s)) as [o|] eqn:L;
      cbn [fst snd]; (split; [|reflexivity]).
    + apply okey_eqb_eq in EK. rewrite EK. apply rk_rekey_same. reflexivity.
    + (* no such search: by InvH nothing is queued for it either *)
      apply okey_eqb_eq in EK. apply filter_none. intros r Hr.
      destruct (is_k k r) eqn:E; [|reflexivity]. exfalso. apply is_k_rkey in E.
      destruct (H r Hr) as [o [L' _]]. rewrite E, <- EK, L in L'. discriminate.
    + apply okey_eqb_neq in EK. apply rk_rekey_other; [exact EK | intros r [] | exact R].
    + exact R.
  - split; [exact R | reflexivity].
  - congruence.
Qed.

Lemma k_cmds_cons now k c rest st :
  c <> CShutdown ->
  k_cmds now k (c :: rest) st =
  let '(st1, n1) := k_cmd now k c st in
  let '(st2, n2, halted) := k_cmds now k rest st1 in (st2, (n1 + n2)%nat, halted).
Proof. intros H. destruct c; try reflexivity. congruence. Qed.

Lemma rk_cmds k now cmds s : forall st,
  Rk k s st -> InvH s ->
  count_pkt k (snd (fst (run_cmds now cmds s))) = snd (fst (k_cmds now k cmds st))
  /\ snd (k_cmds now k cmds st) = has_shutdown cmds
  /\ (has_shutdown cmds = false -> Rk k (fst (fst (run_cmds now cmds s))) (fst (fst (k_cmds now k cmds st)))).
Proof.
  pattern cmds, s, (run_cmds now cmds s). apply run_cmds_ind; clear cmds s.
  - intros s st R _. simpl. auto.
  - intros rest s st _ _. simpl. split; [reflexivity|]. split; [reflexivity | discriminate].
  - intros c rest s s1 p1 e1 s2 p2 e2 Hc E1 _ IH st R H.
    destruct (rk_cmd k now c s st Hc R H) as [R1 C1]. pose proof (invh_cmd now c s H Hc) as H1.
    rewrite E1 in R1, C1, H1. cbn [fst snd] in *.
    rewrite k_cmds_cons, has_shutdown_other by exact Hc.
    destruct (k_cmd now k c st) as [st1 n1]. cbn [fst snd] in *.
    destruct (IH st1 R1 H1) as [C2 [S2 RH]].
    destruct (k_cmds now k rest st1) as [[st2 n2] halted]. cbn [fst snd] in *.
    split; [rewrite count_pkt_app; congruence | auto].
Qed.

Lemma rk_rerun k now s st :
  Rk k s st ->
  Rk k (fst (fst (rerun_phase0 now s))) (fst (k_rerun now st))
  /\ count_pkt k (snd (fst (rerun_phase0 now s))) = snd (k_rerun now st).
Proof.
  intros R. unfold rerun_phase0. cbn [fst snd].
  set (l := st_retrans s) in *. set (g := rerun_one now (st_owners s)).
  assert (Hp : pend k (filter (fun r => negb (due now r)) l ++ flat_map g (filter (due now) l))
               = filter (fun r => negb (due now r)) (pend k l) ++ flat_map g (filter (due now) (pend k l))).
  { rewrite pend_app. unfold pend. f_equal.
    - apply filter_comm.
    - rewrite filter_flat_map.
      + f_equal. apply filter_comm.
      + intros x y Hy. apply in_requeue in Hy as [-> _]. reflexivity. }
  assert (Hc : count_pkt k (map (fun r => pkt (r_host r) (r_name r)) (filter (due now) l))
               = length (filter (due now) (pend k l))).
  { rewrite count_pkt_reruns. unfold pend. rewrite filter_comm. reflexivity. }
  unfold Rk, set_sched. cbn [st_retrans st_owners]. rewrite Hp, Hc.
  destruct st as [c|]; simpl.
  - destruct R as [Hd [ch [L P]]]. fold l in P. rewrite P.
    destruct (chain_goes_on c) eqn:G.
    + assert (Hdue : due now (chain_rerun k c ch) = (chain_due c <=? now)) by reflexivity.
      cbn [filter]. rewrite !Hdue.
      destruct (chain_due c <=? now) eqn:D; simpl.
      * split; [|reflexivity]. split; [apply spec_next_delay_pos; exact Hd|]. exists ch. split; [exact L|].
        rewrite app_nil_r. unfold g, rerun_one, chain_rerun. cbn [r_host r_name r_delay r_ch].
        rewrite requeue_shape.
        rewrite (requeue_ok_lookup _ _ _ ch (c_deadline c)) by exact L.
        unfold chain_goes_on, chain_due. cbn [c_last c_delay c_deadline]. reflexivity.
      * split; [|reflexivity]. split; [exact Hd|]. exists ch. split; [exact L|]. rewrite G. reflexivity.
    + simpl. rewrite andb_false_r. simpl. split; [|reflexivity]. split; [exact Hd|]. exists ch.
      split; [exact L|]. rewrite G. reflexivity.
  - unfold Rk in R. fold l in R. rewrite R. simpl. auto.
Qed.

Lemma rk_iterate k s it st :
  Good s -> Rk k s st ->
  count_pkt k (o_sent (snd (iterate s it))) = (snd (fst (k_iter k it st)) + snd (k_iter k it st))%nat
  /\ (has_shutdown (i_cmds it) = false -> Rk k (fst (iterate s it)) (fst (fst (k_iter k it st)))).
Proof.
  intros [I H B] R. rewrite (iterate_eq s it H).
  pose proof (rk_timeout k (i_now it) s st R B (inv_own s I)) as R1.
  pose proof (invh_timeout (i_now it) s H B (inv_own s I)) as H1.
  destruct (rk_cmds k (i_now it) (i_cmds it) _ _ R1 H1) as [C [S RH]].
  unfold k_iter.
  destruct (k_cmds (i_now it) k (i_cmds it) (k_timeout (i_now it) st)) as [[st2 n] halted]. cbn [fst snd] in *.
  subst halted. destruct (has_shutdown (i_cmds it)) eqn:HS.
  - rewrite (iterate_p_exit s it HS). cbn [fst snd o_sent]. split; [lia | discriminate].
  - rewrite (iterate_p_no_exit s it HS). cbn [fst snd o_sent].
    destruct (rk_rerun k (i_now it) _ st2 (RH eq_refl)) as [R3 C3].
    destruct (k_rerun (i_now it) st2) as [st3 m]. cbn [fst snd] in *.
    split; [rewrite count_pkt_app; congruence|]. intros _.
    apply rk_ip. exact R3.
Qed.

Lemma k_iter_none k it st :
  fst (fst (k_iter k it st)) = None -> snd (k_iter k it st) = 0%nat.
Proof.
  unfold k_iter. destruct (k_cmds _ _ _ _) as [[st2 n] halted]. destruct halted; [reflexivity|].
  destruct st2 as [c|]; simpl; [|reflexivity].
  destruct (_ && _); simpl; [discriminate | discriminate].
Qed.

Lemma rk_init k t0 : Rk k (init t0) None.
Proof. rewrite init_spec. reflexivity. Qed.

Lemma k_checks_run k : forall h s st,
  Good s -> Rk k s st -> Forall iter_ok h ->
  k_check k h (run s h) st = true /\ k_silent k h (run s h) st = true.
Proof.
  induction h as [|it h IH]; intros s st G R W; [simpl; auto|].
  destruct (st_alive s) eqn:A; [|rewrite run_exited by exact A; simpl; auto].
  rewrite run_cons by exact A. cbn [k_check k_silent].
  inversion W as [|y ys W1 W2]; subst.
  destruct (rk_iterate k s it st G R) as [C RH]. destruct (iterate_shape s it) as [_ [X _]].
  pose proof (k_iter_none k it st) as KN.
  destruct (k_iter k it st) as [[st' n] m]. cbn [fst snd] in *.
  rewrite C, Nat.eqb_refl. simpl.
  assert (Hsil : match st' with None => Nat.eqb (n + m) n | Some _ => true end = true).
  { destruct st'; [reflexivity|]. rewrite (KN eq_refl). rewrite Nat.add_0_r. apply Nat.eqb_refl. }
  rewrite Hsil. simpl.
  rewrite X. destruct (has_shutdown (i_cmds it)) eqn:HS; [auto|].
  apply IH; auto. apply good_iterate; auto.
Qed.

Lemma shape_ok_run : forall h s, st_alive s = true -> shape_ok h (run s h) = true.
Proof.
  induction h as [|it h IH]; intros s A; [reflexivity|].
  rewrite run_cons by exact A. cbn [shape_ok].
  destruct (iterate_shape s it) as [N [X AL]].
  rewrite N, N.eqb_refl, X, eqb_reflx. simpl.
  destruct (has_shutdown (i_cmds it)); simpl in *.
  - rewrite run_exited by exact AL. reflexivity.
  - apply IH. exact AL.
Qed.

Definition shaped (p : packet) : Prop := exists k, key_of_pkt p = Some k.

Lemma shaped_pkt host nm : shaped (pkt host nm).
Proof. unfold shaped. destruct host; simpl; [rewrite beq_refl|]; eexists; reflexivity. Qed.

Lemma shaped_cmds now cmds s : Forall shaped (snd (fst (run_cmds now cmds s))).
Proof.
  pattern cmds, s, (run_cmds now cmds s). apply run_cmds_ind; clear cmds s.
  - constructor.
  - constructor.
  - intros c rest s s1 p1 e1 s2 p2 e2 _ E1 _ IH. apply Forall_app. split; [|exact IH].
    replace p1 with (snd (fst (exec_cmd now c s))) by (rewrite E1; reflexivity).
    destruct c as [host nm cache timeout ch|host nm|secs|]; cbn [exec_cmd]; try constructor.
    + rewrite exec_start_eq. destruct cache; repeat constructor. apply shaped_pkt.
    + rewrite exec_stop_eq. destruct (lookup _ _); constructor.
Qed.

Lemma pkts_shaped_run : forall h s, pkts_shaped (run s h) = true.
Proof.
  induction h as [|it h IH]; intros s; [reflexivity|].
  destruct (st_alive s) eqn:A; [|rewrite run_exited by exact A; reflexivity].
  rewrite run_cons by exact A. cbn [pkts_shaped forallb]. fold (pkts_shaped (run (fst (iterate s it)) h)).
  rewrite IH, andb_true_r. apply forallb_forall. intros p Hp.
  assert (HS : Forall shaped (o_sent (snd (iterate s it)))).
  { pose proof (shaped_cmds (i_now it) (i_cmds it) (timeout_phase (i_now it) s)) as H1.
    destruct (has_shutdown (i_cmds it)) eqn:HS.
    - rewrite (iterate_exit s it HS). exact H1.
    - rewrite (iterate_no_exit s it HS). cbn [snd o_sent]. apply Forall_app. split; [exact H1|].
      apply Forall_forall. intros q Hq. apply in_map_iff in Hq as [r [<- _]]. apply shaped_pkt. }
  rewrite Forall_forall in HS. destruct (HS p Hp) as [k ->]. reflexivity.
Qed.

(* what the proofs use of wf_hist; monotone times (times_ok) and cmd_in_range are not needed *)
Lemma wf_hist_parts t0 h : wf_hist t0 h = true -> Forall iter_ok h /\ NoDup (hist_chans h).
Proof.
  unfold wf_hist. intros H. apply andb_true_iff in H as [H1 H]. apply andb_true_iff in H1 as [_ H1].
  split; [|apply nodupN_NoDup; exact H1].
  rewrite forallb_forall in H. apply Forall_forall. intros it Hit. specialize (H it Hit).
  apply andb_true_iff in H as [Hn Hc]. split.
  - apply N.ltb_lt in Hn. unfold u64_max. lia.
  - apply forallb_forall. intros c Hin. rewrite forallb_forall in Hc.
    specialize (Hc c Hin). apply andb_true_iff in Hc as [Hc _]. exact Hc.
Qed.

Lemma chk_C19_model t0 h : wf_hist t0 h = true -> chk_C19 t0 h (model_run t0 h) = true.
Proof.
  intros W. unfold chk_C19, model_run. cbn [o_sent init_out].
  rewrite shape_ok_run by (rewrite init_spec; reflexivity). rewrite pkts_shaped_run. simpl.
  apply forallb_forall. intros k _.
  apply (k_checks_run k h (init t0) None (good_init t0) (rk_init k t0) (proj1 (wf_hist_parts t0 h W))).
Qed.

Lemma good_final h s : Good s -> Forall iter_ok h -> st_alive (final s h) = true -> Good (final s h).
Proof. apply (final_ind Good iter_ok). intros s' it G Q HS. apply good_iterate; auto. Qed.

Lemma reachable_good t0 h :
  wf_hist t0 h = true -> st_alive (final (init t0) h) = true -> Good (final (init t0) h).
Proof. intros W. apply good_final; [apply good_init | apply (wf_hist_parts t0 h W)]. Qed.

Lemma reachable_snoc t0 h it :
  wf_hist t0 (h ++ [it]) = true -> st_alive (final (init t0) h) = true ->
  Good (final (init t0) h) /\ iter_ok it.
Proof.
  intros W A. apply wf_hist_parts in W as [W _]. apply Forall_app in W as [W1 W2]. inversion W2; subst.
  split; [apply good_final; [apply good_init | exact W1 | exact A] | assumption].
Qed.

Lemma dly_pos j : 1 <= dly j.
Proof. induction j; simpl; [lia | apply spec_next_delay_pos; exact IHj]. Qed.

Lemma dly_closed j : dly j = N.min (2 ^ N.of_nat j) 3600.
Proof.
  induction j as [|j IH].
  - reflexivity.
  - cbn [dly]. rewrite IH. unfold spec_next_delay. rewrite Nat2N.inj_succ, N.pow_succ_r'. lia.
Qed.

(* a live state on the silent schedule in which the search for k, without deadline, is at c and
   its next query is still ahead.  lad_tim is strict because the schedule wakes at the earliest
   timer: a timer at the clock itself would give an iteration that does not move on. *)
Record Lad (k : wkey) (s : state) (c : chain) : Prop := mkLad {
  lad_good : Good s;
  lad_alive : st_alive s = true;
  lad_rk : Rk k s (Some c);
  lad_nodl : c_deadline c = None;
  lad_clock : st_clock s < chain_due c;
  lad_tim : forall t, In t (st_timers s) -> st_clock s < t }.

Lemma k_iter_silent k w c :
  c_deadline c = None ->
  k_iter k (mkIter w []) (Some c) = (fst (k_rerun w (Some c)), 0%nat, snd (k_rerun w (Some c))).
Proof.
  intros ND. unfold k_iter. cbn [i_now i_cmds k_cmds k_timeout]. rewrite ND.
  destruct (k_rerun w (Some c)). reflexivity.
Qed.

Lemma lad_step k s c :
  Lad k s c ->
  exists w, min_list (st_timers s) = Some w /\ st_clock s < w /\ w <= chain_due c
    /\ o_now (snd (iterate s (mkIter w []))) = w
    /\ count_pkt k (o_sent (snd (iterate s (mkIter w [])))) = (if w =? chain_due c then 1%nat else 0%nat)
    /\ Lad k (fst (iterate s (mkIter w [])))
             (if w =? chain_due c then mkChain w (spec_next_delay (c_delay c)) None else c).
Proof.
  intros [G A R ND CL TM]. pose proof (good_inv s G) as I.
  pose proof R as R0. destruct R0 as [Hd [ch [L P]]].
  assert (Go : chain_goes_on c = true) by (unfold chain_goes_on; rewrite ND; reflexivity).
  assert (Ht : In (chain_due c) (st_timers s)).
  { rewrite Go in P.
    assert (Hp : In (chain_rerun k c ch) (pend k (st_retrans s))) by (rewrite P; left; reflexivity).
    apply filter_In in Hp as [Hp _]. apply (inv_ret s I _ Hp). }
  pose proof (min_list_spec (st_timers s)) as M.
  destruct (min_list (st_timers s)) as [w|]; [|rewrite M in Ht; contradiction]. destruct M as [Mi Ml].
  exists w. split; [reflexivity|]. split; [apply TM; exact Mi|]. specialize (Ml _ Ht). split; [exact Ml|].
  set (it := mkIter w []).
  destruct (rk_iterate k s it _ G R) as [C RH]. specialize (RH eq_refl).
  destruct (iterate_shape s it) as [Nw [_ AL]].
  destruct (iterate_step s it I (or_introl eq_refl) eq_refl) as [_ [CK TF]].
  split; [exact Nw|].
  unfold it in C, RH. rewrite (k_iter_silent k w c ND) in C, RH. cbn [fst snd] in C, RH. unfold k_rerun in C, RH. rewrite Go, andb_true_r in C, RH.
  assert (Et : (chain_due c <=? w) = (w =? chain_due c)).
  { destruct (w =? chain_due c) eqn:E; [apply N.eqb_eq in E; apply N.leb_le | apply N.eqb_neq in E; apply N.leb_gt]; lia. }
  rewrite Et in C, RH. rewrite ND in RH. split; [destruct (w =? chain_due c); exact C|].
  constructor.
  - apply good_iterate; [exact G | left; reflexivity | reflexivity].
  - exact AL.
  - destruct (w =? chain_due c); exact RH.
  - destruct (w =? chain_due c); [reflexivity | exact ND].
  - rewrite CK. cbn [i_now it]. destruct (w =? chain_due c) eqn:E.
    + unfold chain_due. cbn [c_last c_delay]. pose proof (spec_next_delay_pos _ Hd). lia.
    + apply N.eqb_neq in E. lia.
  - intros t Hti. rewrite CK. destruct (TF t Hti) as [Hl|[Hf _]]; [exact Hl | discriminate].
Qed.

Lemma final_app : forall h1 h2 s, final s (h1 ++ h2) = final (final s h1) h2.
Proof.
  induction h1 as [|it h1 IH]; intros h2 s; simpl; [reflexivity|].
  destruct (st_alive s) eqn:A; [apply IH|]. rewrite final_exited by exact A. reflexivity.
Qed.

Lemma silent_hist_S s n w :
  st_alive s = true -> min_list (st_timers s) = Some w ->
  silent_hist s (S n) = mkIter w [] :: silent_hist (fst (iterate s (mkIter w []))) n.
Proof. intros A E. simpl. rewrite A, E. reflexivity. Qed.

Lemma ktimes_cons k o tr : ktimes k (o :: tr) = repeat (o_now o) (count_pkt k (o_sent o)) ++ ktimes k tr.
Proof. reflexivity. Qed.

Fixpoint due_times (c : chain) (j : nat) : list N :=
  match j with
  | O => []
  | S j' => chain_due c :: due_times (mkChain (chain_due c) (spec_next_delay (c_delay c)) None) j'
  end.

(* Outer induction on the number of queries, inner on the distance to the next one: timers of
   other searches and stale timers wake the silent schedule earlier, without a query for k. *)
Lemma lad_run k : forall j fuel s c,
  Lad k s c -> (N.to_nat (chain_due c - st_clock s) <= fuel)%nat ->
  exists n, ktimes k (run s (silent_hist s n)) = due_times c j.
Proof.
  induction j as [|j IHj]; [intros; exists 0%nat; reflexivity|].
  induction fuel as [|fuel IH]; intros s c L F.
  - pose proof (lad_clock k s c L). lia.
  - destruct (lad_step k s c L) as [w [Em [Hgt [Hle [Nw [C L']]]]]].
    pose proof (lad_alive k s c L) as A.
    destruct (w =? chain_due c) eqn:Ew.
    + apply N.eqb_eq in Ew. subst w. destruct (IHj _ _ _ L' (le_n _)) as [n KT].
      exists (S n). rewrite (silent_hist_S s n _ A Em), run_cons, ktimes_cons, C, Nw, KT by exact A. reflexivity.
    + pose proof (lad_clock _ _ _ L') as CK. apply N.eqb_neq in Ew.
      destruct (IH (fst (iterate s (mkIter w []))) c L') as [n KT].
      { destruct (iterate_step s (mkIter w []) (good_inv s (lad_good k s c L)) (or_introl eq_refl) eq_refl)
          as [_ [E _]]. rewrite E. cbn [i_now]. lia. }
      exists (S n). rewrite (silent_hist_S s n w A Em), run_cons, ktimes_cons, C by exact A. exact KT.
Qed.

Lemma due_times_ladder t1 : forall j i,
  due_times (mkChain (t1 + ladder i) (dly i) None) j = map (fun x => t1 + ladder x) (seq (S i) j).
Proof.
  induction j as [|j IH]; intros i; [reflexivity|].
  cbn [due_times seq map]. unfold chain_due. cbn [c_last c_delay].
  replace (t1 + ladder i + dly i * 1000) with (t1 + ladder (S i)) by (cbn [ladder]; lia).
  f_equal. apply (IH (S i)).
Qed.

Lemma rk_final k h s st :
  Good s -> Rk k s st -> Forall iter_ok h -> st_alive (final s h) = true ->
  Good (final s h) /\ exists st', Rk k (final s h) st'.
Proof.
  intros G R. apply (final_ind (fun s => Good s /\ exists st, Rk k s st) iter_ok); [|eauto].
  intros s' it [G' [st' R']] Q HS. split; [apply good_iterate; auto|].
  eexists. apply (rk_iterate k s' it st' G' R'). exact HS.
Qed.

Lemma lad_start host nm ch t1 s st :
  Good s -> Rk (host, nm) s st -> t1 < u64_max ->
  count_pkt (host, nm) (o_sent (snd (iterate s (mkIter t1 [CStart host nm false None ch])))) = 1%nat
  /\ Lad (host, nm) (fst (iterate s (mkIter t1 [CStart host nm false None ch]))) (mkChain t1 1 None).
Proof.
  intros G R Ht. set (it := mkIter t1 [CStart host nm false None ch]).
  pose proof (good_inv s G) as I.
  destruct (rk_iterate (host, nm) s it st G R) as [C RH]. specialize (RH eq_refl).
  assert (Hk : k_iter (host, nm) it st = (Some (mkChain t1 1 None), 1%nat, 0%nat)).
  { unfold k_iter, it. cbn [i_now i_cmds k_cmds]. rewrite k_cmd_start, okey_eqb_pair.
    unfold k_rerun, chain_due. cbn [c_last c_delay option_map].
    replace (t1 + 1 * 1000 <=? t1) with false by (symmetry; apply N.leb_gt; lia). reflexivity. }
  rewrite Hk in C, RH. cbn [fst snd] in C, RH. split; [exact C|].
  destruct (iterate_shape s it) as [_ [_ AL]].
  destruct (iterate_step s it I (or_intror Ht) eq_refl) as [_ [CK TF]].
  constructor; auto.
  - apply good_iterate; [exact G | right; split; [exact Ht|] | reflexivity].
    unfold wf_cmds, it. destruct host; reflexivity.
  - rewrite CK. unfold chain_due. simpl. lia.
  - intros t Hti. rewrite CK. destruct (TF t Hti) as [Hl|[Hf _]]; [exact Hl | discriminate].
Qed.

Lemma backoff_sequence_model t0 h host nm ch t1 j :
  let it := mkIter t1 [CStart host nm false None ch] in
  wf_hist t0 (h ++ [it]) = true ->
  st_alive (final (init t0) h) = true ->
  let s1 := final (init t0) (h ++ [it]) in
  ktimes (host, nm) (run (final (init t0) h) [it]) = [t1]
  /\ exists n, ktimes (host, nm) (run s1 (silent_hist s1 n)) = map (fun i => t1 + ladder i) (seq 1 j).
Proof.
  intros it W A s1. subst s1 it.
  apply wf_hist_parts in W as [W _]. apply Forall_app in W as [W1 W2].
  inversion W2 as [|x xs [Rt _] _]; subst. cbn [i_now] in Rt.
  destruct (rk_final (host, nm) h (init t0) None (good_init t0) (rk_init _ t0) W1 A) as [G [st R]].
  destruct (lad_start host nm ch t1 _ st G R Rt) as [C L].
  split.
  - rewrite run_cons by exact A. cbn [run]. rewrite ktimes_cons, C.
    destruct (iterate_shape (final (init t0) h) (mkIter t1 [CStart host nm false None ch])) as [Nw _].
    rewrite Nw. reflexivity.
  - rewrite final_app, final_cons by exact A. cbn [final].
    destruct (lad_run (host, nm) j _ _ _ L (le_n _)) as [n KT]. exists n. rewrite KT.
    pose proof (due_times_ladder t1 j 0) as E. cbn [ladder dly] in E. rewrite N.add_0_r in E. exact E.
Qed.

(* a scheduled (non-start) query leaves only when the gap since the previous query of the
   search has reached the scheduled delay *)
Lemma k_rerun_gap now c st' :
  k_rerun now (Some c) = (st', 1%nat) ->
  c_last c + c_delay c * 1000 <= now
  /\ st' = Some (mkChain now (N.min (2 * c_delay c) 3600) (c_deadline c)).
Proof.
  unfold k_rerun. destruct ((chain_due c <=? now) && chain_goes_on c) eqn:E; [|discriminate].
  apply andb_true_iff in E as [E _]. apply N.leb_le in E. intros H. injection H as <-. auto.
Qed.

Lemma events_on_app ch a b : events_on ch (a ++ b) = events_on ch a ++ events_on ch b.
Proof. apply flat_map_app. Qed.

Lemma events_on_other ch evs : (forall ce, In ce evs -> fst ce <> ch) -> events_on ch evs = [].
Proof.
  intros H. apply flat_map_nil. intros [c e] Hce. cbn [fst snd].
  replace (c =? ch) with false; [reflexivity|]. symmetry. apply N.eqb_neq. exact (H _ Hce).
Qed.

Lemma events_on_closed_events ch s cmds s' : events_on ch (closed_events s cmds s') = [].
Proof.
  unfold closed_events. induction (filter _ _) as [|c l IH]; simpl; [reflexivity|]. destruct (c =? ch); exact IH.
Qed.

Lemma ev_eqb_refl e : ev_eqb e e = true.
Proof. destruct e; simpl; try apply beq_refl; reflexivity. Qed.

Lemma evs_eqb_refl l : evs_eqb l l = true.
Proof. induction l as [|e l IH]; simpl; [reflexivity|]. rewrite ev_eqb_refl, IH. reflexivity. Qed.

Lemma events_on_timeouts ch now owners :
  events_on ch (timeout_events now owners)
  = flat_map (fun e : okey * owner => if (ow_ch (snd e) =? ch) && expired now e
                       then [ETimeout (snd (fst e)); EStopped (snd (fst e))] else []) owners.
Proof.
  unfold timeout_events. induction owners as [|e l IH]; simpl; [reflexivity|].
  rewrite events_on_app, IH. f_equal.
  destruct (expired now e); simpl; [|rewrite andb_false_r; reflexivity].
  rewrite andb_true_r. destruct (ow_ch (snd e) =? ch); reflexivity.
Qed.

Lemma events_on_shutdown ch owners :
  events_on ch (map (fun e : okey * owner => (ow_ch (snd e), EStopped (snd (fst e)))) owners)
  = flat_map (fun e : okey * owner => if ow_ch (snd e) =? ch then [EStopped (snd (fst e))] else []) owners.
Proof.
  induction owners as [|e l IH]; simpl; [reflexivity|]. rewrite IH.
  destruct (ow_ch (snd e) =? ch); reflexivity.
Qed.

Lemma events_on_reruns ch (l : list rerun) :
  events_on ch (map (fun r => (r_ch r, EStarted (r_name r))) l)
  = map (fun r => EStarted (r_name r)) (filter (fun r => r_ch r =? ch) l).
Proof.
  induction l as [|r l IH]; simpl; [reflexivity|]. rewrite IH. destruct (r_ch r =? ch); reflexivity.
Qed.

(* The daemon's senders for channel ch against the specification state cs.  While ch is the current
   listener of the search with key k: it is k's listener entry, no other entry holds it, and only
   k's retransmission (none after browse_cache) carries it.  Before its call and after its search
   ended the daemon holds no sender for ch at all, so no event can reach it. *)
Definition Rc (ch : chan) (s : state) (cs : cstate) : Prop :=
  match cs with
  | CCurrent k nm cache dd =>
      lookup k (st_owners s) = Some (mkOwner ch dd)
      /\ (forall e, In e (st_owners s) -> ow_ch (snd e) = ch -> fst e = k)
      /\ (forall r, In r (st_retrans s) -> r_ch r = ch -> rkey r = k /\ r_name r = nm /\ cache = false)
  | _ => ~ In ch (refs s)
  end.

Lemma in_refs ch s :
  In ch (refs s) <->
  (exists e, In e (st_owners s) /\ ow_ch (snd e) = ch) \/ (exists r, In r (st_retrans s) /\ r_ch r = ch).
Proof. unfold refs. rewrite in_app_iff, !in_map_iff. split; intros [[x [A B]]|[x [A B]]]; eauto. Qed.

Lemma not_in_refs ch s :
  ~ In ch (refs s) <->
  (forall e, In e (st_owners s) -> ow_ch (snd e) <> ch) /\ (forall r, In r (st_retrans s) -> r_ch r <> ch).
Proof.
  rewrite in_refs. split.
  - intros H. split; intros x Hx E; apply H; eauto.
  - intros [H1 H2] [[x [Hx E]]|[x [Hx E]]]; [exact (H1 x Hx E) | exact (H2 x Hx E)].
Qed.

Lemma rc_ip ch now s cs : Rc ch s cs -> Rc ch (ip_phase now s) cs.
Proof. intros R. destruct (ip_phase_frame now s) as [_ [F2 [F3 _]]]. unfold Rc, refs. rewrite F2, F3. exact R. Qed.

Lemma absent_timeout ch now s :
  ~ In ch (refs s) ->
  ~ In ch (refs (timeout_phase_p now s)) /\ events_on ch (timeout_events now (st_owners s)) = [].
Proof.
  intros N. apply not_in_refs in N as [N1 N2]. split.
  - apply not_in_refs. split; intros x Hx; cbn in Hx; apply filter_In in Hx as [Hx _]; auto.
  - apply events_on_other. intros ce Hce. apply in_flat_map in Hce as [e [He Hce]].
    destruct (expired now e); [|contradiction]. destruct Hce as [<-|[<-|[]]]; exact (N1 e He).
Qed.

Lemma absent_rerun ch now s :
  ~ In ch (refs s) ->
  ~ In ch (refs (fst (fst (rerun_phase0 now s)))) /\ events_on ch (snd (rerun_phase0 now s)) = [].
Proof.
  intros N. apply not_in_refs in N as [N1 N2]. split.
  - apply not_in_refs. split; [exact N1|]. intros r Hr. cbn in Hr. apply in_app_or in Hr as [Hr|Hr].
    + apply filter_In in Hr as [Hr _]. auto.
    + apply in_flat_map in Hr as [r0 [H0 Hr]]. apply filter_In in H0 as [H0 _].
      apply in_requeue in Hr as [-> _]. exact (N2 r0 H0).
  - apply events_on_other. intros ce Hce. apply in_map_iff in Hce as [r [<- Hr]].
    apply filter_In in Hr as [Hr _]. exact (N2 r Hr).
Qed.

Lemma absent_shutdown ch s : ~ In ch (refs s) -> events_on ch (snd (exec_shutdown s)) = [].
Proof.
  intros N. apply not_in_refs in N as [N1 _]. apply events_on_other.
  intros ce Hce. apply in_map_iff in Hce as [e [<- He]]. exact (N1 e He).
Qed.

Lemma rc_rekey_out ch s cs k o new :
  Rc ch s cs -> match cs with CCurrent k0 _ _ _ => k0 = k | _ => True end ->
  (forall w, o = Some w -> ow_ch w <> ch) -> (forall r, In r new -> r_ch r <> ch) ->
  ~ In ch (refs (rekey s k o new)).
Proof.
  intros R Hk Ho Hn Hin.
  assert (Hold : (exists e, In e (st_owners s) /\ ow_ch (snd e) = ch /\ fst e <> k)
                 \/ (exists r, In r (st_retrans s) /\ r_ch r = ch /\ rkey r <> k)).
  { apply in_refs in Hin as [[e [He Ee]]|[r [Hr Er]]].
    - apply in_owners_rekey in He as [[_ E]|[He Hne]]; [exfalso; exact (Ho _ E Ee) | eauto].
    - apply in_retrans_rekey in Hr as [[Hr Hne]|Hr]; [eauto | exfalso; exact (Hn _ Hr Er)]. }
  destruct cs as [|k0 nm cache dd|].
  1,3: apply R, in_refs; destruct Hold as [[e [He [Ee _]]]|[r [Hr [Er _]]]]; eauto.
  subst k0. destruct R as [_ [C2 C3]]. destruct Hold as [[e [He [Ee Hne]]]|[r [Hr [Er Hne]]]].
  - exact (Hne (C2 e He Ee)).
  - exact (Hne (proj1 (C3 r Hr Er))).
Qed.

Lemma rc_rekey_other ch s k0 nm cache dd k o new :
  Rc ch s (CCurrent k0 nm cache dd) -> k <> k0 ->
  (forall w, o = Some w -> ow_ch w <> ch) -> (forall r, In r new -> r_ch r <> ch) ->
  Rc ch (rekey s k o new) (CCurrent k0 nm cache dd).
Proof.
  intros [L [C2 C3]] Hk Ho Hn. split; [|split].
  - rewrite lookup_rekey_other by congruence. exact L.
  - intros e He Ee. apply in_owners_rekey in He as [[_ E]|[He _]]; [exfalso; exact (Ho _ E Ee) | auto].
  - intros r Hr Er. apply in_retrans_rekey in Hr as [[Hr _]|Hr]; [auto | exfalso; exact (Hn _ Hr Er)].
Qed.

Lemma rc_rekey_new ch s k nm cache dd new :
  ~ In ch (refs s) -> (forall r, In r new -> rkey r = k /\ r_name r = nm /\ cache = false) ->
  Rc ch (rekey s k (Some (mkOwner ch dd)) new) (CCurrent k nm cache dd).
Proof.
  intros N Hnew. apply not_in_refs in N as [N1 N2]. split; [|split].
  - apply lookup_rekey_same.
  - intros e He Ee. apply in_owners_rekey in He as [[E _]|[He _]]; [exact E | exfalso; exact (N1 e He Ee)].
  - intros r Hr Er. apply in_retrans_rekey in Hr as [[Hr _]|Hr]; [exfalso; exact (N2 r Hr Er) | auto].
Qed.

(* ch not current: absent_timeout.  ch current for key k: by NoDup only k's entry can hold ch, so
   the events are those of that entry; it either expires (then purge_dead has also dropped k's
   retransmission: purged_not_expired) or stays. *)
Lemma rc_timeout ch now s cs :
  Rc ch s cs -> InvB s -> NoDup (map fst (st_owners s)) ->
  Rc ch (timeout_phase_p now s) (fst (c_timeout now cs))
  /\ events_on ch (timeout_events now (st_owners s)) = snd (c_timeout now cs).
Proof.
  intros R B ND.
  destruct cs as [|k nm cache dd|].
  1,3: exact (absent_timeout ch now s R).
  rewrite events_on_timeouts.
  assert (Hsubr : forall r, In r (st_retrans (timeout_phase_p now s)) -> In r (st_retrans s)).
  { intros r Hr. simpl in Hr. apply filter_In in Hr as [Hr _]. exact Hr. }
  assert (Hsubo : forall e, In e (st_owners (timeout_phase_p now s)) -> In e (st_owners s)).
  { intros e He. simpl in He. apply filter_In in He as [He _]. exact He. }
  destruct R as [L [C2 C3]].
  set (e0 := (k, mkOwner ch dd)).
  assert (He0 : In e0 (st_owners s)) by (apply lookup_In; exact L).
  rewrite (flat_map_unique fst _ _ (st_owners s) e0 ND He0).
  2:{ intros e He Q. apply andb_true_iff in Q as [Q _]. apply N.eqb_eq in Q. simpl. auto. }
  assert (Hkeep : expired now e0 = false -> Rc ch (timeout_phase_p now s) (CCurrent k nm cache dd)).
  { intros Hx. split; [|split].
    - simpl. apply lookup_filter_keep; [exact L|]. fold e0. rewrite Hx. reflexivity.
    - intros e He. apply C2, Hsubo, He.
    - intros r Hr. apply C3, Hsubr, Hr. }
  simpl. rewrite N.eqb_refl. simpl. unfold expired in *. simpl in *.
  destruct dd as [d|]; simpl.
  - rewrite resolver_expired_pinned in *. destruct (d <=? now) eqn:E; simpl.
    + split; [|reflexivity]. apply not_in_refs. split.
      * intros e He Ech. simpl in He. apply filter_In in He as [He Hne].
        pose proof (owner_entry_unique k _ _ e ND L He (C2 e He Ech)) as ->.
        unfold expired in Hne. simpl in Hne. rewrite ?resolver_expired_pinned, E in Hne. discriminate.
      * intros r Hr Ech. destruct (C3 r (Hsubr r Hr) Ech) as [Hk _].
        apply (purged_not_expired now s e0 r B ND He0); [|exact Hr | exact Hk].
        unfold expired. simpl. rewrite resolver_expired_pinned. exact E.
    + split; [|reflexivity]. apply Hkeep. reflexivity.
  - split; [|reflexivity]. apply Hkeep. reflexivity.
Qed.

(* The grid: a start call on ch itself creates the listener (cs was CNotYet: rc_rekey_new).  Any
   other start or stop concerns ch only through its key: ch not current, or current for that very
   key - afterwards nothing refers to ch (rc_rekey_out; a stop of its key tells it SearchStopped,
   a replacing start tells it nothing); current for another key - untouched (rc_rekey_other). *)
Lemma rc_cmd ch now c s cs :
  c <> CShutdown -> Rc ch s cs -> (In ch (intro_chans [c]) -> cs = CNotYet) ->
  Rc ch (fst (fst (exec_cmd now c s))) (fst (c_cmd now ch c cs))
  /\ events_on ch (snd (exec_cmd now c s)) = snd (c_cmd now ch c cs).
Proof.
  intros Hc R F. destruct c as [host nm cache timeout ch'|host nm|secs|]; cbn [exec_cmd c_cmd].
  - rewrite exec_start_eq. cbn [fst snd]. set (key := okey_of host nm). set (new := start_new _ _ _ _ _ _).
    assert (Hnew : forall r, In r new -> rkey r = key /\ r_name r = nm /\ cache = false /\ r_ch r = ch').
    { intros r Hr. apply in_start_new in Hr as [-> [Hca _]]. auto. }
    destruct (ch' =? ch) eqn:Ech.
    + apply N.eqb_eq in Ech. subst ch'. rewrite (F (or_introl eq_refl)) in R. cbn [fst snd]. split.
      * apply rc_rekey_new; [exact R|]. intros r Hr. destruct (Hnew r Hr) as [A [B [C _]]]. auto.
      * simpl. rewrite N.eqb_refl. destruct cache; simpl; rewrite ?N.eqb_refl; reflexivity.
    + apply N.eqb_neq in Ech.
      assert (Ho : forall w, Some (mkOwner ch' (option_map (sat_add now) timeout)) = Some w -> ow_ch w <> ch).
      { intros w [= <-]. exact Ech. }
      assert (Hn : forall r, In r new -> r_ch r <> ch).
      { intros r Hr. destruct (Hnew r Hr) as [_ [_ [_ ->]]]. exact Ech. }
      split.
      * destruct cs as [|k nm' cache' dd|]; cbn [fst].
        1,3: apply (rc_rekey_out ch s _ key _ new R I Ho Hn).
        destruct (okey_eqb key k) eqn:EK; cbn [fst].
        { apply okey_eqb_eq in EK. apply (rc_rekey_out ch s _ key _ new R (eq_sym EK) Ho Hn). }
        { apply okey_eqb_neq in EK. apply rc_rekey_other; assumption. }
      * rewrite events_on_other.
        { destruct cs as [|k ? ? ?|]; try reflexivity. destruct (okey_eqb key k); reflexivity. }
        { intros ce Hce. assert (fst ce = ch'); [|congruence].
          destruct Hce as [<-|Hce]; [reflexivity|]. destruct cache; [|contradiction].
          destruct Hce as [<-|[]]. reflexivity. }
  - rewrite exec_stop_eq. set (key := okey_of host nm).
    assert (Hnone : forall w : owner, None = Some w -> ow_ch w <> ch) by discriminate.
    assert (Hnil : forall r : rerun, In r [] -> r_ch r <> ch) by (intros r []).
    destruct (lookup key (st_owners s)) as [o|] eqn:L; cbn [fst snd].
    + pose proof (lookup_In _ _ _ L) as Lin. destruct cs as [|k nm' cache' dd|].
      1,3: split; [apply (rc_rekey_out ch s _ key None [] R I Hnone Hnil)|]; apply events_on_other;
           intros ce [<-|[]]; apply not_in_refs in R as [N1 _]; exact (N1 _ Lin).
      destruct (okey_eqb key k) eqn:EK; cbn [fst snd].
      * apply okey_eqb_eq in EK. split; [apply (rc_rekey_out ch s _ key None [] R (eq_sym EK) Hnone Hnil)|].
        destruct R as [Lk _]. rewrite <- EK, L in Lk. injection Lk as ->. rewrite EK. simpl. rewrite N.eqb_refl. reflexivity.
      * apply okey_eqb_neq in EK. split; [apply rc_rekey_other; assumption|].
        apply events_on_other. intros ce [<-|[]] Eo. destruct R as [_ [C2 _]]. exact (EK (C2 _ Lin Eo)).
    + destruct cs as [|k nm' cache' dd|]; try (split; [exact R | reflexivity]).
      destruct (okey_eqb key k) eqn:EK; [|split; [exact R | reflexivity]].
      apply okey_eqb_eq in EK. destruct R as [Lk _]. rewrite <- EK, L in Lk. discriminate.
  - split; [exact R | reflexivity].
  - congruence.
Qed.

Lemma c_cmd_notyet now ch c :
  ~ In ch (intro_chans [c]) -> c_cmd now ch c CNotYet = (CNotYet, []).
Proof.
  destruct c as [host nm cache timeout ch'|host nm|secs|]; simpl; try reflexivity.
  intros H. destruct (ch' =? ch) eqn:E; [|reflexivity]. apply N.eqb_eq in E. exfalso. apply H. auto.
Qed.

Lemma c_cmd_shutdown_now now ch cs : c_cmd now ch CShutdown cs = c_cmd 0 ch CShutdown cs.
Proof. reflexivity. Qed.

Lemma rc_shutdown now ch s cs :
  Rc ch s cs -> NoDup (map fst (st_owners s)) ->
  events_on ch (snd (exec_shutdown s)) = snd (c_cmd now ch CShutdown cs).
Proof.
  intros R ND. destruct cs as [|k nm' cache' dd|].
  1,3: exact (absent_shutdown ch s R).
  unfold exec_shutdown. cbn [snd c_cmd]. rewrite events_on_shutdown.
  destruct R as [L [C2 _]].
  rewrite (flat_map_unique fst (fun e : okey * owner => ow_ch (snd e) =? ch) (fun e => [EStopped (snd (fst e))])
             (st_owners s) (k, mkOwner ch dd) ND (lookup_In _ _ _ L)).
  - simpl. rewrite N.eqb_refl. reflexivity.
  - intros e He Q. apply N.eqb_eq in Q. simpl. auto.
Qed.

Lemma nodup_owners_cmd now c s :
  NoDup (map fst (st_owners s)) -> NoDup (map fst (st_owners (fst (fst (exec_cmd now c s))))).
Proof.
  intros ND. destruct c as [host nm cache timeout ch|host nm|secs|]; cbn [exec_cmd].
  - rewrite exec_start_eq. apply nodup_owners_rekey. exact ND.
  - rewrite exec_stop_eq. destruct (lookup _ _); [apply nodup_owners_rekey|]; exact ND.
  - exact ND.
  - constructor.
Qed.

Lemma intro_chans_cons c rest : intro_chans (c :: rest) = intro_chans [c] ++ intro_chans rest.
Proof. unfold intro_chans. simpl. rewrite app_nil_r. reflexivity. Qed.

Lemma c_cmds_cons now ch c rest cs :
  c <> CShutdown ->
  c_cmds now ch (c :: rest) cs =
  let '(cs1, e1) := c_cmd now ch c cs in
  let '(cs2, e2) := c_cmds now ch rest cs1 in (cs2, e1 ++ e2).
Proof. intros H. destruct c; try reflexivity. congruence. Qed.

(* the last hypothesis is the freshness of channels: every start call brings a receiver of its own
   (nodupN (hist_chans h) in wf_hist) *)
Lemma rc_cmds ch now cmds s : forall cs,
  Rc ch s cs -> NoDup (map fst (st_owners s)) ->
  NoDup (intro_chans cmds) -> (In ch (intro_chans cmds) -> cs = CNotYet) ->
  events_on ch (snd (run_cmds now cmds s)) = snd (c_cmds now ch cmds cs)
  /\ (has_shutdown cmds = false -> Rc ch (fst (fst (run_cmds now cmds s))) (fst (c_cmds now ch cmds cs))).
Proof.
  pattern cmds, s, (run_cmds now cmds s). apply run_cmds_ind; clear cmds s.
  - intros s cs R _ _ _. simpl. auto.
  - intros rest s cs R NDo _ _. split; [|discriminate].
    rewrite (rc_shutdown now ch s cs R NDo). cbn [c_cmds]. destruct (c_cmd now ch CShutdown cs). reflexivity.
  - intros c rest s s1 p1 e1 s2 p2 e2 Hc E1 _ IH cs R NDo ND F.
    rewrite intro_chans_cons in ND, F. apply NoDup_app_inv in ND as [_ [ND' Hdis]].
    destruct (rc_cmd ch now c s cs Hc R) as [R1 Ev1]; [intros Hin; apply F, in_or_app; auto|].
    pose proof (nodup_owners_cmd now c s NDo) as NDo1. rewrite E1 in R1, Ev1, NDo1. cbn [fst snd] in *.
    rewrite c_cmds_cons, has_shutdown_other by exact Hc.
    assert (F' : In ch (intro_chans rest) -> fst (c_cmd now ch c cs) = CNotYet).
    { intros Hin. rewrite (F (in_or_app _ _ _ (or_intror Hin))).
      rewrite c_cmd_notyet; [reflexivity|]. intros H1. exact (Hdis ch H1 Hin). }
    destruct (c_cmd now ch c cs) as [cs1 e1']. cbn [fst snd] in *.
    destruct (IH cs1 R1 NDo1 ND' F') as [Ev2 RH].
    destruct (c_cmds now ch rest cs1) as [cs2 e2']. cbn [fst snd] in *.
    split; [rewrite events_on_app; congruence | exact RH].
Qed.

Lemma rc_rerun ch now s cs :
  Rc ch s cs -> NoDup (map rkey (st_retrans s)) ->
  Rc ch (fst (fst (rerun_phase0 now s))) cs
  /\ (events_on ch (snd (rerun_phase0 now s)) = []
      \/ exists k nm dd, cs = CCurrent k nm false dd /\ events_on ch (snd (rerun_phase0 now s)) = [EStarted nm]).
Proof.
  intros R ND. destruct cs as [|k nm cache dd|].
  1,3: split; [|left]; apply (absent_rerun ch now s R).
  unfold rerun_phase0. cbn [fst snd]. rewrite events_on_reruns.
  destruct R as [L [C2 C3]]. split.
  - split; [exact L|]. split; [exact C2|].
    intros r Hr Er. cbn in Hr. apply in_app_or in Hr as [Hr|Hr].
    + apply filter_In in Hr as [Hr _]. auto.
    + apply in_flat_map in Hr as [r0 [H0 Hr]]. apply filter_In in H0 as [H0 _].
      apply in_requeue in Hr as [-> _]. exact (C3 r0 H0 Er).
  - (* at most one retransmission carries the channel: the one of its search *)
    rewrite filter_comm.
    destruct (filter_at_most_one rkey (fun r => r_ch r =? ch) k (st_retrans s) ND) as [E|[x E]].
    + intros r Hr Q. apply N.eqb_eq in Q. apply (C3 r Hr Q).
    + left. rewrite E. reflexivity.
    + assert (Hx : In x (filter (fun r => r_ch r =? ch) (st_retrans s))) by (rewrite E; left; reflexivity).
      apply filter_In in Hx as [Hx Q]. apply N.eqb_eq in Q. destruct (C3 x Hx Q) as [_ [En Ec]]. subst cache.
      rewrite E. simpl. destruct (due now x); simpl; [right | left; reflexivity].
      exists k, nm, dd. rewrite En. auto.
Qed.

Lemma c_timeout_notyet now : c_timeout now CNotYet = (CNotYet, []).
Proof. reflexivity. Qed.

Lemma rc_iterate ch s it cs :
  Good s -> Rc ch s cs -> i_now it < u64_max ->
  NoDup (intro_chans (i_cmds it)) -> (In ch (intro_chans (i_cmds it)) -> cs = CNotYet) ->
  c_obs_ok (fst (c_iter ch it cs)) (snd (c_iter ch it cs)) (events_on ch (o_events (snd (iterate s it)))) = true
  /\ (has_shutdown (i_cmds it) = false -> Rc ch (fst (iterate s it)) (fst (c_iter ch it cs))).
Proof.
  intros [I H B] R Hnow ND F. rewrite (iterate_eq s it H).
  destruct (rc_timeout ch (i_now it) s cs R B (inv_own s I)) as [R1 Ev1].
  pose proof (mid_purge_dead _ _ _ (inv_mid s (i_now it) I)) as M1. fold (timeout_phase_p (i_now it) s) in M1.
  assert (F1 : In ch (intro_chans (i_cmds it)) -> fst (c_timeout (i_now it) cs) = CNotYet).
  { intros Hin. rewrite (F Hin). reflexivity. }
  destruct (rc_cmds ch (i_now it) (i_cmds it) _ _ R1 (mid_own _ _ _ M1) ND F1) as [Ev2 RH].
  unfold c_iter. destruct (c_timeout (i_now it) cs) as [cs1 e1]. cbn [fst snd] in *.
  destruct (c_cmds (i_now it) ch (i_cmds it) cs1) as [cs2 e2]. cbn [fst snd] in *.
  destruct (has_shutdown (i_cmds it)) eqn:HS.
  - rewrite (iterate_p_exit s it HS). cbn [fst snd o_events]. split; [|discriminate].
    rewrite !events_on_app, events_on_closed_events, app_nil_r, Ev1, Ev2.
    unfold c_obs_ok. rewrite evs_eqb_refl. reflexivity.
  - rewrite (iterate_p_no_exit s it HS). cbn [fst snd o_events].
    pose proof (mid_cmds (i_now it) (i_cmds it) _ _ (or_intror Hnow) HS M1) as M2.
    destruct (rc_rerun ch (i_now it) _ cs2 (RH eq_refl) (mid_one _ _ _ M2)) as [R3 Ev3]. split.
    + rewrite !events_on_app, events_on_closed_events, app_nil_r, Ev1, Ev2.
      unfold c_obs_ok. destruct Ev3 as [->|[k [nm [dd [-> ->]]]]].
      * rewrite app_nil_r, evs_eqb_refl. reflexivity.
      * rewrite app_assoc, evs_eqb_refl. apply orb_true_r.
    + intros _. apply rc_ip. exact R3.
Qed.

Lemma c_iter_notyet ch it :
  ~ In ch (intro_chans (i_cmds it)) -> fst (c_iter ch it CNotYet) = CNotYet.
Proof.
  unfold c_iter. simpl. generalize (i_now it). intros now.
  induction (i_cmds it) as [|c rest IH]; intros H; [reflexivity|].
  rewrite intro_chans_cons in H.
  assert (H1 : ~ In ch (intro_chans [c])) by (intros X; apply H; apply in_or_app; left; exact X).
  assert (H2 : ~ In ch (intro_chans rest)) by (intros X; apply H; apply in_or_app; right; exact X).
  simpl. rewrite c_cmd_notyet by exact H1.
  specialize (IH H2). destruct (c_cmds now ch rest CNotYet) as [cs2 e2]. simpl in *.
  destruct c; simpl; try exact IH. reflexivity.
Qed.

Lemma c_check_run ch : forall h s cs,
  Good s -> Rc ch s cs -> Forall iter_ok h -> NoDup (hist_chans h) ->
  (In ch (hist_chans h) -> cs = CNotYet) -> c_check ch h (run s h) cs = true.
Proof.
  induction h as [|it h IH]; intros s cs G R W ND F; [reflexivity|].
  destruct (st_alive s) eqn:A; [|rewrite run_exited by exact A; reflexivity].
  rewrite run_cons in * by exact A. cbn [c_check].
  inversion W as [|y ys W1 W2]; subst. pose proof (proj1 W1) as Rg1.
  unfold hist_chans in ND, F. cbn [flat_map] in ND, F. fold (hist_chans h) in ND, F.
  apply NoDup_app_inv in ND as [ND1 [ND2 Hdis]].
  destruct (rc_iterate ch s it cs G R Rg1 ND1) as [OK RH]; [intros Hin; apply F, in_or_app; auto|].
  destruct (iterate_shape s it) as [_ [X _]].
  destruct (c_iter ch it cs) as [cs' expected] eqn:EC. cbn [fst snd] in *.
  rewrite OK, X. simpl.
  destruct (has_shutdown (i_cmds it)) eqn:HS; [reflexivity|].
  apply IH; auto.
  - apply good_iterate; auto.
  - intros Hin. assert (Hn : ~ In ch (intro_chans (i_cmds it))) by (intros H1; exact (Hdis ch H1 Hin)).
    assert (cs = CNotYet) by (apply F; apply in_or_app; right; exact Hin). subst cs.
    pose proof (c_iter_notyet ch it Hn) as E. rewrite EC in E. exact E.
Qed.

Lemma rc_init ch t0 : Rc ch (init t0) CNotYet.
Proof. rewrite init_spec. simpl. tauto. Qed.

Lemma chk_C13_model t0 h : wf_hist t0 h = true -> chk_C13 t0 h (model_run t0 h) = true.
Proof.
  intros W. destruct (wf_hist_parts t0 h W) as [Wi Wn]. unfold chk_C13, model_run. cbn [o_sent o_events init_out].
  rewrite shape_ok_run by (rewrite init_spec; reflexivity). rewrite pkts_shaped_run. simpl.
  apply andb_true_iff. split; apply forallb_forall.
  - intros ch _. apply (c_check_run ch h (init t0) CNotYet (good_init t0) (rc_init ch t0) Wi Wn (fun _ => eq_refl)).
  - intros k _. apply (k_checks_run k h (init t0) None (good_init t0) (rk_init k t0) Wi).
Qed.

Lemma stop_clears s host nm :
  InvH s ->
  let s' := fst (fst (exec_stop host nm s)) in
  lookup (okey_of host nm) (st_owners s') = None
  /\ forall r, In r (st_retrans s') -> rkey r <> okey_of host nm.
Proof.
  intros H. cbv zeta. rewrite exec_stop_eq.
  destruct (lookup (okey_of host nm) (st_owners s)) as [o|] eqn:L; cbn [fst].
  - split; [apply lookup_rekey_same|]. intros r Hr. apply in_retrans_rekey in Hr as [[_ Hr]|[]]. exact Hr.
  - split; [exact L|]. intros r Hr E. destruct (H r Hr) as [o [L' _]]. rewrite E, L in L'. discriminate.
Qed.

Lemma chain_dues_due_work k s st :
  Rk k s st -> forall d, In d (chain_dues st) -> In d (due_work s).
Proof.
  intros R d Hd. destruct st as [c|]; [|contradiction]. destruct R as [_ [ch [L P]]].
  unfold chain_dues in Hd. unfold due_work. apply in_app_or in Hd as [Hd|Hd].
  - destruct (chain_goes_on c); [|contradiction]. destruct Hd as [<-|[]].
    apply in_or_app. left.
    assert (In (chain_rerun k c ch) (pend k (st_retrans s))) by (rewrite P; left; reflexivity).
    apply filter_In in H as [H _]. apply in_map_iff. exists (chain_rerun k c ch). split; [reflexivity | exact H].
  - destruct (c_deadline c) as [d'|] eqn:E; [|contradiction]. destruct Hd as [<-|[]].
    apply in_or_app. right. apply in_or_app. left. apply in_deadlines.
    exists (wkey_okey k, mkOwner ch (Some d')). split; [apply lookup_In; exact L | reflexivity].
Qed.

Lemma run_cmds_ip now cmds s :
  st_next_ip (fst (fst (run_cmds now cmds s))) = st_next_ip s
  /\ (has_shutdown cmds = false -> st_ip_ival (fst (fst (run_cmds now cmds s))) = ip_cmds cmds (st_ip_ival s)).
Proof.
  pattern cmds, s, (run_cmds now cmds s). apply run_cmds_ind; clear cmds s.
  - auto.
  - intros rest s. split; [reflexivity | discriminate].
  - intros c rest s s1 p1 e1 s2 p2 e2 Hc E1 _ [N2 V2]. rewrite has_shutdown_other by exact Hc. cbn [fst] in *.
    assert (H1 : st_next_ip s1 = st_next_ip s
                 /\ st_ip_ival s1 = match c with CSetIp secs => secs * 1000 | _ => st_ip_ival s end).
    { replace s1 with (fst (fst (exec_cmd now c s))) by (rewrite E1; reflexivity).
      destruct c as [host nm cache timeout ch|host nm|secs|]; cbn [exec_cmd].
      - rewrite exec_start_eq. auto.
      - rewrite exec_stop_eq. destruct (lookup _ _); auto.
      - auto.
      - congruence. }
    destruct H1 as [N1 V1]. split; [congruence|]. intros HS. rewrite (V2 HS), V1. reflexivity.
Qed.

Lemma iterate_ip s it :
  has_shutdown (i_cmds it) = false ->
  (st_next_ip (fst (iterate s it)), st_ip_ival (fst (iterate s it)))
  = ip_step (i_now it) (i_cmds it) (st_next_ip s, st_ip_ival s).
Proof.
  intros HS. rewrite (iterate_state s it HS), ip_phase_step.
  destruct (run_cmds_ip (i_now it) (i_cmds it) (timeout_phase (i_now it) s)) as [N2 V2].
  unfold ip_step. cbn [rerun_phase fst snd set_sched st_next_ip st_ip_ival ip_cmds fold_left].
  rewrite N2, (V2 HS). reflexivity.
Qed.

(* chk_C12 follows the questions of the history side by side *)
Definition Rks (ks : list wkey) (s : state) (sts : list kstate) : Prop :=
  Forall2 (fun k st => Rk k s st) ks sts.

Lemma wake_covers_ok s dues :
  Inv s -> (forall d, In d dues -> In d (due_work s)) ->
  wake_covers (min_list (st_timers s)) dues = true.
Proof.
  intros I H. unfold wake_covers. destruct (min_list (st_timers s)) as [w|] eqn:E.
  - apply forallb_forall. intros d Hd. apply N.leb_le.
    destruct (due_work_covered s I d (H d Hd)) as [_ [w' [E' Hle]]]. congruence.
  - destruct dues as [|d dues]; [reflexivity|]. exfalso.
    destruct (due_work_covered s I d (H d (or_introl eq_refl))) as [_ [w' [E' _]]]. congruence.
Qed.

Lemma w_check_run ks : forall h s sts,
  Good s -> Rks ks s sts -> Forall iter_ok h ->
  w_check ks h (run s h) sts (st_next_ip s, st_ip_ival s) = true.
Proof.
  induction h as [|it h IH]; intros s sts G RK W; [reflexivity|].
  destruct (st_alive s) eqn:A; [|rewrite run_exited by exact A; reflexivity].
  rewrite run_cons in * by exact A. cbn [w_check].
  inversion W as [|y ys [Rg1 W1] W2]; subst.
  pose proof (good_inv s G) as I.
  destruct (iterate_shape s it) as [_ [X AL]]. rewrite X.
  destruct (has_shutdown (i_cmds it)) eqn:HS; [reflexivity|].
  pose proof (good_iterate s it G (or_intror (conj Rg1 W1)) HS) as G'.
  assert (RK' : Rks ks (fst (iterate s it)) (k_states ks it sts)).
  { clear - RK G HS. induction RK as [|k st ks sts R RK IHk]; simpl; [constructor|].
    constructor; [|exact IHk]. apply (rk_iterate k s it st G R). exact HS. }
  rewrite <- (iterate_ip s it HS). cbn [fst snd].
  pose proof (o_wake_min s it HS) as Ew.
  apply andb_true_iff. split; [apply andb_true_iff; split|].
  - rewrite Ew. apply wake_covers_ok; [apply good_inv; exact G'|]. intros d Hd. apply in_app_or in Hd as [Hd|Hd].
    + apply in_flat_map in Hd as [st [Hst Hd]].
      clear - RK' Hst Hd. induction RK' as [|k st' ks sts' R RK IHk]; [contradiction|].
      destruct Hst as [->|Hst]; [eapply chain_dues_due_work; eassumption | auto].
    + unfold due_work. apply in_or_app. right. apply in_or_app. right.
      rewrite ip_check_disabled_pinned. destruct (st_ip_ival (fst (iterate s it)) =? 0); exact Hd.
  - unfold moves_on. destruct (o_wake (snd (iterate s it))) as [w|] eqn:Eo; [|reflexivity].
    destruct (iterate_wake s it I (or_intror Rg1) w Eo) as [Hl|[Hzt ->]].
    + apply N.ltb_lt in Hl. rewrite Hl. reflexivity.
    + rewrite N.eqb_refl, Hzt. apply orb_true_r.
  - apply IH; auto.
Qed.

Lemma rks_init ks t0 : Rks ks (init t0) (map (fun _ => None) ks).
Proof. induction ks as [|k ks IH]; simpl; constructor; [apply rk_init | exact IH]. Qed.

Lemma chk_C12_model t0 h : wf_hist t0 h = true -> chk_C12 t0 h (model_run t0 h) = true.
Proof.
  intros W. unfold chk_C12, model_run.
  rewrite shape_ok_run by (rewrite init_spec; reflexivity).
  (* 5000 is the literal of chk_C12; that the model starts with it is ip_check_interval_initial_pinned *)
  assert (E0 : o_wake (init_out t0) = Some (t0 + 5000)) by reflexivity.
  rewrite E0. cbn [wake_covers moves_on forallb].
  rewrite N.leb_refl. replace (t0 <? t0 + 5000) with true by (symmetry; apply N.ltb_lt; lia).
  cbn [andb orb].
  change (t0 + 5000, 5000) with (st_next_ip (init t0), st_ip_ival (init t0)).
  apply w_check_run; [apply good_init | apply rks_init | apply (wf_hist_parts t0 h W)].
Qed.
