(* C05, timeliness: at the end of every iteration every instance the checker holds "up" on the
   current channel of its type has PTR, SRV and an address of the SRV's host unexpired - so a
   removal is emitted in the first iteration whose `now` is at or after the instant a goodbye's
   second, a TTL or a verify deadline runs out (F05_dead never fires on the model's trace),
   outside the known classes.  Here one iteration; over histories: C05HistoryProofs.removed_on_time.

   The invariant (UI) ties the checker's up list to the model state: for every up entry
   (channel, type, instance) whose type is still browsed on that channel, the instance is in the
   model's `resolved` set and PTR, SRV and an address record of the SRV's host are PRESENT in the
   cache (expired or not).  Records only leave the cache in the evictions at the end of the
   iteration and in stop_browse; the evictions report what they take (or the class
   "removal skipped because the PTR is in its last second" is hit); after the evictions every
   record is unexpired, so present = weakly alive. *)
From Coq Require Import List NArith Bool Lia.
From Mdns Require Import Bytes ListFacts Rec Cache Browser C03Spec BrowserSpec BrowserKnown CacheProofs CacheInvProofs
  BrowserProofs BrowserStepProofs SpecTrackProofs BrowserLoopProofs C05SafetyProofs C04OrderProofs C05AgainProofs.
Import ListNotations.
Open Scope N_scope.

Definition present (c : cache) (ty inst : bytes) : Prop :=
  exists pb p sb e ab a,
    bm_get ty (c_ptr c) = Some pb /\ In p pb /\ alias_of (e_rr p) = inst
    /\ bm_get inst (c_srv c) = Some sb /\ In e sb
    /\ bm_get (lower (srv_host e)) (c_addr c) = Some ab /\ In a ab.

(* c' has every record of c (same key, same rdata), possibly with other times *)
Definition keeps (c c' : cache) : Prop :=
  forall k key b e, bm_get key (get_map c k) = Some b -> In e b ->
    exists b' e', bm_get key (get_map c' k) = Some b' /\ In e' b' /\ r_data (e_rr e') = r_data (e_rr e).

Lemma keeps_refl c : keeps c c.
Proof. intros k key b e H1 H2. exists b, e. auto. Qed.

Lemma keeps_trans a b c : keeps a b -> keeps b c -> keeps a c.
Proof.
  intros H1 H2 k key b0 e Hb He. destruct (H1 k key b0 e Hb He) as (b1 & e1 & A & B & C).
  destruct (H2 k key b1 e1 A B) as (b2 & e2 & D & E & F). exists b2, e2. split; [exact D|]. split; [exact E|]. congruence.
Qed.

Lemma present_keeps c c' ty inst : keeps c c' -> present c ty inst -> present c' ty inst.
Proof.
  intros Hk (pb & p & sb & e & ab & a & Epb & Hp & Hal & Esb & He & Eab & Ha).
  destruct (Hk KPtr ty pb p Epb Hp) as (pb' & p' & A1 & A2 & A3).
  destruct (Hk KSrv inst sb e Esb He) as (sb' & e' & B1 & B2 & B3).
  destruct (Hk KAddr _ ab a Eab Ha) as (ab' & a' & C1 & C2 & C3).
  exists pb', p', sb', e', ab', a'. simpl in *. split; [exact A1|]. split; [exact A2|].
  split; [unfold alias_of in *; now rewrite A3|]. split; [exact B1|]. split; [exact B2|].
  assert (Eh : srv_host e' = srv_host e) by (unfold srv_host, rr_host; now rewrite B3).
  rewrite Eh. auto.
Qed.

Lemma beqr_In b b' e : beqr b b' -> In e b -> exists e', In e' b' /\ eqr e e'.
Proof.
  intros H. induction H as [|x y l l' Hxy Hl IH]; simpl; [tauto|].
  intros [<-|Hin]; [exists y; auto|]. destruct (IH Hin) as (e' & A & B). exists e'. auto.
Qed.

Lemma keeps_ceqr c c' : ceqr c c' -> keeps c c'.
Proof.
  intros (A1 & A2 & A3 & A4 & A5 & _) k key b e Hb He.
  assert (Hm : meqr (get_map c k) (get_map c' k)) by (destruct k; assumption).
  pose proof (meqr_get key _ _ Hm) as Hg. rewrite Hb in Hg.
  destruct (bm_get key (get_map c' k)) as [b'|]; [|contradiction].
  destruct (beqr_In b b' e Hg He) as (e' & B1 & (B2 & _)). exists b', e'. split; [reflexivity|]. split; [exact B1|].
  now rewrite B2.
Qed.

Lemma aou_bucket_keeps r ifx now fu b B res :
  aou_bucket r ifx now fu b B res ->
  forall e, In e b -> exists e', In e' B /\ r_data (e_rr e') = r_data (e_rr e).
Proof.
  assert (Hfl : forall l e, In e l -> exists e', In e' (map (flushed r ifx now) l) /\ r_data (e_rr e') = r_data (e_rr e)).
  { intros l e He. exists (flushed r ifx now e). split; [now apply in_map|].
    destruct (flushed_fields r ifx now e) as (F & _). now rewrite F. }
  intros H e He. destruct H as [Hb _| |l1 e0 l2 Hb _ _]; try subst b.
  - destruct He.
  - destruct (Hfl _ e He) as (e' & A & E). exists e'. split; [now right|exact E].
  - apply in_app_iff in He as [He|[<-|He]].
    + destruct (Hfl _ e He) as (e' & A & E). exists e'. split; [apply in_app_iff; now left|exact E].
    + exists (reset_ttl (flushed r ifx now e0) r now). split; [apply in_app_iff; right; now left|].
      destruct (flushed_fields r ifx now e0) as (F & _). simpl. now rewrite F.
    + destruct (Hfl _ e He) as (e' & A & E). exists e'. split; [apply in_app_iff; right; now right|exact E].
Qed.

Lemma aou_keeps c now ifx r fu : keeps c (fst (add_or_update c now ifx r fu)).
Proof.
  intros k key b e Hb He. destruct (aou_shape c now ifx r fu) as [_ S _|k0 B _ HB Hk0 S]; [rewrite S; exists b, e; auto|].
  destruct (kind_dec k k0) as [->|Hne]; [rewrite Hk0|rewrite (S k Hne); exists b, e; auto].
  destruct (beq key (key_of k0 (r_name r))) eqn:Ek; [|rewrite (bm_set_get_other _ key _ _ Ek); exists b, e; auto].
  apply beq_eq in Ek. subst key. rewrite Hb in HB. rewrite bm_set_get_same.
  destruct (aou_bucket_keeps _ _ _ _ _ _ _ HB e He) as (e' & A & E). exists B, e'. auto.
Qed.

Lemma sooner_all_keeps at_ b e : In e b -> exists e', In e' (sooner_all at_ b) /\ r_data (e_rr e') = r_data (e_rr e).
Proof.
  intros H. unfold sooner_all. destruct at_ as [x|]; [|exists e; auto].
  exists (expire_sooner e x). split; [exact (in_map (fun e0 => expire_sooner e0 x) b e H)|]. destruct (expire_sooner_fields e x) as (A & _). now rewrite A.
Qed.

Lemma verify_addrs_keeps at_ : forall srvs addr key b e,
  bm_get key addr = Some b -> In e b ->
  exists b' e', bm_get key (verify_addrs at_ srvs addr) = Some b' /\ In e' b' /\ r_data (e_rr e') = r_data (e_rr e).
Proof.
  induction srvs as [|s rest IH]; intros addr key b e Hb He; simpl; [exists b, e; auto|].
  destruct (bm_get (lower (srv_host s)) addr) as [ab|] eqn:Ea; [|now apply (IH addr key b e)].
  destruct (beq key (lower (srv_host s))) eqn:Ek.
  - apply beq_eq in Ek. subst key. rewrite Hb in Ea. inversion Ea; subst ab.
    destruct (sooner_all_keeps at_ b e He) as (e1 & A & B).
    destruct (IH (bm_set (lower (srv_host s)) (sooner_all at_ b) addr) (lower (srv_host s)) (sooner_all at_ b) e1
                 (bm_set_get_same _ _ _) A) as (b' & e' & C & D & E).
    exists b', e'. split; [exact C|]. split; [exact D|congruence].
  - apply (IH _ key b e); [|exact He]. now rewrite (bm_set_get_other _ key _ addr Ek).
Qed.

Lemma verify_keeps c inst at_ : keeps c (fst (service_verify_queries c inst at_)).
Proof.
  unfold service_verify_queries. destruct (bm_get inst (c_srv c)) as [sb|] eqn:Es; [|apply keeps_refl].
  intros k key b e Hb He. destruct k; simpl in *; try (exists b, e; auto; fail).
  - destruct (beq key inst) eqn:Ek.
    + apply beq_eq in Ek. subst key. rewrite Hb in Es. inversion Es; subst sb.
      destruct (sooner_all_keeps at_ b e He) as (e1 & A & B). exists (sooner_all at_ b), e1.
      split; [apply bm_set_get_same|]. auto.
    + rewrite (bm_set_get_other inst key _ _ Ek). exists b, e. auto.
  - now apply (verify_addrs_keeps at_ sb (c_addr c) key b e).
Qed.

Lemma csteps_keeps c c' : csteps c c' -> keeps c c'.
Proof.
  intros H. induction H as [c|c inst at_ c' _ IH|c ty now c' _ IH]; [apply keeps_refl| |].
  - eapply keeps_trans; [apply verify_keeps|exact IH].
  - eapply keeps_trans; [apply keeps_ceqr, ceqr_refresh_type|exact IH].
Qed.

Lemma bm_remove_get_other k k' m : beq k' k = false -> bm_get k' (bm_remove k m) = bm_get k' m.
Proof.
  intros Hne. induction m as [|[k0 b0] t IH]; simpl; [reflexivity|].
  destruct (beq k k0) eqn:E1.
  - apply beq_eq in E1. subst k0. rewrite Hne. exact IH.
  - simpl. destruct (beq k' k0); [reflexivity|exact IH].
Qed.

Lemma fold_remove_get i : forall insts m,
  ~ In i insts -> bm_get i (fold_left (fun m0 i0 => bm_remove i0 m0) insts m) = bm_get i m.
Proof.
  induction insts as [|j rest IH]; intros m Hn; simpl; [reflexivity|].
  rewrite IH by (intros H; apply Hn; now right).
  apply bm_remove_get_other. destruct (beq i j) eqn:E; [|reflexivity].
  apply beq_eq in E. subst j. exfalso. apply Hn. now left.
Qed.

Lemma fold_addr_get key still : forall hosts m,
  mem key still = true ->
  bm_get key (fold_left (fun m0 h => if mem h still then m0 else bm_remove h m0) hosts m) = bm_get key m.
Proof.
  induction hosts as [|h rest IH]; intros m Hk; simpl; [reflexivity|].
  rewrite IH by exact Hk. destruct (mem h still) eqn:Eh; [reflexivity|].
  apply bm_remove_get_other. destruct (beq key h) eqn:E; [|reflexivity].
  apply beq_eq in E. subst h. congruence.
Qed.

Lemma rst_present c ty2 ty inst :
  ty <> ty2 ->
  (forall pb2 p2, bm_get ty2 (c_ptr c) = Some pb2 -> In p2 pb2 -> alias_of (e_rr p2) <> inst) ->
  present c ty inst -> present (remove_service_type c ty2) ty inst.
Proof.
  intros Hne Hno (pb & p & sb & e & ab & a & Epb & Hp & Hal & Esb & He & Eab & Ha).
  unfold remove_service_type. destruct (bm_get ty2 (c_ptr c)) as [ptrs|] eqn:E2.
  2:{ exists pb, p, sb, e, ab, a. repeat (split; [assumption|]). assumption. }
  set (insts := map (fun p0 => alias_of (e_rr p0)) ptrs).
  assert (Hni : ~ In inst insts).
  { intros Hin. apply in_map_iff in Hin as [p2 [A B]]. exact (Hno ptrs p2 eq_refl B A). }
  set (srv1 := fold_left (fun m i => bm_remove i m) insts (c_srv c)).
  assert (Es1 : bm_get inst srv1 = Some sb) by (unfold srv1; now rewrite fold_remove_get).
  exists pb, p, sb, e, ab, a. cbn [c_ptr c_srv c_addr]. split.
  - rewrite bm_remove_get_other; [exact Epb|]. destruct (beq ty ty2) eqn:E; [|reflexivity].
    apply beq_eq in E. contradiction.
  - split; [exact Hp|]. split; [exact Hal|]. split; [exact Es1|]. split; [exact He|]. split; [|exact Ha].
    rewrite fold_addr_get; [exact Eab|]. apply mem_In. unfold all_srv_hosts_lower. apply in_flat_map.
    exists (inst, sb). split; [now apply bm_get_In|]. simpl. apply in_map_iff. exists e. auto.
Qed.

Definition all_live (c : cache) (now : N) : Prop :=
  forall k key b e, (k = KPtr \/ k = KSrv \/ k = KAddr) -> bm_get key (get_map c k) = Some b -> In e b ->
                    is_expired e now = false.

Lemma present_alive_weak c now ty inst : all_live c now -> present c ty inst -> alive_weak c now ty inst = true.
Proof.
  intros Hl (pb & p & sb & e & ab & a & Epb & Hp & Hal & Esb & He & Eab & Ha).
  unfold alive_weak. apply andb_true_iff. split.
  - apply existsb_exists. exists p. split.
    + unfold ptr_entries. rewrite Epb. apply filter_In. split; [exact Hp|]. rewrite Hal. apply beq_refl.
    + now rewrite (Hl KPtr ty pb p (or_introl eq_refl) Epb Hp).
  - apply existsb_exists. exists e. split; [unfold srv_entries; now rewrite Esb|].
    rewrite (Hl KSrv inst sb e (or_intror (or_introl eq_refl)) Esb He). simpl.
    apply existsb_exists. exists a. split; [unfold addr_entries, get_addr; now rewrite Eab|].
    now rewrite (Hl KAddr _ ab a (or_intror (or_intror eq_refl)) Eab Ha).
Qed.

Lemma evict_all_live c now : all_live (fst (evict_addr (fst (evict_services c now)) now)) now.
Proof.
  rewrite evict_services_cache. unfold evict_addr. cbn [fst c_ptr c_srv c_addr c_txt c_nsec c_sub].
  intros k key b e Hk Hb He. destruct Hk as [-> | [-> | ->]]; cbn [get_map c_ptr c_srv c_addr] in Hb.
  - rewrite bm_get_map_live in Hb. destruct (bm_get key (c_ptr c)); [|discriminate]. inversion Hb; subst b.
    now apply live_only_In in He.
  - apply bm_get_In in Hb. apply sweep_In in Hb as (b0 & _ & -> & _). now apply live_only_In in He.
  - apply bm_get_In in Hb. apply sweep_In in Hb as (b0 & _ & -> & _). now apply live_only_In in He.
Qed.

Lemma sweep_get_live now m key b :
  NoDup (map fst m) -> In (key, b) m -> live_only now b <> [] -> bm_get key (sweep now m) = Some (live_only now b).
Proof.
  intros ND Hin Hne. apply In_bm_get; [apply (mshr_sweep now m ND)|]. apply sweep_In. exists b. auto.
Qed.

Lemma alive_weak_ceqr c c' now ty i : ceqr c c' -> alive_weak c now ty i = alive_weak c' now ty i.
Proof.
  assert (Hx : forall e e', eqr e e' -> is_expired e now = is_expired e' now)
    by (intros e e' (_ & _ & H & _); unfold is_expired; now rewrite H).
  intros H. unfold alive_weak. f_equal.
  - apply existsb_beqr; [now apply ptr_entries_ceqr|]. intros e e' He. now rewrite (Hx _ _ He).
  - apply existsb_beqr; [now apply srv_entries_ceqr|]. intros e e' He.
    rewrite (Hx _ _ He). destruct He as (H1 & _). unfold srv_host. rewrite H1. f_equal.
    apply existsb_beqr; [now apply addr_entries_ceqr|]. intros a a' Ha. now rewrite (Hx _ _ Ha).
Qed.

Definition up_step (ups : list up_entry) (x : out) : list up_entry :=
  match x with
  | OEvt ch (EResolved r) => ups_add ch (rs_ty r) (rs_name r) ups
  | OEvt ch (ERemoved _ i) => ups_del ch i ups
  | _ => ups
  end.

Definition upsf (ups : list up_entry) (o : list out) : list up_entry := fold_left up_step o ups.

Lemma upsf_app ups a b : upsf ups (a ++ b) = upsf (upsf ups a) b.
Proof. unfold upsf. apply fold_left_app. Qed.

(* an entry of the list after the events was there before and no ServiceRemoved hit it, or a
   ServiceResolved of these events put it there *)
Lemma upsf_In : forall o ups u,
  In u (upsf ups o) ->
  (In u ups /\ forall t, ~ In (OEvt (fst u) (ERemoved t (snd (snd u)))) o)
  \/ (exists r, In (OEvt (fst u) (EResolved r)) o /\ snd u = (rs_ty r, rs_name r)).
Proof.
  induction o as [|x t IH]; intros ups u Hu; simpl in *; [left; split; [exact Hu|tauto]|].
  destruct (IH (up_step ups x) u Hu) as [[Hin Hno]|(r & Hr & Hs)]; [|right; exists r; auto].
  destruct x as [ch [ty i|r|ty i]|qs|ch l]; simpl in Hin.
  - left. split; [exact Hin|]. intros t0 [H|H]; [discriminate|exact (Hno t0 H)].
  - unfold ups_add in Hin. destruct (existsb (up_is ch (rs_name r)) ups).
    + left. split; [exact Hin|]. intros t0 [H|H]; [discriminate|exact (Hno t0 H)].
    + apply in_app_iff in Hin as [Hin|[<-|[]]].
      * left. split; [exact Hin|]. intros t0 [H|H]; [discriminate|exact (Hno t0 H)].
      * right. exists r. simpl. auto.
  - unfold ups_del in Hin. apply filter_In in Hin as [Hin Hn]. apply negb_true_iff in Hn.
    left. split; [exact Hin|]. intros t0 [H|H]; [|exact (Hno t0 H)].
    inversion H; subst. unfold up_is in Hn. now rewrite N.eqb_refl, beq_refl in Hn.
  - left. split; [exact Hin|]. intros t0 [H|H]; [discriminate|exact (Hno t0 H)].
  - left. split; [exact Hin|]. intros t0 [H|H]; [discriminate|exact (Hno t0 H)].
Qed.

Lemma silent_upsf : forall o ups, Forall silent5 o -> upsf ups o = ups.
Proof.
  induction o as [|x t IH]; intros ups H; [reflexivity|]. inversion H as [|x0 t0 Hx Ht]; subst.
  unfold upsf in *. simpl. replace (up_step ups x) with ups; [now apply IH|].
  destruct x as [ch [ty i|r|ty i]|qs|ch l]; simpl in *; tauto.
Qed.

Lemma mem_set_remove_other x i l : beq i x = false -> mem i (set_remove x l) = mem i l.
Proof.
  intros Hne. unfold set_remove. induction l as [|y l IH]; simpl; [reflexivity|].
  destruct (beq x y) eqn:E; simpl.
  - apply beq_eq in E. subst y. now rewrite Hne.
  - now rewrite IH.
Qed.

(* an instance leaves `resolved` only when it was updated, found invalid under some browsed name *)
Lemma resolve_updated_leaves s now updated i :
  mem i (s_resolved s) = true -> mem i (s_resolved (fst (resolve_updated s now updated))) = false ->
  mem i updated = true
  /\ exists t ptrs p, In (t, ptrs) (c_ptr (s_cache s)) /\ In p ptrs /\ alias_of (e_rr p) = i
                      /\ is_valid (resolve_from_cache (s_cache s) now t i) = false.
Proof.
  intros Hm Hout. destruct (resolve_updated_fields s now updated) as (_ & _ & Hr & _). cbv zeta in Hr.
  apply mem_In in Hm. apply mem_false_iff in Hout. rewrite Hr in Hout.
  destruct (in_dec (list_eq_dec N.eq_dec) i (map snd (ru_rem_list s now updated))) as [Hin|Hn]; [|tauto].
  apply in_map_iff in Hin as [[t j] [E Hin]]. simpl in E. subst j.
  apply In_ru_rem in Hin as (ch & p & (ptrs & Hb & Hp & _ & _ & Hu) & Hv & _ & Ha). rewrite Ha in Hu.
  split; [exact Hu|]. exists t, ptrs, p. unfold ru_valid in Hv. rewrite Ha in Hv. auto.
Qed.

Lemma resolve_updated_resolved_full s now updated ch r :
  In (OEvt ch (EResolved r)) (snd (resolve_updated s now updated)) ->
  exists ty ptrs p, In (ty, ptrs) (c_ptr (s_cache s)) /\ q_get ty (s_q s) = Some ch /\ In p ptrs
                    /\ expires_soon p now = false
                    /\ r = resolve_from_cache (s_cache s) now ty (alias_of (e_rr p)) /\ is_valid r = true.
Proof.
  intros H. apply resolve_updated_out in H as [(ty & c0 & p & (ptrs & Hb & Hp & Hq & Hs & _) & Hv & E)|(ty & c0 & i & _ & _ & E)];
    [|discriminate].
  inversion E; subst. exists ty, ptrs, p. auto 7.
Qed.

Lemma resolve_updated_stays s now updated ch r :
  In (OEvt ch (EResolved r)) (snd (resolve_updated s now updated)) ->
  mem (rs_name r) (s_resolved (fst (resolve_updated s now updated))) = true.
Proof.
  intros H. destruct (resolve_updated_fields s now updated) as (_ & _ & Hr & _). cbv zeta in Hr. apply mem_In, Hr. left.
  apply resolve_updated_out in H as [(ty & c0 & p & He & Hv & E)|(ty & c0 & i & _ & _ & E)]; [|discriminate].
  inversion E; subst. exists ty, c0, p. auto.
Qed.

Lemma alive_present c now ty inst : alive_strong c now ty inst = true -> present c ty inst.
Proof.
  intros H. apply alive_elim in H as (pb & p & sb & e & ab & a & A1 & A2 & A3 & _ & A5 & A6 & _ & _ & A9 & A10 & _).
  exists pb, p, sb, e, ab, a. repeat (split; [assumption|]). assumption.
Qed.

Lemma valid_ty_indep c now ty ty' inst :
  ty <> [] -> ty' <> [] ->
  is_valid (resolve_from_cache c now ty inst) = is_valid (resolve_from_cache c now ty' inst).
Proof.
  intros H1 H2. unfold is_valid, resolve_from_cache. cbn [rs_ty rs_name rs_host rs_addrs].
  destruct ty; [congruence|]. destruct ty'; [congruence|]. reflexivity.
Qed.

Section Timely.
  Variable Lf : list dlv.
  Hypothesis Htgt : known_srv_targets Lf = false.
  Hypothesis Hnames : ptr_names_ok Lf = true.
  Variable now : N.

  Definition UI (s : st) (ups : list up_entry) : Prop :=
    forall ch ty inst, In (ch, (ty, inst)) ups -> q_get ty (s_q s) = Some ch ->
      present (s_cache s) ty inst /\ mem inst (s_resolved s) = true.

  (* m bounds the channel numbers in use (as in C05AgainProofs.side; no injectivity needed: UI is stated per type) *)
  Definition sideU (q : list (bytes * N)) (ups : list up_entry) (m : N) : Prop :=
    (forall tc, In tc q -> snd tc <= m) /\ (forall u, In u ups -> fst u <= m).

  (* the invariant for a state s, its log L, the up list and the channel bound m *)
  Definition goodT (L : list dlv) (s : st) (ups : list up_entry) (m : N) : Prop :=
    Inv L (s_cache s) /\ incl L Lf /\ UI s ups /\ sideU (s_q s) ups m.

  (* an updated instance in `resolved` that cannot be resolved is reported on the channel of every browsed name
     with a PTR record to it, unless that record is in its last second *)
  Lemma invalid_reported_or_hidden s updated ty ch pb p inst :
    bm_get ty (c_ptr (s_cache s)) = Some pb -> In p pb -> alias_of (e_rr p) = inst -> q_get ty (s_q s) = Some ch ->
    mem inst updated = true -> mem inst (s_resolved s) = true ->
    is_valid (resolve_from_cache (s_cache s) now ty inst) = false -> hidden_in_resolve s now updated = false ->
    In (OEvt ch (ERemoved ty inst)) (snd (resolve_updated s now updated)).
  Proof.
    intros Epb Hpin Hal Hq Hupd Hm Hinv Hhid. destruct (expires_soon p now) eqn:Es.
    - assert (hidden_in_resolve s now updated = true); [|congruence].
      unfold hidden_in_resolve. apply existsb_exists. exists (ty, ch). split; [now apply q_get_In|].
      cbn [fst]. rewrite Epb. apply existsb_exists. exists p. split; [exact Hpin|].
      cbv zeta. rewrite Hal, Es, Hupd, Hm, Hinv. reflexivity.
    - rewrite <- Hal.
      apply (invalid_reported_under_every_name s now updated ty ch pb p (bm_get_In _ _ _ Epb) Hq Hpin Es); rewrite Hal; assumption.
  Qed.

  Lemma stays_resolved L s updated ty ch pb p inst :
    Inv L (s_cache s) -> incl L Lf ->
    bm_get ty (c_ptr (s_cache s)) = Some pb -> In p pb -> alias_of (e_rr p) = inst ->
    q_get ty (s_q s) = Some ch -> mem inst (s_resolved s) = true ->
    hidden_in_resolve s now updated = false ->
    (forall t, ~ In (OEvt ch (ERemoved t inst)) (snd (resolve_updated s now updated))) ->
    mem inst (s_resolved (fst (resolve_updated s now updated))) = true.
  Proof.
    intros HI Hsub Epb Hpin Hal Hq Hm Hhid Hno.
    destruct (mem inst (s_resolved (fst (resolve_updated s now updated)))) eqn:Em; [reflexivity|]. exfalso.
    destruct (resolve_updated_leaves s now updated inst Hm Em) as (Hupd & t & ptrs & p0 & A & B & C & D).
    pose proof (bm_get_In _ _ _ Epb) as Hb.
    destruct (ptr_names Lf Hnames L (s_cache s) HI Hsub ty pb p Hb Hpin) as [Hty _].
    destruct (ptr_names Lf Hnames L (s_cache s) HI Hsub t ptrs p0 A B) as [Ht _].
    assert (Hinv : is_valid (resolve_from_cache (s_cache s) now ty inst) = false)
      by (rewrite (valid_ty_indep _ now ty t inst Hty Ht); exact D).
    exact (Hno ty (invalid_reported_or_hidden s updated ty ch pb p inst Epb Hpin Hal Hq Hupd Hm Hinv Hhid)).
  Qed.

  Lemma resolve_updated_up L s updated ch r :
    Inv L (s_cache s) -> In (OEvt ch (EResolved r)) (snd (resolve_updated s now updated)) ->
    In (rs_ty r, ch) (s_q s) /\ present (s_cache s) (rs_ty r) (rs_name r)
    /\ mem (rs_name r) (s_resolved (fst (resolve_updated s now updated))) = true.
  Proof.
    intros HI Hr. pose proof (resolve_updated_stays s now updated ch r Hr) as Hm.
    destruct (resolve_updated_resolved_full s now updated ch r Hr) as (ty0 & ptrs & p & A & B & C & E & -> & G).
    cbn [rs_ty rs_name resolve_from_cache] in *. split; [now apply q_get_In|]. split; [|exact Hm].
    assert (Epb : bm_get ty0 (c_ptr (s_cache s)) = Some ptrs)
      by (apply In_bm_get; [apply (Inv_nodup L _ KPtr HI)|exact A]).
    apply (alive_present _ now), (valid_alive (s_cache s) now ty0 _ ptrs p Epb C eq_refl E G).
  Qed.

  Lemma resolve_updated_sideU L s updated ups m :
    Inv L (s_cache s) -> sideU (s_q s) ups m -> sideU (s_q s) (upsf ups (snd (resolve_updated s now updated))) m.
  Proof.
    intros HI [S1 S2]. split; [exact S1|]. intros u Hu. apply upsf_In in Hu as [[Hin _]|(r & Hr & _)]; [now apply S2|].
    destruct (resolve_updated_up L s updated _ r HI Hr) as (Hq & _). exact (S1 _ Hq).
  Qed.

  (* resolve_updated_instances: who stays up stays in `resolved`; who comes up is present *)
  Lemma resolve_updated_stepT L s ups m updated :
    goodT L s ups m -> hidden_in_resolve s now updated = false ->
    goodT L (fst (resolve_updated s now updated)) (upsf ups (snd (resolve_updated s now updated))) m.
  Proof.
    intros (HI & Hsub & HU & HS) Hhid. destruct (resolve_updated_state s now updated) as [Ec Eq].
    unfold goodT. rewrite Ec, Eq. split; [exact HI|]. split; [exact Hsub|]. split; [|now apply (resolve_updated_sideU L)].
    intros ch ty inst Hu Hq. rewrite Eq in Hq. rewrite Ec.
    apply upsf_In in Hu as [[Hin Hno]|(r & Hr & Hs)]; cbn [fst snd] in *.
    - destruct (HU ch ty inst Hin Hq) as [Hp Hm]. split; [exact Hp|].
      destruct Hp as (pb & p & sb & e & ab & a & Epb & Hpin & Hal & _).
      exact (stays_resolved L s updated ty ch pb p inst HI Hsub Epb Hpin Hal Hq Hm Hhid Hno).
    - inversion Hs; subst ty inst. destruct (resolve_updated_up L s updated ch r HI Hr) as (_ & P & M). auto.
  Qed.

  Lemma hr_records_keeps ifx q fu : forall rs c, keeps c (fst (fst (hr_records c now ifx q fu rs))).
  Proof.
    induction rs as [|r rest IH]; intros c; [apply keeps_refl|].
    rewrite (proj1 (hr_records_cons c now ifx q fu r rest)). eapply keeps_trans; [apply aou_keeps|apply IH].
  Qed.

  Lemma keeps_stepT L s ups m s' o :
    goodT L s ups m -> Inv L (s_cache s') -> keeps (s_cache s) (s_cache s') -> s_q s' = s_q s ->
    s_resolved s' = s_resolved s -> Forall silent5 o -> goodT L s' (upsf ups o) m.
  Proof.
    intros (HI & Hsub & HU & HS) HI' Hk Eq Er Ho. rewrite (silent_upsf o ups Ho).
    unfold goodT. rewrite Eq. split; [exact HI'|]. split; [exact Hsub|]. split; [|exact HS].
    intros ch ty inst Hu Hq. rewrite Eq in Hq. destruct (HU ch ty inst Hu Hq) as [A B]. rewrite Er.
    split; [eapply present_keeps; eauto|exact B].
  Qed.

  Lemma quiet_stepT L s ups m o s' : goodT L s ups m -> quiet s o s' -> goodT L s' (upsf ups o) m.
  Proof.
    intros Hg (Hc & Hq & Hr & Ho). destruct (csteps_shr L _ _ Hc (proj1 Hg)) as [HI' _].
    apply (keeps_stepT L s ups m); auto using csteps_keeps, no_event_silent.
  Qed.

  Lemma handle_read_stepT ifs L s d ups m :
    goodT L s ups m -> incl (L ++ dgram_dlvs ifs now d) Lf -> read_hidden ifs s now d = false ->
    goodT (L ++ dgram_dlvs ifs now d) (fst (handle_read ifs s now d)) (upsf ups (snd (handle_read ifs s now d))) m.
  Proof.
    intros Hg Hsub1 Hhid. pose proof Hg as (HI & Hsub & HU & HS).
    unfold handle_read, read_hidden, dgram_dlvs in *. destruct (accepted_msg ifs d) as [msg|].
    2:{ simpl. rewrite app_nil_r. exact Hg. }
    unfold handle_response, response_hidden in *. fold (msg_records msg) in *.
    destruct (hr_records_ok now (d_if d) (s_q s) (for_us (s_q s) (m_answers msg)) (msg_records msg) _ _ HI) as [HI1 _].
    pose proof (hr_records_found now (d_if d) (s_q s) (for_us (s_q s) (m_answers msg)) (msg_records msg) (s_cache s)) as Ho1.
    pose proof (hr_records_keeps (d_if d) (s_q s) (for_us (s_q s) (m_answers msg)) (msg_records msg) (s_cache s)) as Hk.
    destruct (hr_records (s_cache s) now (d_if d) (s_q s) (for_us (s_q s) (m_answers msg)) (msg_records msg))
      as [[c1 o1] changes]. cbn [fst snd] in *.
    assert (Hg1 : goodT (L ++ map (mkDlv now (d_if d)) (msg_records msg)) (with_cache s c1) (upsf ups o1) m).
    { pose proof (only_found_silent o1 Ho1) as Hsil. rewrite (silent_upsf o1 ups Hsil).
      split; [exact HI1|]. split; [exact Hsub1|]. split; [|exact HS].
      intros ch ty inst Hu Hq. destruct (HU ch ty inst Hu Hq) as [A B]. split; [eapply present_keeps; eauto|exact B]. }
    pose proof (resolve_updated_stepT _ (with_cache s c1) _ m (updated_of c1 changes) Hg1 Hhid) as H2.
    destruct (resolve_updated (with_cache s c1) now (updated_of c1 changes)) as [s2 o2]. cbn [fst snd] in *.
    rewrite upsf_app. exact H2.
  Qed.

  Lemma reads_stepT ifs : forall ds L s ups m,
    goodT L s ups m -> incl (L ++ flat_map (dgram_dlvs ifs now) ds) Lf -> reads_hidden ifs s now ds = false ->
    goodT (L ++ flat_map (dgram_dlvs ifs now) ds) (fst (run_cmds (handle_read ifs) s now ds))
          (upsf ups (snd (run_cmds (handle_read ifs) s now ds))) m.
  Proof.
    induction ds as [|d rest IH]; intros L s ups m Hg Hsub Hhid; simpl in *.
    - rewrite app_nil_r. exact Hg.
    - apply orb_false_iff in Hhid as [Hh1 Hh2]. rewrite app_assoc in Hsub.
      assert (Hsub1 : incl (L ++ dgram_dlvs ifs now d) Lf)
        by (intros x Hx; apply Hsub, in_app_iff; now left).
      pose proof (handle_read_stepT ifs L s d ups m Hg Hsub1 Hh1) as H1.
      destruct (handle_read ifs s now d) as [s1 o1]. cbn [fst snd] in *.
      pose proof (IH _ s1 _ m H1 Hsub Hh2) as H2.
      destruct (run_cmds (handle_read ifs) s1 now rest) as [s2 o2]. cbn [fst snd] in *.
      rewrite upsf_app, app_assoc. exact H2.
  Qed.

  (* stop_browse of ty2 is harmless when no instance has PTR records under ty2 and another name *)
  Definition stop_ok (ty2 : bytes) : Prop :=
    forall d d', In d Lf -> In d' Lf ->
      r_type (dl_rr d) = TY_PTR -> r_name (dl_rr d) = ty2 ->
      r_type (dl_rr d') = TY_PTR -> r_name (dl_rr d') <> ty2 -> alias_of (dl_rr d') <> alias_of (dl_rr d).

  (* the Prop form of `known_stop_second_name = false` for one call *)
  Definition call_ok (cl : call) : Prop := match cl with CStop ty2 => stop_ok ty2 | _ => True end.

  Lemma exec_call_stepT L s ups m cl m' :
    goodT L s ups m -> call_fresh m cl = Some m' -> call_ok cl ->
    goodT L (fst (exec_call s now cl)) (upsf ups (snd (exec_call s now cl))) m'.
  Proof.
    intros Hg Hfr Hok. pose proof Hg as (HI & Hsub & HU & (S1 & S2)).
    destruct cl as [ty ch|ty2|inst timeout|ch]; simpl in *.
    - (* browse: a fresh channel *)
      destruct (m <? ch) eqn:Em; [|discriminate]. inversion Hfr; subst m'. apply N.ltb_lt in Em.
      destruct (exec_browse_fields s now ty ch) as (Ec & Eq & Er & _). cbv zeta in *.
      unfold goodT. rewrite Ec, Eq. split; [exact HI|]. split; [exact Hsub|]. split.
      + intros ch0 ty0 inst Hu Hq. rewrite Eq in Hq. apply upsf_In in Hu as [[Hin _]|(r & Hr & Hs)]; cbn [fst snd] in *.
        * pose proof (S2 _ Hin) as Hc0. cbn [fst] in Hc0. apply q_get_q_set_old in Hq; [|lia].
          destruct (HU ch0 ty0 inst Hin Hq) as [A B]. split; [now rewrite Ec|]. apply mem_In, Er. left. now apply mem_In.
        * inversion Hs; subst ty0 inst.
          apply exec_browse_out in Hr as (ptrs & p & Eb & Hp & Hps & [E|[Hv E]]); [discriminate|]. inversion E; subst ch0 r.
          cbn [rs_ty rs_name resolve_from_cache].
          destruct (valid_alive (s_cache s) now ty (alias_of (e_rr p)) ptrs p Eb Hp eq_refl Hps Hv) as [V1 _].
          split; [rewrite Ec; now apply (alive_present _ now)|]. apply mem_In, Er. right. exists ptrs, p. auto.
      + split; [intros tc Hin; now apply (q_set_bound ty ch (s_q s) m)|]. intros u Hu.
        apply upsf_In in Hu as [[Hin _]|(r & Hr & _)]; [specialize (S2 _ Hin); lia|].
        apply exec_browse_out in Hr as (ptrs & p & _ & _ & _ & [E|[_ E]]); [discriminate|]. inversion E. lia.
    - inversion Hfr; subst m'. unfold exec_stop. destruct (q_get ty2 (s_q s)) eqn:Eq; [|exact Hg].
      simpl. pose proof (cshr_remove_service_type L (s_cache s) ty2 HI) as Hs.
      split; [eapply Inv_shr; eauto|]. split; [exact Hsub|]. split.
      + intros ch0 ty0 inst Hu Hq. cbn [s_q s_cache s_resolved] in *.
        apply q_get_q_remove in Hq as [Hq Hne].
        destruct (HU ch0 ty0 inst Hu Hq) as [Hp Hm]. split; [|exact Hm].
        apply rst_present; [exact Hne| |exact Hp].
        intros pb2 p2 Epb2 Hp2 Hal2.
        destruct Hp as (pb & p & _ & _ & _ & _ & Epb & Hpin & Hal & _).
        destruct (entry_delivery Lf L (s_cache s) HI Hsub KPtr ty2 pb2 p2 (bm_get_In _ _ _ Epb2) Hp2) as (d & Hd & Hrr & Hk & Hkey).
        destruct (entry_delivery Lf L (s_cache s) HI Hsub KPtr ty0 pb p (bm_get_In _ _ _ Epb) Hpin) as (d' & Hd' & Hrr' & Hk' & Hkey').
        apply kind_of_type_ptr in Hk, Hk'. unfold e_type, e_name in *. simpl in Hkey, Hkey'.
        apply (Hok d d' Hd Hd'); rewrite ?Hrr, ?Hrr'; auto; congruence.
      + split; [|exact S2]. intros tc Hin. cbn [s_q] in Hin. apply filter_In in Hin as [Hin _]. now apply S1.
    - inversion Hfr; subst m'. apply (quiet_stepT L s ups m); [exact Hg|]. apply (exec_call_quiet s now (CVerify inst timeout)).
    - inversion Hfr; subst m'. exact Hg.
  Qed.

  Lemma calls_stepT L : forall cls s ups m m',
    goodT L s ups m -> calls_fresh m cls = Some m' -> (forall cl, In cl cls -> call_ok cl) ->
    goodT L (fst (run_cmds exec_call s now cls)) (upsf ups (snd (run_cmds exec_call s now cls))) m'.
  Proof.
    induction cls as [|cl rest IH]; intros s ups m m' Hg Hfr Hok; simpl in *.
    - inversion Hfr; subst. exact Hg.
    - destruct (call_fresh m cl) as [m1|] eqn:E1; [|discriminate].
      pose proof (exec_call_stepT L s ups m cl m1 Hg E1 (Hok cl (or_introl eq_refl))) as H1.
      destruct (exec_call s now cl) as [s1 o1]. cbn [fst snd] in *.
      pose proof (IH s1 _ m1 m' H1 Hfr (fun c Hc => Hok c (or_intror Hc))) as H2.
      destruct (run_cmds exec_call s1 now rest) as [s2 o2]. cbn [fst snd] in *.
      rewrite upsf_app. exact H2.
  Qed.

  Lemma no_addr_invalid c ty inst sb key :
    bm_get inst (c_srv c) = Some sb -> (forall e1, In e1 sb -> lower (srv_host e1) = key) ->
    bm_get key (c_addr c) = None -> is_valid (resolve_from_cache c now ty inst) = false.
  Proof.
    intros Esb Hk Hnone. unfold is_valid, resolve_from_cache. cbn [rs_ty rs_name rs_host rs_addrs]. rewrite Esb.
    destruct (find (fun e => negb (expires_soon e now)) sb) as [e1|] eqn:Ef.
    - apply find_some in Ef as [He1 _]. unfold get_addr. rewrite (Hk e1 He1), Hnone. simpl. now rewrite !orb_true_r.
    - simpl. now rewrite orb_true_r.
  Qed.

  (* present, or waiting for the host's turn in resolve_hosts *)
  Definition presentW (c2 : cache) (names : list bytes) (ty inst : bytes) : Prop :=
    exists pb p sb e,
      bm_get ty (c_ptr c2) = Some pb /\ In p pb /\ alias_of (e_rr p) = inst
      /\ bm_get inst (c_srv c2) = Some sb /\ In e sb
      /\ ((exists ab a, bm_get (lower (srv_host e)) (c_addr c2) = Some ab /\ In a ab)
          \/ (bm_get (lower (srv_host e)) (c_addr c2) = None
              /\ exists h, In h names /\ lower h = lower (srv_host e))).

  (* UI while resolve_hosts still has `names` to visit *)
  Definition WI (s : st) (ups : list up_entry) (names : list bytes) : Prop :=
    forall ch ty inst, In (ch, (ty, inst)) ups -> q_get ty (s_q s) = Some ch ->
      presentW (s_cache s) names ty inst /\ mem inst (s_resolved s) = true.

  Lemma present_presentW c names ty inst : present c ty inst -> presentW c names ty inst.
  Proof.
    intros (pb & p & sb & e & ab & a & A1 & A2 & A3 & A4 & A5 & A6 & A7). exists pb, p, sb, e.
    repeat (split; [assumption|]). left. eauto.
  Qed.

  Lemma presentW_nil c ty inst : presentW c [] ty inst -> present c ty inst.
  Proof.
    intros (pb & p & sb & e & A1 & A2 & A3 & A4 & A5 & [(ab & a & B1 & B2)|(_ & h & [] & _)]).
    exists pb, p, sb, e, ab, a. repeat (split; [assumption|]). assumption.
  Qed.

  Lemma resolve_hosts_stepW L : forall names s ups m,
    Inv L (s_cache s) -> incl L Lf -> WI s ups names -> sideU (s_q s) ups m -> hosts_hidden s now names = false ->
    goodT L (fst (resolve_hosts s now names)) (upsf ups (snd (resolve_hosts s now names))) m.
  Proof.
    induction names as [|h t IH]; intros s ups m HI Hsub HW (S1 & S2) Hhid; simpl in *.
    - split; [exact HI|]. split; [exact Hsub|]. split; [|split; assumption].
      intros ch ty inst Hu Hq. destruct (HW ch ty inst Hu Hq) as [Hp Hm]. split; [now apply presentW_nil|exact Hm].
    - apply orb_false_iff in Hhid as [Hh1 Hh2].
      set (upd := dedup (get_instances_on_host (s_cache s) h)) in *.
      destruct (resolve_updated_state s now upd) as [Ec Eq].
      pose proof (fun ty ch pb p inst => stays_resolved L s upd ty ch pb p inst HI Hsub) as Hsr.
      pose proof (fun ch r => resolve_updated_up L s upd ch r HI) as Hup.
      pose proof (fun ups m => resolve_updated_sideU L s upd ups m HI) as HSU.
      pose proof (invalid_reported_or_hidden s upd) as Hrep.
      destruct (resolve_updated s now upd) as [s1 o1]. cbn [fst snd] in *.
      assert (HW1 : WI s1 (upsf ups o1) t).
      { intros ch ty inst Hu Hq. rewrite Eq in Hq. rewrite Ec.
        apply upsf_In in Hu as [[Hin Hno]|(r & Hr & Hs)]; cbn [fst snd] in *.
        - destruct (HW ch ty inst Hin Hq) as [(pb & p & sb & e & Epb & Hpin & Hal & Esb & He & Hd) Hm].
          split; [|exact (Hsr ty ch pb p inst Epb Hpin Hal Hq Hm Hh1 Hno)].
          exists pb, p, sb, e. repeat (split; [assumption|]).
          destruct Hd as [Hd|(Hnone & h' & Hin' & Hlow)]; [now left|right].
          split; [exact Hnone|]. destruct (beq (lower h) (lower (srv_host e))) eqn:Eh.
          + exfalso. apply beq_eq in Eh.
            assert (Hkeys : forall e1, In e1 sb -> lower (srv_host e1) = lower (srv_host e)).
            { intros e1 He1. apply (one_srv_target Lf Htgt L (s_cache s) HI Hsub inst sb e1 e (bm_get_In _ _ _ Esb) He1 He). }
            assert (Hupd : mem inst upd = true).
            { apply mem_In. unfold upd. apply In_dedup. unfold get_instances_on_host. apply in_flat_map.
              exists (inst, sb). split; [now apply bm_get_In|]. simpl. destruct sb as [|e0 rest]; [destruct He|].
              rewrite (Hkeys e0 (or_introl eq_refl)), <- Eh, beq_refl. now left. }
            pose proof (no_addr_invalid (s_cache s) ty inst sb _ Esb Hkeys Hnone) as Hinv.
            exact (Hno ty (Hrep ty ch pb p inst Epb Hpin Hal Hq Hupd Hm Hinv Hh1)).
          + exists h'. split; [|exact Hlow]. destruct Hin' as [<-|Hin']; [|exact Hin'].
            rewrite Hlow, beq_refl in Eh. discriminate.
        - inversion Hs; subst ty inst. destruct (Hup ch r Hr) as (_ & P & M). split; [now apply present_presentW|exact M]. }
      assert (HS1 : sideU (s_q s1) (upsf ups o1) m) by (rewrite Eq; apply (HSU _ _ (conj S1 S2))).
      assert (HI1 : Inv L (s_cache s1)) by (rewrite Ec; exact HI).
      pose proof (IH s1 _ m HI1 Hsub HW1 HS1 Hh2) as H2.
      destruct (resolve_hosts s1 now t) as [s2 o2]. cbn [fst snd] in *. rewrite upsf_app. exact H2.
  Qed.

  (* the two evictions keep the records of an instance that are unexpired, report the instance when
     its PTR or its last SRV goes, and name its host when the last address goes *)
  Lemma evict_presentW L c ty inst :
    Inv L c -> incl L Lf -> present c ty inst ->
    In (ty, inst) (snd (evict_services c now))
    \/ presentW (fst (evict_addr (fst (evict_services c now)) now))
                (dedup (snd (evict_addr (fst (evict_services c now)) now))) ty inst.
  Proof.
    intros HI Hsub (pb & p & sb & e & ab & a & Epb & Hpin & Hal & Esb & He & Eab & Ha).
    pose proof (bm_get_In _ _ _ Epb) as Hb. pose proof (bm_get_In _ _ _ Esb) as Hsb. pose proof (bm_get_In _ _ _ Eab) as Hab.
    destruct (is_expired p now) eqn:Ex.
    { left. rewrite <- Hal. exact (evict_services_reports_expired_ptr c now ty pb p Hb Hpin Ex). }
    destruct (live_only now sb) as [|e1 rest1] eqn:El.
    { left. rewrite <- Hal. apply (evict_services_reports_srv_expiry c now ty pb p sb Hb Hpin); [rewrite Hal; exact Hsb|exact El]. }
    right. rewrite evict_services_cache. unfold evict_addr. cbn [fst snd c_ptr c_srv c_addr].
    assert (He1 : In e1 (live_only now sb)) by (rewrite El; now left).
    assert (Hk1 : lower (srv_host e1) = lower (srv_host e))
      by (apply (one_srv_target Lf Htgt L c HI Hsub inst sb e1 e Hsb (proj1 (proj1 (live_only_In now sb e1) He1)) He)).
    exists (live_only now pb), p, (live_only now sb), e1. cbn [fst snd c_ptr c_srv c_addr].
    split; [now rewrite bm_get_map_live, Epb|]. split; [apply live_only_In; auto|]. split; [exact Hal|].
    split; [apply sweep_get_live; [apply (Inv_nodup L c KSrv HI)|exact Hsb|rewrite El; discriminate]|].
    split; [exact He1|]. rewrite Hk1. destruct (live_only now ab) as [|a1 rest2] eqn:Ela.
    - right. split; [apply (sweep_get_dead now _ ab _ (Inv_nodup L _ KAddr HI) Hab Ela)|].
      exists (e_name a). split.
      + apply In_dedup, in_flat_map. exists (lower (srv_host e), ab). split; [exact Hab|]. cbn [snd].
        apply in_map_iff. exists a. split; [reflexivity|]. apply filter_In. split; [exact Ha|].
        destruct (is_expired a now) eqn:Exa; [reflexivity|]. exfalso.
        assert (H : In a (live_only now ab)) by (apply live_only_In; auto). rewrite Ela in H. destruct H.
      + destruct (entry_delivery Lf L c HI Hsub KAddr _ ab a Hab Ha) as (d & _ & _ & _ & Hkey). symmetry. exact Hkey.
    - left. exists (live_only now ab), a1. split; [|rewrite Ela; now left].
      apply sweep_get_live; [apply (Inv_nodup L c KAddr HI)|exact Hab|rewrite Ela; discriminate].
  Qed.

  Lemma evict_stepT L s ups m :
    goodT L s ups m -> evict_hidden s now = false ->
    goodT L (fst (evict s now)) (upsf ups (snd (evict s now))) m /\ all_live (s_cache (fst (evict s now))) now.
  Proof.
    intros (HI & Hsub & HU & (S1 & S2)) Hhid. unfold evict, evict_hidden in *.
    pose proof (fun ty inst => evict_presentW L (s_cache s) ty inst HI Hsub) as Hpw.
    pose proof (cshr_evict_services L (s_cache s) now HI) as Hs1.
    pose proof (evict_all_live (s_cache s) now) as Hlive.
    destruct (evict_services (s_cache s) now) as [c1 expired]. cbn [fst snd] in *.
    assert (H1 : Inv L c1) by (eapply Inv_shr; eauto).
    pose proof (cshr_evict_addr L c1 now H1) as Hs2.
    destruct (evict_addr c1 now) as [c2 names]. cbn [fst snd] in *.
    assert (H2 : Inv L c2) by (eapply Inv_shr; eauto).
    assert (Hnr : forall u, In u (upsf ups (notify_removal (s_q s) expired)) -> In u ups /\ forall t, ~ In (OEvt (fst u) (ERemoved t (snd (snd u)))) (notify_removal (s_q s) expired)).
    { intros u Hu. apply upsf_In in Hu as [H|(r & Hr & _)]; [exact H|].
      apply notify_removal_shape in Hr as (c0 & t & i & E & _). discriminate. }
    assert (HW : WI (with_cache s c2) (upsf ups (notify_removal (s_q s) expired)) (dedup names)).
    { intros ch ty inst Hu Hq. destruct (Hnr _ Hu) as [Hin Hno]. cbn [s_q s_cache s_resolved with_cache fst snd] in *.
      destruct (HU ch ty inst Hin Hq) as [Hp Hm]. split; [|exact Hm]. destruct (Hpw ty inst Hp) as [Hrep|Hw]; [|exact Hw].
      destruct (Hno ty). apply notify_removal_complete; [now apply q_get_In|exact Hrep]. }
    assert (HS : sideU (s_q (with_cache s c2)) (upsf ups (notify_removal (s_q s) expired)) m)
      by (split; [exact S1|intros u Hu; apply S2, (Hnr _ Hu)]).
    pose proof (resolve_hosts_stepW L (dedup names) (with_cache s c2) _ m H2 Hsub HW HS Hhid) as Hfin.
    destruct (resolve_hosts_state now (dedup names) (with_cache s c2)) as [Ecf _].
    destruct (resolve_hosts (with_cache s c2) now (dedup names)) as [s2 o2]. cbn [fst snd] in *.
    split; [rewrite upsf_app; exact Hfin|]. rewrite Ecf. exact Hlive.
  Qed.

  Theorem iterate_timely ifs prev s it ups m m' :
    i_now it = now -> goodT prev s ups m -> incl (prev ++ iter_dlvs ifs it) Lf ->
    calls_fresh m (i_calls it) = Some m' -> (forall cl, In cl (i_calls it) -> call_ok cl) ->
    iter_hidden ifs s it = false ->
    goodT (prev ++ iter_dlvs ifs it) (fst (iterate ifs s it)) (upsf ups (snd (iterate ifs s it))) m'
    /\ all_live (s_cache (fst (iterate ifs s it))) now.
  Proof.
    intros Enow Hg Hsub Hfr Hok Hhid. rewrite iterate_eq. unfold iter_hidden, iter_dlvs in *. cbv zeta in *.
    cbn [fst snd]. rewrite Enow in *. set (dgs := deliveries_in_order (i_dgrams it)) in *.
    apply orb_false_iff in Hhid as [Hh1 Hh2].
    pose proof (reads_stepT ifs dgs prev s ups m Hg Hsub Hh1) as St1.
    set (r1 := run_cmds (handle_read ifs) s now dgs) in *.
    pose proof (calls_stepT _ (i_calls it) (fst r1) _ m m' St1 Hfr Hok) as St2.
    set (r2 := run_cmds exec_call (fst r1) now (i_calls it)) in *.
    pose proof (retrans_refresh_quiet (fst r2) now) as Q3. cbv zeta in Q3.
    pose proof (quiet_stepT _ _ _ _ _ _ St2 Q3) as St3.
    destruct (evict_stepT _ _ _ m' St3 Hh2) as [St5 Hl].
    split; [|exact Hl]. rewrite upsf_app in St5. rewrite !upsf_app. exact St5.
  Qed.
End Timely.
