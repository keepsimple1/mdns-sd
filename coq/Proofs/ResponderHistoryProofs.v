(* C06 on the daemon model (Model/IntfDaemon.v): in EVERY state - hence in every state reachable
   by any history of registrations, unregistrations, interface events, selections and traffic -
   every record of every response to an injected datagram is a record of a service that is in
   my_services at that moment and Announced on the receiving interface. *)
From Coq Require Import List NArith.
From Mdns Require Import Rec Intf Responder IntfDaemon ResponderJustProofs IntfDaemonProofs.
Import ListNotations.
Open Scope N_scope.

(* the service registered under key k is Announced on interface idx and r is one of its records *)
Definition registered_announced_rec (d : dstate) (idx : N) (intf : myintf) (r : rr) : Prop :=
  exists k ds, In (k, ds) (d_svcs d) /\ status_get idx (ds_status ds) = Announced /\
               svc_rec [] intf (ds_svc ds) r.

Theorem daemon_answers_justified d g o : In o (snd (handle_dgram d g)) ->
  match o with
  | OSent p => exists intf p0,
      intf_get (dg_if g) (d_intfs d) = Some intf /\ p = reroute (d_os d) intf p0 /\
      Forall (registered_announced_rec d (dg_if g) intf) (p_answers p0 ++ p_additionals p0)
  | _ => True
  end.
Proof.
  apply handle_dgram_cases.
  - intros [].
  - intros intf m p0 Eg _ Eq [<-|[]]. exists intf, p0. split; [exact Eg|]. split; [reflexivity|].
    pose proof (response_records_justified _ _ Eq) as H. cbn [h_services h_name_changes h_intf] in H.
    eapply Forall_impl; [|exact H]. intros r (e & He & Ha & Hr).
    unfold entries_on in He. apply in_map_iff in He as [[k ds] [<- Hin]]. simpl in *.
    exists k, ds. split; [exact Hin|]. split; [|exact Hr].
    destruct (status_get (dg_if g) (ds_status ds)); try discriminate. reflexivity.
  - intros intf m _ _. destruct (handle_response_eq d intf m) as (c & res & out & -> & Hev & _). intros Hin.
    rewrite Forall_forall in Hev. specialize (Hev o Hin). destruct o; simpl in *; tauto.
Qed.
