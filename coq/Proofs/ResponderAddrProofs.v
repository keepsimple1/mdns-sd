(* For every input of the responder model (no hypothesis on the services): every address record
   handle_query puts into a response is an address of a listed service that lies in a subnet of
   an address of the receiving interface (a consequence of response_records_justified); the
   destination and interface of the response (read off the closed form of handle_query).
   Used by the history-level theorems of C18 (Proofs/IntfHistoryProofs.v) and C06. *)
From Coq Require Import List Bool.
From Mdns Require Import Rec Intf Responder ResponderSpec ResponderReply ResponderJustProofs.
Import ListNotations.
Open Scope N_scope.

(* r is not an address record, or the address of a service of `svcs` on the link of `intf` *)
Definition link_rec (svcs : list service) (intf : myintf) (r : rr) : Prop :=
  match r_data r with
  | RAddr o => exists s a, In s svcs /\ In a (s_addrs s) /\ o = ip_octets a /\ addr_on_intf intf a = true
  | _ => True
  end.

Lemma just_link entries nc intf r : just_rec entries nc intf r -> link_rec (map e_svc entries) intf r.
Proof.
  intros (e & He & _ & H). unfold link_rec. destruct (r_data r) eqn:Er; try exact I.
  destruct (svc_rec_addr_inv _ _ _ _ _ H Er) as (a & Ha & Hon & Ho).
  exists (e_svc e), a. repeat split; auto. apply in_map. exact He.
Qed.

Definition dest_v4 (d : dest) : bool := match d with DMulticast v4 => v4 | DUnicast x _ => is_v4 x end.

Theorem handle_query_packet inp p : handle_query inp = Some p ->
  Forall (link_rec (map e_svc (h_services inp)) (h_intf inp)) (p_answers p ++ p_additionals p) /\
  p_if p = mi_index (h_intf inp) /\
  (exists a, In a (mi_addrs (h_intf inp)) /\ is_v4 (ia_ip a) = dest_v4 (p_dest p)) /\
  dest_v4 (p_dest p) = is_v4 (h_src_ip inp).
Proof.
  intros H. split.
  { eapply Forall_impl; [|exact (response_records_justified inp p H)]. intros r. apply just_link. }
  rewrite handle_query_closed in H. apply reply_some in H as [Hfam ->]. cbn [reply_packet p_if p_dest].
  assert (Hd : dest_v4 (if legacy inp then DUnicast (h_src_ip inp) (h_src_port inp)
                        else DMulticast (is_v4 (h_src_ip inp))) = is_v4 (h_src_ip inp))
    by (destruct (legacy inp); reflexivity).
  rewrite Hd. split; [reflexivity|]. split; [|reflexivity].
  rewrite family_enabled_existsb in Hfam. apply existsb_exists in Hfam as (a & Hin & Ha).
  exists a. split; [exact Hin|]. apply eqb_prop. exact Ha.
Qed.
