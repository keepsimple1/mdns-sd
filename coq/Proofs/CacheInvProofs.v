(* The cache invariant behind C03: `Inv L c`, L = the log of deliveries processed so far, says
   that every cached record is accounted for by L (`entry_ok`) and that keys and identities are
   unique.  add_or_update extends the log by one delivery and preserves the invariant; every
   other cache operation only removes records, lowers expiry times or moves refresh marks
   (`cshr`) and preserves it for the same log. *)
From Coq Require Import List NArith Bool Lia.
From Mdns Require Import Bytes ListFacts Rec ParamsBrowserPinned Cache C03Spec CacheProofs.
Import ListNotations.
Open Scope N_scope.

(* e, filed in bucket `key` of kind k, is accounted for by the log L: it is filed under its own
   type and name; some delivery d of L carries its record, at its creation time, for addresses
   on its interface; no later delivery has d's identity; it expires within its TTL, and at most a
   second after any later delivery that displaces d *)
Definition entry_ok (L : list dlv) (k : kind) (key : bytes) (e : entry) : Prop :=
  kind_of_type (e_type e) = Some k /\ key = key_of k (e_name e) /\
  exists L1 d L2, L = L1 ++ d :: L2 /\ dl_rr d = e_rr e /\ dl_t d = e_created e
    /\ (is_addr_type (e_type e) = true -> dl_if d = e_if e)
    /\ (forall d', In d' L2 -> same_key d d' = false)
    /\ e_expires e <= e_created e + 1000 * e_ttl e
    /\ (forall f, In f L2 -> displaces f d = true -> e_expires e <= dl_t f + 1000).

(* in plain terms: the record was delivered, at the time recorded as its creation, on the
   interface it is tagged with (addresses), is filed under its own name and type, and expires
   no later than its TTL allows *)
Lemma entry_ok_delivered L k key e :
  entry_ok L k key e ->
  exists d, In d L /\ dl_rr d = e_rr e /\ dl_t d = e_created e
    /\ (is_addr_type (e_type e) = true -> dl_if d = e_if e)
    /\ e_expires e <= e_created e + 1000 * e_ttl e
    /\ kind_of_type (e_type e) = Some k /\ key = key_of k (e_name e).
Proof.
  intros (A & B & L1 & d & L2 & HL & C & D & E & _ & F & _). exists d. repeat split; auto.
  rewrite HL. apply in_app_iff. right. now left.
Qed.

(* no two records of one identity (DnsRecordExt::matches) *)
Definition nodup_bucket (b : bucket) : Prop :=
  ForallOrdPairs (fun x y => entry_matches x (e_rr y) (e_if y) = false) b.

Definition map_ok (L : list dlv) (k : kind) (m : bmap) : Prop :=
  NoDup (map fst m) /\
  forall key b, In (key, b) m -> nodup_bucket b /\ forall e, In e b -> entry_ok L k key e.

Definition Inv (L : list dlv) (c : cache) : Prop := forall k, map_ok L k (get_map c k).

Lemma Inv_empty : Inv [] empty_cache.
Proof. intros k. destruct k; (split; [constructor|intros ? ? []]). Qed.

Lemma Inv_ext L c c' : (forall k, get_map c' k = get_map c k) -> Inv L c -> Inv L c'.
Proof. intros H HI k. rewrite H. apply HI. Qed.

Lemma nodup_keys_functional (m : bmap) k b1 b2 :
  NoDup (map fst m) -> In (k, b1) m -> In (k, b2) m -> b1 = b2.
Proof.
  intros ND H1 H2. apply (In_bm_get _ _ _ ND) in H1. apply (In_bm_get _ _ _ ND) in H2. congruence.
Qed.

(* the same record identity: equal up to the TTL (erased by set_ttl _ 0) and the times *)
Definition id_eq (e e' : entry) : Prop := set_ttl (e_rr e) 0 = set_ttl (e_rr e') 0 /\ e_if e = e_if e'.

Lemma id_eq_refl e : id_eq e e.
Proof. split; reflexivity. Qed.

Lemma id_eq_matches_l e e' r i : id_eq e e' -> entry_matches e r i = entry_matches e' r i.
Proof.
  intros [H1 H2]. unfold entry_matches. rewrite <- (rr_matches_set_ttl_l (e_rr e) _ _ _ 0), <- (rr_matches_set_ttl_l (e_rr e') _ _ _ 0).
  now rewrite H1, H2.
Qed.

Lemma id_eq_matches_r x e e' : id_eq e e' ->
  entry_matches x (e_rr e) (e_if e) = entry_matches x (e_rr e') (e_if e').
Proof.
  intros [H1 H2]. unfold entry_matches.
  rewrite <- (rr_matches_set_ttl_r _ _ (e_rr e) _ 0), <- (rr_matches_set_ttl_r _ _ (e_rr e') _ 0). now rewrite H1, H2.
Qed.

Lemma nodup_bucket_id b b' : Forall2 id_eq b b' -> nodup_bucket b -> nodup_bucket b'.
Proof.
  intros HF. induction HF as [|x x' l l' Hx HF IH]; intros ND; [constructor|].
  inversion ND as [|? ? Hall Hrest]; subst. constructor; [|apply IH; exact Hrest].
  clear IH Hrest ND. induction HF as [|y y' t t' Hy HF IH]; [constructor|].
  inversion Hall as [|? ? Hy1 Hy2]; subst. constructor; [|apply IH; exact Hy2].
  rewrite <- (id_eq_matches_l x x' _ _ Hx). now rewrite <- (id_eq_matches_r x y y' Hy).
Qed.

(* e' is e with its expiry possibly lowered (the refresh mark is free) *)
Definition eshr (e e' : entry) : Prop :=
  e_rr e' = e_rr e /\ e_created e' = e_created e /\ e_if e' = e_if e /\ e_expires e' <= e_expires e.

Lemma eshr_refl e : eshr e e.
Proof. repeat split; auto. lia. Qed.

Lemma eshr_trans a b c : eshr a b -> eshr b c -> eshr a c.
Proof. intros (A1 & A2 & A3 & A4) (B1 & B2 & B3 & B4). repeat split; try congruence. lia. Qed.

Lemma eshr_id e e' : eshr e e' -> id_eq e e'.
Proof. intros (H1 & _ & H3 & _). split; congruence. Qed.

(* b' is b with some records dropped and the others shrunk, in order *)
Inductive bshr : bucket -> bucket -> Prop :=
| bshr_nil : bshr [] []
| bshr_drop e b b' : bshr b b' -> bshr (e :: b) b'
| bshr_keep e e' b b' : eshr e e' -> bshr b b' -> bshr (e :: b) (e' :: b').

Lemma bshr_refl b : bshr b b.
Proof. induction b; [constructor|apply bshr_keep; auto using eshr_refl]. Qed.

Lemma bshr_in b b' e' : bshr b b' -> In e' b' -> exists e, In e b /\ eshr e e'.
Proof.
  intros H. induction H as [|e b b' H IH|e e1 b b' He H IH]; simpl; [tauto| |].
  - intros Hi. destruct (IH Hi) as [x [Hx1 Hx2]]. exists x. auto.
  - intros [Hi|Hi]; [subst; exists e; auto|]. destruct (IH Hi) as [x [Hx1 Hx2]]. exists x. auto.
Qed.

Lemma bshr_nil_inv b' : bshr [] b' -> b' = [].
Proof. intros H. inversion H. reflexivity. Qed.

Lemma bshr_trans a b c : bshr a b -> bshr b c -> bshr a c.
Proof.
  intros H. revert c. induction H as [|e b b' H IH|e e1 b b' He H IH]; intros c Hc.
  - assumption.
  - apply bshr_drop. auto.
  - inversion Hc; subst.
    + apply bshr_drop. auto.
    + apply bshr_keep; [eapply eshr_trans; eauto|auto].
Qed.

Lemma bshr_filter p b : bshr b (filter p b).
Proof.
  induction b as [|e b IH]; simpl; [constructor|].
  destruct (p e); [apply bshr_keep; auto using eshr_refl|apply bshr_drop; auto].
Qed.

Lemma bshr_map f b : (forall e, eshr e (f e)) -> bshr b (map f b).
Proof. intros Hf. induction b; simpl; [constructor|apply bshr_keep; auto]. Qed.

Lemma bshr_nodup b b' : nodup_bucket b -> bshr b b' -> nodup_bucket b'.
Proof.
  intros ND H. induction H as [|e b b' H IH|e e1 b b' He H IH].
  - constructor.
  - inversion ND; subst. apply IH. assumption.
  - inversion ND as [|? ? Hall Hrest]; subst. constructor; [|apply IH; exact Hrest].
    apply Forall_forall. intros x' Hx'. destruct (bshr_in _ _ _ H Hx') as [x [Hx Hs]].
    rewrite Forall_forall in Hall. specialize (Hall x Hx).
    rewrite <- (id_eq_matches_l e e1 _ _ (eshr_id _ _ He)).
    now rewrite <- (id_eq_matches_r e x x' (eshr_id _ _ Hs)).
Qed.

Lemma entry_ok_shr L k key e e' : entry_ok L k key e -> eshr e e' -> entry_ok L k key e'.
Proof.
  intros (Hk & Hkey & L1 & d & L2 & HL & Hrr & Ht & Hif & Hsame & Hexp & Hdis) (S1 & S2 & S3 & S4).
  unfold entry_ok, e_type, e_name, e_ttl in *. rewrite S1. split; [assumption|]. split; [assumption|].
  exists L1, d, L2. rewrite S2, S3. repeat split; auto; try congruence.
  - lia.
  - intros f Hf Hd. specialize (Hdis f Hf Hd). lia.
Qed.

(* m' is obtained from m by shrinking / emptying / dropping buckets, or adding empty ones *)
Definition mshr (m m' : bmap) : Prop :=
  NoDup (map fst m') /\
  forall key b', In (key, b') m' -> b' = [] \/ exists b, In (key, b) m /\ bshr b b'.

Lemma map_ok_shr L k m m' : map_ok L k m -> mshr m m' -> map_ok L k m'.
Proof.
  intros [ND H] [ND' H']. split; [assumption|]. intros key b' Hin.
  destruct (H' key b' Hin) as [->|[b [Hb Hs]]].
  - split; [constructor|intros ? []].
  - destruct (H key b Hb) as [Hn He]. split; [eapply bshr_nodup; eauto|].
    intros e' He'. destruct (bshr_in _ _ _ Hs He') as [e [Hie Hse]]. eapply entry_ok_shr; eauto.
Qed.

Lemma mshr_refl m : NoDup (map fst m) -> mshr m m.
Proof. intros ND. split; [assumption|]. intros key b Hin. right. exists b. auto using bshr_refl. Qed.

Lemma mshr_trans a b c : mshr a b -> mshr b c -> mshr a c.
Proof.
  intros [_ H1] [ND H2]. split; [assumption|]. intros key b'' Hin.
  destruct (H2 key b'' Hin) as [->|[b' [Hb' Hs']]]; [now left|].
  destruct (H1 key b' Hb') as [->|[b0 [Hb0 Hs0]]].
  - left. now apply bshr_nil_inv.
  - right. exists b0. split; [assumption|]. eapply bshr_trans; eauto.
Qed.

Lemma mshr_bm_set m key b b' :
  NoDup (map fst m) -> (b' = [] \/ (In (key, b) m /\ bshr b b')) -> mshr m (bm_set key b' m).
Proof.
  intros ND Hb. split; [now apply bm_set_nodup|]. intros k1 b1 Hin.
  apply bm_set_In in Hin as [[-> ->]|Hin].
  - destruct Hb as [->|[Hb1 Hb2]]; [now left|right; eauto].
  - right. exists b1. auto using bshr_refl.
Qed.

Lemma mshr_bm_remove m key : NoDup (map fst m) -> mshr m (bm_remove key m).
Proof.
  intros ND. split; [now apply bm_remove_nodup|]. intros k1 b1 Hin. apply bm_remove_In in Hin.
  right. exists b1. auto using bshr_refl.
Qed.

Lemma mshr_nodup_r m m' : mshr m m' -> NoDup (map fst m').
Proof. now intros [H _]. Qed.

(* map by map; the subtype table is free *)
Definition cshr (c c' : cache) : Prop := forall k, mshr (get_map c k) (get_map c' k).

Lemma Inv_shr L c c' : Inv L c -> cshr c c' -> Inv L c'.
Proof. intros HI HS k. eapply map_ok_shr; [apply HI|apply HS]. Qed.

Lemma Inv_nodup L c k : Inv L c -> NoDup (map fst (get_map c k)).
Proof. intros H. apply (H k). Qed.

Lemma cshr_refl L c : Inv L c -> cshr c c.
Proof. intros H k. apply mshr_refl. eapply Inv_nodup; eauto. Qed.

Lemma cshr_trans a b c : cshr a b -> cshr b c -> cshr a c.
Proof. intros H1 H2 k. eapply mshr_trans; eauto. Qed.

Lemma mshr_upd m k (f : bucket -> bucket) :
  NoDup (map fst m) -> (forall b, bshr b (f b)) ->
  mshr m (match bm_get k m with Some b => bm_set k (f b) m | None => m end).
Proof.
  intros ND Hf. destruct (bm_get k m) as [b|] eqn:E; [|now apply mshr_refl].
  apply (mshr_bm_set m k b (f b) ND). right. split; [now apply bm_get_In|apply Hf].
Qed.

Lemma mshr_map m (f : bucket -> bucket) :
  NoDup (map fst m) -> (forall b, bshr b (f b)) -> mshr m (map (fun kb => (fst kb, f (snd kb))) m).
Proof.
  intros ND Hf. split; [now rewrite map_map|]. intros key b' Hin.
  apply in_map_iff in Hin as [[k0 b0] [[= <- <-] H2]]. right. exists b0. auto.
Qed.

Lemma mshr_sweep now m : NoDup (map fst m) -> mshr m (sweep now m).
Proof.
  intros ND. destruct (mshr_map m (live_only now) ND (bshr_filter _)) as [ND' H]. split.
  - now apply NoDup_map_filter.
  - intros key b' Hin. apply filter_In in Hin as [Hin _]. now apply H.
Qed.

Lemma cshr_maps L c c' :
  Inv L c -> (forall k, NoDup (map fst (get_map c k)) -> mshr (get_map c k) (get_map c' k)) -> cshr c c'.
Proof. intros HI H k. apply H, (Inv_nodup _ _ k HI). Qed.

Lemma cshr_evict_services L c now : Inv L c -> cshr c (fst (evict_services c now)).
Proof.
  intros HI. rewrite evict_services_cache. apply (cshr_maps L _ _ HI).
  intros [] ND; cbn [get_map c_ptr c_srv c_txt c_addr c_nsec];
    [apply mshr_map; [exact ND|apply bshr_filter] | | | now apply mshr_refl | ]; now apply mshr_sweep.
Qed.

Lemma cshr_evict_addr L c now : Inv L c -> cshr c (fst (evict_addr c now)).
Proof.
  intros HI. apply (cshr_maps L _ _ HI). intros [] ND; cbn [get_map evict_addr fst c_ptr c_srv c_txt c_addr c_nsec];
    [now apply mshr_refl..| |now apply mshr_refl]. now apply mshr_sweep.
Qed.

Lemma mshr_fold_remove (l : list bytes) : forall m,
  NoDup (map fst m) -> mshr m (fold_left (fun m i => bm_remove i m) l m).
Proof.
  induction l as [|i l IH]; intros m ND; simpl; [now apply mshr_refl|].
  eapply mshr_trans; [apply mshr_bm_remove; assumption|]. apply IH. now apply bm_remove_nodup.
Qed.

Lemma mshr_fold_remove_if (still : list bytes) (l : list bytes) : forall m,
  NoDup (map fst m) ->
  mshr m (fold_left (fun m h => if mem h still then m else bm_remove h m) l m).
Proof.
  induction l as [|i l IH]; intros m ND; simpl; [now apply mshr_refl|].
  destruct (mem i still); [now apply IH|].
  eapply mshr_trans; [apply mshr_bm_remove; assumption|]. apply IH. now apply bm_remove_nodup.
Qed.

Lemma cshr_remove_service_type L c ty : Inv L c -> cshr c (remove_service_type c ty).
Proof.
  intros HI. unfold remove_service_type. destruct (bm_get ty (c_ptr c)) as [ptrs|]; [|eapply cshr_refl; eauto].
  apply (cshr_maps L _ _ HI). intros [] ND; cbn [get_map c_ptr c_srv c_txt c_addr c_nsec].
  - now apply mshr_bm_remove.
  - now apply mshr_fold_remove.
  - now apply mshr_fold_remove.
  - now apply mshr_fold_remove_if.
  - now apply mshr_refl.
Qed.

Lemma bshr_sooner_all at_ b : bshr b (sooner_all at_ b).
Proof.
  destruct at_ as [x|]; simpl; [|apply bshr_refl]. apply bshr_map. intros e.
  destruct (expire_sooner_fields e x) as (A & B & C). repeat split; auto. apply expire_sooner_le.
Qed.

Lemma mshr_verify_addrs at_ srvs : forall addr, NoDup (map fst addr) -> mshr addr (verify_addrs at_ srvs addr).
Proof.
  induction srvs as [|s rest IH]; intros addr ND; simpl; [now apply mshr_refl|].
  pose proof (mshr_upd addr (lower (srv_host s)) (sooner_all at_) ND (bshr_sooner_all at_)) as H.
  exact (mshr_trans _ _ _ H (IH _ (mshr_nodup_r _ _ H))).
Qed.

Lemma cshr_verify L c inst at_ : Inv L c -> cshr c (fst (service_verify_queries c inst at_)).
Proof.
  intros HI. unfold service_verify_queries. destruct (bm_get inst (c_srv c)) as [sb|] eqn:E; [|eapply cshr_refl; eauto].
  apply (cshr_maps L _ _ HI). intros [] ND; cbn [get_map fst c_ptr c_srv c_txt c_addr c_nsec];
    [now apply mshr_refl| |now apply mshr_refl|now apply mshr_verify_addrs|now apply mshr_refl].
  pose proof (mshr_upd (c_srv c) inst (sooner_all at_) ND (bshr_sooner_all at_)) as H. now rewrite E in H.
Qed.

Lemma bshr_refresh_bucket now b : bshr b (fst (refresh_bucket now b)).
Proof.
  induction b as [|e t IH]; simpl; [constructor|].
  destruct (refresh_maybe_fields e now) as (A & B & C & D).
  destruct (refresh_maybe e now) as [e' due]. destruct (refresh_bucket now t) as [t' due'].
  simpl in *. apply bshr_keep; [|assumption]. repeat split; auto. lia.
Qed.

Lemma mshr_refresh_key now k m : NoDup (map fst m) -> mshr m (fst (refresh_key now k m)).
Proof.
  intros ND. pose proof (mshr_upd m k (fun b => fst (refresh_bucket now b)) ND (bshr_refresh_bucket now)) as H.
  unfold refresh_key. destruct (bm_get k m) as [b|]; [|exact H]. now destruct (refresh_bucket now b).
Qed.

Lemma mshr_refresh_srv_txt now insts : forall srv txt,
  NoDup (map fst srv) -> NoDup (map fst txt) ->
  mshr srv (fst (fst (refresh_srv_txt now insts srv txt))) /\ mshr txt (snd (fst (refresh_srv_txt now insts srv txt))).
Proof.
  induction insts as [|i rest IH]; intros srv txt NDs NDt; simpl; [split; now apply mshr_refl|].
  pose proof (mshr_refresh_key now i srv NDs) as A. pose proof (mshr_refresh_key now i txt NDt) as B.
  destruct (refresh_key now i srv) as [srv1 d1]. destruct (refresh_key now i txt) as [txt1 d2]. simpl in A, B.
  destruct (IH srv1 txt1 (mshr_nodup_r _ _ A) (mshr_nodup_r _ _ B)) as [C D].
  destruct (refresh_srv_txt now rest srv1 txt1) as [[srv2 txt2] q]. simpl in *.
  split; eapply mshr_trans; eauto.
Qed.

Lemma mshr_refresh_hosts now hosts : forall addr,
  NoDup (map fst addr) -> mshr addr (fst (refresh_hosts now hosts addr)).
Proof.
  induction hosts as [|h rest IH]; intros addr ND; simpl; [now apply mshr_refl|].
  pose proof (mshr_refresh_key now (lower h) addr ND) as A.
  destruct (refresh_key now (lower h) addr) as [addr1 d]. simpl in A.
  specialize (IH addr1 (mshr_nodup_r _ _ A)). destruct (refresh_hosts now rest addr1) as [addr2 q].
  simpl in *. eapply mshr_trans; eauto.
Qed.

Lemma cshr_refresh_type L c ty now : Inv L c -> cshr c (fst (refresh_type c ty now)).
Proof.
  intros HI. unfold refresh_type.
  pose proof (mshr_refresh_key now ty (c_ptr c) (Inv_nodup _ _ KPtr HI)) as P.
  destruct (refresh_key now ty (c_ptr c)) as [ptr1 d0]. cbn [fst c_srv c_txt c_addr c_nsec c_sub] in *.
  match goal with |- context [refresh_srv_txt now ?i ?s ?t] =>
    destruct (mshr_refresh_srv_txt now i s t (Inv_nodup _ _ KSrv HI) (Inv_nodup _ _ KTxt HI)) as [A B];
    destruct (refresh_srv_txt now i s t) as [[srv1 txt1] q1] end.
  match goal with |- context [refresh_hosts now ?h ?a] =>
    pose proof (mshr_refresh_hosts now h a (Inv_nodup _ _ KAddr HI)) as D;
    destruct (refresh_hosts now h a) as [addr1 q2] end.
  apply (cshr_maps L _ _ HI). intros [] ND; cbn [get_map fst snd c_ptr c_srv c_txt c_addr c_nsec] in *;
    [exact P|exact A|exact B|exact D|now apply mshr_refl].
Qed.

Lemma same_key_entry d e r ifx now :
  dl_rr d = e_rr e -> (is_addr_type (e_type e) = true -> dl_if d = e_if e) ->
  same_key d (mkDlv now ifx r) = entry_matches e r ifx.
Proof.
  intros H1 H2. unfold same_key, entry_matches, rr_matches. simpl. rewrite H1.
  unfold e_type in H2. destruct (is_addr_type (r_type (e_rr e))); [|reflexivity]. now rewrite H2.
Qed.

Lemma same_bucket_inv a b ka :
  same_bucket a b = true -> kind_of_type (r_type b) = Some ka ->
  kind_of_type (r_type a) = Some ka /\ key_of ka (r_name a) = key_of ka (r_name b).
Proof.
  unfold same_bucket. intros H Hb. rewrite Hb in H.
  destruct (kind_of_type (r_type a)) as [k|]; [|discriminate].
  apply andb_true_iff in H as [H1 H2]. apply beq_eq in H2.
  destruct k, ka; simpl in H1; try discriminate; auto.
Qed.

Lemma entry_ok_snoc_other L k key e d' :
  entry_ok L k key e ->
  (kind_of_type (r_type (dl_rr d')) = Some k -> key_of k (r_name (dl_rr d')) <> key) ->
  entry_ok (L ++ [d']) k key e.
Proof.
  intros (Hk & Hkey & L1 & d & L2 & HL & Hrr & Ht & Hif & Hsame & Hexp & Hdis) Hother.
  split; [assumption|]. split; [assumption|].
  exists L1, d, (L2 ++ [d']). split; [rewrite HL, <- app_assoc; reflexivity|].
  repeat split; auto.
  - intros x Hx. apply in_app_iff in Hx as [Hx|[<-|[]]]; [auto|].
    destruct (same_key d d') eqn:E; [|reflexivity]. exfalso.
    apply rr_matches_spec in E as (E1 & E2 & _). rewrite Hrr in E1, E2.
    unfold e_type, e_name in *. apply Hother; [now rewrite <- E2|]. now rewrite <- E1.
  - intros f Hf Hd. apply in_app_iff in Hf as [Hf|[<-|[]]]; [auto|]. exfalso.
    unfold displaces in Hd.
    apply andb_true_iff in Hd as [Hd _]. apply andb_true_iff in Hd as [Hd _].
    apply andb_true_iff in Hd as [Hd _]. apply andb_true_iff in Hd as [Hd _].
    apply andb_true_iff in Hd as [_ Hsb].
    rewrite Hrr in Hsb. destruct (same_bucket_inv _ _ k Hsb Hk) as [A B].
    apply Hother; [assumption|]. now rewrite B.
Qed.

Lemma entry_ok_new L k key r now ifx :
  kind_of_type (r_type r) = Some k -> key = key_of k (r_name r) ->
  entry_ok (L ++ [mkDlv now ifx r]) k key (new_entry r now ifx).
Proof.
  intros Hk Hkey. split; [exact Hk|]. split; [exact Hkey|].
  exists L, (mkDlv now ifx r), []. simpl. repeat split; auto; try (intros ? []).
  rewrite full_life. unfold e_ttl. simpl. lia.
Qed.

Lemma entry_ok_reset L k key e r now ifx :
  entry_ok L k key e -> entry_matches e r ifx = true ->
  entry_ok (L ++ [mkDlv now ifx r]) k key (reset_ttl e r now).
Proof.
  intros (Hk & Hkey & _) Hm. unfold entry_matches in Hm.
  pose proof (set_ttl_of_match _ _ _ _ Hm) as Hset.
  apply rr_matches_spec in Hm as (M1 & M2 & M3 & M4 & M5 & M6).
  split; [exact Hk|]. split; [exact Hkey|].
  exists L, (mkDlv now ifx r), []. simpl. repeat split; auto; try (intros ? []).
  - intros Ha. symmetry. apply M6. exact Ha.
  - rewrite full_life. unfold e_ttl. simpl. lia.
Qed.

Lemma flushed_eshr r ifx now e : eshr e (flushed r ifx now e).
Proof. exact (flushed_fields r ifx now e). Qed.

Section Update.
  Variables (r : rr) (ifx now : N).
  Let dn := mkDlv now ifx r.

  Lemma entry_ok_keep L k key e :
    entry_ok L k key e -> entry_matches e r ifx = false ->
    entry_ok (L ++ [dn]) k key (flushed r ifx now e).
  Proof.
    intros (Hk & Hkey & L1 & d & L2 & HL & Hrr & Ht & Hif & Hsame & Hexp & Hdis) Hm.
    destruct (flushed_fields r ifx now e) as (S1 & S2 & S3 & S4).
    unfold entry_ok, e_type, e_name, e_ttl in *. rewrite S1, S2, S3.
    split; [assumption|]. split; [assumption|].
    exists L1, d, (L2 ++ [dn]). split; [rewrite HL, <- app_assoc; reflexivity|].
    repeat split; auto.
    - intros x Hx. apply in_app_iff in Hx as [Hx|[<-|[]]]; [auto|].
      unfold dn. rewrite (same_key_entry d e r ifx now Hrr Hif). exact Hm.
    - lia.
    - intros f Hf Hd. apply in_app_iff in Hf as [Hf|[<-|[]]]; [specialize (Hdis f Hf Hd); lia|].
      (* the delivery being processed displaces the record *)
      unfold displaces, dn in Hd. simpl in Hd.
      apply andb_true_iff in Hd as [Hd Htime]. apply andb_true_iff in Hd as [Hd Hsi].
      apply andb_true_iff in Hd as [Hd Hcls]. apply andb_true_iff in Hd as [Hd Hty].
      apply andb_true_iff in Hd as [Hfl _].
      rewrite Hrr in Hcls, Hty. rewrite Ht in Htime.
      unfold flushed. rewrite Hfl. rewrite flush_one_spec. cbv zeta. unfold e_type.
      rewrite Hcls, Hty, Htime. simpl.
      assert (Hic : (if is_addr_type (r_type r) then e_if e =? ifx else true) = true).
      { destruct (is_addr_type (r_type r)) eqn:Ea; [|reflexivity].
        apply N.eqb_eq in Hsi. apply N.eqb_eq in Hty. rewrite Hty in Ea. rewrite <- (Hif Ea).
        apply N.eqb_eq. congruence. }
      rewrite Hic. rewrite andb_true_r.
      destruct (now + 1000 <? e_expires e) eqn:El; simpl; [lia|]. apply N.ltb_ge in El. exact El.
  Qed.

  Lemma reset_id e : id_eq e (reset_ttl (flushed r ifx now e) r now).
  Proof. destruct (flushed_fields r ifx now e) as (S1 & _ & S3 & _). split; simpl; [now rewrite S1|now rewrite S3]. Qed.

  Lemma map_flushed_id (b : bucket) : Forall2 id_eq b (map (flushed r ifx now) b).
  Proof. induction b; simpl; constructor; auto. apply eshr_id, flushed_eshr. Qed.

  Lemma bucket_update L k key fu (b B : bucket) res :
    aou_bucket r ifx now fu b B res ->
    nodup_bucket b -> (forall e, In e b -> entry_ok L k key e) ->
    kind_of_type (r_type r) = Some k -> key_of k (r_name r) = key ->
    nodup_bucket B /\ forall e, In e B -> entry_ok (L ++ [dn]) k key e.
  Proof.
    intros HB ND Hok Hk Hkey. destruct HB as [_ _|_ Hnone|l1 e0 l2 -> Hl1 Hm].
    - split; [constructor|intros ? []].
    - split.
      + constructor; [|exact (nodup_bucket_id b _ (map_flushed_id b) ND)].
        apply Forall_forall. intros y Hy. apply in_map_iff in Hy as [x [<- Hx]].
        unfold entry_matches. simpl. rewrite rr_matches_sym.
        change (entry_matches (flushed r ifx now x) r ifx = false). rewrite flushed_matches. auto.
      + intros e [<-|He]; [now apply entry_ok_new|].
        apply in_map_iff in He as [x [<- Hx]]. apply entry_ok_keep; auto.
    - (* the records after the matching one do not match either *)
      assert (Hl2 : forall x, In x l2 -> entry_matches x r ifx = false).
      { intros x Hx. destruct (entry_matches x r ifx) eqn:Ex; [|reflexivity]. exfalso.
        clear - ND Hm Ex Hx. induction l1 as [|y l1 IH]; simpl in ND.
        - inversion ND as [|? ? Hall _]; subst. rewrite Forall_forall in Hall. specialize (Hall x Hx).
          unfold entry_matches in *. rewrite (rr_matches_sym (e_rr x)) in Ex.
          now rewrite (rr_matches_trans _ _ _ _ _ _ Hm Ex) in Hall.
        - inversion ND; subst. auto. }
      split.
      + apply (nodup_bucket_id (l1 ++ e0 :: l2)); [|assumption].
        apply Forall2_app; [apply map_flushed_id|]. constructor; [apply reset_id|apply map_flushed_id].
      + intros e He. apply in_app_iff in He as [He|[<-|He]].
        * apply in_map_iff in He as [x [<- Hx]]. apply entry_ok_keep; [|auto].
          apply Hok. apply in_app_iff. now left.
        * apply entry_ok_reset; [|now rewrite flushed_matches].
          eapply entry_ok_shr; [|apply flushed_eshr]. apply Hok. apply in_app_iff. right. now left.
        * apply in_map_iff in He as [x [<- Hx]]. apply entry_ok_keep; [|auto].
          apply Hok. apply in_app_iff. right. now right.
  Qed.
End Update.

Theorem add_or_update_inv L c now ifx r fu :
  Inv L c -> Inv (L ++ [mkDlv now ifx r]) (fst (add_or_update c now ifx r fu)).
Proof.
  intros HI. set (dn := mkDlv now ifx r).
  (* every record filed elsewhere is untouched and unaffected by the new delivery *)
  assert (Hother : forall k m, map_ok L k m ->
             (kind_of_type (r_type r) = Some k -> False) -> map_ok (L ++ [dn]) k m).
  { intros k m [ND H] Hk. split; [assumption|]. intros key b Hin. destruct (H key b Hin) as [A B].
    split; [assumption|]. intros e He. apply entry_ok_snoc_other; [auto|]. intros Hk'. now destruct Hk. }
  destruct (aou_shape c now ifx r fu) as [Ek Hmaps _|k0 B Ek HB Hk0 Hmaps].
  { intros k. rewrite Hmaps. apply Hother; [apply HI|congruence]. }
  set (key := key_of k0 (r_name r)) in *. set (m := get_map c k0) in *.
  intros k. destruct (kind_dec k k0) as [->|Hne]; [rewrite Hk0|rewrite (Hmaps k Hne)].
  2:{ apply Hother; [apply HI|]. intros Hk. congruence. }
  destruct (HI k0) as [ND Hm]. fold m in ND, Hm.
  (* the bucket written back satisfies the invariant; so does every other bucket of the map *)
  destruct (bucket_update r ifx now L k0 key fu _ B _ HB) as [HB1 HB2]; auto.
  { destruct (bm_get key m) as [b|] eqn:Eg; [apply (Hm key b (bm_get_In _ _ _ Eg))|constructor]. }
  { destruct (bm_get key m) as [b|] eqn:Eg; [apply (Hm key b (bm_get_In _ _ _ Eg))|intros ? []]. }
  split; [now apply bm_set_nodup|]. intros key' b' Hin.
  destruct (beq key' key) eqn:Ekey.
  - apply beq_eq in Ekey. subst key'.
    apply (In_bm_get _ _ _ (bm_set_nodup key B m ND)) in Hin. rewrite bm_set_get_same in Hin.
    injection Hin as <-. split; assumption.
  - apply bm_set_In in Hin as [[-> _]|Hin]; [rewrite beq_refl in Ekey; discriminate|].
    destruct (Hm key' b' Hin) as [A Bk]. split; [assumption|].
    intros e He. apply entry_ok_snoc_other; [auto|]. simpl. intros _ Heq.
    fold key in Heq. rewrite Heq, beq_refl in Ekey. discriminate.
Qed.
