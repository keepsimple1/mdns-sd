(* C20 bounded_by_need, the counting bound: in every history of the size model, under either
   acceptance rule, each cache counter that get_metrics reports is at most the number of logged
   deliveries of that record kind whose TTL had not run out at the previous iteration.  Under
   PNeed the log holds exactly the deliveries that an open browse / resolver needed when they
   arrived; under PCode it holds every delivery (bound by traffic x TTL).  Proved by an invariant
   of the cache (every entry is the latest copy of a distinct logged delivery) + induction over
   the iterations.  No axioms. *)
From Coq Require Import List NArith Bool Lia Permutation.
From Mdns Require Import Bytes ListFacts ParamsHostres HostresBase BoundedModel BoundedSpec HostresPinned HostresBaseFacts BoundedProofs.
Import ListNotations.
Open Scope N_scope.

(* what crec_matches compares: the interface only for address records *)
Definition cident (x : crec) : N * name * N * bool * bytes * N :=
  (c_ty x, c_name x, c_class x, c_flush x, c_data x, if is_addr_ty (c_ty x) then c_if x else 0).

Lemma matches_cident r x : crec_matches r x = true <-> cident r = cident x.
Proof.
  unfold crec_matches, cident. split.
  - intros H. apply andb_true_iff in H as [H Hi]. apply andb_true_iff in H as [H Hd].
    apply andb_true_iff in H as [H Hf]. apply andb_true_iff in H as [H Hc]. apply andb_true_iff in H as [Ht Hn].
    apply N.eqb_eq in Ht, Hc. apply beq_eq in Hn, Hd. apply Bool.eqb_prop in Hf.
    rewrite Ht. destruct (is_addr_ty (c_ty x)); simpl in Hi; [apply N.eqb_eq in Hi|]; congruence.
  - intros H. inversion H as [[Ht Hn Hc Hf Hd Hi]]. rewrite Ht in Hi.
    rewrite Ht, Hn, Hc, Hf, Hd, !N.eqb_refl, !beq_refl, Bool.eqb_reflx. simpl.
    destruct (is_addr_ty (c_ty x)); simpl; [rewrite Hi; apply N.eqb_refl|reflexivity].
Qed.

Lemma cident_set_life l x : cident (c_set_life l x) = cident x.
Proof. reflexivity. Qed.

Definition key_of (k : kind) (x : crec) : name :=
  match k with KAddr => lower (c_name x) | _ => c_name x end.
Lemma key_of_cident k x y : cident x = cident y -> key_of k x = key_of k y.
Proof. unfold cident, key_of. intros H. inversion H. destruct k; congruence. Qed.

(* the delivery an entry is the latest copy of: identity, arrival time, TTL *)
Definition origin (x : crec) := (cident x, l_created (c_life x), l_ttl (c_life x)).
Definition deliv_origin (d : deliv) := origin (crec_of (fst (fst d)) (snd (fst d)) (snd d)).

Lemma kind_eqb_eq a b : kind_eqb a b = true <-> a = b.
Proof. destruct a, b; simpl; split; intros H; try reflexivity; try discriminate. Qed.

Definition entry_ok (k : kind) (D : list deliv) (prev : N) (x : crec) : Prop :=
  In (origin x) (map deliv_origin D) /\ kind_of (c_ty x) = k
  /\ l_expires (c_life x) <= l_created (c_life x) + l_ttl (c_life x) * 1000 /\ prev < l_expires (c_life x).

(* every entry is the latest copy of a logged delivery still within its TTL, under the key its
   map files it under, and no two entries have the same identity *)
Record map_ok (k : kind) (D : list deliv) (prev : N) (m : amap) : Prop := mkMapOk {
  mo_wf : kmap_wf (key_of k) m;
  mo_id : NoDup (map cident (ents m));
  mo_prov : forall x, In x (ents m) -> entry_ok k D prev x }.

Lemma map_ok_aset k D prev m key b' :
  map_ok k D prev m ->
  (forall x, In x b' -> key_of k x = key /\ entry_ok k D prev x) ->
  NoDup (map cident (b' ++ ents (adel key m))) ->
  map_ok k D prev (aset key b' m).
Proof.
  intros [H1 H3 H4] Hb Hnd. constructor.
  - apply kmap_wf_aset; [exact H1|]. intros x Hx. apply Hb. exact Hx.
  - eapply Permutation_NoDup; [apply Permutation_map, Permutation_sym, ents_aset, (km_keys _ _ H1)|exact Hnd].
  - intros x Hx. apply ents_aset_in in Hx as [Hx|Hx]; [apply Hb; exact Hx|apply H4; exact Hx].
Qed.

Lemma map_ok_aset_same_cidents k D prev m key b' :
  map_ok k D prev m -> map cident b' = map cident (bucket m key) ->
  (forall x, In x b' -> key_of k x = key /\ entry_ok k D prev x) ->
  map_ok k D prev (aset key b' m).
Proof.
  intros Hm Hid Hx. apply map_ok_aset; [exact Hm|exact Hx|].
  rewrite map_app, Hid, <- map_app.
  eapply Permutation_NoDup; [apply Permutation_map, ents_split, (km_keys _ _ (mo_wf _ _ _ _ Hm))|].
  apply (mo_id _ _ _ _ Hm).
Qed.

Lemma map_ok_adel k D prev m key : map_ok k D prev m -> map_ok k D prev (adel key m).
Proof.
  intros [H1 H3 H4]. constructor.
  - apply kmap_wf_adel. exact H1.
  - assert (P : Permutation (map cident (ents m)) (map cident (bucket m key ++ ents (adel key m))))
      by (apply Permutation_map, ents_split, (km_keys _ _ H1)).
    rewrite map_app in P. eapply NoDup_app_r. eapply Permutation_NoDup; [exact P|exact H3].
  - intros x Hx. apply H4. eapply ents_adel_in. exact Hx.
Qed.

Lemma map_ok_add_empty k D prev m key : map_ok k D prev m -> ahas key m = false -> map_ok k D prev (m ++ [(key, [])]).
Proof.
  intros [H1 H3 H4] Hn. unfold ahas in Hn. destruct (aget key m) eqn:E; [discriminate|].
  assert (Ee : ents (m ++ [(key, [])]) = ents m) by (unfold ents; rewrite flat_map_app; apply app_nil_r).
  constructor; [apply kmap_wf_add_empty; assumption|rewrite Ee; exact H3|rewrite Ee; exact H4].
Qed.

Lemma map_ok_live_only k D prev now m : map_ok k D prev m -> map_ok k D now (live_only now m).
Proof.
  intros [H1 H3 H4]. unfold live_only. constructor.
  - apply kmap_wf_filter_buckets. exact H1.
  - rewrite ents_filter_buckets. apply NoDup_map_filter. exact H3.
  - intros x Hx. rewrite ents_filter_buckets in Hx. apply filter_In in Hx as [Hx He].
    destruct (H4 x Hx) as [A [B [C _]]]. repeat split; try assumption.
    unfold r_expired, life_expired in He. rewrite pin_is_expired in He.
    apply negb_true_iff in He. apply N.leb_gt in He. exact He.
Qed.

Lemma map_ok_drop_empty k D prev m : map_ok k D prev m -> map_ok k D prev (drop_empty m).
Proof.
  intros [H1 H3 H4]. unfold drop_empty.
  constructor; [apply kmap_wf_filter; exact H1|unfold ents; rewrite flat_map_drop_empty; exact H3|].
  intros x Hx. apply H4. unfold ents in *. rewrite flat_map_drop_empty in Hx. exact Hx.
Qed.

(* the entries inject, by origin, into the logged deliveries of kind k still within TTL at prev *)
Theorem map_ok_count k D prev m :
  map_ok k D prev m -> count m <= live_count k prev D.
Proof.
  intros Hm. unfold count, live_count. fold (ents m).
  rewrite <- (map_length origin (ents m)), <- (map_length deliv_origin (filter (dlive k prev) D)).
  assert (Hle : (length (map origin (ents m)) <= length (map deliv_origin (filter (dlive k prev) D)))%nat); [|lia].
  apply NoDup_incl_length.
  - apply (NoDup_map_inv (fun o => fst (fst o))). rewrite map_map. simpl. apply (mo_id _ _ _ _ Hm).
  - intros o Ho. apply in_map_iff in Ho as [x [E Hx]]. subst o.
    destruct (mo_prov _ _ _ _ Hm x Hx) as [Hin [Hk [Hw He]]].
    apply in_map_iff in Hin as [d [Ed Hd]]. apply in_map_iff. exists d. split; [exact Ed|].
    apply filter_In. split; [exact Hd|].
    destruct d as [[t ifx] r]. unfold deliv_origin, origin in Ed. cbn [fst snd] in Ed.
    assert (E1 : br_ty r = c_ty x) by (unfold cident in Ed; cbn in Ed; congruence).
    assert (E2 : t = l_created (c_life x)) by (cbn in Ed; congruence).
    assert (E3 : wire_ttl (br_ttl r) = l_ttl (c_life x)) by (cbn in Ed; congruence).
    unfold dlive. cbn [fst snd]. apply andb_true_iff. split.
    + apply kind_eqb_eq. rewrite <- Hk, E1. reflexivity.
    + apply N.ltb_lt. rewrite E2, E3. lia.
Qed.

Definition cache_ok (D : list deliv) (prev : N) (c : bcache) : Prop :=
  forall k, k <> KNone -> map_ok k D prev (get_map k c).

Lemma cache_ok_incl D D' prev c : incl D D' -> cache_ok D prev c -> cache_ok D' prev c.
Proof.
  intros Hi H k Hk. destruct (H k Hk) as [H1 H3 H4]. constructor; try assumption.
  intros x Hx. destruct (H4 x Hx) as [Hin Hr]. split; [apply (incl_map deliv_origin Hi); exact Hin|exact Hr].
Qed.

Lemma cache_ok_init D prev : cache_ok D prev bc0.
Proof. intros k _. destruct k; (constructor; [apply kmap_wf_nil|constructor|intros x []]). Qed.

Lemma get_map_set_sub k s c : get_map k (set_sub s c) = get_map k c.
Proof. destruct k; reflexivity. Qed.

Lemma cache_ok_set k D prev m c :
  k <> KNone -> cache_ok D prev c -> map_ok k D prev m -> cache_ok D prev (set_map k m c).
Proof.
  intros Hk Hc Hm k' Hk'. destruct (kind_eqb k k') eqn:E.
  - apply kind_eqb_eq in E. subst k'. rewrite get_set_same by exact Hk. exact Hm.
  - rewrite get_set_other; [apply Hc; exact Hk'|]. intros ->. destruct k'; discriminate.
Qed.

Lemma update_rec_cidents now x b b2 u rv : update_rec now x b = Some (b2, u, rv) -> map cident b2 = map cident b.
Proof.
  revert b2. induction b as [|r t IH]; simpl; intros b2 H; [discriminate|].
  destruct (crec_matches r x).
  - inversion H; subst. reflexivity.
  - destruct (update_rec now x t) as [[[t' u'] rv']|]; [|discriminate]. inversion H; subst.
    simpl. rewrite (IH t' eq_refl). reflexivity.
Qed.

Lemma update_rec_elems now x b b2 u rv :
  update_rec now x b = Some (b2, u, rv) ->
  forall y', In y' b2 ->
    In y' b \/ exists y, In y b /\ crec_matches y x = true
                         /\ y' = c_set_life (life_reset now (l_ttl (c_life x))) y.
Proof.
  revert b2. induction b as [|r t IH]; simpl; intros b2 H; [discriminate|].
  destruct (crec_matches r x) eqn:E.
  - inversion H; subst. intros y' [Hy|Hy]; [right; exists r; auto|left; right; exact Hy].
  - destruct (update_rec now x t) as [[[t' u'] rv']|]; [|discriminate]. inversion H; subst.
    intros y' [Hy|Hy]; [left; left; exact Hy|].
    destruct (IH t' eq_refl y' Hy) as [H1|[y [H1 H2]]]; [left; right; exact H1|right; exists y; tauto].
Qed.

Lemma update_rec_none now x b : update_rec now x b = None -> forall y, In y b -> crec_matches y x = false.
Proof.
  induction b as [|r t IH]; simpl; intros H y Hy; [contradiction|].
  destruct (crec_matches r x) eqn:E; [discriminate|].
  destruct (update_rec now x t) as [[[t' u'] rv']|]; [discriminate|].
  destruct Hy as [->|Hy]; [exact E|apply IH; [reflexivity|exact Hy]].
Qed.

Lemma flush_rec_cident now x y : cident (flush_rec now x y) = cident y.
Proof. unfold flush_rec. destruct (should_flush now x y); reflexivity. Qed.

Lemma flush_rec_ok k D prev now x y :
  prev <= now -> entry_ok k D prev y -> entry_ok k D prev (flush_rec now x y).
Proof.
  intros Hle [H1 [H2 [H3 H4]]]. unfold flush_rec. destruct (should_flush now x y) eqn:E; [|repeat split; assumption].
  unfold should_flush in E. apply andb_true_iff in E as [E _]. apply andb_true_iff in E as [_ E].
  rewrite pin_flush_far in E. apply N.ltb_lt in E.
  repeat split; try assumption; simpl; rewrite pin_flush_expire; lia.
Qed.

Lemma entry_ok_new k D prev now ifx r :
  kind_of (br_ty r) = k -> prev <= now -> In (now, ifx, r) D -> entry_ok k D prev (crec_of now ifx r).
Proof.
  intros Hk Hle HD. destruct (wire_life_bounds prev now (br_ttl r) Hle) as [[Hw He] _].
  repeat split; [|exact Hk|exact Hw|exact He].
  apply in_map_iff. exists (now, ifx, r). split; [reflexivity|exact HD].
Qed.

Lemma entry_ok_reset k D prev now ifx r y :
  prev <= now -> In (now, ifx, r) D -> entry_ok k D prev y -> cident y = cident (crec_of now ifx r) ->
  entry_ok k D prev (c_set_life (life_reset now (l_ttl (c_life (crec_of now ifx r)))) y).
Proof.
  intros Hle HD [_ [B2 _]] Hid. destruct (wire_life_bounds prev now (br_ttl r) Hle) as [_ [Hw He]].
  repeat split; [|exact B2|exact Hw|exact He].
  apply in_map_iff. exists (now, ifx, r). split; [|exact HD].
  unfold deliv_origin, origin. cbn [fst snd]. rewrite cident_set_life, Hid.
  cbn [c_life c_set_life crec_of]. rewrite life_new_eq. reflexivity.
Qed.

Lemma aou_kind_ok k now fu ok ifx r D prev c :
  k <> KNone -> kind_of (br_ty r) = k -> prev <= now -> (ok = true -> In (now, ifx, r) D) ->
  cache_ok D prev c ->
  cache_ok D prev (fst (fst (aou_kind k now fu ok (crec_of now ifx r) c))).
Proof.
  intros Hk Hkind Hle HD Hc. set (x := crec_of now ifx r). unfold aou_kind.
  match goal with |- context [if ?bb then set_sub ?a c else c] => set (c1 := if bb then set_sub a c else c) end.
  assert (Hc1 : cache_ok D prev c1).
  { unfold c1. match goal with |- context [if ?bb then _ else _] => destruct bb end; [|exact Hc].
    intros k' Hk'. rewrite get_map_set_sub. apply Hc. exact Hk'. }
  clearbody c1.
  change (match k with KAddr => lower (c_name x) | _ => c_name x end) with (key_of k x).
  set (key := key_of k x). set (m := get_map k c1).
  assert (Hm : map_ok k D prev m) by (apply Hc1; exact Hk).
  pose proof (mo_wf _ _ _ _ Hm) as Hwf.
  set (b := bucket m key).
  destruct (match b with [] => negb fu | _ :: _ => false end || negb ok) eqn:Eref; cbn [fst].
  - apply cache_ok_set; [exact Hk|exact Hc1|].
    destruct (ahas key m) eqn:Eh; [exact Hm|apply map_ok_add_empty; assumption].
  - apply orb_false_iff in Eref as [_ Eok]. apply negb_false_iff in Eok. specialize (HD Eok).
    (* the bucket after the cache-flush pass: same identities, still accounted for *)
    set (b1 := if c_flush x then map (flush_rec now x) b else b).
    assert (Hid1 : map cident b1 = map cident b).
    { unfold b1. destruct (c_flush x); [|reflexivity]. rewrite map_map. apply map_ext. intros y. apply flush_rec_cident. }
    assert (Hb1 : forall y, In y b1 -> key_of k y = key /\ entry_ok k D prev y).
    { assert (Hb : forall y, In y b -> key_of k y = key /\ entry_ok k D prev y).
      { intros y Hy. split; [apply (bucket_key _ m key y Hwf Hy)|].
        apply (mo_prov _ _ _ _ Hm). apply (bucket_in_ents m key). exact Hy. }
      intros y Hy. unfold b1 in Hy. destruct (c_flush x); [|apply Hb; exact Hy].
      apply in_map_iff in Hy as [y0 [<- Hy0]]. destruct (Hb y0 Hy0) as [A B]. split.
      - rewrite <- A. apply key_of_cident. apply flush_rec_cident.
      - apply flush_rec_ok; assumption. }
    destruct (update_rec now x b1) as [[[b2 u] rv]|] eqn:Eu; cbn [fst]; (apply cache_ok_set; [exact Hk|exact Hc1|]).
    + apply map_ok_aset_same_cidents; [exact Hm|rewrite (update_rec_cidents _ _ _ _ _ _ Eu); exact Hid1|].
      intros y' Hy'. destruct (update_rec_elems _ _ _ _ _ _ Eu y' Hy') as [H|[y [Hy [Hmt ->]]]]; [apply Hb1; exact H|].
      destruct (Hb1 y Hy) as [A B]. apply matches_cident in Hmt. split.
      * rewrite <- A. apply key_of_cident. apply cident_set_life.
      * apply entry_ok_reset; assumption.
    + apply map_ok_aset; [exact Hm| |].
      * intros y [<-|Hy]; [split; [reflexivity|apply entry_ok_new; assumption]|apply Hb1; exact Hy].
      * (* the identity of x is new: a record with that identity would sit in this bucket and match *)
        assert (P : Permutation (map cident (ents m)) (map cident (b ++ ents (adel key m))))
          by (apply Permutation_map, ents_split, (km_keys _ _ Hwf)).
        simpl. rewrite map_app, Hid1, <- map_app. constructor; [|eapply Permutation_NoDup; [exact P|apply (mo_id _ _ _ _ Hm)]].
        intros Hin. eapply Permutation_in in Hin; [|apply Permutation_sym; exact P].
        apply in_map_iff in Hin as [z [Ez Hz]].
        apply (ents_in_bucket _ m z Hwf) in Hz. rewrite (key_of_cident k z x Ez) in Hz.
        assert (Hz1 : In (cident z) (map cident b1)) by (rewrite Hid1; apply in_map; exact Hz).
        apply in_map_iff in Hz1 as [z1 [Ez1 Hz1]].
        pose proof (update_rec_none _ _ _ Eu z1 Hz1) as Hno.
        assert (crec_matches z1 x = true) by (apply matches_cident; congruence). congruence.
Qed.

Lemma aou_ok now fu ok ifx r D prev c :
  prev <= now -> (ok = true -> In (now, ifx, r) D) -> cache_ok D prev c ->
  cache_ok D prev (fst (fst (add_or_update now fu ok (crec_of now ifx r) c))).
Proof.
  intros Hle HD Hc. unfold add_or_update. cbn [c_ty crec_of].
  destruct (kind_of (br_ty r)) eqn:Ek; try (apply aou_kind_ok; [discriminate|exact Ek|exact Hle|exact HD|exact Hc]).
  exact Hc.
Qed.

Lemma absorb_cache pol now fu ifx q res (acc : acc_t) r :
  acc_cache (absorb pol now fu ifx q res acc r)
  = fst (fst (add_or_update now fu (logged pol now q res (acc_cache acc) r) (crec_of now ifx r) (acc_cache acc))).
Proof.
  destruct acc as [[[c tm] ch] ex]. unfold absorb, acc_cache, logged. cbn [fst].
  destruct (add_or_update now fu _ (crec_of now ifx r) c) as [[c' ft] [[u isnew]|]]; cbn [fst]; [|reflexivity].
  destruct isnew; [|reflexivity].
  destruct ((c_ty u =? ty_PTR) && hp_ptr_ttl_ok (l_ttl (c_life u))); reflexivity.
Qed.

(* the log is defined along the fold, so these two go by induction on the fold itself *)
Lemma fold_absorb_ok pol now fu ifx q res D prev rs : forall (acc : acc_t),
  prev <= now -> incl (msg_log pol now fu ifx q res rs acc) D ->
  cache_ok D prev (acc_cache acc) ->
  cache_ok D prev (acc_cache (fold_left (absorb pol now fu ifx q res) rs acc)).
Proof.
  induction rs as [|r t IH]; intros acc Hle HD Hc; [exact Hc|]. cbn [fold_left]. cbn [msg_log] in HD.
  apply IH; [exact Hle| |].
  - intros d Hd. apply HD. apply in_or_app. right. exact Hd.
  - rewrite absorb_cache. apply aou_ok; [exact Hle| |exact Hc].
    intros E. apply HD. apply in_or_app. left. rewrite E. left. reflexivity.
Qed.

Lemma handle_response_cache pol now s m :
  b_cache (handle_response pol now s m)
  = acc_cache (fold_left (absorb pol now (is_for_us s m) (bm_if m) (b_queriers s) (b_resolvers s)) (bm_recs m)
                         (b_cache s, [], [], b_excess s)).
Proof.
  unfold handle_response.
  destruct (fold_left _ (bm_recs m) (b_cache s, [], [], b_excess s)) as [[[c tm] ch] ex].
  rewrite (fr_cache _ _ (frame_resolve_updated _ _ _)). reflexivity.
Qed.

Lemma fold_responses_ok pol now D prev ms : forall s,
  prev <= now -> incl (msgs_log pol now ms s) D -> cache_ok D prev (b_cache s) ->
  cache_ok D prev (b_cache (fold_left (handle_response pol now) ms s)).
Proof.
  induction ms as [|m t IH]; intros s Hle HD Hc; [exact Hc|]. cbn [fold_left]. cbn [msgs_log] in HD.
  apply IH; [exact Hle| |].
  - intros d Hd. apply HD. apply in_or_app. right. exact Hd.
  - rewrite handle_response_cache. apply fold_absorb_ok; [exact Hle| |exact Hc].
    intros d Hd. apply HD. apply in_or_app. left. exact Hd.
Qed.

Lemma map_ok_relife k D prev (m : amap) key b (f : crec -> crec) :
  map_ok k D prev m -> aget key m = Some b ->
  (forall x, entry_ok k D prev x -> cident (f x) = cident x /\ entry_ok k D prev (f x)) ->
  map_ok k D prev (aset key (map f b) m).
Proof.
  intros Hm Hb Hf.
  assert (Hbk : bucket m key = b) by (unfold bucket; rewrite Hb; reflexivity).
  assert (Hin : forall x, In x b -> entry_ok k D prev x).
  { intros x Hx. apply (mo_prov _ _ _ _ Hm). eapply aget_in_ents; eassumption. }
  apply map_ok_aset_same_cidents; [exact Hm| |].
  - rewrite Hbk, map_map. apply map_ext_in. intros x Hx. apply (Hf x (Hin x Hx)).
  - intros y Hy. apply in_map_iff in Hy as [x [<- Hx]]. destruct (Hf x (Hin x Hx)) as [A B].
    split; [|exact B]. rewrite (key_of_cident k (f x) x A).
    apply (bucket_key _ m key x (mo_wf _ _ _ _ Hm)). unfold bucket_at. rewrite Hb. exact Hx.
Qed.

Lemma refresh_key_ok k D prev now (m : amap) t key :
  map_ok k D prev m -> map_ok k D prev (fst (refresh_key now (m, t) key)).
Proof.
  intros Hm. unfold refresh_key. cbn [fst snd]. destruct (aget key m) as [b|] eqn:E; [|exact Hm].
  unfold refresh_bucket. cbn [fst snd].
  apply (map_ok_relife k D prev m key b _ Hm E).
  intros x [H1 [H2 [H3 H4]]]. destruct (life_refresh_maybe now (c_life x)) as [l|] eqn:El; [|split; [reflexivity|repeat split; assumption]].
  destruct (refresh_maybe_fields _ _ _ El) as [Et [Ec Ee]].
  split; [reflexivity|]. repeat split.
  - unfold origin in *. cbn [c_life c_set_life]. rewrite cident_set_life, Et, Ec. exact H1.
  - exact H2.
  - cbn [c_life c_set_life]. rewrite Et, Ec, Ee. exact H3.
  - cbn [c_life c_set_life]. rewrite Ee. exact H4.
Qed.

Lemma refresh_host_ok D prev now (m : amap) key b :
  map_ok KAddr D prev m -> aget key m = Some b -> map_ok KAddr D prev (aset key (refresh_host_bucket now b) m).
Proof.
  intros Hm E. unfold refresh_host_bucket. apply (map_ok_relife KAddr D prev m key b _ Hm E).
  intros x [H1 [H2 [H3 H4]]]. destruct (_ && _); split; try reflexivity; repeat split; assumption.
Qed.

Lemma cache_ok_before_evict D prev now s :
  cache_ok D prev (b_cache s) -> cache_ok D prev (b_cache (do_refresh now (do_reruns now s))).
Proof.
  intros H.
  apply (shape_do_refresh (fun k => map_ok k D prev) (fun k now0 m t key => refresh_key_ok k D prev now0 m t key)
                          (refresh_host_ok D prev)).
  rewrite (fr_cache _ _ (frame_do_reruns _ _)). exact H.
Qed.

Lemma do_evict_ok D prev now s : cache_ok D prev (b_cache s) -> cache_ok D now (b_cache (do_evict now s)).
Proof.
  intros H k Hk. rewrite do_evict_cache.
  destruct k; try contradiction; try apply map_ok_drop_empty; eapply map_ok_live_only; apply H; exact Hk.
Qed.

(* the samples taken during the calls are within the bound of the cache as it is then *)
Definition sample_within (T : N) (D : list deliv) (smp : sample) : Prop :=
  m_ptr smp <= live_count KPtr T D /\ m_srv smp <= live_count KSrv T D /\ m_txt smp <= live_count KTxt T D
  /\ m_addr smp <= live_count KAddr T D /\ m_nsec smp <= live_count KNsec T D.

Lemma metrics_within D prev s : cache_ok D prev (b_cache s) -> sample_within prev D (metrics s).
Proof.
  intros H. unfold sample_within, metrics. cbn [m_ptr m_srv m_txt m_addr m_nsec].
  repeat split; apply map_ok_count; apply H; discriminate.
Qed.

Lemma exec_call_samples D prev now acc c :
  cache_ok D prev (b_cache (fst acc)) -> Forall (sample_within prev D) (snd acc) ->
  Forall (sample_within prev D) (snd (exec_call now acc c)).
Proof.
  destruct acc as [s out]. cbn [fst snd]. intros H Ho. destruct c; cbn [exec_call snd]; try exact Ho.
  - destruct (mem ty (b_queriers s)); exact Ho.
  - destruct (ahas (lower host) (b_resolvers s)); exact Ho.
  - apply Forall_app. split; [exact Ho|]. constructor; [apply metrics_within; exact H|constructor].
Qed.

Lemma fold_calls_ok D prev now cs acc :
  cache_ok D prev (b_cache (fst acc)) -> Forall (sample_within prev D) (snd acc) ->
  cache_ok D prev (b_cache (fst (fold_left (exec_call now) cs acc)))
  /\ Forall (sample_within prev D) (snd (fold_left (exec_call now) cs acc)).
Proof.
  intros H Ho.
  apply (fold_left_inv (fun a => cache_ok D prev (b_cache (fst a)) /\ Forall (sample_within prev D) (snd a))); [|auto].
  intros a c _ [Ha Hs]. split; [|apply exec_call_samples; assumption].
  apply (shape_exec_call (fun k => map_ok k D prev) (fun k key m => map_ok_adel k D prev m key)). exact Ha.
Qed.

Theorem step_count_ok pol D prev s i :
  prev <= bi_now i -> cache_ok D prev (b_cache s) ->
  cache_ok (D ++ msgs_log pol (bi_now i) (bi_msgs i) s) (bi_now i) (b_cache (fst (step pol s i)))
  /\ Forall (sample_within prev (D ++ msgs_log pol (bi_now i) (bi_msgs i) s)) (snd (step pol s i)).
Proof.
  intros Hle Hc. set (now := bi_now i). set (D' := D ++ msgs_log pol now (bi_msgs i) s).
  assert (Hc0 : cache_ok D' prev (b_cache s)) by (eapply cache_ok_incl; [|exact Hc]; intros d Hd; apply in_or_app; auto).
  assert (H1 : cache_ok D' prev (b_cache (fold_left (handle_response pol now) (bi_msgs i) s))).
  { apply fold_responses_ok; [exact Hle| |exact Hc0]. intros d Hd. apply in_or_app. right. exact Hd. }
  unfold step. fold now.
  set (s2 := do_timeouts now (pop_timers now (fold_left (handle_response pol now) (bi_msgs i) s))).
  assert (H2 : cache_ok D' prev (b_cache s2)) by exact H1.
  destruct (fold_calls_ok D' prev now (bi_calls i) (s2, []) H2 (Forall_nil _)) as [H3 Ho].
  destruct (fold_left (exec_call now) (bi_calls i) (s2, [])) as [s3 out]. cbn [fst snd] in *.
  split; [|exact Ho].
  rewrite ip_check_cache. apply do_evict_ok with (prev := prev). apply cache_ok_before_evict. exact H3.
Qed.

Lemma hist_log_app pol h1 h2 : forall s,
  hist_log pol s (h1 ++ h2) = hist_log pol s h1 ++ hist_log pol (state_after pol s h1) h2.
Proof.
  induction h1 as [|i t IH]; intros s; simpl; [reflexivity|]. rewrite IH, app_assoc. reflexivity.
Qed.

Lemma state_count_ok pol h : forall s D prev,
  btimes_ok prev h = true -> cache_ok D prev (b_cache s) ->
  cache_ok (D ++ hist_log pol s h) (blast_time prev h) (b_cache (state_after pol s h)).
Proof.
  induction h as [|i t IH]; intros s D prev Ht Hc; simpl.
  - rewrite app_nil_r. exact Hc.
  - simpl in Ht. apply andb_true_iff in Ht as [H1 H2]. apply N.leb_le in H1.
    destruct (step_count_ok pol D prev s i H1 Hc) as [Hg _].
    specialize (IH _ _ _ H2 Hg). rewrite <- app_assoc in IH. exact IH.
Qed.

Lemma btimes_ok_app prev h1 h2 :
  btimes_ok prev (h1 ++ h2) = true -> btimes_ok prev h1 = true /\ btimes_ok (blast_time prev h1) h2 = true.
Proof.
  revert prev. induction h1 as [|i t IH]; intros prev H; simpl in *; [auto|].
  apply andb_true_iff in H as [H1 H2]. destruct (IH _ H2) as [H3 H4]. rewrite H1, H3. auto.
Qed.

Theorem count_bound_state pol t0 h k :
  btimes_ok t0 h = true -> k <> KNone ->
  count (get_map k (b_cache (state_after pol (b_init t0) h)))
  <= live_count k (blast_time t0 h) (deliveries_of pol t0 h).
Proof.
  intros Ht Hk. apply map_ok_count.
  pose proof (state_count_ok pol h (b_init t0) [] t0 Ht (cache_ok_init [] t0)) as H. simpl in H.
  apply H. exact Hk.
Qed.

Theorem count_bound_samples pol t0 h1 i h2 smp :
  btimes_ok t0 (h1 ++ i :: h2) = true ->
  In smp (snd (step pol (state_after pol (b_init t0) h1) i)) ->
  sample_within (blast_time t0 h1) (deliveries_of pol t0 (h1 ++ [i])) smp.
Proof.
  intros Ht Hin. apply btimes_ok_app in Ht as [Ht1 Ht2]. simpl in Ht2. apply andb_true_iff in Ht2 as [Hle _].
  apply N.leb_le in Hle.
  pose proof (state_count_ok pol h1 (b_init t0) [] t0 Ht1 (cache_ok_init [] t0)) as Hg. simpl in Hg.
  destruct (step_count_ok pol _ _ _ i Hle Hg) as [_ Ho].
  rewrite Forall_forall in Ho. specialize (Ho smp Hin).
  unfold deliveries_of. rewrite hist_log_app. simpl. rewrite app_nil_r. exact Ho.
Qed.

