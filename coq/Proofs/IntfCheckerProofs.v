(* Address octets and back (valid_round_trip); the IpAdd / IpDel events of apply_intf_selections
   and the last-word and order clauses on them; the IP check of the daemon model
   (Model/IntfDaemon.v) in three phases (check_phases), with the table it leaves, the cache
   invariant CInv and the removed interfaces (check_forgets_removed_interfaces); one iteration in
   four phases (iterate_phases, iterate_ok, iterate_ev); histories: Inv and the justification of
   every packet in every reachable state (steps_ok), and the executable checker chk_C18
   (Model/C18Spec.v) accepts the run of the model on every well-formed history outside the known
   class (checker_accepts_every_run). *)
From Coq Require Import List NArith Bool Lia PeanoNat.
From Mdns Require Import Bytes Rec Intf IntfCache Responder IntfDaemon C18Spec ListFacts IntfCacheProofs
     IntfDaemonProofs IntfHistoryProofs IntfRemovalProofs.
From Mdns Require ResponderProofs.
Import ListNotations.
Open Scope N_scope.

Lemma n_of_octets_be k : forall n acc,
  fold_left (fun acc b => acc * 256 + b) (be_bytes k n) acc = acc * 256 ^ N.of_nat k + n mod 256 ^ N.of_nat k.
Proof.
  induction k as [|k IH]; intros n acc.
  - simpl. rewrite N.mod_1_r. lia.
  - cbn [be_bytes fold_left]. rewrite IH. rewrite Nat2N.inj_succ, N.pow_succ_r'.
    rewrite (N.mul_comm 256 (256 ^ N.of_nat k)).
    rewrite (N.mod_mul_r n (256 ^ N.of_nat k) 256) by (try apply N.pow_nonzero; lia).
    rewrite N.shiftr_div_pow2. replace (2 ^ (8 * N.of_nat k)) with (256 ^ N.of_nat k).
    + lia.
    + change 256 with (2 ^ 8). rewrite <- N.pow_mul_r. reflexivity.
Qed.

Lemma be_bytes_length k n : length (be_bytes k n) = k.
Proof. induction k; simpl; auto. Qed.

Lemma land_mod_mask n m w : m < 2 ^ w -> N.land (n mod 2 ^ w) m = N.land n m.
Proof.
  intros Hm. apply N.bits_inj. intros i. rewrite !N.land_spec.
  destruct (N.lt_ge_cases i w) as [Hi|Hi].
  - rewrite N.mod_pow2_bits_low by exact Hi. reflexivity.
  - rewrite N.mod_pow2_bits_high by exact Hi. simpl.
    assert (E : N.testbit m i = false); [|rewrite E, andb_false_r; reflexivity].
    rewrite <- (N.mod_small m (2 ^ w)) by exact Hm. apply N.mod_pow2_bits_high. exact Hi.
Qed.

(* the netmask of an interface address fits its family *)
Definition mask_wf (x : ifaddr) : bool :=
  match ia_ip x with V4 _ => ia_mask x <? 2 ^ 32 | V6 _ => ia_mask x <? 2 ^ 128 end.

Lemma valid_round_trip a x : mask_wf x = true ->
  valid_ip_on_intf (ip_of_octets (ip_octets a)) x = valid_ip_on_intf a x.
Proof.
  unfold mask_wf, ip_of_octets, valid_ip_on_intf, ip_octets, n_of_octets. intros Hm.
  destruct a as [n|n]; rewrite be_bytes_length; simpl Nat.eqb; cbv iota; rewrite n_of_octets_be; rewrite N.mul_0_l, N.add_0_l.
  - destruct (ia_ip x) as [i|i]; [|reflexivity]. apply N.ltb_lt in Hm.
    change (256 ^ N.of_nat 4) with (2 ^ 32). rewrite land_mod_mask by exact Hm. reflexivity.
  - destruct (ia_ip x) as [i|i]; [reflexivity|]. apply N.ltb_lt in Hm.
    change (256 ^ N.of_nat 16) with (2 ^ 128). rewrite land_mod_mask by exact Hm. reflexivity.
Qed.

Definition seen_wf (seen : list iface) : Prop := forall e, In e seen -> mask_wf (i_addr e) = true.
(* an IPv4 address is reported on one interface only (through the whole history) *)
Definition v4_single (seen : list iface) : Prop :=
  forall e e', In e seen -> In e' seen -> is_v4 (i_ip e) = true -> i_ip e' = i_ip e -> i_index e' = i_index e.

Lemma addrs_ok_of seen idx l : seen_wf seen -> Forall (seen_rec seen idx) l ->
  forallb (fun r => match r_data r with RAddr o => addr_ok seen idx o | _ => true end) l = true.
Proof.
  intros Hwf Hl. apply forallb_forall. intros r Hr. rewrite Forall_forall in Hl. specialize (Hl r Hr).
  unfold seen_rec in Hl. destruct (r_data r); auto. destruct Hl as (a & e & Ho & He & Hi & Hv).
  unfold addr_ok. apply existsb_exists. exists e. split; [exact He|]. subst octets.
  rewrite valid_round_trip by (apply Hwf; exact He). rewrite Hv, Hi, N.eqb_refl. reflexivity.
Qed.

Lemma selected_some_in states sels e : In sels states -> last_match sels e = true -> selected_some states e = true.
Proof. intros H1 H2. unfold selected_some. apply existsb_exists. exists sels. auto. Qed.

Lemma packet_ok_of_just seen cur states sels p :
  seen_wf seen -> v4_single seen -> incl cur seen -> In sels states ->
  pkt_just seen cur sels p -> packet_ok seen cur states p = true.
Proof.
  intros Hwf Hv4 Hcur Hin (intf & a & Ha & Hf & Hsel & Hif & Hrec & Hseen).
  unfold packet_ok. destruct (p_if p =? 0) eqn:E0; [reflexivity|]. simpl.
  assert (Hidx : p_if p = mi_index intf).
  { rewrite Hif in E0 |- *. unfold egress_if in *. destruct (dest_is_v4 p); [|reflexivity].
    destruct (find (fun a => is_v4 (ia_ip a)) (mi_addrs intf)) as [a0|] eqn:Ef0; [|discriminate].
    apply find_some in Ef0 as [Hin0 Hv0].
    destruct (find (fun i => ip_eqb (i_ip i) (ia_ip a0)) cur) as [i|] eqn:Efi; [|discriminate].
    apply find_some in Efi as [Hi Heq]. apply ip_eqb_eq in Heq.
    destruct (Hseen a0 Hin0) as [e [He Hk]]. apply key_is_eq in Hk as [Hk1 Hk2].
    rewrite <- Hk1. apply (Hv4 e i); [exact He|apply Hcur; exact Hi| |].
    - unfold i_ip. rewrite Hk2. exact Hv0.
    - rewrite Heq. unfold i_ip. rewrite Hk2. reflexivity. }
  apply andb_true_iff. split.
  - unfold addrs_ok. rewrite Hidx. apply addrs_ok_of; assumption.
  - unfold enabled_ok. destruct (Hseen a Ha) as [e [He Hk]]. apply existsb_exists. exists e. split; [exact He|].
    pose proof Hk as Hk'. apply key_is_eq in Hk' as [Hk1 Hk2].
    rewrite Hidx, Hk1, N.eqb_refl. unfold i_ip. rewrite Hk2, Hf, eqb_reflx. simpl.
    destruct (iface_mem e cur) eqn:Em; simpl; [|reflexivity].
    apply (selected_some_in _ sels); [exact Hin|]. apply Hsel; [apply iface_mem_In; exact Em|exact Hk].
Qed.

(* the IpAdd (true) / IpDel (false) events of an observation list *)
Definition ipev1 (o : obs) : list (bool * ip) :=
  match o with OIpAdd a => [(true, a)] | OIpDel a => [(false, a)] | _ => [] end.
Definition ipev (l : list obs) : list (bool * ip) := flat_map ipev1 l.

Lemma ipev_app a b : ipev (a ++ b) = ipev a ++ ipev b.
Proof. unfold ipev. apply flat_map_app. Qed.

Definition quiet (o : obs) : Prop := ipev1 o = [].
Lemma ipev_quiet l : Forall quiet l -> ipev l = [].
Proof. induction 1 as [|o l H _ IH]; simpl; [reflexivity|]. unfold quiet in H. rewrite H, IH. reflexivity. Qed.

Lemma not_sent_or_sent_quiet l : Forall (fun o => match o with OIpAdd _ | OIpDel _ => False | _ => True end) l -> Forall quiet l.
Proof. apply Forall_impl. intros o. destruct o; simpl; unfold quiet; simpl; tauto. Qed.

Lemma add_interface_ipev now st i :
  ipev (snd (add_interface now st i)) =
  if held (d_intfs st) (i_index i) (i_addr i) then [] else [(true, i_ip i)].
Proof.
  destruct (held (d_intfs st) (i_index i) (i_addr i)) eqn:Eh.
  - rewrite (add_interface_held _ _ _ Eh). reflexivity.
  - destruct (add_interface_new now st i Eh) as (mi & _ & ->). cbn [snd]. rewrite ipev_app, ipev_quiet; [reflexivity|].
    apply Forall_flat_map, Forall_forall. intros kv _. apply Forall_map, Forall_forall. intros p _. reflexivity.
Qed.

Lemma del_interface_addr_ipev st i :
  ipev (snd (del_interface_addr st i)) =
  if held (d_intfs st) (i_index i) (i_addr i) && negb (holds_ip (del_tbl (d_intfs st) i) (i_ip i))
  then [(false, i_ip i)] else [].
Proof. destruct (del_interface_addr_eq st i) as (regs & svcs & c & -> & _). cbn [snd]. destruct (_ && _); reflexivity. Qed.

(* the events of apply_intf_selections as a function of the interface table *)
Fixpoint apply_ipev (f : iface -> bool) (l : list myintf) (tbl : list iface) : list (bool * ip) :=
  match tbl with
  | [] => []
  | e :: t =>
    (if f e then (if held l (i_index e) (i_addr e) then [] else [(true, i_ip e)])
     else (if held l (i_index e) (i_addr e) && negb (holds_ip (del_tbl l e) (i_ip e)) then [(false, i_ip e)] else []))
    ++ apply_ipev f (if f e then add_tbl l e else del_tbl l e) t
  end.

Lemma apply_fold_ipev now (f : iface -> bool) tbl : forall st out,
  ipev (snd (fold_left (apply_step now) (combine tbl (map f tbl)) (st, out)))
  = ipev out ++ apply_ipev f (d_intfs st) tbl.
Proof.
  induction tbl as [|e tbl IH]; intros st out; [cbn; rewrite app_nil_r; reflexivity|].
  cbn [map combine fold_left apply_ipev]. rewrite apply_step_eq, IH, ipev_app, <- app_assoc.
  destruct (f e); cbv iota.
  - rewrite add_interface_ipev. destruct (add_interface_intfs now st e) as (-> & _). reflexivity.
  - rewrite del_interface_addr_ipev. destruct (del_interface_addr_intfs st e) as (-> & _). reflexivity.
Qed.

Lemma apply_ipev_spec now d tbl :
  ipev (snd (apply_intf_selections now d tbl)) = apply_ipev (last_match (d_sels d)) (d_intfs d) tbl.
Proof. rewrite apply_intf_selections_fold. apply apply_fold_ipev. Qed.

Lemma apply_ipev_in f tbl : forall l b a, In (b, a) (apply_ipev f l tbl) -> exists e, In e tbl /\ i_ip e = a /\ f e = b.
Proof.
  induction tbl as [|e t IH]; intros l b a H; simpl in H; [destruct H|].
  apply in_app_or in H as [H|H].
  - exists e. destruct (f e) eqn:Ef.
    + destruct (held l _ _); [destruct H|]. destruct H as [H|[]]. inversion H; subst. simpl. auto.
    + destruct (_ && _); [|destruct H]. destruct H as [H|[]]. inversion H; subst. simpl. auto.
  - destruct (IH _ _ _ H) as [e' [H1 H2]]. exists e'. simpl. auto.
Qed.

(* C18Spec.last_is_del and C18Spec.no_del_after_add on the event list (last_is_del_ipev,
   no_del_after_add_ipev) *)
Fixpoint lastdel (a : ip) (evs : list (bool * ip)) (acc : bool) : bool :=
  match evs with
  | [] => acc
  | (b, x) :: t => lastdel a t (if ip_eqb x a then negb b else acc)
  end.

Lemma lastdel_app a e1 e2 acc : lastdel a (e1 ++ e2) acc = lastdel a e2 (lastdel a e1 acc).
Proof. revert acc. induction e1 as [|[b x] t IH]; intros acc; simpl; [reflexivity|apply IH]. Qed.

Lemma last_is_del_ipev a os : forall acc, last_is_del a os acc = lastdel a (ipev os) acc.
Proof.
  induction os as [|o t IH]; intros acc; simpl; [reflexivity|].
  destruct o; simpl; rewrite IH; reflexivity.
Qed.

Definition is_del_of (a : ip) (ev : bool * ip) : bool := negb (fst ev) && ip_eqb a (snd ev).

Fixpoint nda (cur : list iface) (evs : list (bool * ip)) : bool :=
  match evs with
  | [] => true
  | (true, a) :: t => negb (single_in cur a && existsb (is_del_of a) t) && nda cur t
  | _ :: t => nda cur t
  end.

Lemma existsb_del_ipev a os :
  existsb (fun o => match o with OIpDel b => ip_eqb a b | _ => false end) os = existsb (is_del_of a) (ipev os).
Proof.
  induction os as [|o t IH]; simpl; [reflexivity|]. destruct o; simpl; rewrite IH; reflexivity.
Qed.

Lemma no_del_after_add_ipev cur os : no_del_after_add cur os = nda cur (ipev os).
Proof.
  induction os as [|o t IH]; simpl; [reflexivity|].
  destruct o; simpl; rewrite ?IH, ?existsb_del_ipev; reflexivity.
Qed.

Lemma nda_dels cur dels evs : nda cur (map (fun a => (false, a)) dels ++ evs) = nda cur evs.
Proof. induction dels; simpl; auto. Qed.

Lemma nda_mono cur cur' evs : (forall a, single_in cur' a = true -> single_in cur a = true) ->
  nda cur evs = true -> nda cur' evs = true.
Proof.
  intros Hm. induction evs as [|[b a] t IH]; simpl; [auto|]. destruct b; [|exact IH].
  intros H. apply andb_true_iff in H as [H1 H2]. rewrite (IH H2), andb_true_r.
  destruct (single_in cur' a) eqn:E; [|reflexivity]. rewrite (Hm a E) in H1. exact H1.
Qed.

Lemma single_in_cons x t a : single_in (x :: t) a = true -> single_in t a = true.
Proof.
  unfold single_in. simpl. destruct (ip_eqb (i_ip x) a); simpl; [|auto].
  destruct (length _); [reflexivity|]. intros H. apply Nat.leb_le in H. apply Nat.leb_le. lia.
Qed.

(* an IpDel of the IP of x after the IpAdd that x causes comes from another entry of the rest of
   the table with that IP: then the IP is not single in the table *)
Lemma apply_nda f : forall tbl l, nda tbl (apply_ipev f l tbl) = true.
Proof.
  induction tbl as [|x t IH]; intros l; simpl; [reflexivity|].
  set (l' := if f x then add_tbl l x else del_tbl l x).
  assert (Hrest : nda (x :: t) (apply_ipev f l' t) = true).
  { apply (nda_mono t); [intros a; apply single_in_cons|apply IH]. }
  destruct (f x) eqn:Ef.
  - destruct (held l (i_index x) (i_addr x)); simpl; [exact Hrest|].
    rewrite Hrest, andb_true_r. destruct (existsb (is_del_of (i_ip x)) (apply_ipev f l' t)) eqn:Ex; [|rewrite andb_false_r; reflexivity].
    apply existsb_exists in Ex as [[b a] [Hin Hd]]. unfold is_del_of in Hd. simpl in Hd.
    apply andb_true_iff in Hd as [Hb Ha]. apply negb_true_iff in Hb. subst b. apply ip_eqb_eq in Ha. subst a.
    apply apply_ipev_in in Hin as [e' [He' [Hip _]]].
    unfold single_in. simpl. rewrite (ResponderProofs.ip_eqb_refl _). simpl.
    assert (Hl : (1 <= length (filter (fun e => ip_eqb (i_ip e) (i_ip x)) t))%nat).
    { assert (Hin : In e' (filter (fun e => ip_eqb (i_ip e) (i_ip x)) t))
        by (apply filter_In; split; [exact He'|apply ip_eqb_eq; exact Hip]).
      destruct (filter _ t); [destruct Hin|simpl; lia]. }
    destruct (length _); [lia|reflexivity].
  - destruct (_ && _); simpl; exact Hrest.
Qed.

Lemma held_holds l idx x : held l idx x = true -> holds_ip l (ia_ip x) = true.
Proof.
  intros H. apply held_get in H as [m [Hg Hx]]. unfold holds_ip. apply existsb_exists. exists m.
  split; [eapply intf_get_in; exact Hg|]. apply existsb_exists. exists x. split; [exact Hx|apply ip_eqb_eq; reflexivity].
Qed.

(* The last word about the address of an entry e of the table that the selections enable: once
   (interface, address) of e is held it stays held through the loop, and no IpDel of its IP can
   come out because holds_ip guards it (apply_lw_held); if it is not held when the loop reaches e,
   e adds it (apply_lw_new). *)
Section LastWord.
  Variable f : iface -> bool.
  Variable cur : list iface.
  Variable e : iface.
  Hypothesis Huk : uniq_keys cur.
  Hypothesis He : In e cur.
  Hypothesis Hf : f e = true.

  Lemma lw_step_held x l : In x cur -> held l (i_index e) (i_addr e) = true ->
    held (if f x then add_tbl l x else del_tbl l x) (i_index e) (i_addr e) = true.
  Proof.
    intros Hx Hh. destruct (f x) eqn:Efx.
    - rewrite held_add_tbl, Hh. reflexivity.
    - rewrite held_del_tbl, Hh. simpl. destruct (key_is x (i_index e) (i_addr e)) eqn:Ek; [|reflexivity].
      assert (x = e) by (apply Huk; assumption). subst x. congruence.
  Qed.

  Lemma apply_lw_held : forall tbl l, incl tbl cur -> held l (i_index e) (i_addr e) = true ->
    forall acc, lastdel (i_ip e) (apply_ipev f l tbl) acc = true -> acc = true.
  Proof.
    induction tbl as [|x t IH]; intros l Hi Hh acc H; simpl in H; [exact H|].
    rewrite lastdel_app in H.
    assert (Hx : In x cur) by (apply Hi; left; reflexivity).
    pose proof (lw_step_held x l Hx Hh) as Hh'.
    apply IH in H; [|intros y Hy; apply Hi; right; exact Hy|exact Hh'].
    destruct (f x) eqn:Efx.
    - destruct (held l (i_index x) (i_addr x)); simpl in H; [exact H|].
      destruct (ip_eqb (i_ip x) (i_ip e)); [discriminate|exact H].
    - destruct (held l (i_index x) (i_addr x) && negb (holds_ip (del_tbl l x) (i_ip x))) eqn:Ec; simpl in H; [|exact H].
      destruct (ip_eqb (i_ip x) (i_ip e)) eqn:Eip; [|exact H]. exfalso.
      apply andb_true_iff in Ec as [_ Ec]. apply negb_true_iff in Ec.
      apply ip_eqb_eq in Eip. rewrite Eip in Ec. apply held_holds in Hh'. unfold i_ip in Ec. congruence.
  Qed.

  Lemma apply_lw_new : forall tbl l, incl tbl cur -> In e tbl -> held l (i_index e) (i_addr e) = false ->
    forall acc, lastdel (i_ip e) (apply_ipev f l tbl) acc = false.
  Proof.
    induction tbl as [|x t IH]; intros l Hi Hin Hh acc; [destruct Hin|]. simpl. rewrite lastdel_app.
    assert (Hx : In x cur) by (apply Hi; left; reflexivity).
    assert (Hi' : incl t cur) by (intros y Hy; apply Hi; right; exact Hy).
    destruct (key_is x (i_index e) (i_addr e)) eqn:Ek.
    - assert (x = e) by (apply Huk; assumption). subst x. rewrite Hf, Hh. simpl.
      rewrite (ResponderProofs.ip_eqb_refl _). simpl.
      destruct (lastdel (i_ip e) (apply_ipev f (add_tbl l e) t) false) eqn:El; [|reflexivity].
      apply apply_lw_held in El; [discriminate|exact Hi'|]. rewrite held_add_tbl, key_is_self. apply orb_true_r.
    - destruct Hin as [->|Hin]; [rewrite key_is_self in Ek; discriminate|].
      apply IH; [exact Hi'|exact Hin|].
      destruct (f x); [rewrite held_add_tbl, Hh, Ek|rewrite held_del_tbl, Hh]; reflexivity.
  Qed.

  Lemma apply_last_word l : forall acc, lastdel (i_ip e) (apply_ipev f l cur) acc = true -> acc = true.
  Proof.
    intros acc H. destruct (held l (i_index e) (i_addr e)) eqn:Eh.
    - eapply apply_lw_held; [apply incl_refl|exact Eh|exact H].
    - rewrite apply_lw_new in H; [discriminate|apply incl_refl|exact He|exact Eh].
  Qed.
End LastWord.

Definition kept_of (d : dstate) : list myintf :=
  map (fun m => mkMyIntf (mi_name m) (mi_index m) (filter (fun a => os_has (d_os d) (mi_index m) a) (mi_addrs m))) (d_intfs d).
Definition vanished_of (d : dstate) : list ip :=
  flat_map (fun m => map ia_ip (filter (fun a => negb (os_has (d_os d) (mi_index m) a)) (mi_addrs m))) (d_intfs d).
Definition dels_of (d : dstate) : list ip := filter (fun a => negb (holds_ip (kept_of d) a)) (vanished_of d).
Definition rm_step (acc : dstate * list obs) (m : myintf) : dstate * list obs :=
  let '(st, out) := acc in
  let st1 := set_intfs (intf_remove (mi_index m) (d_intfs st)) (d_regs st) st in
  let rmv := remove_records_on_intf (d_cache st1) (mkIntfId (mi_name m) (mi_index m)) in
  let st2 := set_cache (rm_cache rmv) (d_resolved st1) st1 in
  let ev1 := notify_removed st2 (rm_removed rmv) in
  let '(st3, ev2) := resolve_updated st2 (rm_modified rmv) in
  (st3, out ++ ev1 ++ ev2).
Definition check_mid (d : dstate) : dstate * list obs :=
  let d1 := set_intfs (kept_of d) (d_regs d) d in
  let d2 := fold_left (fun st a => map_svcs (svc_remove_ip a) st) (dels_of d) d1 in
  fold_left rm_step (filter (fun m => is_nil (mi_addrs m)) (kept_of d)) (d2, []).

Lemma check_phases now d :
  check_ip_changes now d =
  (fst (apply_intf_selections now (fst (check_mid d)) (d_os d)),
   map OIpDel (dels_of d) ++ snd (check_mid d) ++ snd (apply_intf_selections now (fst (check_mid d)) (d_os d))).
Proof.
  unfold check_ip_changes, check_mid, dels_of, vanished_of, kept_of, rm_step.
  destruct (fold_left _ (filter _ _) (_, [])) as [d3 evc]. simpl.
  destruct (apply_intf_selections now d3 (d_os d)) as [d4 eva]. reflexivity.
Qed.

(* CInv: every cached address record is of type A / AAAA and belongs, by index and name, to an
   interface the daemon holds with at least one address *)
Definition addr_rec_ok (l : list myintf) (r : crec) : Prop :=
  ((r_type (c_rr r) =? TY_A) || (r_type (c_rr r) =? TY_AAAA)) = true /\
  exists m a, intf_get (ii_index (c_src r)) l = Some m /\ ii_name (c_src r) = mi_name m /\ In a (mi_addrs m).
Definition cache_ok (l : list myintf) (c : cache) : Prop := forall k r, In_table (c_addr c) k r -> addr_rec_ok l r.
Definition CInv (d : dstate) : Prop := cache_ok (d_intfs d) (d_cache d).

(* where the addresses of a resolved instance come from *)
Definition res_src (c : cache) (o : obs) : Prop :=
  match o with
  | OResolved _ _ _ _ addrs => forall ai, In ai addrs -> exists k r, In_table (c_addr c) k r /\ ii_index (c_src r) = snd ai
  | _ => True
  end.
Definition rsq (c : cache) (o : obs) : Prop := res_src c o /\ quiet o /\ not_sent o.

Lemma cache_ev_rsq c o : cache_ev c o -> rsq c o.
Proof. destruct o; simpl; try tauto; intros H; repeat split; exact H. Qed.

(* the per-observation facts, relative to one selection list *)
Definition ev1 (seen cur : list iface) (sels : list selection) (o : obs) : Prop :=
  match o with
  | OIpAdd a => exists e, In e cur /\ i_ip e = a /\ last_match sels e = true
  | OIpDel a => exists e, In e seen /\ i_ip e = a /\ (~ In e cur \/ last_match sels e = false)
  | OResolved _ _ _ _ addrs =>
    forall ai, In ai addrs -> exists e, In e seen /\ i_index e = snd ai /\ (~ In e cur \/ last_match sels e = true)
  | _ => True
  end.

Lemma cache_ev_ev1 seen d c o : Inv seen d -> cache_ok (d_intfs d) c -> cache_ev c o -> ev1 seen (d_os d) (d_sels d) o.
Proof.
  intros HI Hc H. destruct o; simpl in *; auto; try contradiction.
  intros ai Hai. destruct (H ai Hai) as (k & r & Hr & Hi). destruct (Hc k r Hr) as [_ (m & a & Hg & _ & Ha)].
  rewrite Hi in Hg. destruct (inv_seen_held _ _ HI (snd ai) a (get_held _ _ _ _ Hg Ha)) as [e [He Hk]].
  exists e. pose proof Hk as Hk'. apply key_is_eq in Hk' as [Hk1 Hk2]. split; [exact He|]. split; [exact Hk1|].
  destruct (iface_mem e (d_os d)) eqn:Em.
  - right. apply (inv_sel _ _ HI); [apply iface_mem_In; exact Em|]. rewrite Hk1, Hk2. eapply get_held; eassumption.
  - left. intros Hin. apply iface_mem_In in Hin. congruence.
Qed.

Lemma cache_ok_add l i c : cache_ok l c -> cache_ok (add_tbl l i) c.
Proof.
  intros Hc k r Hr. destruct (Hc k r Hr) as [Ht (m & a & Hg & Hn & Ha)]. split; [exact Ht|].
  unfold add_tbl. destruct (intf_get (i_index i) l) as [m0|] eqn:Eg.
  - destruct (has_ifaddr (i_addr i) (mi_addrs m0)); [exists m, a; auto|].
    rewrite intf_get_put. simpl. destruct (i_index i =? ii_index (c_src r)) eqn:Ei; [|exists m, a; auto].
    apply N.eqb_eq in Ei. rewrite Ei in Eg. rewrite Eg in Hg. inversion Hg; subst m0.
    eexists; exists a. split; [reflexivity|]. simpl. split; [exact Hn|apply in_or_app; left; exact Ha].
  - rewrite intf_get_app_new by exact Eg. simpl. destruct (i_index i =? ii_index (c_src r)) eqn:Ei; [|exists m, a; auto].
    apply N.eqb_eq in Ei. rewrite Ei in Eg. congruence.
Qed.

Lemma cache_ok_sub l c c' : (forall k r, In_table (c_addr c') k r -> In_table (c_addr c) k r) -> cache_ok l c -> cache_ok l c'.
Proof. intros Hs Hc k r Hr. apply (Hc k). apply Hs. exact Hr. Qed.

Lemma add_interface_CInv now st i : CInv st -> CInv (fst (add_interface now st i)).
Proof.
  intros HC. unfold CInv. destruct (add_interface_intfs now st i) as (-> & _). rewrite add_interface_cache.
  apply cache_ok_add. exact HC.
Qed.

Lemma del_ifaddr_in b l a : In a (del_ifaddr b l) -> In a l.
Proof. unfold del_ifaddr. intros H. apply filter_In in H. tauto. Qed.

Lemma del_interface_addr_CInv st i : CInv st -> CInv (fst (del_interface_addr st i)).
Proof.
  intros HC. unfold CInv, del_interface_addr.
  destruct (intf_get (i_index i) (d_intfs st)) as [m|] eqn:Eg; [|exact HC].
  destruct (has_ifaddr (i_addr i) (mi_addrs m)) eqn:Eh; [|exact HC].
  destruct (is_nil (del_ifaddr (i_addr i) (mi_addrs m))) eqn:En.
  - (* the interface goes: every address record learned on it is dropped *)
    assert (G : cache_ok (intf_remove (i_index i) (d_intfs st)) (remove_addrs_on_disabled_intf (d_cache st) (i_index i) TBoth)).
    { intros k r Hr. pose proof (disabled_family_addresses_dropped (d_cache st) (i_index i) TBoth) as H. cbv zeta in H.
      destruct H as (_ & _ & _ & _ & _ & H). apply H in Hr as [Hr Hd].
      destruct (HC k r Hr) as [Ht (m0 & a & Hg & Hn & Ha)]. split; [exact Ht|].
      simpl in Hd. rewrite Ht, andb_true_r in Hd. rewrite intf_get_remove, Hd. exists m0, a. auto. }
    destruct (holds_ip _ _); simpl; exact G.
  - (* the interface stays, with an address left: the records learned on it stay at home *)
    assert (G : cache_ok (intf_put (mkMyIntf (mi_name m) (i_index i) (del_ifaddr (i_addr i) (mi_addrs m))) (d_intfs st))
                         (d_cache st)).
    { intros k r Hr. destruct (HC k r Hr) as [Ht (m0 & a & Hg & Hn & Ha)]. split; [exact Ht|].
      rewrite intf_get_put. simpl. destruct (i_index i =? ii_index (c_src r)) eqn:Ei; [|exists m0, a; auto].
      apply N.eqb_eq in Ei. rewrite Ei in Eg. rewrite Eg in Hg. inversion Hg; subst m0.
      destruct (del_ifaddr (i_addr i) (mi_addrs m)) as [|a' l'] eqn:Ed; [discriminate|].
      eexists; exists a'. split; [reflexivity|]. simpl. auto. }
    destruct (negb (family_enabled _ _)); destruct (holds_ip _ _); simpl; try exact G;
      (eapply cache_ok_sub; [|exact G]); intros k r Hr;
      pose proof (disabled_family_addresses_dropped (d_cache st) (i_index i) (if is_v4 (i_ip i) then TV4 else TV6)) as H;
      cbv zeta in H; destruct H as (_ & _ & _ & _ & _ & H); apply H in Hr; tauto.
Qed.

Lemma apply_CInv now tbl d : CInv d -> CInv (fst (apply_intf_selections now d tbl)).
Proof.
  intros HC. rewrite apply_intf_selections_fold. apply (apply_fold_ind now _ (fun st _ => CInv st)); [|exact HC].
  intros st out e _ H. destruct (last_match _ e); [apply add_interface_CInv|apply del_interface_addr_CInv]; exact H.
Qed.

Definition id_of (m : myintf) : intf_id := mkIntfId (mi_name m) (mi_index m).

Lemma rm_addr_sub c id k r : In_table (c_addr (rm_cache (remove_records_on_intf c id))) k r -> In_table (c_addr c) k r.
Proof.
  intros H. pose proof (removal_cache_contents c id) as C. cbv zeta in C.
  destruct C as (_ & _ & _ & C & _). apply C in H. tauto.
Qed.

Lemma rm_step_eq st out x : exists res new,
  rm_step (st, out) x =
    (mkD (d_os st) (intf_remove (mi_index x) (d_intfs st)) (d_regs st) (d_sels st) (d_svcs st)
         (rm_cache (remove_records_on_intf (d_cache st) (id_of x))) (d_browsed st) res
         (d_interval st) (d_next_check st) (d_retrans st), out ++ new) /\
  Forall (cache_ev (d_cache st)) new.
Proof.
  unfold rm_step.
  match goal with |- context [resolve_updated ?st2 ?u] => destruct (resolve_updated_eq st2 u) as (res & ev2 & -> & Hev) end.
  eexists res, _. split; [reflexivity|]. apply Forall_app. split; [apply notify_removed_ev|].
  eapply Forall_impl; [|exact Hev]. intros o. apply cache_ev_sub. apply rm_addr_sub.
Qed.

(* What the loop over the interfaces l that go (rm_step) leaves of a state d0 with output out0:
   only my_intfs, the cache and the resolved set change; what stays in the cache was there before
   and was not learned on an interface of l. *)
Set Implicit Arguments.
Record rm_rel (l : list myintf) (d0 : dstate) (out0 : list obs) (r : dstate * list obs) : Prop := {
  rf_sels : d_sels (fst r) = d_sels d0;
  rf_os : d_os (fst r) = d_os d0;
  rf_retrans : d_retrans (fst r) = d_retrans d0;
  rf_svcs : d_svcs (fst r) = d_svcs d0;
  rf_intfs : d_intfs (fst r) = fold_left (fun t m => intf_remove (mi_index m) t) l (d_intfs d0);
  rf_cache : forall k x, in_cache (d_cache (fst r)) k x ->
               in_cache (d_cache d0) k x /\ forall m, In m l -> on_intf (id_of m) x = false;
  rf_addr : forall k x, In_table (c_addr (d_cache (fst r))) k x -> In_table (c_addr (d_cache d0)) k x;
  rf_out : exists new, snd r = out0 ++ new /\ Forall (cache_ev (d_cache d0)) new }.
Unset Implicit Arguments.

Lemma rm_fold_facts : forall l st out, rm_rel l st out (fold_left rm_step l (st, out)).
Proof.
  induction l as [|m l IH]; intros st out.
  - constructor; simpl; try reflexivity; [intros k x H; split; [exact H|intros m []]|auto|].
    exists []. rewrite app_nil_r. auto.
  - cbn [fold_left]. destruct (rm_step_eq st out m) as (res & new1 & -> & S6).
    match goal with |- context [fold_left rm_step l (?s1, _)] => set (st1 := s1) end.
    destruct (IH st1 (out ++ new1)) as [I1 I2 I3 I4 I5 I6 I7 (new2 & I8 & I9)].
    destruct (remove_records_facts (d_cache st) (id_of m)) as [Hno Hsub].
    constructor; try assumption.
    + intros k x H. destruct (I6 k x H) as [Hx Hl]. split; [apply Hsub; exact Hx|].
      intros m' [<-|Hm']; [apply (Hno k); exact Hx|apply Hl; exact Hm'].
    + intros k x Hx. eapply rm_addr_sub. apply I7. exact Hx.
    + exists (new1 ++ new2). split; [rewrite I8, app_assoc; reflexivity|].
      apply Forall_app. split; [exact S6|]. eapply Forall_impl; [|exact I9]. intros o. apply cache_ev_sub. apply rm_addr_sub.
Qed.

Lemma intf_get_removes l : forall t idx,
  intf_get idx (fold_left (fun t m => intf_remove (mi_index m) t) l t)
  = if existsb (fun m => mi_index m =? idx) l then None else intf_get idx t.
Proof.
  induction l as [|m l IH]; intros t idx; simpl; [reflexivity|]. rewrite IH, intf_get_remove, (N.eqb_sym (mi_index m)).
  destruct (idx =? mi_index m); simpl; [destruct (existsb _ l); reflexivity|reflexivity].
Qed.

Lemma held_removes l t idx a :
  held (fold_left (fun t m => intf_remove (mi_index m) t) l t) idx a = true -> held t idx a = true.
Proof. unfold held. rewrite intf_get_removes. destruct (existsb _ l); [discriminate|auto]. Qed.

Lemma uniq_idx_removes l t : uniq_idx t -> uniq_idx (fold_left (fun t m => intf_remove (mi_index m) t) l t).
Proof. apply fold_left_inv. intros t' m _. apply uniq_idx_remove. Qed.

Lemma kept_get d idx : intf_get idx (kept_of d) =
  option_map (fun m => mkMyIntf (mi_name m) (mi_index m) (filter (fun a => os_has (d_os d) (mi_index m) a) (mi_addrs m)))
             (intf_get idx (d_intfs d)).
Proof. unfold kept_of. apply intf_get_map. reflexivity. Qed.

Lemma held_kept d idx a : held (kept_of d) idx a = held (d_intfs d) idx a && os_has (d_os d) idx a.
Proof.
  unfold held. rewrite kept_get. destruct (intf_get idx (d_intfs d)) as [m|] eqn:Eg; [|reflexivity]. simpl.
  rewrite has_ifaddr_filter, (intf_get_index _ _ _ Eg). reflexivity.
Qed.

Lemma uniq_idx_kept d : uniq_idx (d_intfs d) -> uniq_idx (kept_of d).
Proof. unfold uniq_idx, kept_of. rewrite map_map. auto. Qed.

Lemma svc_fold_eq l : forall st,
  fold_left (fun st a => map_svcs (svc_remove_ip a) st) l st
  = upd_svcs (fun sv => fold_left (fun sv a => map (fun kv => (fst kv, svc_remove_ip a (snd kv))) sv) l sv) st.
Proof. induction l as [|a l IH]; intros st; simpl; [destruct st; reflexivity|]. rewrite IH. reflexivity. Qed.

(* the interfaces check_ip_changes drops: no address of theirs is reported any more *)
Definition gone_of (d : dstate) : list myintf := filter (fun m => is_nil (mi_addrs m)) (kept_of d).

(* the state in which that loop starts: my_intfs cut down to what the OS reports, the vanished
   addresses withdrawn from the services *)
Definition mid_start (d : dstate) : dstate :=
  upd_svcs (fun sv => fold_left (fun sv a => map (fun kv => (fst kv, svc_remove_ip a (snd kv))) sv) (dels_of d) sv)
           (set_intfs (kept_of d) (d_regs d) d).

Lemma check_mid_frame d : rm_rel (gone_of d) (mid_start d) [] (check_mid d).
Proof. unfold check_mid. rewrite svc_fold_eq. apply rm_fold_facts. Qed.

Lemma check_mid_out d : Forall (cache_ev (d_cache d)) (snd (check_mid d)).
Proof. destruct (rf_out (check_mid_frame d)) as (new & -> & H). exact H. Qed.

Lemma check_mid_facts seen d : Inv seen d -> CInv d ->
  let r := check_mid d in
  d_sels (fst r) = d_sels d /\ d_os (fst r) = d_os d /\
  (forall idx a, held (d_intfs (fst r)) idx a = true -> held (kept_of d) idx a = true) /\
  Forall (rsq (d_cache d)) (snd r) /\ CInv (fst r).
Proof.
  intros HI HC. cbv zeta. pose proof (check_mid_frame d) as M.
  pose proof (rf_intfs M : _ = fold_left _ _ (kept_of d)) as M5. pose proof (rf_cache M) as M6. pose proof (rf_addr M) as M7.
  split; [exact (rf_sels M)|]. split; [exact (rf_os M)|]. split; [rewrite M5; intros idx a; apply held_removes|].
  split; [eapply Forall_impl; [|apply check_mid_out]; apply cache_ev_rsq|].
  intros k r Hr. destruct (HC k r (M7 k r Hr)) as [Ht (m & a & Hg & Hn & Ha)]. split; [exact Ht|].
  set (idx := ii_index (c_src r)) in *.
  set (m' := mkMyIntf (mi_name m) (mi_index m) (filter (fun a => os_has (d_os d) (mi_index m) a) (mi_addrs m))).
  assert (Hk : intf_get idx (kept_of d) = Some m') by (rewrite kept_get, Hg; reflexivity).
  pose proof (intf_get_index _ _ _ Hg) as Hidx.
  rewrite M5, intf_get_removes.
  destruct (existsb (fun x => mi_index x =? idx) (gone_of d)) eqn:Ex.
  - (* an interface that goes has this index: it is m', and r was learned on it *)
    exfalso. apply existsb_exists in Ex as (x & Hx & Ei). apply N.eqb_eq in Ei.
    pose proof Hx as Hx'. apply filter_In in Hx' as [Hxk _].
    pose proof (in_get _ _ (uniq_idx_kept d (inv_idx _ _ HI)) Hxk) as Hgx. rewrite Ei, Hk in Hgx. inversion Hgx; subst x.
    destruct (M6 k r (or_intror (or_intror (or_intror (or_introl Hr))))) as [_ Hno]. specialize (Hno m' Hx).
    unfold on_intf, id_of, intf_id_eqb in Hno. subst m'. simpl in Hno.
    rewrite Hn, Hidx in Hno. unfold idx in Hno. rewrite N.eqb_refl, andb_true_r, beq_refl in Hno. discriminate.
  - destruct (mi_addrs m') as [|a' l'] eqn:Ea.
    + exfalso. assert (Hin : In m' (gone_of d)).
      { apply filter_In. split; [eapply intf_get_in; exact Hk|]. rewrite Ea. reflexivity. }
      rewrite <- not_true_iff_false in Ex. apply Ex. apply existsb_exists. exists m'. split; [exact Hin|].
      apply N.eqb_eq. exact Hidx.
    + exists m', a'. rewrite Hk. split; [reflexivity|]. split; [exact Hn|]. rewrite Ea. left. reflexivity.
Qed.

(* after an IP check the daemon holds exactly the (interface,
   address) pairs of the OS table whose last matching selection enables them - whatever it held
   before, and whenever the selections were made (also before the interface existed) *)
Theorem interface_table_after_check now d idx a :
  let d' := fst (check_ip_changes now d) in
  held (d_intfs d') idx a =
  match find (fun e => key_is e idx a) (rev (d_os d)) with
  | Some e => last_match (d_sels d) e
  | None => false
  end
  /\ d_sels d' = d_sels d /\ d_os d' = d_os d.
Proof.
  cbv zeta. rewrite check_phases. cbn [fst].
  pose proof (check_mid_frame d) as M. pose proof (rf_sels M : _ = d_sels d) as M1. pose proof (rf_os M : _ = d_os d) as M2.
  pose proof (rf_intfs M : _ = fold_left _ _ (kept_of d)) as M5.
  destruct (interface_table_after_apply now (fst (check_mid d)) (d_os d) idx a) as [Ha Hs].
  destruct (apply_keeps_sels_os now (fst (check_mid d)) (d_os d)) as [_ Ho].
  rewrite M1 in Ha, Hs. rewrite M2 in Ho. split; [|split; [exact Hs|exact Ho]].
  rewrite Ha. destruct (find (fun e => key_is e idx a) (rev (d_os d))) eqn:Ef; [reflexivity|].
  (* not named by the OS table: it was dropped before *)
  destruct (held (d_intfs (fst (check_mid d))) idx a) eqn:Eh; [|reflexivity]. exfalso.
  rewrite M5 in Eh. apply held_removes in Eh. rewrite held_kept, os_has_find, Ef, andb_false_r in Eh. discriminate.
Qed.

(* `gone d m` (IntfRemovalProofs) says of an entry m of my_intfs what membership in gone_of d says
   of its image in kept_of d *)
Lemma gone_gone_of d m : gone d m -> exists m', In m' (gone_of d) /\ id_of m' = id_of m.
Proof.
  intros [Hin Hgone].
  exists (mkMyIntf (mi_name m) (mi_index m) (filter (fun a => os_has (d_os d) (mi_index m) a) (mi_addrs m))).
  split; [|reflexivity]. apply filter_In. split; [unfold kept_of; apply in_map_iff; exists m; auto|]. simpl.
  destruct (filter _ (mi_addrs m)) as [|a l] eqn:E; [reflexivity|]. exfalso.
  assert (Ha : In a (filter (fun a => os_has (d_os d) (mi_index m) a) (mi_addrs m))) by (rewrite E; left; reflexivity).
  apply filter_In in Ha as [H1 H2]. rewrite (Hgone a H1) in H2. discriminate.
Qed.

Theorem check_forgets_removed_interfaces now d m : gone d m ->
  no_src (d_cache (fst (check_ip_changes now d))) (mkIntfId (mi_name m) (mi_index m)).
Proof.
  intros Hg. destruct (gone_gone_of d m Hg) as (m' & Hm' & E). change (mkIntfId (mi_name m) (mi_index m)) with (id_of m).
  rewrite <- E, check_phases. cbn [fst]. eapply sub_no_src; [apply apply_cache|].
  intros k r H. destruct (rf_cache (check_mid_frame d) H) as [_ Hno]. apply Hno. exact Hm'.
Qed.

Lemma check_ip_changes_ok seen now d : Inv seen d ->
  let r := check_ip_changes now d in
  Inv seen (fst r) /\ d_os (fst r) = d_os d /\ d_sels (fst r) = d_sels d /\
  Forall (obs_just1 seen (d_os d) (d_sels d)) (snd r).
Proof.
  intros HI r. pose proof (fun idx a => interface_table_after_check now d idx a) as Htab. cbv zeta in Htab.
  subst r. revert Htab. rewrite check_phases. cbn [fst snd]. intros Htab.
  pose proof (check_mid_frame d) as M. pose proof (rf_sels M : _ = d_sels d) as M1. pose proof (rf_os M : _ = d_os d) as M2.
  pose proof (rf_retrans M : _ = d_retrans d) as M3. pose proof (rf_intfs M : _ = fold_left _ _ (kept_of d)) as M5.
  pose proof (check_mid_out d) as M8.
  assert (HJ : J seen (d_os d) (d_sels d) d (fst (check_mid d))).
  { constructor; auto.
    - rewrite M5. apply uniq_idx_removes, uniq_idx_kept, (inv_idx _ _ HI).
    - intros idx a H. apply (inv_seen_held _ _ HI). rewrite M5 in H. apply held_removes in H.
      rewrite held_kept in H. apply andb_true_iff in H. tauto.
    - intros t p idx v4 H. rewrite M3 in H. exact H. }
  rewrite apply_intf_selections_fold, M1 in *.
  destruct (apply_J seen (d_os d) (d_sels d) d now (inv_seen_os _ _ HI) (inv_os _ _ HI) (d_os d) (incl_refl _)
                    (fst (check_mid d)) [] HJ (Forall_nil _)) as [HJ' Ho].
  split; [|split; [apply (j_os _ _ _ _ _ HJ')|split; [apply (j_sels _ _ _ _ _ HJ')|]]].
  - apply (Inv_of_J seen d (d_sels d)); [exact HI|exact HJ'|].
    intros e He Hh. destruct (Htab (i_index e) (i_addr e)) as [Hheld _].
    rewrite Hheld, (find_key_uniq _ _ (inv_os _ _ HI) He) in Hh. exact Hh.
  - apply Forall_app. split; [apply Forall_map, Forall_forall; intros x _; exact I|].
    apply Forall_app. split; [|exact Ho]. eapply Forall_impl; [|exact M8]. intros o. apply cache_ev_just.
Qed.

(* neither an IpAdd / IpDel nor a resolved instance *)
Definition plain (o : obs) : Prop := match o with OSent _ | OFound _ _ | ORemoved _ _ => True | _ => False end.
Lemma sent_by_plain Q os o : sent_by Q os o -> plain o.
Proof. intros (intf & v4 & p & _ & ->). exact I. Qed.

Lemma apply_ev1 seen now d : incl (d_os d) seen ->
  Forall (ev1 seen (d_os d) (d_sels d)) (snd (apply_intf_selections now d (d_os d))).
Proof.
  intros Hc. rewrite apply_intf_selections_fold.
  apply (apply_fold_ind now _ (fun _ out => Forall (ev1 seen (d_os d) (d_sels d)) out)); [|constructor].
  intros st out e He Ho. apply Forall_app. split; [exact Ho|]. destruct (last_match (d_sels d) e) eqn:Es.
  - destruct (held (d_intfs st) (i_index e) (i_addr e)) eqn:Eh; [rewrite (add_interface_held _ _ _ Eh); constructor|].
    destruct (add_interface_new now st e Eh) as (mi & _ & ->). cbn [snd]. apply Forall_app. split.
    + apply Forall_flat_map, Forall_forall. intros kv _. apply Forall_map, Forall_forall. intros p _. exact I.
    + constructor; [|constructor]. exists e. auto.
  - destruct (del_interface_addr_eq st e) as (regs & svcs & c & -> & _). cbn [snd].
    destruct (_ && _); constructor; [|constructor]. exists e. split; [apply Hc; exact He|]. auto.
Qed.

Lemma do_retrans_plain d c :
  d_intfs (fst (do_retrans d c)) = d_intfs d /\ d_cache (fst (do_retrans d c)) = d_cache d /\
  Forall plain (snd (do_retrans d c)).
Proof.
  apply do_retrans_cases.
  - simpl. auto.
  - intros key idx ds intf _ _ _ _. split; [reflexivity|]. split; [reflexivity|].
    apply Forall_map, Forall_forall. intros p _. exact I.
  - intros p idx v4 intf _ _ _. split; [reflexivity|]. split; [reflexivity|]. repeat constructor.
Qed.

(* the last-word clause of chk_C18 for the events of o, relative to one selection list *)
Definition lw_ok (cur : list iface) (sels : list selection) (o : list obs) : Prop :=
  forall e, In e cur -> last_match sels e = true -> forall acc, lastdel (i_ip e) (ipev o) acc = true -> acc = true.

Lemma lw_ok_quiet cur sels o : ipev o = [] -> lw_ok cur sels o.
Proof. intros H e _ _ acc. rewrite H. simpl. auto. Qed.

Lemma cache_evs_quiet_ev1 seen d c l : Inv seen d -> cache_ok (d_intfs d) c -> Forall (cache_ev c) l ->
  Forall (ev1 seen (d_os d) (d_sels d)) l /\ ipev l = [].
Proof.
  intros HI Hc Hl. split.
  - eapply Forall_impl; [|exact Hl]. intros o. apply cache_ev_ev1; assumption.
  - apply ipev_quiet. eapply Forall_impl; [|exact Hl]. intros o Ho. destruct o; simpl in Ho; try contradiction; reflexivity.
Qed.

Lemma plain_list seen cur sels l : Forall plain l -> Forall (ev1 seen cur sels) l /\ ipev l = [].
Proof.
  intros H. split; [|apply ipev_quiet]; (eapply Forall_impl; [|exact H]); intros o; destruct o; simpl; unfold quiet; simpl; tauto.
Qed.

Lemma handle_dgram_ev seen d g : Inv seen d -> CInv d ->
  CInv (fst (handle_dgram d g)) /\
  Forall (ev1 seen (d_os d) (d_sels d)) (snd (handle_dgram d g)) /\ ipev (snd (handle_dgram d g)) = [].
Proof.
  intros HI HC. destruct (handle_dgram_ok seen d g HI) as [Hf _]. revert Hf. apply handle_dgram_cases.
  - intros _. split; [exact HC|split; [constructor|reflexivity]].
  - intros intf m p _ _ _ _. split; [exact HC|]. apply plain_list. repeat constructor.
  - (* what is new among the cached address records was learned on intf, which the daemon holds *)
    intros intf m Eg Ef Hf. pose proof (Inv_frame _ _ _ Hf HI) as HI'. destruct Hf as (_ & F2 & F3 & _).
    destruct (family_enabled_addr _ _ Ef) as [a [Ha _]]. pose proof (intf_get_index _ _ _ Eg) as Hidx.
    revert HI' F2 F3. destruct (handle_response_eq d intf m) as (c & res & out & -> & Hev & Hc). intros HI' F2 F3.
    assert (HC' : cache_ok (d_intfs d) c).
    { intros k x Hx. destruct (Hc k x Hx) as [H|[Hs Ht]]; [exact (HC k x H)|]. split; [exact Ht|].
      exists intf, a. rewrite Hs. simpl. rewrite Hidx. auto. }
    split; [exact HC'|]. rewrite <- F2, <- F3. apply (cache_evs_quiet_ev1 seen _ c); assumption.
Qed.

Lemma sel_state_frame d sels :
  let d1 := mkD (d_os d) (d_intfs d) (d_regs d) sels (d_svcs d) (d_cache d) (d_browsed d) (d_resolved d)
                (d_interval d) (d_next_check d) (d_retrans d) in
  CInv d -> CInv d1.
Proof. intros d1 H. exact H. Qed.

(* enable / disable: the selections are replaced, then applied to the OS table *)
Lemma apply_sels_ev seen now d sels : Inv seen d -> CInv d ->
  let r := apply_intf_selections now (mkD (d_os d) (d_intfs d) (d_regs d) sels (d_svcs d) (d_cache d) (d_browsed d)
                                         (d_resolved d) (d_interval d) (d_next_check d) (d_retrans d)) (d_os d) in
  CInv (fst r) /\ Forall (ev1 seen (d_os d) sels) (snd r) /\ lw_ok (d_os d) sels (snd r).
Proof.
  intros HI HC. cbv zeta. set (d1 := mkD _ _ _ sels _ _ _ _ _ _ _).
  split; [apply apply_CInv; exact HC|]. split; [apply (apply_ev1 seen now d1); apply (inv_seen_os _ _ HI)|].
  intros e He Hl acc. rewrite (apply_ipev_spec now d1). apply apply_last_word; [apply (inv_os _ _ HI)|exact He|exact Hl].
Qed.

Lemma do_call_ev seen now d c : Inv seen d -> CInv d ->
  let sels' := d_sels (fst (do_call now d c)) in
  CInv (fst (do_call now d c)) /\
  Forall (ev1 seen (d_os d) sels') (snd (do_call now d c)) /\ lw_ok (d_os d) sels' (snd (do_call now d c)) /\
  (match c with CEnable _ | CDisable _ => True | _ => ipev (snd (do_call now d c)) = [] end).
Proof.
  intros HI HC. destruct (do_call_ok seen now d c HI) as (_ & _ & _ & Hsel). cbv zeta. rewrite Hsel. clear Hsel.
  (* the calls that leave interfaces and cache alone and report no IpAdd / IpDel *)
  assert (Hquiet : forall d' out, d_intfs d' = d_intfs d -> d_cache d' = d_cache d ->
            Forall (ev1 seen (d_os d) (d_sels d)) out /\ ipev out = [] ->
            CInv d' /\ Forall (ev1 seen (d_os d) (d_sels d)) out /\ lw_ok (d_os d) (d_sels d) out /\ ipev out = []).
  { intros d' out A B [P1 P2]. split; [unfold CInv; rewrite A, B; exact HC|].
    split; [exact P1|]. split; [apply lw_ok_quiet; exact P2|exact P2]. }
  destruct c as [ks|ks|s auto|key|secs|ty]; simpl do_call in *.
  - destruct (apply_sels_ev seen now d (push_selections (d_sels d) ks true (d_os d)) HI HC) as (A & B & C). auto.
  - destruct (apply_sels_ev seen now d (push_selections (d_sels d) ks false (d_os d)) HI HC) as (A & B & C). auto.
  - destruct (do_register_eq now d s auto) as (s1 & st & regs & rs & out & -> & _ & Ho & _).
    apply Hquiet; [reflexivity|reflexivity|]. apply plain_list. eapply Forall_impl; [|exact Ho]. intros o. apply sent_by_plain.
  - pose proof (do_unregister_eq now d key) as E. destruct (svc_get key (d_svcs d)) as [ds|].
    + destruct E as (rs & out & -> & Ho & _).
      apply Hquiet; [reflexivity|reflexivity|]. apply plain_list. eapply Forall_impl; [|exact Ho]. intros o. apply sent_by_plain.
    + rewrite E. apply Hquiet; [reflexivity|reflexivity|split; [constructor|reflexivity]].
  - apply Hquiet; [reflexivity|reflexivity|split; [constructor|reflexivity]].
  - destruct (do_browse_eq d ty) as (res & out & -> & C).
    apply Hquiet; [reflexivity|reflexivity|]. apply (cache_evs_quiet_ev1 seen d (d_cache d)); assumption.
Qed.

Lemma ipev_dels l : ipev (map OIpDel l) = map (fun a => (false, a)) l.
Proof. induction l; simpl; [reflexivity|]. unfold ipev in *. simpl. rewrite IHl. reflexivity. Qed.

Lemma lastdel_dels_notin a l : ~ In a l -> forall acc, lastdel a (map (fun x => (false, x)) l) acc = acc.
Proof.
  induction l as [|x l IH]; intros Hn acc; simpl; [reflexivity|].
  destruct (ip_eqb x a) eqn:E; [apply ip_eqb_eq in E; subst; exfalso; apply Hn; left; reflexivity|].
  apply IH. intros H. apply Hn. right. exact H.
Qed.

Lemma os_has_in tbl e : In e tbl -> os_has tbl (i_index e) (i_addr e) = true.
Proof.
  intros H. unfold os_has. apply existsb_exists. exists e. split; [exact H|]. rewrite N.eqb_refl. apply ifaddr_eqb_refl.
Qed.

Lemma check_ev seen now d : Inv seen d -> CInv d ->
  let r := check_ip_changes now d in
  CInv (fst r) /\ Forall (ev1 seen (d_os d) (d_sels d)) (snd r) /\ lw_ok (d_os d) (d_sels d) (snd r) /\
  nda (d_os d) (ipev (snd r)) = true.
Proof.
  intros HI HC. cbv zeta. rewrite check_phases. cbn [fst snd].
  pose proof (check_mid_facts seen d HI HC) as M. cbv zeta in M. destruct M as (M1 & M2 & M3 & _ & M5).
  pose proof (check_mid_out d) as M4.
  set (d3 := fst (check_mid d)) in *. set (evc := snd (check_mid d)) in *.
  destruct (cache_evs_quiet_ev1 seen d (d_cache d) evc HI HC M4) as [Ec1 Ec2].
  pose proof (apply_ev1 seen now d3) as Ea. rewrite M1, M2 in Ea. specialize (Ea (inv_seen_os _ _ HI)).
  pose proof (apply_ipev_spec now d3 (d_os d)) as Es. rewrite M1 in Es.
  split; [apply apply_CInv; exact M5|]. split; [|split].
  - apply Forall_app. split; [|apply Forall_app; split; assumption].
    (* a vanished address was held, hence reported once, and the OS table no longer has that entry *)
    apply Forall_map, Forall_forall. intros a Ha. simpl.
    unfold dels_of in Ha. apply filter_In in Ha as [Ha _]. unfold vanished_of in Ha.
    apply in_flat_map in Ha as [m [Hm Ha]]. apply in_map_iff in Ha as [x [<- Hx]]. apply filter_In in Hx as [Hx Hos].
    apply negb_true_iff in Hos.
    pose proof (in_get _ _ (inv_idx _ _ HI) Hm) as Hg.
    destruct (inv_seen_held _ _ HI _ _ (get_held _ _ _ _ Hg Hx)) as [e [He Hk]]. apply key_is_eq in Hk as [Hk1 Hk2].
    exists e. split; [exact He|]. split; [unfold i_ip; rewrite Hk2; reflexivity|]. left. intros Hin.
    apply os_has_in in Hin. rewrite Hk1, Hk2 in Hin. congruence.
  - intros e He Hl acc. rewrite !ipev_app, Ec2, ipev_dels, Es. simpl. rewrite lastdel_app. intros H.
    destruct (held (d_intfs d3) (i_index e) (i_addr e)) eqn:Eh.
    + rewrite lastdel_dels_notin in H.
      * eapply apply_lw_held; [apply (inv_os _ _ HI)|exact He|exact Hl|apply incl_refl|exact Eh|exact H].
      * intros Hin. unfold dels_of in Hin. apply filter_In in Hin as [_ Hin]. apply negb_true_iff in Hin.
        apply M3 in Eh. apply held_holds in Eh. unfold i_ip in Hin. congruence.
    + rewrite (apply_lw_new (last_match (d_sels d)) (d_os d) e (inv_os _ _ HI) He Hl) in H;
        [discriminate|apply incl_refl|exact He|exact Eh].
  - rewrite !ipev_app, Ec2, ipev_dels, Es. simpl. rewrite nda_dels. apply apply_nda.
Qed.

(* ev1 / lw_ok relative to the selection lists in force during an iteration *)
Definition ev_st (seen cur : list iface) (states : list (list selection)) (o : obs) : Prop :=
  exists sels, In sels states /\ ev1 seen cur sels o.
Definition lw_all (cur : list iface) (states : list (list selection)) (o : list obs) : Prop :=
  forall e, In e cur -> (forall sels, In sels states -> last_match sels e = true) ->
  forall acc, lastdel (i_ip e) (ipev o) acc = true -> acc = true.

Lemma ev_st_incl seen cur s1 s2 o : incl s1 s2 -> ev_st seen cur s1 o -> ev_st seen cur s2 o.
Proof. intros Hi (sels & H1 & H2). exists sels. auto. Qed.

Lemma lw_all_app cur states o1 o2 : lw_all cur states o1 -> lw_all cur states o2 -> lw_all cur states (o1 ++ o2).
Proof.
  intros H1 H2 e He Hs acc. rewrite ipev_app, lastdel_app. intros H. apply H2 in H; auto. apply H1 in H; auto.
Qed.

Lemma lw_all_of cur states sels o : In sels states -> lw_ok cur sels o -> lw_all cur states o.
Proof. intros Hin H e He Hs acc. apply H; auto. Qed.

Lemma lw_all_incl cur s1 s2 o : incl s1 s2 -> lw_all cur s1 o -> lw_all cur s2 o.
Proof. intros Hi H e He Hs acc. apply H; auto. Qed.

Lemma dgrams_all seen l d : Inv seen d ->
  let r := run_list handle_dgram l d in
  Inv seen (fst r) /\ d_os (fst r) = d_os d /\ d_sels (fst r) = d_sels d /\
  Forall (obs_just1 seen (d_os d) (d_sels d)) (snd r) /\
  (CInv d -> CInv (fst r) /\ Forall (ev1 seen (d_os d) (d_sels d)) (snd r) /\ ipev (snd r) = []).
Proof.
  intros HI. cbv zeta.
  apply (run_list_ind handle_dgram (fun d' out => Inv seen d' /\ d_os d' = d_os d /\ d_sels d' = d_sels d /\
           Forall (obs_just1 seen (d_os d) (d_sels d)) out /\
           (CInv d -> CInv d' /\ Forall (ev1 seen (d_os d) (d_sels d)) out /\ ipev out = []))).
  - intros d' out g _ (H1 & H2 & H3 & H4 & H5). destruct (handle_dgram_ok seen d' g H1) as [Hf Ho].
    pose proof Hf as (_ & F2 & F3 & _). rewrite H2, H3 in Ho.
    split; [eapply Inv_frame; eassumption|]. split; [congruence|]. split; [congruence|]. split; [apply Forall_app; auto|].
    intros HC. destruct (H5 HC) as (C1 & C2 & C3). destruct (handle_dgram_ev seen d' g H1 C1) as (E1 & E2 & E3).
    rewrite H2, H3 in E2. split; [exact E1|]. split; [apply Forall_app; auto|]. rewrite ipev_app, C3, E3. reflexivity.
  - split; [exact HI|]. split; [reflexivity|]. split; [reflexivity|]. split; [constructor|].
    intros HC. split; [exact HC|]. split; [constructor|reflexivity].
Qed.

Lemma calls_ev seen now cur l : forall d, Inv seen d -> CInv d -> d_os d = cur ->
  let r := run_list (do_call now) l d in
  CInv (fst r) /\ Forall (ev_st seen cur (sel_states (d_sels d) cur l)) (snd r) /\
  lw_all cur (sel_states (d_sels d) cur l) (snd r) /\ (no_sel_calls l = true -> ipev (snd r) = []).
Proof.
  induction l as [|c l IH]; intros d HI HC Hos; cbv zeta.
  - rewrite run_list_nil. simpl. split; [exact HC|]. split; [constructor|]. split; [|reflexivity].
    intros e _ _ acc H. exact H.
  - rewrite run_list_cons. destruct (do_call_ok seen now d c HI) as (H1 & H2 & _ & H4).
    pose proof (do_call_ev seen now d c HI HC) as E. cbv zeta in E. destruct E as (E1 & E2 & E3 & E4).
    assert (Hfs : d_sels (fst (do_call now d c)) = final_sels (d_sels d) cur [c]).
    { rewrite H4, Hos. destruct c; reflexivity. }
    rewrite Hos, Hfs in E2, E3.
    pose proof (IH (fst (do_call now d c)) H1 E1 (eq_trans H2 Hos)) as K. cbv zeta in K. destruct K as (K1 & K2 & K3 & K4).
    rewrite Hfs in K2, K3.
    assert (Hin : In (final_sels (d_sels d) cur [c]) (sel_states (d_sels d) cur (c :: l)))
      by (apply sel_states_tail; apply sel_states_head).
    cbn [fst snd]. split; [exact K1|]. split; [|split].
    + apply Forall_app. split.
      * eapply Forall_impl; [|exact E2]. intros o Ho. exists (final_sels (d_sels d) cur [c]). auto.
      * eapply Forall_impl; [|exact K2]. intros o. apply ev_st_incl. apply sel_states_tail.
    + apply lw_all_app; [eapply lw_all_of; eassumption|]. eapply lw_all_incl; [|exact K3]. apply sel_states_tail.
    + intros Hn. simpl in Hn. apply andb_true_iff in Hn as [Hn1 Hn2]. rewrite ipev_app, (K4 Hn2).
      destruct c; try discriminate Hn1; rewrite E4; reflexivity.
Qed.

Lemma retrans_all seen l d : Inv seen d ->
  (forall t p idx v4, In (t, RUnregisterResend p idx v4) l ->
     dest_is_v4 p = v4 /\ Forall (seen_rec seen idx) (p_answers p ++ p_additionals p)) ->
  let r := run_list (fun st (x : N * rcmd) => do_retrans st (snd x)) l d in
  Inv seen (fst r) /\ d_os (fst r) = d_os d /\ d_sels (fst r) = d_sels d /\
  Forall (obs_just1 seen (d_os d) (d_sels d)) (snd r) /\ (CInv d -> CInv (fst r) /\ Forall plain (snd r)).
Proof.
  intros HI Hgb. cbv zeta.
  apply (run_list_ind _ (fun d' out => Inv seen d' /\ d_os d' = d_os d /\ d_sels d' = d_sels d /\
           Forall (obs_just1 seen (d_os d) (d_sels d)) out /\ (CInv d -> CInv d' /\ Forall plain out))).
  - intros d' out [t c] Hin (H1 & H2 & H3 & H4 & H5). cbn [snd].
    assert (Hc : forall p idx v4, c = RUnregisterResend p idx v4 ->
               dest_is_v4 p = v4 /\ Forall (seen_rec seen idx) (p_answers p ++ p_additionals p)).
    { intros p idx v4 ->. apply (Hgb t). exact Hin. }
    destruct (do_retrans_ok seen d' c H1 Hc) as [Hf Ho]. pose proof Hf as (_ & F2 & F3 & _). rewrite H2, H3 in Ho.
    split; [eapply Inv_frame; eassumption|]. split; [congruence|]. split; [congruence|]. split; [apply Forall_app; auto|].
    intros HC. destruct (H5 HC) as [C1 C2]. destruct (do_retrans_plain d' c) as (A & B & C).
    split; [unfold CInv; rewrite A, B; exact C1|apply Forall_app; auto].
  - split; [exact HI|]. split; [reflexivity|]. split; [reflexivity|]. split; [constructor|].
    intros HC. split; [exact HC|constructor].
Qed.

(* the four phases of Zeroconf::run as the model orders them: datagrams (IPv4 socket first),
   commands, due retransmissions, the periodic IP check *)
Definition dgrams_of (s : step) : list dgram :=
  filter (fun g => is_v4 (dg_src g)) (st_dgrams s) ++ filter (fun g => negb (is_v4 (dg_src g))) (st_dgrams s).
Definition due (now : N) (d : dstate) : list (N * rcmd) := filter (fun r => fst r <=? now) (d_retrans d).
Definition drop_due (now : N) (d : dstate) : dstate :=
  mkD (d_os d) (d_intfs d) (d_regs d) (d_sels d) (d_svcs d) (d_cache d) (d_browsed d) (d_resolved d)
      (d_interval d) (d_next_check d) (filter (fun r => negb (fst r <=? now)) (d_retrans d)).
Definition set_next (n : N) (d : dstate) : dstate :=
  mkD (d_os d) (d_intfs d) (d_regs d) (d_sels d) (d_svcs d) (d_cache d) (d_browsed d) (d_resolved d)
      (d_interval d) n (d_retrans d).
Definition ip_check (now : N) (d : dstate) : dstate * list obs :=
  if d_interval d =? 0 then (set_next 0 d, [])
  else if d_next_check d =? 0 then (set_next (now + d_interval d) d, [])
  else if ParamsResponder.ip_check_due now (d_next_check d) then check_ip_changes now (set_next (now + d_interval d) d)
  else (d, []).

Lemma iterate_phases d s d1 o1 d2 o2 d3 o3 :
  run_list handle_dgram (dgrams_of s) (set_os (st_os s) d) = (d1, o1) ->
  run_list (do_call (st_now s)) (st_calls s) d1 = (d2, o2) ->
  run_list (fun st r => do_retrans st (snd r)) (due (st_now s) d2) (drop_due (st_now s) d2) = (d3, o3) ->
  iterate d s = (fst (ip_check (st_now s) d3), o1 ++ o2 ++ o3 ++ snd (ip_check (st_now s) d3)).
Proof.
  unfold dgrams_of, set_os, due, drop_due, ip_check, set_next, iterate. cbv zeta. intros -> -> ->.
  destruct (if d_interval d3 =? 0 then _ else _). reflexivity.
Qed.

Lemma ip_check_cases now d (Q : dstate * list obs -> Prop) :
  (forall n, Q (set_next n d, [])) -> Q (d, []) ->
  Q (check_ip_changes now (set_next (now + d_interval d) d)) -> Q (ip_check now d).
Proof.
  intros H1 H2 H3. unfold ip_check. destruct (d_interval d =? 0); [apply H1|].
  destruct (d_next_check d =? 0); [apply H1|]. destruct (ParamsResponder.ip_check_due _ _); assumption.
Qed.

Lemma set_os_os o d : d_os (set_os o d) = match o with Some tbl => tbl | None => d_os d end.
Proof. destruct o; reflexivity. Qed.
Lemma set_os_sels o d : d_sels (set_os o d) = d_sels d.
Proof. destruct o; reflexivity. Qed.

Lemma ip_check_ok seen now d : Inv seen d ->
  Inv seen (fst (ip_check now d)) /\ d_os (fst (ip_check now d)) = d_os d /\ d_sels (fst (ip_check now d)) = d_sels d /\
  Forall (obs_just1 seen (d_os d) (d_sels d)) (snd (ip_check now d)).
Proof.
  intros HI. assert (Hn : forall n, Inv seen (set_next n d)) by (intros n; eapply Inv_frame; [|exact HI]; unfold frame4; auto).
  apply ip_check_cases.
  - intros n. cbn. auto.
  - cbn. auto.
  - apply (check_ip_changes_ok seen now _ (Hn _)).
Qed.

Lemma ip_check_ev seen now d : Inv seen d -> CInv d ->
  CInv (fst (ip_check now d)) /\ Forall (ev1 seen (d_os d) (d_sels d)) (snd (ip_check now d)) /\
  lw_ok (d_os d) (d_sels d) (snd (ip_check now d)) /\ nda (d_os d) (ipev (snd (ip_check now d))) = true.
Proof.
  intros HI HC.
  assert (Quiet : forall st : dstate, CInv st -> CInv st /\ Forall (ev1 seen (d_os d) (d_sels d)) [] /\
                                      lw_ok (d_os d) (d_sels d) [] /\ nda (d_os d) (ipev []) = true).
  { intros st H. split; [exact H|]. split; [constructor|]. split; [apply lw_ok_quiet; reflexivity|reflexivity]. }
  apply ip_check_cases.
  - intros n. apply (Quiet (set_next n d)). exact HC.
  - apply Quiet. exact HC.
  - apply (check_ev seen now (set_next (now + d_interval d) d)); [|exact HC]. eapply Inv_frame; [|exact HI]. unfold frame4. auto.
Qed.

(* Up to the IP check: d1 / o1 after the datagrams, o2 from the calls, d3 / o3 after the
   retransmissions; sels0 are the selections before the calls, fs those after them. *)
Set Implicit Arguments.
Record phases (seen' cur : list iface) (sels0 fs : list selection) (states : list (list selection))
    (d d1 d2 d3 : dstate) (o1 o2 o3 : list obs) : Prop := {
  ph1_inv : Inv seen' d1;
  ph1_os : d_os d1 = cur;
  ph1_sels : d_sels d1 = sels0;
  ph1_just : Forall (obs_just1 seen' cur sels0) o1;
  ph1_ev : CInv d -> CInv d1 /\ Forall (ev1 seen' cur sels0) o1 /\ ipev o1 = [];
  ph2_just : Forall (obs_just seen' cur states) o2;
  ph3_inv : Inv seen' d3;
  ph3_os : d_os d3 = cur;
  ph3_sels : d_sels d3 = fs;
  ph3_just : Forall (obs_just1 seen' cur fs) o3;
  ph3_ev : CInv d2 -> CInv d3 /\ Forall plain o3 }.
Unset Implicit Arguments.

Lemma phases_ok seen d s d1 o1 d2 o2 d3 o3 : Inv seen d ->
  (forall tbl, st_os s = Some tbl -> uniq_keys tbl /\ hazard d tbl = false) ->
  run_list handle_dgram (dgrams_of s) (set_os (st_os s) d) = (d1, o1) ->
  run_list (do_call (st_now s)) (st_calls s) d1 = (d2, o2) ->
  run_list (fun st r => do_retrans st (snd r)) (due (st_now s) d2) (drop_due (st_now s) d2) = (d3, o3) ->
  let cur := match st_os s with Some tbl => tbl | None => d_os d end in
  phases (add_seen seen cur) cur (d_sels d) (final_sels (d_sels d) cur (st_calls s))
         (sel_states (d_sels d) cur (st_calls s)) d d1 d2 d3 o1 o2 o3.
Proof.
  intros HI Hwf E1 E2 E3 cur. set (seen' := add_seen seen cur).
  pose proof (Inv_new_os seen d (st_os s) HI Hwf) as HI0. rewrite set_os_os in HI0. fold cur seen' in HI0.
  destruct (dgrams_all seen' (dgrams_of s) _ HI0) as (A1 & A2 & A3 & A4 & A5).
  rewrite E1 in A1, A2, A3, A4, A5. cbn [fst snd] in A1, A2, A3, A4, A5.
  rewrite set_os_os in A2, A4, A5. rewrite set_os_sels in A3, A4, A5. fold cur in A2, A4, A5.
  destruct (calls_ok seen' (st_now s) cur (st_calls s) d1 A1 A2) as (B1 & B2 & B3 & B4).
  rewrite E2 in B1, B2, B3, B4. cbn [fst snd] in B1, B2, B3, B4. rewrite A3 in B3, B4.
  assert (HI2' : Inv seen' (drop_due (st_now s) d2)).
  { eapply Inv_but_retrans; [| | | |exact B1]; try reflexivity.
    intros t p idx v4 H. left. apply filter_In in H. tauto. }
  assert (Hdue : forall t p idx v4, In (t, RUnregisterResend p idx v4) (due (st_now s) d2) ->
             dest_is_v4 p = v4 /\ Forall (seen_rec seen' idx) (p_answers p ++ p_additionals p)).
  { intros t p idx v4 H. apply (inv_gb _ _ B1 t). apply filter_In in H. tauto. }
  pose proof (retrans_all seen' _ _ HI2' Hdue) as C. cbv zeta in C. rewrite E3 in C.
  cbn [fst snd drop_due d_os d_sels] in C. rewrite B2, B3 in C. destruct C as (C1 & C2 & C3 & C4 & C5).
  constructor; try assumption. intros HC. apply A5. destruct (st_os s); exact HC.
Qed.

Theorem iterate_ok seen d s : Inv seen d ->
  (forall tbl, st_os s = Some tbl -> uniq_keys tbl /\ hazard d tbl = false) ->
  let cur := match st_os s with Some tbl => tbl | None => d_os d end in
  let seen' := add_seen seen cur in
  Inv seen' (fst (iterate d s)) /\
  Forall (obs_just seen' cur (sel_states (d_sels d) cur (st_calls s))) (snd (iterate d s)).
Proof.
  intros HI Hwf cur seen'.
  destruct (run_list handle_dgram (dgrams_of s) (set_os (st_os s) d)) as [d1 o1] eqn:E1.
  destruct (run_list (do_call (st_now s)) (st_calls s) d1) as [d2 o2] eqn:E2.
  destruct (run_list (fun st r => do_retrans st (snd r)) (due (st_now s) d2) (drop_due (st_now s) d2)) as [d3 o3] eqn:E3.
  pose proof (phases_ok seen d s _ _ _ _ _ _ HI Hwf E1 E2 E3) as P. cbv zeta in P. fold cur seen' in P.
  rewrite (iterate_phases d s _ _ _ _ _ _ E1 E2 E3).
  pose proof (ph1_just P) as A4. pose proof (ph2_just P) as B4.
  pose proof (ph3_inv P) as C1. pose proof (ph3_os P) as C2. pose proof (ph3_sels P) as C3. pose proof (ph3_just P) as C4.
  set (fs := final_sels (d_sels d) cur (st_calls s)) in *.
  destruct (ip_check_ok seen' (st_now s) d3 C1) as (D1 & _ & _ & D2). rewrite C2, C3 in D2.
  cbn [fst snd]. split; [exact D1|].
  assert (Hfs : In fs (sel_states (d_sels d) cur (st_calls s))) by apply sel_states_final.
  assert (Hhd : In (d_sels d) (sel_states (d_sels d) cur (st_calls s))) by apply sel_states_head.
  apply Forall_app. split; [eapply Forall_impl; [|exact A4]; intros o; apply obs_just_of1; exact Hhd|].
  apply Forall_app. split; [exact B4|].
  apply Forall_app. split; (eapply Forall_impl; [|eassumption]); intros o; apply obs_just_of1; exact Hfs.
Qed.

Theorem iterate_ev seen d s : Inv seen d -> CInv d ->
  (forall tbl, st_os s = Some tbl -> uniq_keys tbl /\ hazard d tbl = false) ->
  let cur := match st_os s with Some tbl => tbl | None => d_os d end in
  let seen' := add_seen seen cur in
  let states := sel_states (d_sels d) cur (st_calls s) in
  CInv (fst (iterate d s)) /\
  Forall (ev_st seen' cur states) (snd (iterate d s)) /\
  lw_all cur states (snd (iterate d s)) /\
  (no_sel_calls (st_calls s) = true -> nda cur (ipev (snd (iterate d s))) = true) /\
  d_os (fst (iterate d s)) = cur /\ d_sels (fst (iterate d s)) = final_sels (d_sels d) cur (st_calls s).
Proof.
  intros HI HC Hwf cur seen' states.
  destruct (run_list handle_dgram (dgrams_of s) (set_os (st_os s) d)) as [d1 o1] eqn:E1.
  destruct (run_list (do_call (st_now s)) (st_calls s) d1) as [d2 o2] eqn:E2.
  destruct (run_list (fun st r => do_retrans st (snd r)) (due (st_now s) d2) (drop_due (st_now s) d2)) as [d3 o3] eqn:E3.
  pose proof (phases_ok seen d s _ _ _ _ _ _ HI Hwf E1 E2 E3) as P. cbv zeta in P. fold cur seen' in P.
  rewrite (iterate_phases d s _ _ _ _ _ _ E1 E2 E3).
  pose proof (ph1_inv P) as A1. pose proof (ph1_os P) as A2. pose proof (ph1_sels P) as A3.
  pose proof (ph3_inv P) as C1. pose proof (ph3_os P) as C2. pose proof (ph3_sels P) as C3.
  destruct (ph1_ev P HC) as (A5 & A6 & A7).
  pose proof (calls_ev seen' (st_now s) cur (st_calls s) d1 A1 A5 A2) as B. cbv zeta in B. rewrite E2, A3 in B.
  cbn [fst snd] in B. fold states in B. destruct B as (B5 & B6 & B7 & B8). destruct (ph3_ev P B5) as [C5 C6].
  set (fs := final_sels (d_sels d) cur (st_calls s)) in *.
  assert (Hfs : In fs states) by apply sel_states_final.
  assert (Hhd : In (d_sels d) states) by apply sel_states_head.
  destruct (ip_check_ok seen' (st_now s) d3 C1) as (_ & D5 & D6 & _). rewrite C2 in D5. rewrite C3 in D6.
  destruct (ip_check_ev seen' (st_now s) d3 C1 C5) as (D1 & D2 & D3 & D4). rewrite C2, C3 in D2, D3. rewrite C2 in D4.
  cbn [fst snd].
  destruct (plain_list seen' cur fs _ C6) as [P1 P2].
  split; [exact D1|]. split; [|split].
  - apply Forall_app. split; [eapply Forall_impl; [|exact A6]; intros o Ho; exists (d_sels d); auto|].
    apply Forall_app. split; [exact B6|].
    apply Forall_app. split; (eapply Forall_impl; [|eassumption]); intros o Ho; exists fs; auto.
  - apply lw_all_app; [apply (lw_all_of _ _ (d_sels d)); [exact Hhd|apply lw_ok_quiet; exact A7]|].
    apply lw_all_app; [exact B7|]. apply lw_all_app; [apply (lw_all_of _ _ fs); [exact Hfs|apply lw_ok_quiet; exact P2]|].
    apply (lw_all_of _ _ fs); assumption.
  - split; [|split; [exact D5|exact D6]]. intros Hn. rewrite !ipev_app, A7, (B8 Hn), P2. simpl. exact D4.
Qed.

Lemma unselected_some_in states sels e : In sels states -> last_match sels e = false -> unselected_some states e = true.
Proof. intros H1 H2. unfold unselected_some. apply existsb_exists. exists sels. rewrite H2. auto. Qed.

Lemma obs_ok_of seen cur states o : seen_wf seen -> v4_single seen -> incl cur seen ->
  obs_just seen cur states o -> ev_st seen cur states o -> obs_ok seen cur states o = true.
Proof.
  intros Hwf Hv4 Hcur Hj (sels & Hin & He). destruct o; simpl in *; auto.
  - destruct Hj as (sels' & Hin' & Hp). apply (packet_ok_of_just seen cur states sels'); assumption.
  - destruct He as (e & He1 & He2 & He3). apply existsb_exists. exists e. split; [apply Hcur; exact He1|].
    rewrite He2, (ResponderProofs.ip_eqb_refl _). simpl. eapply selected_some_in; eassumption.
  - destruct He as (e & He1 & He2 & He3). apply existsb_exists. exists e. split; [exact He1|].
    rewrite He2, (ResponderProofs.ip_eqb_refl _). simpl. destruct (iface_mem e cur) eqn:Em; simpl; [|reflexivity].
    destruct He3 as [Hn|Hl]; [exfalso; apply Hn; apply iface_mem_In; exact Em|]. eapply unselected_some_in; eassumption.
  - apply forallb_forall. intros ai Hai. destruct (He ai Hai) as (e & He1 & He2 & He3).
    unfold intf_live. apply existsb_exists. exists e. split; [exact He1|]. rewrite He2, N.eqb_refl. simpl.
    destruct (iface_mem e cur) eqn:Em; simpl; [|reflexivity].
    destruct He3 as [Hn|Hl]; [exfalso; apply Hn; apply iface_mem_In; exact Em|]. eapply selected_some_in; eassumption.
Qed.

Lemma last_word_of cur states os : lw_all cur states os -> last_word_ok cur states os = true.
Proof.
  intros H. unfold last_word_ok. apply forallb_forall. intros o _. destruct o; auto.
  unfold del_of_held. destruct (enabled_in_table cur states a) eqn:Een; [|rewrite andb_false_r; reflexivity].
  rewrite andb_true_r. apply negb_true_iff. unfold enabled_in_table in Een.
  apply existsb_exists in Een as [e [He Hc]]. apply andb_true_iff in Hc as [Hip Hall]. apply ip_eqb_eq in Hip.
  rewrite forallb_forall in Hall. rewrite last_is_del_ipev. subst a.
  destruct (lastdel (i_ip e) (ipev os) false) eqn:El; [|reflexivity].
  apply (H e He) in El; [discriminate|exact Hall].
Qed.

Lemma order_of cur calls os : (no_sel_calls calls = true -> nda cur (ipev os) = true) -> order_ok cur calls os = true.
Proof.
  intros H. unfold order_ok. destruct (no_sel_calls calls); [|reflexivity]. simpl.
  rewrite no_del_after_add_ipev. auto.
Qed.

Lemma sel_states_nonempty cur calls : forall sels, sel_states sels cur calls <> [].
Proof. induction calls as [|c t IH]; intros s; simpl; [discriminate|destruct c; try discriminate; apply IH]. Qed.

Lemma last_sel_states calls : forall sels cur dflt, last (sel_states sels cur calls) dflt = final_sels sels cur calls.
Proof.
  induction calls as [|c t IH]; intros sels cur dflt; simpl; [reflexivity|].
  destruct c; simpl; try apply IH.
  - specialize (IH (push_selections sels ks true cur) cur dflt).
    destruct (sel_states _ cur t) eqn:E; [exfalso; eapply sel_states_nonempty; exact E|exact IH].
  - specialize (IH (push_selections sels ks false cur) cur dflt).
    destruct (sel_states _ cur t) eqn:E; [exfalso; eapply sel_states_nonempty; exact E|exact IH].
Qed.

(* well-formed histories: every netmask fits its family; an IPv4 address is never reported on two
   interfaces (then the interface an IPv4 packet leaves on - the owner of the address given to
   IP_MULTICAST_IF - is the one the daemon means) *)
Definition all_entries (os0 : list iface) (steps : list step) : list iface :=
  os0 ++ flat_map (fun s => match st_os s with Some t => t | None => [] end) steps.
Definition v4_singleb (l : list iface) : bool :=
  forallb (fun e => forallb (fun e' => negb (is_v4 (i_ip e) && ip_eqb (i_ip e') (i_ip e)) || (i_index e' =? i_index e)) l) l.
Definition hist_wf (os0 : list iface) (steps : list step) : bool :=
  forallb (fun e => mask_wf (i_addr e)) (all_entries os0 steps) && v4_singleb (all_entries os0 steps).

Lemma hist_wf_ok os0 steps : hist_wf os0 steps = true -> seen_wf (all_entries os0 steps) /\ v4_single (all_entries os0 steps).
Proof.
  unfold hist_wf. intros H. apply andb_true_iff in H as [H1 H2]. split.
  - intros e He. rewrite forallb_forall in H1. apply H1. exact He.
  - intros e e' He He' Hv Hip. unfold v4_singleb in H2. rewrite forallb_forall in H2. specialize (H2 e He).
    rewrite forallb_forall in H2. specialize (H2 e' He'). rewrite Hv, Hip, (ResponderProofs.ip_eqb_refl _) in H2.
    simpl in H2. apply N.eqb_eq. exact H2.
Qed.


Lemma step_hyps d s t : wf_steps (s :: t) -> known_class d (s :: t) = false ->
  (forall tbl, st_os s = Some tbl -> uniq_keys tbl /\ hazard d tbl = false) /\
  wf_steps t /\ known_class (fst (iterate d s)) t = false.
Proof.
  intros Hwf Hk. simpl in Hk. apply orb_false_iff in Hk as [Hk1 Hk2]. split; [|split; [|exact Hk2]].
  - intros tbl E. split; [apply (Hwf s tbl (or_introl eq_refl) E)|rewrite E in Hk1; exact Hk1].
  - intros s' tbl Hin. apply Hwf. right. exact Hin.
Qed.

Theorem steps_ok steps : forall seen d,
  Inv seen d -> wf_steps steps -> known_class d steps = false ->
  Inv (seen_after seen d steps) (state_after d steps) /\ run_just seen d steps.
Proof.
  induction steps as [|s t IH]; intros seen d HI Hwf Hk; simpl; [auto|].
  destruct (step_hyps d s t Hwf Hk) as (Hs & Hwf' & Hk').
  pose proof (iterate_ok seen d s HI Hs) as H. cbv zeta in H. destruct H as [H1 H2].
  destruct (IH _ _ H1 Hwf' Hk') as [I1 I2]. auto.
Qed.

Theorem chk_from_accepts all steps : seen_wf all -> v4_single all ->
  forall seen d, Inv seen d -> CInv d -> wf_steps steps -> known_class d steps = false ->
  incl seen all -> (forall s tbl, In s steps -> st_os s = Some tbl -> incl tbl all) ->
  chk_from seen (d_os d) (d_sels d) (combine steps (run d steps)) = true.
Proof.
  intros Hwf Hv4. induction steps as [|s t IH]; intros seen d HI HC Hst Hk Hseen Htab; [reflexivity|].
  destruct (step_hyps d s t Hst Hk) as (Hs & Hst' & Hk').
  pose proof (iterate_ok seen d s HI Hs) as J. cbv zeta in J. destruct J as [J1 J2].
  pose proof (iterate_ev seen d s HI HC Hs) as E. cbv zeta in E. destruct E as (E1 & E2 & E3 & E4 & E5 & E6).
  simpl run. destruct (iterate d s) as [d' o] eqn:Eit. cbn [combine chk_from fst snd] in *.
  set (cur := match st_os s with Some tbl => tbl | None => d_os d end) in *.
  set (seen' := add_seen seen cur) in *.
  assert (Hcur_all : incl cur all).
  { subst cur. destruct (st_os s) as [tbl|] eqn:Eos; [apply (Htab s tbl (or_introl eq_refl) Eos)|].
    eapply incl_tran; [apply (inv_seen_os _ _ HI)|exact Hseen]. }
  assert (Hseen' : incl seen' all).
  { intros x Hx. apply in_add_seen in Hx as [Hx|Hx]; auto. }
  assert (Hwf' : seen_wf seen') by (intros e He; apply Hwf; apply Hseen'; exact He).
  assert (Hv4' : v4_single seen') by (intros e e' He He'; apply Hv4; apply Hseen'; assumption).
  assert (Hcs : incl cur seen') by (apply add_seen_incl).
  apply andb_true_iff. split; [apply andb_true_iff; split; [apply andb_true_iff; split|]|].
  - apply forallb_forall. intros x Hx. rewrite Forall_forall in J2, E2. apply obs_ok_of; auto.
  - apply order_of. exact E4.
  - apply last_word_of. exact E3.
  - rewrite last_sel_states.
    assert (G : chk_from seen' (d_os d') (d_sels d') (combine t (run d' t)) = true).
    { apply IH; auto. intros s' tbl Hin. apply Htab. right. exact Hin. }
    rewrite E5, E6 in G. exact G.
Qed.

Theorem checker_accepts_every_run t0 os0 steps :
  uniq_keys os0 -> wf_steps steps -> hist_wf os0 steps = true ->
  known_class (initial_state t0 os0) steps = false ->
  chk_C18 os0 (model_history t0 os0 steps) = true.
Proof.
  intros Huk Hst Hwf Hk. apply hist_wf_ok in Hwf as [Hw1 Hw2].
  unfold chk_C18, model_history.
  change os0 with (d_os (initial_state t0 os0)) at 2.
  change (@nil selection) with (d_sels (initial_state t0 os0)).
  apply (chk_from_accepts (all_entries os0 steps)); auto.
  - apply Inv_initial. exact Huk.
  - intros k r [v [[] _]].
  - intros x Hx. apply in_or_app. left. exact Hx.
  - intros s tbl Hs Eos x Hx. apply in_or_app. right. apply in_flat_map. exists s. rewrite Eos. auto.
Qed.
