(* C15  No API argument and no packet can crash a caller or kill the daemon.
   Statements; the lemmas are in Proofs/SafetyNamesProofs.v.

   Model: Model/SafetyNames.v - the validators and renaming functions of
   src/service_daemon.rs / src/service_info.rs on UTF-8 byte strings; `Panic` where the Rust
   slices a str by byte index, truncates a String or subtracts usize values.
   `safe r` (Base/Res.v) = r is neither Panic nor OutOfFuel.
   The encoder's label split is WireOut.name_labels and its writer WireOut.write_name
   (Model/WireOut.v, the definitions C02's round-trip theorem is about).

   FULL STATEMENT (property text): no value passed to a public function and no sequence of
   datagrams makes the calling thread panic or ends the daemon thread.
   Proved here: the argument-validation layer (every string, every position of multi-byte
   characters, dots, backslashes, suffixes) and the encodability of every accepted name.
   Names stay encodable under any number of conflict renames (split_first_label /
   label_with_suffix, c85b8fe); a name taken from the wire is returned only if it passes the
   fit test (35da75b) and is then encodable again.
   Not covered by a theorem (monitor chk_C15 on simulated-daemon runs only): panic-freedom of
   the whole daemon iteration on arbitrary packets beyond the decoder (C01's decode_total). *)
From Coq Require Import List NArith.
From Mdns Require Import Res Bytes Utf8 WireOut ParamsSafety SafetyNames SafetyNamesProofs.
Import ListNotations.
Open Scope N_scope.

(* validators_total: on ANY valid UTF-8 string no validator, no renaming function and no
   argument check of browse / resolve_hostname panics (wherever multi-byte characters, dots,
   backslashes, parentheses, hyphens or suffixes are). *)
Theorem C15_validators_total : forall lc s,
  utf8_valid s = true ->
  safe (check_domain_suffix s) /\ safe (check_service_name s)
  /\ (forall lim, safe (check_service_name_length s lim)) /\ safe (check_hostname s)
  /\ safe (check_label_lengths lc s) /\ safe (name_change s) /\ safe (hostname_change s)
  /\ (exists r, normalize_hostname s = Ok r)
  /\ safe (api_browse lc s) /\ safe (api_resolve_hostname lc s).
Proof. exact validators_total. Qed.

(* ... and ServiceInfo::new followed by register() does not panic for any valid UTF-8 type and
   instance name (the host name may be any byte string: its validity is not used). *)
Theorem C15_register_total : forall lc ty nm host,
  utf8_valid ty = true -> utf8_valid nm = true -> utf8_valid host = true ->
  (exists r, si_names ty nm host = Ok r) /\ safe (api_register lc ty nm host).
Proof. intros lc ty nm host H1 H2 _. split; [apply si_names_total|apply api_register_total; assumption]. Qed.

(* `&name[1..]` in check_service_name: behind `starts_with('_')` the index 1 is in range and
   on a character boundary. *)
Theorem C15_service_label_slice_safe : forall name,
  nca name = true -> first_is USC name = true -> exists r, slice name 1 (length name) = Ok r.
Proof. exact service_label_slice_safe. Qed.

(* accepted_is_encodable.  `lc` stands for str::to_lowercase (Unicode case mapping is not
   modelled; check_label_lengths (4c6b25c) tests the lower-cased spelling too, because the
   daemon keys its maps by it and sends some queries under that key).  The theorems hold for
   EVERY function lc: a name accepted by browse / resolve_hostname has only labels of 1..63
   bytes under the encoder's own label split, as given AND as `lc name`, and the encoder model
   cannot panic on either spelling (whatever the compression table and position). *)
Theorem C15_accepted_is_encodable_browse : forall lc ty,
  wf_bytes ty -> wf_bytes (lc ty) -> api_browse lc ty = Ok tt -> enc_ok ty /\ enc_ok (lc ty).
Proof.
  intros lc ty _ _ H. unfold api_browse in H. apply bind_ok_unit in H as [_ H].
  exact (check_label_lengths_enc lc ty H).
Qed.

Theorem C15_accepted_is_encodable_resolve : forall lc h,
  wf_bytes h -> wf_bytes (lc h) -> api_resolve_hostname lc h = Ok tt -> enc_ok h /\ enc_ok (lc h).
Proof.
  intros lc h _ _ H. unfold api_resolve_hostname in H. apply bind_ok_unit in H as [_ H].
  exact (check_label_lengths_enc lc h H).
Qed.

(* ... and for an accepted registration: the full name, the type (although only the full
   name is checked: the escaped instance name is exactly one label), the host name and the
   subtype name as given; the full name, the host name and the subtype name lower-cased. *)
Theorem C15_accepted_is_encodable_register : forall lc ty nm host tyd sub full server,
  wf_bytes ty -> wf_bytes nm -> wf_bytes host ->
  si_names ty nm host = Ok (tyd, sub, full, server) ->
  api_register lc ty nm host = Ok tt ->
  enc_ok full /\ enc_ok tyd /\ enc_ok server /\ (forall s, sub = Some s -> enc_ok s)
  /\ (wf_bytes (lc full) -> enc_ok (lc full)) /\ (wf_bytes (lc server) -> enc_ok (lc server))
  /\ (forall s, sub = Some s -> wf_bytes (lc s) -> enc_ok (lc s)).
Proof. exact register_accepted. Qed.

(* rename_stays_encodable: ANY number of conflict renames of a
   name whose labels fit (valid UTF-8) never panics and yields a name whose labels are again
   1..63 bytes under the encoder's split, so write_name cannot panic on it (any table, any
   position).  split_first_label / label_with_suffix are modelled exactly (char-boundary
   loop, odd-trailing-backslash rule, usize subtractions). *)
Theorem C15_rename_stays_encodable : forall n s,
  utf8_valid s = true -> wf_bytes s -> labels_fit s = true ->
  exists r, iter_rename name_change n s = Ok r /\ labels_fit r = true /\ enc_ok r.
Proof. intros n s V _. apply (iter_rename_encodable _ name_change_renamed), valid_wfs, V. Qed.

Theorem C15_hostname_rename_stays_encodable : forall n s,
  utf8_valid s = true -> wf_bytes s -> labels_fit s = true ->
  exists r, iter_rename hostname_change n s = Ok r /\ labels_fit r = true /\ enc_ok r.
Proof. intros n s V _. apply (iter_rename_encodable _ hostname_change_renamed), valid_wfs, V. Qed.

(* one rename in detail: no panic on any text that may follow an ASCII character (valid UTF-8
   in particular); the result is the original with its first label (up to the first unescaped
   dot) replaced by a prefix of it plus a suffix of plain ASCII bytes, at most 63 bytes. *)
Theorem C15_name_change_shape : forall s,
  wfs s -> exists r, name_change s = Ok r /\ renamed_of s r.
Proof. exact name_change_renamed. Qed.

Theorem C15_hostname_change_shape : forall s,
  wfs s -> exists r, hostname_change s = Ok r /\ renamed_of s r.
Proof. exact hostname_change_renamed. Qed.

Theorem C15_renamed_first_label_bounded : forall s r,
  renamed_of s r -> exists new rest, r = new ++ rest /\ (length new <= 63)%nat
                     /\ (rest = [] \/ exists t, rest = DOT :: t).
Proof.
  intros s r (first & rest & kept & suffix & -> & R & _ & _ & L & ->).
  exists (kept ++ suffix), rest. repeat split; [rewrite <- app_assoc; reflexivity|exact L|].
  destruct R as [->|(t & -> & _)]; [left; reflexivity|right; eauto].
Qed.

Theorem C15_label_with_suffix_total : forall base suffix,
  (length suffix <= 63)%nat ->
  exists kept, label_with_suffix base suffix = Ok (kept ++ suffix) /\ is_prefix kept base
    /\ (length (kept ++ suffix) <= 63)%nat.
Proof. exact label_with_suffix_spec. Qed.

(* reencode_safe.  read_name ends with the fit test
   (read_name_fit = that last step on the labels read; the reader itself is Model/Wire.v):
   every name it returns - more generally every name that passes SafetyNames' fit predicate -
   has only labels of 1..63 bytes under the encoder's split and write_name cannot panic. *)
Theorem C15_fit_name_encodes : forall name,
  wf_bytes name -> labels_fit name = true -> enc_ok name.
Proof. intros name _. apply labels_fit_enc_ok. Qed.

Theorem C15_reencode_safe : forall ls name,
  Forall wf_bytes ls -> read_name_fit ls = Ok name -> name = present ls /\ enc_ok name.
Proof.
  unfold read_name_fit. intros ls name _ H. destruct (labels_fit (present ls)) eqn:F; [|discriminate].
  inversion H; subst. split; [reflexivity|]. apply labels_fit_enc_ok. exact F.
Qed.

(* the test is not over-strict: wire labels without a backslash (dots allowed) always pass;
   the witness of finding C15-reencode-merged-label (40 bytes + backslash, then 40 bytes) is
   rejected with Err, not Panic *)
Theorem C15_read_name_fit_accepts : forall ls,
  Forall (fun l => ~ In BSL l /\ blen l <= 63) ls -> read_name_fit ls = Ok (present ls).
Proof.
  intros ls H. unfold read_name_fit. rewrite (present_nobsl_fits ls H). reflexivity.
Qed.

Theorem C15_read_name_fit_rejects_merged :
  read_name_fit [rep 97 40 ++ [BSL]; rep 98 40; [95;120]; [95;116;99;112]; [108;111;99;97;108]] = Err.
Proof. vm_compute. reflexivity. Qed.

(* ... and so is a chain of three labels whose adjacent pairs each fit (29+1, 29+1, 30 bytes) *)
Theorem C15_read_name_fit_rejects_chain :
  read_name_fit [rep 97 29 ++ [BSL]; rep 98 29 ++ [BSL]; rep 99 30; [108;111;99;97;108]] = Err.
Proof. vm_compute. reflexivity. Qed.

(* the regenerated guards are the numbers of the property text *)
Theorem C15_params_pinned :
  (forall n, label_fits n = (n <? 64)) /\ (forall n, write_utf8_assert n = (n <? 64))
  /\ (forall n, hostname_too_long n = (255 <? n)) /\ DOMAIN_LEN = 12.
Proof. exact (conj label_fits_pinned (conj write_utf8_assert_pinned (conj hostname_too_long_pinned domain_len_pinned))). Qed.

(* Non-vacuity: names with a multi-byte character at position 0 of a label, an escaped dot,
   a 63-byte label and a subtype are accepted; a 64-byte label, an empty service label and a
   multi-byte service label are refused (not panics); renaming examples. *)
Definition ex_sub_ty : bytes := [95;112;46;95;115;117;98;46;95;120;46;95;116;99;112;46;108;111;99;97;108;46]. (* _p._sub._x._tcp.local. *)
Example C15_examples :
  api_register lower ex_sub_ty [195;169;46;98] [195;169;46;108;111;99;97;108;46] = Ok tt
  /\ api_browse lower (repeat 97 63 ++ tcp_suffix) = Ok tt
  /\ api_browse lower (repeat 97 64 ++ tcp_suffix) = Err
  /\ api_resolve_hostname (fun _ => repeat 105 64 ++ local_suffix) (repeat 97 60 ++ local_suffix) = Err
  /\ api_register lower tcp_suffix [105] h_local = Err
  /\ api_register lower ([195;169] ++ tcp_suffix) [105] h_local = Err
  /\ name_change [102;111;111;32;40;57;41;46;120;46] = Ok [102;111;111;32;40;49;48;41;46;120;46]
  /\ hostname_change [195;169;45;50;46;108;111;99;97;108;46] = Ok [195;169;45;51;46;108;111;99;97;108;46]
  /\ name_change (repeat 97 63 ++ [46;120;46]) = Ok (repeat 97 59 ++ [32;40;50;41;46;120;46])
  /\ name_change ([97;92;46;98] ++ [46;120;46]) = Ok ([97;92;46;98;32;40;50;41] ++ [46;120;46])
  /\ hostname_change (repeat 104 63 ++ local_suffix) = Ok (repeat 104 61 ++ [45;50] ++ local_suffix)
  /\ iter_rename name_change 3 (repeat 97 60 ++ [46;120;46]) = Ok (repeat 97 59 ++ [32;40;52;41;46;120;46])
  /\ chk_C15 (mkObs15 0 false true) = true /\ chk_C15 (mkObs15 0 true false) = false.
Proof. repeat apply conj; vm_compute; reflexivity. Qed.

Print Assumptions C15_validators_total.
Print Assumptions C15_register_total.
Print Assumptions C15_service_label_slice_safe.
Print Assumptions C15_accepted_is_encodable_browse.
Print Assumptions C15_accepted_is_encodable_resolve.
Print Assumptions C15_accepted_is_encodable_register.
Print Assumptions C15_rename_stays_encodable.
Print Assumptions C15_hostname_rename_stays_encodable.
Print Assumptions C15_name_change_shape.
Print Assumptions C15_hostname_change_shape.
Print Assumptions C15_renamed_first_label_bounded.
Print Assumptions C15_label_with_suffix_total.
Print Assumptions C15_fit_name_encodes.
Print Assumptions C15_reencode_safe.
Print Assumptions C15_read_name_fit_accepts.
Print Assumptions C15_read_name_fit_rejects_merged.
Print Assumptions C15_read_name_fit_rejects_chain.
Print Assumptions C15_params_pinned.
