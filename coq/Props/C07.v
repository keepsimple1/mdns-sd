(* C07  A name is probed three times before it is announced, then announced twice.
   Statements; each proof is `exact <lemma>` or a few lines from the lemmas of Proofs/.

   Model: Model/Registry.v (Probe, DnsRegistry, check_probing, handle_expired_probes,
   tiebreaking, conflict renaming) and Model/RegistryDaemon.v (prepare_announce, the status
   guards of handle_query).  The registry of one interface is a machine of operations
     OTick                 one pass of the probing handler (check_probing + handle_expired_probes)
     OJoin r svc j         is_probing_done for record r with start_time = now + j  (registration)
     OTiebreak n incoming  Probe::tiebreaking against a competing probe
     OConflict ans j       conflict_handler for one answer, new probes start at now + j
   applied at arbitrary nondecreasing times; run_ops gives, per operation, the names a probe
   query was sent for and the names that became active.  The daemon model performs exactly these
   operations on its registries (C07_registration_is_joins; the other call sites are the same
   functions by definition). *)
From Coq Require Import List NArith.
From Mdns Require Import Bytes ParamsRegistry Registry RegistryDaemon RegistrySpec RegistryTrace RegistryParamsPinned
     RegistryProofs RegistryDaemonProofs RegistryLiftProofs RegistryHistoryProofs RegistrySilenceProofs
     RegistryLivenessProofs RegistryDeferralProofs RegistryTimingProofs RegistryPersistProofs RegistrySafetyProofs
     RegistryWitnesses RegistryWitnessProofs.
Import ListNotations.
Open Scope N_scope.

(* The numbers and comparison directions, regenerated from the Rust sources on every run
   (Gen/ParamsRegistry.v): next probe 250 ms later, done when now >= start + 750, a probe is due
   when now >= next_send, jitter drawn from 0..250, second announcement 1000 ms later (after a
   registration, after probing, on an interface that was added). *)
Theorem C07_constants :
  (forall now, probe_next_send now = now + 250) /\
  (forall start now, probe_expired start now = (start + 750 <=? now)) /\
  (forall next now, probe_due next now = (next <=? now)) /\
  jitter_bound_announce = 250 /\
  (forall now, announce_repeat_probing now = now + 1000) /\ announce_repeat_register = 1000 /\
  announce_repeat_add_interface = 1000.
Proof. exact c07_constants. Qed.

(* All schedules.  For EVERY sequence of operations - registrations, probing passes, lost
   tie-breaks, conflicts, in any order - at EVERY sequence of nondecreasing times (late or early
   wake-ups alike), and every name n: each probe query for n and each activation of n comes at
   least 250 ms after the previous probe query for n; the handling of a conflicting response
   restarts probes at now + 0..250 and starts the count afresh (spaced_250 resets at OConflict). *)
Theorem C07_probe_spacing_all_schedules : forall ops n t0,
  times_from t0 ops -> spaced_250 n None ops (run_ops reg_new ops).
Proof. exact probe_spacing_all_schedules. Qed.

(* ... in particular, without conflicting responses, the times of the probe queries for a name
   are pairwise 250 ms apart. *)
Theorem C07_probe_times_250_apart : forall ops n t0,
  times_from t0 ops -> no_conflicts ops -> gaps_250 (probe_times n (run_ops reg_new ops)).
Proof. intros ops n t0. intros Ht Hnc. apply (spaced_probe_times n ops reg_new None Hnc). eapply probe_spacing_all_schedules. eassumption. Qed.

(* The same on the wire, for every history of the daemon model without response datagrams, without
   enable/disable_interface calls and without unregister calls (plain_iter; an unregister makes the
   registries forget the service's names, so that a re-registration starts a new series at once): whatever the interface table (without repeated indexes), the query
   datagrams delivered (competing probes included), the register / monitor / shutdown calls, the
   jitter values and the (nondecreasing) iteration times, the iterations that put a probe query for
   name n on interface k are at least 250 ms apart. *)
Theorem C07_wire_probe_spacing : forall ifs its t0 k n,
  NoDup (map if_index ifs) -> Forall plain_iter its -> iter_times_from t0 its ->
  gaps_250 (wire_probe_times k n (d_init ifs) its).
Proof. exact wire_probe_spacing. Qed.

(* A name becomes active in a probing pass only if its probe's start time lies at least 750 ms
   back (and its next_send has come) - again for every state and every time. *)
Theorem C07_activation_needs_750 : forall rg now rg' qs ex n,
  NoDup (keys (rg_probing rg)) -> tick_names rg now = (rg', qs, ex) -> In n ex ->
  exists p, aget n (rg_probing rg) = Some p /\ pb_start p + 750 <= now /\ pb_next p <= now.
Proof.
  intros rg now rg' qs ex n. intros Hnd Ht Hin. destruct (tick_names_at rg now rg' qs ex n Hnd Ht) as (_ & E & _).
  apply mem_In in Hin. rewrite Hin in E. destruct (aget n (rg_probing rg)) as [p|]; [|discriminate].
  exists p. symmetry in E. apply expires_iff in E. tauto.
Qed.

(* (the hypothesis holds in every reachable registry: one probe per name) *)
Theorem C07_reachable_one_probe_per_name : forall ops t0,
  times_from t0 ops -> NoDup (keys (rg_probing (final_reg reg_new ops))).
Proof. intros ops t0. intros _. apply final_reg_nodup. constructor. Qed.

(* Timer-exact.  A probe in its initial state (start_time = next_send = T, as registration
   creates it) under probing passes that are never late for it (each pass happens no later than
   the probe's next_send; extra earlier passes are allowed): the probe queries go out at a
   prefix of T, T+250, T+500, and the name is activated, if at all, at T+750 after all three. *)
Theorem C07_three_probes_exact : forall n T ts rg t0,
  NoDup (keys (rg_probing rg)) -> phase rg n T 0 ->
  times_from t0 (ticks ts) -> never_late_for n rg ts ->
  exists j, (j <= 3)%nat /\
    probe_times n (run_ops rg (ticks ts)) = firstn j [T; T + 250; T + 500] /\
    (activation_times n (run_ops rg (ticks ts)) = [] \/
     (j = 3%nat /\ activation_times n (run_ops rg (ticks ts)) = [T + 750])).
Proof. exact three_probes_exact. Qed.

(* Woken exactly at the times it asked for: three probe queries at T, T+250, T+500, active at T+750. *)
Theorem C07_three_probes_exact_full : forall rg n T,
  NoDup (keys (rg_probing rg)) -> phase rg n T 0 ->
  probe_times n (run_ops rg (ticks [T; T + 250; T + 500; T + 750])) = [T; T + 250; T + 500] /\
  activation_times n (run_ops rg (ticks [T; T + 250; T + 500; T + 750])) = [T + 750].
Proof. exact exact_full. Qed.

(* Reaches the active state.  A record registered at `now` under jitter j < 250 whose name is
   neither held nor being probed starts a probe at T = now + j; woken when asked, the name is
   active at T + 750, less than 250 + 750 ms after the registration. *)
Theorem C07_reaches_active_within_a_second : forall rg r svc now j,
  NoDup (keys (rg_probing rg)) -> in_active rg r = false -> aget (p_name r) (rg_probing rg) = None -> j < 250 ->
  let T := now + j in
  let tr := run_ops (fst (is_probing_done rg r svc T)) (ticks [T; T + 250; T + 500; T + 750]) in
  probe_times (p_name r) tr = [T; T + 250; T + 500] /\ activation_times (p_name r) tr = [T + 750] /\
  T + 750 < now + 250 + 750.
Proof. exact join_then_exact. Qed.

(* Silent until DONE, registry level: after any sequence of operations, is_probing_done says
   "done" for a record only if the record's name was activated by an earlier probing pass. *)
Theorem C07_silent_until_activated : forall ops r svc start,
  snd (is_probing_done (final_reg reg_new ops) r svc start) = true ->
  In (p_name r) (all_activations (run_ops reg_new ops)).
Proof. exact silent_until_activated. Qed.

(* Silent until DONE, daemon level: prepare_announce builds an announcement for a service that
   requires probing only when its SRV, TXT and every address record of that interface and family
   are active there; the packet then carries PTR, subtype PTR, SRV, TXT and those addresses as
   answers. *)
Theorem C07_announce_requires_active : forall s i rg v4 now js rg' m js',
  prepare_announce s i rg v4 now js = (rg', Some m, js') ->
  (s_probe s = false \/ Forall (fun r => in_active rg r = true) (announce_records rg s i v4)) /\
  addrs_on_intf s i v4 <> [] /\
  m = mkOut true [] (ptr_rrs s dns_other_ttl (resolve_name rg (s_full s))
                     ++ map wire_rr (announce_records rg s i v4)) [] [].
Proof. exact prepare_announce_some. Qed.

(* ... and a query that arrives on an interface where no service is in the announced state is
   not answered at all (handle_query's status guards), whatever it asks. *)
Theorem C07_no_answer_unless_announced : forall st g now,
  none_announced st (g_if g) -> snd (handle_query st g now) = [].
Proof. exact handle_query_silent. Qed.

(* The registry effect of a registration is a sequence of OJoin operations at start = now + j. *)
Theorem C07_registration_is_joins : forall s now j recs rg,
  s_probe s = true ->
  fst (probe_records rg s (now + j) recs) = final_reg rg (map (fun r => (now, OJoin r (s_full s) j)) recs).
Proof. exact probe_records_ops. Qed.

(* The property text read literally - "announced only after three probe queries have gone out" -
   is FALSE for schedules that are late: completion is measured from the probe's start, so a
   daemon woken late announces after fewer probes.  Witness (run on the real daemon): one probe at
   +145 ms, next iteration at +900 ms, announcement in that iteration. *)
Theorem C07_three_probes_on_late_schedules_refuted :
  busy (timeline w_late_ifs w_late_its) = [ (1000145, true, false, false); (1000900, false, true, false) ] /\
  only_known 42 (self7 w_late_ifs w_late_its).
Proof. split; [vm_compute; reflexivity|]. eapply only_known_of; [vm_compute; reflexivity|discriminate|reflexivity]. Qed.

(* "... with the proposed records in the authority section" is FALSE for a record that joins a
   probe already in flight (second service on the same host name, registered 300 ms later). *)
Theorem C07_record_joining_a_probe_refuted : only_known 44 (self7 w_join_ifs w_join_its).
Proof. eapply only_known_of; [vm_compute; reflexivity|discriminate|reflexivity]. Qed.

(* After a lost tie-break followed by a host-name
   conflict the instance name is probed again - one query at +222 ms, then three more at +696,
   +946, +1196 ms before the announcement; chk_C07 accepts the run.  (The restart comes before
   the second that the lost tie-break asks for: C08_restart_cancels_deferral_refuted.) *)
Theorem C07_reprobe_after_host_rename :
  self7 w_skipreprobe_ifs w_skipreprobe_its = [] /\
  wire_probe_times 2 [100;101;118;45;49;46;95;116;46;95;116;99;112;46;108;111;99;97;108;46]
                   (d_init w_skipreprobe_ifs) w_skipreprobe_its = [1000222; 1000696; 1000946; 1001196].
Proof. split; vm_compute; reflexivity. Qed.

(* An interface that is taken away while an addr_auto service is probing takes its registry with
   it: when it comes back the names are probed three times anew before the announcements. *)
Theorem C07_interface_reappears_probes_anew :
  self7 w_toggle_ifs w_toggle_its = [] /\
  busy (timeline w_toggle_ifs w_toggle_its) =
  [ (1000145, true, false, false); (1000395, true, false, false);
    (1001098, true, false, false); (1001348, true, false, false); (1001598, true, false, false);
    (1001848, false, true, false); (1002848, false, true, false) ].
Proof. split; vm_compute; reflexivity. Qed.

(* An announcement that add_interface makes is repeated one second later ... *)
Theorem C07_interface_added_announced_twice :
  self7 w_added_twice_ifs w_added_twice_its = [] /\
  busy (timeline w_added_twice_ifs w_added_twice_its) =
  [ (1000000, false, true, false); (1001000, false, true, false);
    (1002600, false, true, false); (1003600, false, true, false) ].
Proof. split; vm_compute; reflexivity. Qed.

(* ... and probes that a pending second announcement starts on a registry re-created in between are
   sent when due: chk_C07's wake-up clause has no exception. *)
Theorem C07_probes_started_by_resend_are_sent :
  self7 w_resend_probes_ifs w_resend_probes_its = [] /\
  busy (timeline w_resend_probes_ifs w_resend_probes_its) =
  [ (1000145, true, false, false); (1000395, true, false, false); (1000645, true, false, false);
    (1000895, false, true, false);
    (1001993, true, false, false); (1002243, true, false, false); (1002493, true, false, false) ].
Proof. split; vm_compute; reflexivity. Qed.

(* Every first announcement queues its second one.
   For every state (hence every history): each packet register_service sends, each announcement
   add_interface makes and each response the probing handler sends when probes complete goes out on
   an interface i for which RegisterResend(full, i) is in the queue at now + 1000 afterwards. *)
Theorem C07_registration_queues_second_announcement : forall st s now js,
  let '(st1, os, _) := register_service st s now js in
  forall o, In o os -> is_send o ->
  exists i full, send_if o = Some i /\ In (now + 1000, RegisterResend full i) (d_retrans st1).
Proof. exact register_service_queues_second. Qed.

Theorem C07_added_interface_queues_second_announcement : forall st r now js,
  let '(st1, os, _) := add_interface st r now js in
  forall o, In o os -> is_send o ->
  exists i full, send_if o = Some i /\ In (now + 1000, RegisterResend full i) (d_retrans st1).
Proof. exact add_interface_queues_second. Qed.

(* ... for the probing handler at the level of a whole iteration: the entry is in the queue that the
   iteration leaves behind (st3, js3 = state and jitter values when the probing handler starts) *)
Theorem C07_completed_probe_queues_second_announcement : forall st it st' os js,
  iterate st it = (st', os, Running, js) ->
  forall st3 js3, d_dead st = false ->
  (let now := it_now it in
   let '(st1, _, js1) := handle_dgrams st (filter (fun g => g_v4 g) (it_dgrams it) ++ filter (fun g => negb (g_v4 g)) (it_dgrams it)) now (it_jitter it) in
   let '(st2, _, js2) := exec_calls st1 (it_calls it) now js1 in
   let '(s3, _, j3) := retransmit st2 now js2 in st3 = s3 /\ js3 = j3) ->
  forall o, In o (snd (fst (probing_handler st3 (it_now it) js3))) -> resp_send o ->
  exists i full, send_if o = Some i /\ In (it_now it + 1000, RegisterResend full i) (d_retrans st').
Proof. exact probing_announcements_queued. Qed.

(* ... and the queued entry is run in the first iteration at or after its time: no iteration that
   leaves the daemon running leaves an entry behind that is due at or before its `now` (any state,
   hence all histories; the same for the repeat of a goodbye) *)
Theorem C07_no_overdue_queue_entry : forall st it st' os js,
  iterate st it = (st', os, Running, js) -> Forall (fun e => it_now it < fst e) (d_retrans st').
Proof. exact iterate_queue_future. Qed.

(* non-vacuity: the witness runs have these queue entries *)
Example C07_second_announcement_queue_example :
  queue_times (state_after w_added_twice_ifs w_added_twice_its 1) = [1001000] /\
  queue_times (state_after w_added_twice_ifs w_added_twice_its 4) = [1003600] /\
  queue_times (state_after w_added_twice_ifs w_added_twice_its 5) = [].
Proof. vm_compute. repeat split. Qed.

(* The second announcement is sent.
   announceable s itf rg v4 = the announcement attempt for that family succeeds: s has an address on
   the interface in that family and needs no probing or all its records there are active;
   announcement_of s itf rg v4 = the message (PTRs, SRV, TXT, addresses under the current names);
   resend_ready st full i s itf rg = the service is still registered under that key, interface i still
   exists and still has its registry. *)

(* the queue entry stays where it is until it is due (every state, every iteration that leaves the
   daemon running: datagrams incl. responses, any calls but shutdown) ... *)
Theorem C07_second_announcement_stays_queued : forall st it st' os js e,
  iterate st it = (st', os, Running, js) -> In e (d_retrans st) -> it_now it < fst e -> In e (d_retrans st').
Proof. exact queue_entry_persists. Qed.

(* ... and when it is due - whatever else is due before it in the same pass - the announcement is sent
   on its interface for every family in which the service is still announceable *)
Theorem C07_due_second_announcement_sent_partial : forall st now js t full i s itf rg v4,
  In (t, RegisterResend full i) (d_retrans st) -> t <= now ->
  resend_ready st full i s itf rg -> announceable s itf rg v4 ->
  In (OSend i v4 Mcast (announcement_of s itf rg v4)) (snd (fst (retransmit st now js))).
Proof. exact due_second_announcement_sent. Qed.

Theorem C07_announcement_of_is_an_announcement : forall s itf rg v4, is_announcement (announcement_of s itf rg v4) = true.
Proof. exact announcement_of_is_announcement. Qed.

(* `_partial`: that the service IS still announceable 1000 ms after its first announcement is a
   hypothesis here.  It holds when nothing happened to the service, the interface and the active
   records in between; it fails by design after an unregister, a removed interface, a conflict that
   took the records out of the active set.  Composition with C07_*_queues_second_announcement,
   C07_second_announcement_stays_queued and C07_no_overdue_queue_entry: the entry queued at T for
   T + 1000 is still queued at the first iteration with now >= T + 1000, is run in it, and sends the
   announcement if the service is still announceable then. *)
Example C07_second_announcement_sent_example :
  sends_announcement (outs_of w_exact_ifs w_exact_its 4) = true /\
  queue_times (state_after w_exact_ifs w_exact_its 5) = [1001895] /\
  option_map it_now (nth_error w_exact_its 5) = Some 1001895 /\
  sends_announcement (outs_of w_exact_ifs w_exact_its 5) = true /\
  queue_times (state_after w_exact_ifs w_exact_its 6) = [].
Proof.
  split; [exact w_exact_sends4|]. split; [exact w_exact_queue5|]. split; [reflexivity|].
  split; [exact w_exact_sends5|]. vm_compute. reflexivity.
Qed.

(* The completion step.
   The probing pass over an interface (probe_step) finishes probes; for a name w on the waiting list of
   a finished probe whose service is registered, not yet announced there and announceable in family
   v4 under the registry after the pass: the announcement goes out in this iteration's probing pass,
   and in the state after the interface's micro-step the service is Announced on the interface and its
   second announcement is queued for now + 1000.  (Names get onto a waiting list at registration -
   C07_registration_is_joins -, a probe finishes only 750 ms after its start - C07_activation_needs_750.) *)
Theorem C07_probing_pass_announces_completed_service : forall itf t st now js rg rg1 qs evs waiting w s v4,
  nget (if_index itf) (d_regs st) = Some rg -> probe_step rg now = (rg1, qs, evs, waiting) ->
  In w waiting -> aget (lower w) (d_svcs st) = Some s -> announced_on (if_index itf) s = false ->
  announceable s itf rg1 v4 ->
  In (OSend (if_index itf) v4 Mcast (announcement_of s itf rg1 v4)) (snd (fst (probing_intfs (itf :: t) st now js))) /\
  match st_probing (itf :: t) st now js with
  | mid :: _ => (exists s2, aget (lower w) (d_svcs mid) = Some s2 /\ announced_on (if_index itf) s2 = true) /\
                In (now + 1000, RegisterResend (s_full s) (if_index itf)) (d_retrans mid)
  | [] => False
  end.
Proof. exact probing_pass_completes. Qed.

Example C07_completion_example :
  sends_announcement (outs_of w_exact_ifs w_exact_its 4) = true /\
  map (fun ks => s_status (snd ks)) (d_svcs (state_after w_exact_ifs w_exact_its 4)) = [[(2, SProbing)]] /\
  map (fun ks => s_status (snd ks)) (d_svcs (state_after w_exact_ifs w_exact_its 5)) = [[(2, SAnnounced)]] /\
  queue_times (state_after w_exact_ifs w_exact_its 5) = [1001895].
Proof. exact (conj w_exact_sends4 (conj w_exact_status4 (conj w_exact_status5 w_exact_queue5))). Qed.

(* Liveness over histories of the daemon model, without conflict datagrams.
   Vocabulary (Proofs/RegistryTimingProofs.v):
   calm_iter key it   = every datagram of the iteration is a query without authority records; every call is
                        a registration of ANOTHER service (key = the lower-cased full name of ours),
                        monitor or a command without effect on the responder (no unregister, no
                        enable/disable_interface, no shutdown, no response datagram);
   never_late st its  = every iteration happens no later than due_work of the state it starts from;
   all_running st its = every iteration leaves the daemon running;
   Qj s itf v4 T j rg = no rename recorded in rg, probing names pairwise different, and BOTH probes of the
                        service - instance name and host name - exist, started at T, with j probe queries
                        sent (next_send = T + 250 j), the service on their waiting lists, its SRV/TXT resp.
                        address records (of family v4 on itf) among their records;
   Kept Q k key s itf st = the daemon is alive, interface k is itf, its registry satisfies Q, the service is
                        registered under key (same data);
   Done k key svcs    = the service under key is in the state Announced on interface k.

   REACHES ANNOUNCED.  From a state in which both probes of a service that requires probing are in their
   initial state on a usable interface (as a registration with fresh names leaves them: start = next_send
   = T = registration time + jitter < registration + 250, C07_registration_is_joins /
   C07_reaches_active_within_a_second), through ANY history of calm iterations that is never late: if the
   history goes on until T + 750, it contains an iteration at exactly T + 750 after which the service is
   Announced on the interface - i.e. within registration + jitter + 750 ms.
   `_partial`: no conflict datagrams (the "+ 1000 ms per lost tie-break / conflict" part is not proved),
   no unregister / interface toggle / re-registration of the same service in between, host name probed
   together with the instance name (not shared with an older service). *)
Theorem C07_reaches_announced_partial : forall s0 itf v4 T key st its,
  key = lower (s_full s0) -> s_probe s0 = true -> addrs_on_intf s0 itf v4 <> [] ->
  NoDup (map if_index (d_intfs st)) -> Kept (Qj s0 itf v4 T 0) (if_index itf) key s0 itf st ->
  Forall (calm_iter key) its -> all_running st its -> never_late st its ->
  (exists it, In it its /\ T + 750 <= it_now it) ->
  exists pre it post, its = pre ++ it :: post /\ it_now it = T + 750 /\
                      Done (if_index itf) key (d_svcs (run_state st (pre ++ [it]))).
Proof. exact reaches_announced. Qed.

(* The timetable behind it (this is also the daemon-level form of "three probes 250 ms apart before the
   name is spoken for", for these histories): from phase j, a never-late calm history either reaches the
   iteration at T + 750 that announces, or is still in a phase j' >= j with every iteration so far
   strictly before T + 250 j' - the probe queries went out in iterations at exactly T + 250 j, ... *)
Theorem C07_probe_timetable_partial : forall s0 itf v4 T key,
  key = lower (s_full s0) -> s_probe s0 = true -> addrs_on_intf s0 itf v4 <> [] ->
  forall its st j, (j <= 3)%nat ->
  NoDup (map if_index (d_intfs st)) -> Kept (Qj s0 itf v4 T j) (if_index itf) key s0 itf st ->
  Forall (calm_iter key) its -> all_running st its -> never_late st its ->
  (exists pre it post, its = pre ++ it :: post /\ it_now it = T + 750 /\
                       Done (if_index itf) key (d_svcs (run_state st (pre ++ [it])))) \/
  (exists j', (j <= j' <= 3)%nat /\ Kept (Qj s0 itf v4 T j') (if_index itf) key s0 itf (run_state st its) /\
              Forall (fun it => it_now it < T + 250 * N.of_nat j') its).
Proof. exact reaches_announced_gen. Qed.

(* one calm iteration, exactly: before the probe's next_send nothing changes for it; at next_send the next
   probe query is sent (j < 3) or the probes finish and the service is announced (j = 3) *)
Theorem C07_calm_iteration_step : forall s0 itf v4 T j key st it st' os js,
  let k := if_index itf in
  key = lower (s_full s0) -> s_probe s0 = true -> addrs_on_intf s0 itf v4 <> [] ->
  NoDup (map if_index (d_intfs st)) -> calm_iter key it -> iterate st it = (st', os, Running, js) ->
  Kept (Qj s0 itf v4 T j) k key s0 itf st ->
  d_intfs st' = d_intfs st /\
  (it_now it < T + 250 * N.of_nat j -> Kept (Qj s0 itf v4 T j) k key s0 itf st') /\
  (it_now it = T + 250 * N.of_nat j -> (j < 3)%nat -> Kept (Qj s0 itf v4 T (S j)) k key s0 itf st') /\
  (it_now it = T + 250 * N.of_nat j -> j = 3%nat -> Done k key (d_svcs st')).
Proof. exact calm_iteration. Qed.

(* non-vacuity: w_exact is such a history (registration at t0, jitter 145: both probes start at T = t0 + 145;
   iterations at T, T + 250, T + 500, T + 750; Announced after the last) *)
Example C07_liveness_example :
  map (fun kr => map (fun np => (pb_start (snd np), pb_next (snd np))) (rg_probing (snd kr))) (d_regs (state_after w_exact_ifs w_exact_its 1))
  = [[(1000145, 1000145); (1000145, 1000145)]] /\
  map it_now (firstn 5 w_exact_its) = [1000000; 1000145; 1000395; 1000645; 1000895] /\
  map (fun ks => s_status (snd ks)) (d_svcs (state_after w_exact_ifs w_exact_its 5)) = [[(2, SAnnounced)]].
Proof. split; [vm_compute; reflexivity|]. split; [reflexivity|exact w_exact_status5]. Qed.

(* Safety before t + 750 and the second announcement, over calm histories.
   More vocabulary (Proofs/RegistrySafetyProofs.v, RegistryPersistProofs.v):
   Qp n T rg      = no rename recorded, probing names pairwise different, the probe for n is in progress with
                    start_time T, and NOTHING is active under n;
   KU s itf T st  = Kept (Qp (s_full s) T) on interface itf for the service, and the service's status on
                    that interface is not Announced;
   Qdone s itf v4 rg = no rename recorded, probing names pairwise different, every record of the service's
                    announcement (SRV, TXT, addresses of family v4 on itf) is active.

   NEVER SPEAKS BEFORE PROBED (safety, ANY schedule - late iterations included, so class 42 does not have to
   be excluded here): through every history of calm iterations at times before T + 750, the probe of the
   instance name stays in progress, nothing becomes active under that name and the service is NOT in the
   state Announced on the interface ... *)
Theorem C07_never_speaks_before_probed_partial : forall s0 itf T, s_probe s0 = true ->
  forall its st, KU s0 itf T st -> Forall (calm_iter (lower (s_full s0))) its -> all_running st its ->
  Forall (fun it => it_now it < T + 750) its -> KU s0 itf T (run_state st its).
Proof. exact unannounced_before_T750. Qed.

(* ... and in such a state the daemon cannot speak for the service on that interface: an announcement
   attempt (registration, RegisterResend, completion of another probe) sends nothing and announces
   nothing while the instance name has nothing active; questions are answered only for services whose
   status there is Announced (the status test at the head of every answer function of handle_query;
   C07_no_answer_unless_announced, C09_responses_only_for_registered_services_all_histories).
   `_partial`: the second half is not restated as ONE theorem about the packets of the history (the
   answer functions were not re-proved with "built from an ANNOUNCED service"); calm iterations only
   (not widened to non-conflicting responses / unregister of other services); with the timetable
   (C07_probe_timetable_partial) the three probe queries precede T + 750 on never-late schedules. *)
Theorem C07_announcement_attempt_blocked_while_inactive : forall s0 T, s_probe s0 = true ->
  forall s itf' rg now js, svc_eqv s0 s -> QP s0 T rg ->
  snd (fst (fst (announce_both s itf' rg now js))) = [] /\ snd (fst (announce_both s itf' rg now js)) = false.
Proof. exact blocked_for. Qed.

(* The announcing iteration leaves the records active: in a never-late calm history that goes on until
   T + 750, after the iteration at T + 750 the service is Announced AND its registry is in Qdone. *)
Theorem C07_announcing_iteration_leaves_records_active_partial : forall s0 itf v4 T key,
  key = lower (s_full s0) -> s_probe s0 = true -> addrs_on_intf s0 itf v4 <> [] ->
  forall its st j, (j <= 3)%nat ->
  NoDup (map if_index (d_intfs st)) -> Kept (Qj s0 itf v4 T j) (if_index itf) key s0 itf st ->
  Forall (calm_iter key) its -> all_running st its -> never_late st its ->
  (exists it, In it its /\ T + 750 <= it_now it) ->
  exists pre it post, its = pre ++ it :: post /\ it_now it = T + 750 /\
    Done (if_index itf) key (d_svcs (run_state st (pre ++ [it]))) /\
    Kept (Qdone s0 itf v4) (if_index itf) key s0 itf (run_state st (pre ++ [it])) /\
    NoDup (map if_index (d_intfs (run_state st (pre ++ [it])))).
Proof. exact reaches_Qdone_gen. Qed.

(* The second announcement is sent (the hypothesis `announceable` of C07_due_second_announcement_sent_partial
   discharged for calm histories): from Kept Qdone - the service registered, its records active, no rename
   recorded - with RegisterResend for the service queued for time t (the announcing pass queues it for
   T + 750 + 1000: C07_probing_pass_announces_completed_service), through ANY calm history in which the
   daemon keeps running (any schedule): the first iteration at or after t sends the announcement on the
   interface.  Persistence in between: Kept Qdone is kept by every calm iteration. *)
Theorem C07_second_announcement_sent_calm_partial : forall s0 itf v4 key t full,
  key = lower (s_full s0) -> lower full = key -> addrs_on_intf s0 itf v4 <> [] ->
  forall its st, Kept (Qdone s0 itf v4) (if_index itf) key s0 itf st -> In (t, RegisterResend full (if_index itf)) (d_retrans st) ->
  Forall (calm_iter key) its -> all_running st its -> (exists it, In it its /\ t <= it_now it) ->
  exists pre it post, its = pre ++ it :: post /\ Forall (fun x => it_now x < t) pre /\ t <= it_now it /\
    In (OSend (if_index itf) v4 Mcast (announcement_of s0 itf reg_new v4)) (snd (fst (fst (iterate (run_state st pre) it)))).
Proof. exact second_announcement_sent_calm. Qed.

(* non-vacuity on w_exact: before T + 750 status Probing and nothing active; after the announcing iteration
   SRV+TXT and the address record active, the repeat queued for T + 1750, and sent in that iteration *)
Example C07_before_after_example :
  map (fun kr => map fst (rg_active (snd kr))) (d_regs (state_after w_exact_ifs w_exact_its 4)) = [[]] /\
  map (fun ks => s_status (snd ks)) (d_svcs (state_after w_exact_ifs w_exact_its 4)) = [[(2, SProbing)]] /\
  map (fun kr => map (fun np => (fst np, length (snd np))) (rg_active (snd kr))) (d_regs (state_after w_exact_ifs w_exact_its 5))
  = [[(n_inst, 2%nat); (n_host, 1%nat)]] /\
  queue_times (state_after w_exact_ifs w_exact_its 5) = [1001895] /\
  sends_announcement (outs_of w_exact_ifs w_exact_its 5) = true.
Proof.
  split; [vm_compute; reflexivity|]. split; [exact w_exact_status4|]. split; [vm_compute; reflexivity|].
  exact (conj w_exact_queue5 w_exact_sends5).
Qed.

(* Still not proved over histories of the daemon model:
   (a) the safety statement as ONE theorem about the packets, and over ALL histories outside classes
       42/44/48 (with conflict datagrams, interface toggles, unregister);
   (b) the widening of calm iterations to non-conflicting response datagrams and unregister / re-register
       of other services;
   (c) the bound with lost tie-breaks / conflicts (+ 1000 ms each).
   For these the registry machine over all operation sequences and the executed monitor (codes 32, 36)
   remain. *)

(* History level, full statement (validated on every generated history by running chk_C07 on the
   model's own observation, NOT proved):
     forall ifs its, well-formed history -> no VFail in chk_C07 g7_init (d_init ifs) its (model_obs (d_init ifs) its).
   Proved for all histories without response datagrams, interface toggles and unregister calls: the
   probe spacing on the wire (C07_wire_probe_spacing).  Proved for calm histories (no conflict
   datagrams, no call touching the service): the timetable up to the announcement, the silence
   before T + 750 and the second announcement (the `_partial` theorems above).  Proved at the level
   of the registry machine (all operation sequences) and of single daemon steps: the rest above.
   Not lifted to ALL histories: three probes and the 250 ms wait before every response, the second
   announcement, the requested wake-up. *)

(* Non-vacuity: a registration on the daemon model with jitter 145, woken exactly when asked:
   probe queries at +145, +395, +645, announcements at +895 and +1895; chk_C07, chk_C08 and
   chk_C09 accept the run. *)
Example C07_exact_run :
  busy (timeline w_exact_ifs w_exact_its) =
  [ (1000145, true, false, false); (1000395, true, false, false); (1000645, true, false, false);
    (1000895, false, true, false); (1001895, false, true, false) ] /\
  self7 w_exact_ifs w_exact_its = [] /\ self8 w_exact_ifs w_exact_its = [] /\ self9 w_exact_ifs w_exact_its = [].
Proof. vm_compute. repeat split. Qed.

Print Assumptions C07_constants.
Print Assumptions C07_probe_spacing_all_schedules.
Print Assumptions C07_probe_times_250_apart.
Print Assumptions C07_wire_probe_spacing.
Print Assumptions C07_activation_needs_750.
Print Assumptions C07_reachable_one_probe_per_name.
Print Assumptions C07_three_probes_exact.
Print Assumptions C07_three_probes_exact_full.
Print Assumptions C07_reaches_active_within_a_second.
Print Assumptions C07_silent_until_activated.
Print Assumptions C07_announce_requires_active.
Print Assumptions C07_no_answer_unless_announced.
Print Assumptions C07_registration_is_joins.
Print Assumptions C07_registration_queues_second_announcement.
Print Assumptions C07_added_interface_queues_second_announcement.
Print Assumptions C07_completed_probe_queues_second_announcement.
Print Assumptions C07_no_overdue_queue_entry.
Print Assumptions C07_second_announcement_queue_example.
Print Assumptions C07_second_announcement_stays_queued.
Print Assumptions C07_due_second_announcement_sent_partial.
Print Assumptions C07_announcement_of_is_an_announcement.
Print Assumptions C07_second_announcement_sent_example.
Print Assumptions C07_probing_pass_announces_completed_service.
Print Assumptions C07_completion_example.
Print Assumptions C07_reaches_announced_partial.
Print Assumptions C07_probe_timetable_partial.
Print Assumptions C07_calm_iteration_step.
Print Assumptions C07_liveness_example.
Print Assumptions C07_never_speaks_before_probed_partial.
Print Assumptions C07_announcement_attempt_blocked_while_inactive.
Print Assumptions C07_announcing_iteration_leaves_records_active_partial.
Print Assumptions C07_second_announcement_sent_calm_partial.
Print Assumptions C07_before_after_example.
Print Assumptions C07_three_probes_on_late_schedules_refuted.
Print Assumptions C07_record_joining_a_probe_refuted.
Print Assumptions C07_reprobe_after_host_rename.
Print Assumptions C07_interface_reappears_probes_anew.
Print Assumptions C07_interface_added_announced_twice.
Print Assumptions C07_probes_started_by_resend_are_sent.
Print Assumptions C07_exact_run.
