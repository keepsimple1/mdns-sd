(* C17  Hostname resolution: right addresses, case-insensitive, ends on time.
   Statements; proofs longer than a line or two are in Proofs/Hostres*.v.  Except for
   C17_model_satisfies_checker, C17_case_insensitive and the two evaluated histories, the theorems
   are about the reference machine sp_run, not about run.

   run       = model of the code as it is (Model/HostresModel.v): the daemon's hostname
               resolution with its two tables (hostname_resolvers, retransmissions) and the
               address cache, one `out` (time, events per channel, query messages) per loop
               iteration of a history (iteration times, accepted calls, delivered responses).
   sp_run    = the property text as a reference machine (Model/HostresSpec.v): one table of
               searches; a search ends - with everything belonging to it - by stop,
               replacement or deadline.
   chk_C17   = the checker: the observed trace equals the reference machine's, per channel up
               to the order inside runs of AddressesFound / AddressesRemoved (hash-map order),
               queries of one iteration as a multiset.  The same chk_C17, extracted, is the
               monitor on the traces of the real daemon.
   late h    = in some iteration a search reaches its deadline while its next query is still
               pending (the daemon was not run between the query time and the deadline); no
               theorem has it as a hypothesis, C17_timeout_late_wakeup exhibits it.  *)
From Coq Require Import List NArith.
From Mdns Require Import Bytes HostresBase HostresModel HostresSpec HostresRefine HostresSchedProofs
                         HostresCacheProofs HostresFoundProofs HostresCaseProofs HostresRefreshProofs.
Import ListNotations.
Open Scope N_scope.

(* (times do not go backwards, every resolve call has its own channel; iteration times are
   otherwise arbitrary: early, exact or late wake-ups) *)
Theorem C17_model_satisfies_checker : forall h,
  wf_hist h = true -> chk_C17 h (run h) = true.
Proof. exact model_refines_spec. Qed.

(* a wake-up one millisecond late at the deadline, with the retransmission still queued (the
   situation of finding C17-late-wake-requery-after-timeout): SearchTimeout, SearchStopped, the
   channel closes, no further question, nothing left queued *)
Theorem C17_timeout_late_wakeup :
  wf_hist late_witness = true /\ late late_witness = true /\ chk_C17 late_witness (run late_witness) = true.
Proof. vm_compute. auto. Qed.

Theorem C17_late_wakeup_behaviour :
  map (fun o => (o_events o, o_queries o)) (run late_witness)
  = [ ([(1, EStarted name_a_local)], [host_query name_a_local]);
      ([(1, ETimeout name_a_local); (1, EStopped name_a_local); (1, EClosed)], []) ]
  /\ s_res (state_after st0 late_witness) = []
  /\ s_retr (state_after st0 late_witness) = [].
Proof. vm_compute. auto. Qed.

(* In every state the reference machine reaches (any history with non-decreasing times), for
   every open search: n >= 1 queries were sent; the next one is due exactly at
   (time of the last) + min(2^(n-1), 3600) s with the following gap min(2^n, 3600) s, and is
   before the deadline; no next query exists only if that time is not before the deadline;
   every query after the first was sent before the deadline. *)
Theorem C17_query_schedule : forall h k,
  times_ok 0 h = true -> In k (ss_searches (sp_state_after sst0 h)) ->
  (1 <= sk_sent k)%nat
  /\ (forall t d, sk_next k = Some (t, d) ->
        t = sk_last k + N.min (2 ^ N.of_nat (sk_sent k - 1)) 3600 * 1000
        /\ d = N.min (2 ^ N.of_nat (sk_sent k)) 3600
        /\ forall dl, sk_deadline k = Some dl -> t < dl)
  /\ (sk_next k = None ->
        exists dl, sk_deadline k = Some dl
                   /\ dl <= sk_last k + N.min (2 ^ N.of_nat (sk_sent k - 1)) 3600 * 1000)
  /\ ((2 <= sk_sent k)%nat -> forall dl, sk_deadline k = Some dl -> sk_last k < dl).
Proof. exact query_schedule. Qed.

(* the gaps, literally: 1, 2, 4, ... 2048, 3600, 3600 s *)
Theorem C17_schedule_gaps :
  map delay_seq (seq 0 14) = [1; 2; 4; 8; 16; 32; 64; 128; 256; 512; 1024; 2048; 3600; 3600]
  /\ forall n, delay_seq n = N.min (2 ^ N.of_nat n) 3600.
Proof. exact (conj eq_refl delay_seq_closed). Qed.

(* a scheduled query asks A and AAAA for the name as the caller spelled it; it is sent by
   exactly the open searches whose query time has come *)
Theorem C17_schedule_queries : forall now p,
  snd (sp_sends now p)
  = map (fun k => [(sk_host k, 1); (sk_host k, 28)])
        (filter (fun k => match sk_next k with Some (t, _) => t <=? now | None => false end) (ss_searches p)).
Proof. reflexivity. Qed.

(* deadline = start + timeout (saturating at 2^64-1); after an iteration at time `now` every
   search still open has its deadline after `now` or was started at `now` *)
Theorem C17_deadline : forall h k,
  times_ok 0 h = true -> In k (ss_searches (sp_state_after sst0 h)) ->
  sk_deadline k = option_map (sat_add (sk_start k)) (sk_timeout k)
  /\ (forall dl, sk_deadline k = Some dl -> last_time 0 h < dl \/ sk_start k = last_time 0 h).
Proof. exact deadline_and_liveness. Qed.

Theorem C17_sat_add : forall a b, sat_add a b = N.min (a + b) 18446744073709551615.
Proof. reflexivity. Qed.

(* in the first iteration at or after the deadline of an open search: SearchTimeout then
   SearchStopped (lower-cased name), adjacent, on its channel *)
Theorem C17_timeout_events : forall p i k,
  In k (ss_searches p) ->
  (exists dl, sk_deadline k = Some dl /\ dl <= it_now i) ->
  exists l1 l2,
    o_events (snd (sp_step p i))
    = l1 ++ [(sk_chan k, ETimeout (sk_key k)); (sk_chan k, EStopped (sk_key k))] ++ l2.
Proof. exact timeout_events. Qed.

(* the events of the deadline phase (the expression is that of sp_timeouts) are only for searches
   whose deadline has come *)
Theorem C17_no_early_timeout : forall p i c nm,
  In (c, ETimeout nm) (flat_map (fun k => [(sk_chan k, ETimeout (sk_key k)); (sk_chan k, EStopped (sk_key k))])
                                (filter (sk_timed_out (it_now i)) (ss_searches p))) ->
  exists k dl, In k (ss_searches p) /\ sk_chan k = c /\ sk_key k = nm
               /\ sk_deadline k = Some dl /\ dl <= it_now i.
Proof. exact timeout_phase_at_deadline. Qed.

(* For every history and every iteration i of it (h1 = the iterations before): every
   AddressesFound(sp, A) delivered in iteration i goes to the channel of a search for the name
   lower(sp) (open before the iteration or started in it), and every (address, interface) in A
   was received - in iteration i or earlier - in an address record owned by exactly the
   spelling sp, on exactly that interface, whose TTL (0 counted as 1 s) had not run out at the
   previous iteration. *)
Theorem C17_addresses_found_spec : forall h1 i h2 ch sp A,
  times_ok 0 (h1 ++ i :: h2) = true ->
  In (ch, EFound sp A) (o_events (snd (sp_step (sp_state_after sst0 h1) i))) ->
  ((exists k, In k (ss_searches (sp_state_after sst0 h1)) /\ sk_chan k = ch /\ sk_key k = lower sp)
   \/ (exists host to, In (CResolve host to ch) (it_calls i) /\ lower host = lower sp))
  /\ forall a ifx, In (a, ifx) A ->
       exists j m r, In j (h1 ++ [i]) /\ In m (it_msgs j) /\ In r (m_recs m)
                     /\ is_addr_ty (i_ty r) = true /\ i_name r = sp /\ i_data r = a /\ m_if m = ifx
                     /\ last_time 0 h1 < it_now j + wire_ttl (i_ttl r) * 1000.
Proof. exact addresses_found_spec. Qed.

(* what an AddressesFound carries: for the search of lower(host), one spelling with exactly
   the (address, interface) pairs of the cached records of that name spelled that way *)
Theorem C17_found_content : forall res c host ch e,
  In (ch, e) (found_events res c host) ->
  exists r sp A, find_res (lower host) res = Some r /\ ch = r_chan r /\ e = EFound sp A
    /\ forall a, In a A <-> exists x, In x (bucket_of c (lower host)) /\ a_name x = sp /\ (a_addr x, a_if x) = a.
Proof. exact found_events_spec. Qed.

(* the whole current set for the name: every spelling present exactly once, nothing missing *)
Theorem C17_found_whole_set : forall b,
  NoDup (map fst (group_addrs b))
  /\ (forall sp A, In (sp, A) (group_addrs b) ->
        forall a, In a A <-> exists x, In x b /\ a_name x = sp /\ (a_addr x, a_if x) = a)
  /\ (forall x, In x b -> exists A, In (a_name x, A) (group_addrs b)).
Proof. exact group_addrs_spec. Qed.

(* eviction at time `now` (every iteration): exactly the records with expires <= now leave the
   cache; every AddressesRemoved goes to the search for lower(spelling) and carries exactly the
   (address, interface) pairs of the expired records spelled that way; every expired record
   of a name with an open search is reported *)
Theorem C17_addresses_removed_on_expiry : forall now res c,
  (forall x, In x (entries (fst (evict_all now res c))) <-> In x (entries c) /\ l_expires (a_life x) > now)
  /\ (forall ch e, In (ch, e) (snd (evict_all now res c)) ->
        exists r sp A, find_res (lower sp) res = Some r /\ ch = r_chan r /\ e = ERemoved sp A
          /\ forall a, In a A <-> exists x, In x (entries c) /\ l_expires (a_life x) <= now
                                            /\ a_name x = sp /\ (a_addr x, a_if x) = a)
  /\ (forall x r, In x (entries c) -> l_expires (a_life x) <= now ->
        find_res (lower (a_name x)) res = Some r ->
        exists A, In (r_chan r, ERemoved (a_name x) A) (snd (evict_all now res c)) /\ In (a_addr x, a_if x) A).
Proof. exact evict_all_spec. Qed.

(* the refresh pass over the records of a resolved name: one question per distinct
   (address, interface) among the records that are due, every due record is marked *)
Theorem C17_refresh_pass : forall now b,
  (forall a, In a (snd (refresh_bucket now b))
             <-> exists r, In r b /\ refresh_wanted now r = true /\ (a_addr r, a_if r) = a)
  /\ fst (refresh_bucket now b)
     = map (fun r => if refresh_wanted now r then a_set_life (life_no_more (a_life r)) r else r) b.
Proof. exact refresh_bucket_spec. Qed.

(* due = from 80 % of the lifetime until expiry, for a record as cached ... *)
Theorem C17_refresh_at_80 : forall now t0 ttl x,
  a_life x = life_new t0 ttl ->
  (refresh_wanted now x = true <-> t0 + ttl * 800 <= now /\ now < t0 + ttl * 1000).
Proof. exact wanted_new_iff. Qed.

(* ... and for a record renewed by a repeated announcement (never for a goodbye, TTL <= 1) *)
Theorem C17_refresh_at_80_renewed : forall now t0 ttl x,
  a_life x = life_reset t0 ttl ->
  (refresh_wanted now x = true <-> 1 < ttl /\ t0 + ttl * 800 <= now /\ now < t0 + ttl * 1000).
Proof. exact wanted_reset_iff. Qed.

(* once: a marked record is never due again (until an announcement renews its lifetime) *)
Theorem C17_refresh_once : forall now' r,
  life_wf (a_life r) -> refresh_wanted now' (a_set_life (life_no_more (a_life r)) r) = false.
Proof. exact wanted_after_no_more. Qed.

Theorem C17_refresh_pass_complete : forall now b,
  Forall (fun r => life_wf (a_life r)) b ->
  Forall (fun r => refresh_wanted now r = false) (fst (refresh_bucket now b)).
Proof. exact refresh_bucket_done. Qed.

(* a resolve_hostname call: SearchStarted first, and the A + AAAA question for the name as the
   caller spelled it goes out in the same iteration *)
Theorem C17_first_query : forall now p host timeout ch,
  exists evs, snd (fst (sp_call now p (CResolve host timeout ch))) = (ch, EStarted host) :: evs
  /\ snd (sp_call now p (CResolve host timeout ch)) = [[(host, 1); (host, 28)]].
Proof. intros now p host timeout ch. simpl. eexists. split; reflexivity. Qed.

(* a goodbye (TTL 0) expires after exactly one second, as a new record or as the new lifetime of
   the record it matches (whose refresh mark is then its expiry); eviction reports it
   (C17_addresses_removed_on_expiry) *)
Theorem C17_goodbye_one_second : forall now ifx r,
  i_ttl r = 0 ->
  l_expires (a_life (arec_of now ifx r)) = now + 1000
  /\ life_reset now (l_ttl (a_life (arec_of now ifx r))) = mkLife 1 now (now + 1000) (now + 1000).
Proof. exact goodbye_one_second. Qed.

(* the refresh pass over all open searches: complete (every due record of an open search's name
   gets its question: lower-cased name, A / AAAA by address family) and sound *)
Theorem C17_refresh_all_complete : forall now res c qs r x,
  In r res -> In x (bucket_of c (r_key r)) -> refresh_wanted now x = true ->
  In [(r_key r, addr_qtype (a_addr x))] (snd (fold_left (refresh_one now) res (c, qs))).
Proof. exact refresh_all_complete. Qed.

Theorem C17_refresh_all_sound : forall now res c qs q,
  In q (snd (fold_left (refresh_one now) res (c, qs))) ->
  In q qs \/ exists r x, In r res /\ (exists y, In y (bucket_of c (r_key r)) /\ ident y = ident x)
                         /\ refresh_wanted now x = true /\ q = [(r_key r, addr_qtype (a_addr x))].
Proof. exact refresh_all_sound. Qed.

(* over all histories (times non-decreasing), for every iteration i (h1 = the iterations before):
   for every search open at the end of the iteration and every record of its name that is cached
   after this iteration's responses and due (80 % of its lifetime reached, not expired, not yet
   refreshed), the question is among the queries sent in this iteration - i.e. before the record
   expires; and at the end no record of an open search's name is due any more *)
Theorem C17_refresh_while_open : forall h1 i h2,
  times_ok 0 (h1 ++ i :: h2) = true ->
  let p := sp_state_after sst0 h1 in
  let now := it_now i in
  let c1 := fst (respond_all now (res_view p) (ss_cache p) (it_msgs i)) in
  let p' := fst (sp_step p i) in
  (forall k x, In k (ss_searches p') -> In x (bucket_of c1 (sk_key k)) -> refresh_wanted now x = true ->
               In [(sk_key k, addr_qtype (a_addr x))] (o_queries (snd (sp_step p i))))
  /\ (forall k x, In k (ss_searches p') -> In x (bucket_of (ss_cache p') (sk_key k)) -> refresh_wanted now x = false).
Proof.
  intros h1 i h2 Ht. destruct (history_cache_inv h1 i h2 Ht) as [Hle Hg]. exact (refresh_while_open _ _ _ i Hle Hg).
Qed.

(* in ex_hist the sixth iteration (80 % of the 10 s TTL) has an open search with a due record, and
   its question is sent *)
Example C17_refresh_example :
  let p := sp_state_after sst0 (firstn 5 ex_hist) in
  let i := nth 5 ex_hist (mkIter 0 [] []) in
  existsb (fun k => existsb (refresh_wanted (it_now i))
                            (bucket_of (fst (respond_all (it_now i) (res_view p) (ss_cache p) (it_msgs i))) (sk_key k)))
          (ss_searches (fst (sp_step p i))) = true
  /\ o_queries (snd (sp_step p i)) = [[(name_a_local, 1)]].
Proof. vm_compute. split; reflexivity. Qed.

(* Re-spell the caller's host names by any fc and the responders' owner names by any g, both
   changing ASCII letter case only, g keeping different spellings different.  The trace of the
   model of the code is the same, iteration by iteration: same times; the same events on the
   same channels in the same order with the same address sets, SearchStarted carrying fc(host)
   and AddressesFound / AddressesRemoved carrying g(spelling), SearchTimeout / SearchStopped
   unchanged; the same questions up to letter case. *)
Theorem C17_case_insensitive : forall fc g : name -> name,
  (forall n, lower (fc n) = lower n) -> (forall n, lower (g n) = lower n) ->
  (forall n m, g n = g m -> n = m) ->
  forall h, Forall2 (out_rel fc g) (run h) (run (map (ren_iter fc g) h)).
Proof. intros fc g H1 H2 H3 h. exact (run_ren fc g H1 H2 H3 h st0). Qed.

(* a well-formed, never-late history with AddressesFound (owner spelled differently from the
   caller's name), the 80 % refresh question, AddressesRemoved at expiry and the deadline *)
Example C17_example :
  wf_hist ex_hist = true /\ late ex_hist = false /\ chk_C17 ex_hist (run ex_hist) = true
  /\ map (fun o => (o_now o, o_events o, o_queries o)) (run ex_hist)
     = [ (1000000, [(1, EStarted ex_host)], [host_query ex_host]);
         (1000100, [(1, EFound ex_owner [([192; 168; 1; 20], 2)])], []);
         (1001000, [(1, EStarted ex_host)], [host_query ex_host]);
         (1003000, [(1, EStarted ex_host)], [host_query ex_host]);
         (1007000, [(1, EStarted ex_host)], [host_query ex_host]);
         (1008100, [], [[(name_a_local, 1)]]);
         (1010100, [(1, ERemoved ex_owner [([192; 168; 1; 20], 2)])], []);
         (1015000, [(1, EStarted ex_host)], [host_query ex_host]);
         (1020000, [(1, ETimeout name_a_local); (1, EStopped name_a_local); (1, EClosed)], []) ].
Proof. vm_compute. auto. Qed.

(* a re-spelling that satisfies the hypotheses of C17_case_insensitive and changes names:
   toggle the case of the first letter *)
Example C17_case_example :
  (forall n, lower (toggle_first n) = lower n)
  /\ (forall n m, toggle_first n = toggle_first m -> n = m)
  /\ toggle_first [97; 46; 76; 79; 67; 65; 76; 46] = [65; 46; 76; 79; 67; 65; 76; 46].   (* a.LOCAL. -> A.LOCAL. *)
Proof. exact (conj toggle_first_lower (conj toggle_first_inj eq_refl)). Qed.

Print Assumptions C17_model_satisfies_checker.
Print Assumptions C17_timeout_late_wakeup.
Print Assumptions C17_late_wakeup_behaviour.
Print Assumptions C17_query_schedule.
Print Assumptions C17_schedule_gaps.
Print Assumptions C17_schedule_queries.
Print Assumptions C17_deadline.
Print Assumptions C17_sat_add.
Print Assumptions C17_timeout_events.
Print Assumptions C17_no_early_timeout.
Print Assumptions C17_addresses_found_spec.
Print Assumptions C17_found_content.
Print Assumptions C17_found_whole_set.
Print Assumptions C17_addresses_removed_on_expiry.
Print Assumptions C17_refresh_pass.
Print Assumptions C17_refresh_at_80.
Print Assumptions C17_refresh_at_80_renewed.
Print Assumptions C17_refresh_once.
Print Assumptions C17_refresh_pass_complete.
Print Assumptions C17_first_query.
Print Assumptions C17_goodbye_one_second.
Print Assumptions C17_refresh_all_complete.
Print Assumptions C17_refresh_all_sound.
Print Assumptions C17_refresh_while_open.
Print Assumptions C17_refresh_example.
Print Assumptions C17_case_insensitive.
Print Assumptions C17_example.
Print Assumptions C17_case_example.
