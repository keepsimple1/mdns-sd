(* C20  State stays bounded: expired data is forgotten, unrequested data not kept.
   Statements; the proofs are in Proofs/BoundedProofs.v, BoundedCountProofs.v, BoundedTimerProofs.v, the
   witness histories in Proofs/BoundedWitness.v.

   step / run pol = model of the querier side of the daemon (Model/BoundedModel.v): record
                cache (PTR/SRV/TXT/address/NSEC buckets, subtype map), timer heap,
                retransmissions, pending/resolved sets, as the code is, with the acceptance
                rule of the cache as parameter:  PCode = the code's rule (message-level
                is_for_us, or non-empty bucket);  PNeed = additionally the record must be needed
                by an active search when it arrives.  `run` returns the get_metrics samples.
   chk_C20    = the checker (Model/BoundedSpec.v): every observed sample is within what the SAME
                history yields under PNeed: five cache counters <= PNeed's counters; subtype
                map <= instances of cached subtype PTRs; timers <= timer_allow (quiet state:
                the pending interface check only; otherwise 2 + 3 per cached record / active
                search / queued retransmission).  Extracted, it is the monitor on the real
                daemon's get_metrics.

   FULL STATEMENTS (both false of the code as it is, see the ..._refuted theorems):
     quiescent_empty :  all searches stopped /\ now past every entry's expiry ->
                        after one more iteration the six cache counters are 0 and
                        timers within {next interface check};
     bounded_by_need :  forall t0 h, btimes_ok t0 h = true -> chk_C20 t0 h (run PCode t0 h) = true.  *)
From Coq Require Import List NArith.
From Mdns Require Import ParamsHostres BoundedModel BoundedSpec BoundedProofs BoundedWitness BoundedCountProofs
                         BoundedTimerProofs.
Import ListNotations.
Open Scope N_scope.

(* the five record counters: an iteration at time `now` without incoming responses, from ANY
   state in which every cached record has expired by `now`, ends with cached-ptr, -srv, -txt,
   -addr, -nsec all 0 - whatever calls are made in it, under either acceptance rule *)
Theorem C20_quiescent_counters_partial : forall pol s i,
  bi_msgs i = [] -> all_expired (bi_now i) (b_cache s) ->
  entries_total (b_cache (fst (step pol s i))) = 0.
Proof. exact quiescent_counters. Qed.

(* the timers: with no browsed type and nothing queued, an iteration without responses and
   calls leaves in the heap exactly the timers that were not yet due, plus at most the re-armed
   interface check.  "timers within {next interface check}" therefore holds exactly when no
   timer of an ended search is still in the heap (missing for the full statement: timers are
   never cancelled, see C20_quiescent_stale_timer_refuted). *)
Theorem C20_quiescent_timers_partial : forall pol s i,
  bi_msgs i = [] -> bi_calls i = [] -> b_queriers s = [] -> b_retr s = [] ->
  exists ip, b_timers (fst (step pol s i)) = filter (fun v => bi_now i <? v) (b_timers s) ++ ip
             /\ (ip = [] \/ ip = [bi_now i + b_ip_interval s]).
Proof. exact quiescent_timers. Qed.

(* refuted, sixth counter: the subtype map is never emptied.  Browse a subtype, receive one
   PTR (TTL 10 s), stop; more than an hour later cached-subtype is still 1 (also under PNeed) *)
Theorem C20_quiescent_subtype_refuted :
  map (map reported) (run PCode t0 w_subtype)
  = [[]; []; [[1; 0; 0; 0; 0; 1; 6]]; [[0; 0; 0; 0; 0; 1; 0]]; [[0; 0; 0; 0; 0; 1; 0]]]
  /\ chk_sub t0 w_subtype (run PCode t0 w_subtype) = false
  /\ chk_sub t0 w_subtype (run PNeed t0 w_subtype) = false.
Proof. vm_compute. repeat split; reflexivity. Qed.

(* refuted, timers: a search with a 1000 s timeout stopped after 100 ms leaves its deadline in
   the heap: no search, no retransmission, nothing cached, interface check disabled - and one
   timer, 990 s ahead *)
Theorem C20_quiescent_stale_timer_refuted :
  map (map reported) (run PCode t0 w_stale) = [[]; []; [[0; 0; 0; 0; 0; 0; 1]]; [[0; 0; 0; 0; 0; 0; 1]]]
  /\ map (map m_timer_allow) (run PNeed t0 w_stale) = [[]; []; [0]; [0]]
  /\ b_timers (state_after PCode (b_init t0) w_stale) = [2000000]
  /\ b_resolvers (state_after PCode (b_init t0) w_stale) = [] /\ b_retr (state_after PCode (b_init t0) w_stale) = []
  /\ chk_timers t0 w_stale (run PCode t0 w_stale) = false.
Proof. vm_compute. repeat split; reflexivity. Qed.

(* refuted: with no search at all, a response without PTR gets its SRV, TXT and address
   records cached (and 6 timers pushed); under PNeed nothing is kept *)
Theorem C20_bounded_by_need_refuted :
  existsb has_search (flat_map bi_calls w_unneeded) = false
  /\ map (map reported) (run PCode t0 w_unneeded) = [[]; [[0; 1; 1; 1; 0; 0; 7]]]
  /\ map (map reported) (run PNeed t0 w_unneeded) = [[]; [[0; 0; 0; 0; 0; 0; 1]]]
  /\ chk_cache t0 w_unneeded (run PCode t0 w_unneeded) = false
  /\ chk_C20 t0 w_unneeded (run PCode t0 w_unneeded) = false.
Proof. vm_compute. repeat split; reflexivity. Qed.

(* refuted, timers: twelve announcements of one wanted address record leave >= 24 timers for
   one cached record (allowance 11); nothing unneeded is involved (PNeed and PCode agree) *)
Theorem C20_timers_grow_with_traffic_refuted :
  exists tm, map (map reported) (run PCode t0 w_repeat) = repeat [] 13 ++ [[[0; 0; 0; 1; 0; 0; tm]]]
  /\ 24 <= tm
  /\ map (map m_timer_allow) (run PNeed t0 w_repeat) = repeat [] 13 ++ [[11]]
  /\ run PNeed t0 w_repeat = run PCode t0 w_repeat
  /\ chk_timers t0 w_repeat (run PCode t0 w_repeat) = false.
Proof. exact w_repeat_ok. Qed.

(* what holds outside the class of the finding: `b_excess` counts the records the code's rule
   stored although no active search needed them on arrival.  If that count is still 0 after a
   history, the code behaved exactly as the need rule over the whole history (same samples,
   same state), and the cache part of the checker accepts its samples. *)
Theorem C20_no_excess_runs_agree : forall h s,
  b_excess (state_after PCode s h) = b_excess s ->
  run_from PNeed s h = run_from PCode s h /\ state_after PNeed s h = state_after PCode s h.
Proof. exact no_excess_runs_agree. Qed.

Theorem C20_cache_bounded_by_need_outside_known : forall t0 h,
  b_excess (state_after PCode (b_init t0) h) = 0 ->
  chk_cache t0 h (run PCode t0 h) = true.
Proof. exact cache_within_need_when_no_excess. Qed.

(* deliveries_of pol t0 h = the deliveries (time, interface, record) of history h that the run under
   rule `pol` accounts its cache to: under PNeed exactly those that an open browse / resolver needed
   at the moment they arrived (`needed`, evaluated on the cache as it then was); under PCode every
   delivery.  live_count k T D = how many of D are of record kind k with TTL (0 counted as 1 s) not
   run out at time T.
   For every history with non-decreasing times, under either rule, for each of the five record
   kinds: the counter of the state after the history is at most the number of logged deliveries of
   that kind still within their TTL at the last iteration ... *)
Theorem C20_count_bound_state : forall pol t0 h k,
  btimes_ok t0 h = true -> k <> KNone ->
  count (get_map k (b_cache (state_after pol (b_init t0) h)))
  <= live_count k (blast_time t0 h) (deliveries_of pol t0 h).
Proof. exact count_bound_state. Qed.

(* ... and every get_metrics answer given in an iteration i (h1 = the iterations before) has
   cached-ptr / -srv / -txt / -addr / -nsec at most the number of logged deliveries of that kind, up
   to and including iteration i, whose TTL had not run out at the previous iteration.
   With pol = PNeed this is bounded_by_need for the five record counters: at most the deliveries
   needed by an open search within their TTL, whatever else was received and however long the
   daemon runs.  With pol = PCode it is the bound of the code as it is: traffic within TTL. *)
Theorem C20_count_bound_samples : forall pol t0 h1 i h2 smp,
  btimes_ok t0 (h1 ++ i :: h2) = true ->
  In smp (snd (step pol (state_after pol (b_init t0) h1) i)) ->
  sample_within (blast_time t0 h1) (deliveries_of pol t0 (h1 ++ [i])) smp.
Proof. exact count_bound_samples. Qed.

(* under PCode the log of a message is simply all its records *)
Theorem C20_log_of_code_rule : forall now fu ifx q res rs acc,
  msg_log PCode now fu ifx q res rs acc = map (fun r => (now, ifx, r)) rs.
Proof.
  intros now fu ifx q res rs. induction rs as [|r t IH]; intros acc; simpl; [reflexivity|].
  rewrite IH. reflexivity.
Qed.

Example C20_count_bound_example :
  map (fun d => br_ty (snd d)) (deliveries_of PNeed t0 w_legit) = [12; 33; 16; 1]
  /\ map (fun k => live_count k 1000010 (deliveries_of PNeed t0 (firstn 3 w_legit))) [KPtr; KSrv; KTxt; KAddr; KNsec]
     = [1; 1; 1; 1; 0]
  /\ deliveries_of PNeed t0 w_unneeded = []
  /\ length (deliveries_of PCode t0 w_unneeded) = 3%nat.
Proof. vm_compute. repeat split; reflexivity. Qed.

(* the timer heap: when entries leave.  (The need-proportional count bound is refuted above; a
   count bound by deliveries within TTL + searches is not proved.) *)
(* for every state and iteration, either rule: the heap afterwards is the old heap plus what this
   iteration's responses pushed, restricted to times > now, followed by what the rest of the
   iteration pushed.  Entries leave only by being popped, and every entry whose time has come is. *)
Theorem C20_timers_step_shape : forall pol s i,
  exists pushed_by_responses pushed_later,
    b_timers (fst (step pol s i))
    = filter (fun v => bi_now i <? v) (b_timers s ++ pushed_by_responses) ++ pushed_later.
Proof. exact timers_step_shape. Qed.

Theorem C20_timers_kept_are_future : forall pol s i,
  exists kept pushed_later,
    b_timers (fst (step pol s i)) = kept ++ pushed_later /\ Forall (fun v => bi_now i < v) kept
    /\ (forall v, In v (b_timers s) -> bi_now i < v -> In v kept)
    /\ (forall v, In v (b_timers s) -> v <= bi_now i -> ~ In v kept).
Proof. exact timers_kept_are_future. Qed.

(* nothing is pushed without work: no response, no call, no retransmission due, no browsed type,
   interface check disabled or not yet due -> the iteration only pops *)
Theorem C20_timers_idle_step : forall pol s i,
  bi_msgs i = [] -> bi_calls i = [] -> b_queriers s = [] ->
  Forall (fun x => hp_rerun_due (bi_now i) (fst x) = false) (b_retr s) ->
  (b_ip_interval s = 0 \/ (b_next_ip s <> 0 /\ bi_now i < b_next_ip s)) ->
  b_timers (fst (step pol s i)) = filter (fun v => bi_now i <? v) (b_timers s).
Proof. exact timers_idle_step. Qed.

Example C20_timers_idle_example :
  let s := state_after PCode (b_init t0) w_stale in
  b_queriers s = [] /\ b_retr s = [] /\ b_ip_interval s = 0 /\ b_timers s = [2000000]
  /\ b_timers (fst (step PCode s w_idle_iter)) = [2000000].
Proof. vm_compute. repeat split; reflexivity. Qed.

(* the rule PNeed, step level: it never stores a
   record that is not needed when it arrives - cache counters, subtype map and timers
   untouched - and treats a needed record exactly as the code does.  So the PCode and PNeed runs
   of a history differ only through records that no active search needed at arrival
   (finding C20-unneeded-records-cached). *)
Theorem C20_unneeded_never_cached_partial : forall now fu x c,
  let '(c', tm, res) := add_or_update now fu false x c in
  res = None /\ tm = []
  /\ bc_sub c' = bc_sub c
  /\ forall k, count (get_map k c') = count (get_map k c).
Proof. exact unneeded_never_cached. Qed.

Theorem C20_need_rule_agrees_when_needed_partial : forall now fu ifx q res acc r,
  needed now q res (fst (fst (fst acc))) r = true ->
  absorb PNeed now fu ifx q res acc r = absorb PCode now fu ifx q res acc r.
Proof. intros now fu ifx q res [[[c tm] ch] ex] r H. simpl in *. rewrite H. reflexivity. Qed.

(* browse; PTR + SRV + TXT + A arrive; stop; everything expires: counters 1,1,1,1 then 0,
   timers 11 then 0; PNeed and PCode agree *)
Example C20_example :
  btimes_ok t0 w_legit = true
  /\ map (map reported) (run PCode t0 w_legit)
     = [[]; []; [[1; 1; 1; 1; 0; 0; 11]]; [[1; 1; 1; 1; 0; 0; 5]]; [[0; 0; 0; 0; 0; 0; 0]]; [[0; 0; 0; 0; 0; 0; 0]]]
  /\ run PNeed t0 w_legit = run PCode t0 w_legit
  /\ chk_C20 t0 w_legit (run PCode t0 w_legit) = true.
Proof. vm_compute. repeat split; reflexivity. Qed.

(* state that get_metrics does not report (model of the code only; not observable through the
   public API, hence not covered by the monitor).  After browse / stop_browse: an instance whose
   SRV never came waits in pending_resolves until its first follow-up comes due and leaves it
   then, because no cached PTR points to it any more; a PTR owner that was refused as "not for us"
   keeps an (empty) bucket in the PTR map for ever.  The byte strings are "alpha._http._tcp.local."
   and "_foreign._tcp.local." *)
Example C20_hidden_growth_model :
  b_pending (state_after PCode (b_init t0) (firstn 4 w_hidden))
  = [[97; 108; 112; 104; 97; 46; 95; 104; 116; 116; 112; 46; 95; 116; 99; 112; 46; 108; 111; 99; 97; 108; 46]]
  /\ map (map reported) (run PCode t0 w_hidden) = [[]; []; []; []; []; []; []; [[0; 0; 0; 0; 0; 0; 0]]]
  /\ b_pending (state_after PCode (b_init t0) w_hidden) = []
  /\ bc_ptr (b_cache (state_after PCode (b_init t0) w_hidden))
     = [([95; 102; 111; 114; 101; 105; 103; 110; 46; 95; 116; 99; 112; 46; 108; 111; 99; 97; 108; 46], [])].
Proof. vm_compute. repeat split; reflexivity. Qed.

Print Assumptions C20_quiescent_counters_partial.
Print Assumptions C20_quiescent_timers_partial.
Print Assumptions C20_quiescent_subtype_refuted.
Print Assumptions C20_quiescent_stale_timer_refuted.
Print Assumptions C20_bounded_by_need_refuted.
Print Assumptions C20_timers_grow_with_traffic_refuted.
Print Assumptions C20_no_excess_runs_agree.
Print Assumptions C20_cache_bounded_by_need_outside_known.
Print Assumptions C20_count_bound_state.
Print Assumptions C20_count_bound_samples.
Print Assumptions C20_log_of_code_rule.
Print Assumptions C20_count_bound_example.
Print Assumptions C20_timers_step_shape.
Print Assumptions C20_timers_kept_are_future.
Print Assumptions C20_timers_idle_step.
Print Assumptions C20_timers_idle_example.
Print Assumptions C20_unneeded_never_cached_partial.
Print Assumptions C20_need_rule_agrees_when_needed_partial.
Print Assumptions C20_example.
Print Assumptions C20_hidden_growth_model.
