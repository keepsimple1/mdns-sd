(* C11  Records live for their TTL, refresh at 80/85/90/95 %, obey cache-flush.
   The statements, each closed in a few lines from the lemmas of Proofs/LifeProofs.v,
   Proofs/LifeCacheProofs.v, Proofs/LifeSimProofs.v, Proofs/LifeSimInst.v.  Model: Model/Life.v, Model/LifeCache.v (built from the regenerated
   Gen/ParamsLife.v, pinned to the literal numbers in Proofs/ParamsLifePinned.v);
   specifications with literal numbers: Model/LifeSpec.v, Model/LifeCacheSpec.v.
   Times are virtual milliseconds, TTLs seconds; U32 = 2^32, U64 = 2^64, B63 = 2^63. *)
From Coq Require Import List NArith Bool Lia.
From Mdns Require Import Res Rec Life LifeSpec LifeCache LifeCacheSpec LifeProofs LifeCacheProofs LifeSimInst.
From Mdns Require LifeSimProofs LifeMapProofs.
Import ListNotations.
Open Scope N_scope.

(* A record constructed at T with TTL t is expired exactly from T + 1000*t on. *)
Theorem C11_lifetime : forall T t r now,
  new_rec T t = Ok r -> (is_expired r now = true <-> T + 1000 * t <= now).
Proof. exact lifetime. Qed.

(* A record received in a response with wire TTL t (TTL 0 is stored as 1). *)
Theorem C11_lifetime_wire : forall T t r now,
  new_rec T (stored_ttl true t) = Ok r ->
  (is_expired r now = true <-> T + 1000 * N.max 1 t <= now).
Proof. intros T t r now. rewrite stored_ttl_response. apply lifetime. Qed.

(* Nothing but set_expire / set_expire_sooner / reset_ttl moves the expiry: after ANY sequence of
   the other operations (queries, refreshes, update_ttl) the record still expires at T + 1000*t. *)
Theorem C11_lifetime_frame : forall T t ops r0 r outs now,
  new_rec T t = Ok r0 -> forallb keeps_expiry ops = true -> run_ops r0 ops = Ok (r, outs) ->
  (is_expired r now = true <-> T + 1000 * t <= now).
Proof. exact lifetime_frame. Qed.

(* For EVERY sequence of observation times (any order, any gaps), refresh_maybe answers exactly
   as the ladder over the four marks T+800t, T+850t, T+900t, T+950t prescribes: each call takes
   at most the NEXT pending mark, and only if that mark has been reached and the record has not
   expired (a wake-up that skipped several marks takes them on consecutive calls, one each). *)
Theorem C11_refresh_marks : forall T t r obs,
  new_rec T t = Ok r -> 1 <= t -> t < U32 -> T < B63 ->
  refresh_obs r obs = Ok (ladder_spec (marks4 T t) (T + 1000 * t) obs).
Proof. exact refresh_marks. Qed.

(* consequences of the ladder, for every observation sequence: at most one refresh per mark ... *)
Theorem C11_refresh_once_per_mark : forall marks e obs,
  (count_true (ladder_spec marks e obs) <= length marks)%nat.
Proof. exact (fun marks e obs => proj1 (ladder_facts marks e obs)). Qed.

(* ... never at or after expiry ... *)
Theorem C11_refresh_never_after_expiry : forall marks e obs,
  Forall (fun now => now < e) (true_times obs (ladder_spec marks e obs)).
Proof. exact (fun marks e obs => proj1 (proj2 (ladder_facts marks e obs))). Qed.

(* ... the k-th refresh not before the k-th mark ... *)
Theorem C11_refresh_not_before_mark : forall marks e obs,
  at_or_after marks (true_times obs (ladder_spec marks e obs)).
Proof. exact (fun marks e obs => proj2 (proj2 (ladder_facts marks e obs))). Qed.

(* ... and a pending mark that has been reached is taken at that very observation. *)
Theorem C11_refresh_mark_not_skipped : forall m marks e now obs,
  m <= now -> now < e ->
  ladder_spec (m :: marks) e (now :: obs) = true :: ladder_spec marks e obs.
Proof. exact ladder_takes_due. Qed.

(* On the timer-exact schedule the refreshes are exactly at the four marks, none at expiry. *)
Theorem C11_refresh_timer_exact : forall T t,
  1 <= t ->
  ladder_spec (marks4 T t) (T + 1000 * t) (marks4 T t ++ [T + 1000 * t]) = [true; true; true; true; false].
Proof.
  intros T t Ht. unfold marks4. cbn [app].
  rewrite !ladder_takes_due by lia. reflexivity.
Qed.

(* A fresh copy of the record (reset_ttl) restarts the schedule from the new TTL and time ... *)
Theorem C11_reset_restarts : forall r t c r' obs,
  1 < t -> t < U32 -> c < B63 -> reset_ttl r t c = Ok r' ->
  refresh_obs r' obs = Ok (ladder_spec (marks4 c t) (c + 1000 * t) obs).
Proof.
  intros r t c r' obs H1 H2 H3 H. rewrite reset_ttl_is_new in H by assumption.
  eapply refresh_marks; eauto. lia.
Qed.

(* ... and a copy with TTL 1 (goodbye) just expires one second later, without refresh. *)
Theorem C11_reset_ttl_one : forall r c r',
  reset_ttl r 1 c = Ok r' -> r' = mkT 1 c (c + 1000) (c + 1000).
Proof. exact reset_ttl_one. Qed.

(* Addresses of a resolved hostname are refreshed once, at the first observation at or after 80 %. *)
Theorem C11_hostname_refresh_once : forall T t r obs,
  new_rec T t = Ok r -> 1 <= t -> t < U32 -> T < B63 ->
  refresh_once_obs r obs = Ok (ladder_spec [T + 800 * t] (T + 1000 * t) obs).
Proof.
  intros T t r obs H Ht1 Ht2 HT. apply new_rec_inv in H as ->.
  rewrite (refresh_once_obs_spec obs _ _ (R_init T t Ht1 Ht2 HT)). reflexivity.
Qed.

(* Monitor theorem (record level): for every history of operations on one cached record, what
   the code returns satisfies the executable checker chk_C11_life (lifetime, expires_soon,
   refresh_due, half life, the ladder with resets, set_expire_sooner, refresh_no_more). *)
Theorem C11_record_history : forall created ttl ops outs,
  life_case created ttl ops = Ok outs -> chk_C11_life created ttl ops outs = true.
Proof. exact chk_C11_life_sound. Qed.

(* Inside the bounds (TTL 1..2^32-1, clock values below 2^63) no operation the daemon applies
   to a cached record can panic ... *)
Theorem C11_no_overflow : forall created ttl ops,
  life_bounds created ttl ops = true -> forallb in_alphabet ops = true ->
  exists outs, life_case created ttl ops = Ok outs.
Proof. exact life_case_total. Qed.

(* ... every mark fits into u64 ... *)
Theorem C11_no_overflow_marks : forall c t p,
  c < B63 -> t < U32 -> p <= 100 -> exp_time c t p = Ok (c + t * p * 10).
Proof. exact exp_time_ok. Qed.

(* ... get_remaining_ttl panics exactly after expiry (u64 underflow). *)
Theorem C11_remaining_ttl_panics_iff : forall r now,
  t_created r + 1000 * t_ttl r < U64 ->
  (remaining_ttl r now = Panic <-> t_created r + 1000 * t_ttl r < now).
Proof. exact remaining_ttl_panic_iff. Qed.

(* cache flush: the full functional statement of add_or_update on the Vec of one name *)

Theorem C11_cache_flush_spec : forall (b : tbucket) inc ttl now is_for_us,
  Forall entry_ok b -> now < B63 -> 1 <= ttl -> ttl < U32 ->
  add_or_update trec trec_ops b inc ttl now is_for_us = Ok (aou_spec b inc ttl now is_for_us).
Proof. exact add_or_update_spec. Qed.

(* shape of the result: the first matching record is refreshed in place (reset_ttl) - and is
   reported as NEW exactly when it was on its way out (TTL <= 1, e.g. a goodbye) and the incoming
   TTL is > 1 - or the incoming record is inserted at the front; every other position holds
   flush_entry of the old record; one timer (now + 1 s) per flushed record *)
Theorem C11_cache_flush_shape : forall (b : tbucket) inc ttl now b' ts isnew,
  aou_spec b inc ttl now true = Some (b', ts, isnew) ->
  ts = map (fun _ => now + 1000) (filter (fun e => i_flush inc && flushable inc now e) b) /\
  ((exists pre e post, b = pre ++ e :: post /\ matches (c_id e) inc = true /\
       Forall (fun x => matches (c_id x) inc = false) pre /\
       isnew = ((t_ttl (c_t e) <=? 1) && (1 <? ttl)) /\
       b' = map (flush_entry inc now) pre ++ mkC (c_id e) (fresh_reset ttl now) :: map (flush_entry inc now) post)
   \/ (isnew = true /\ Forall (fun x => matches (c_id x) inc = false) b /\
       b' = mkC inc (fresh_new ttl now) :: map (flush_entry inc now) b)).
Proof. exact aou_shape. Qed.

(* what flush_entry does, in the words of the property: *)
Theorem C11_flush_needs_bit : forall inc now (e : tentry),
  i_flush inc = false -> flush_entry inc now e = e.
Proof. intros inc now e H. unfold flush_entry. rewrite H. reflexivity. Qed.

Theorem C11_flush_keeps_same_burst : forall inc now (e : tentry),
  now <= t_created (c_t e) + 1000 -> flush_entry inc now e = e.
Proof. intros inc now e H. apply flush_entry_unless. intros E. apply flushable_true_inv in E. lia. Qed.

Theorem C11_flush_keeps_expiring : forall inc now (e : tentry),
  t_expires (c_t e) <= now + 1000 -> flush_entry inc now e = e.
Proof. intros inc now e H. apply flush_entry_unless. intros E. apply flushable_true_inv in E. lia. Qed.

Theorem C11_flush_keeps_other_class_type : forall inc now (e : tentry),
  i_class inc <> i_class (c_id e) \/ i_type inc <> i_type (c_id e) -> flush_entry inc now e = e.
Proof.
  intros inc now e H. apply flush_entry_unless. intros E. apply flushable_true_inv in E.
  destruct E as (E1 & E2 & _). destruct H; contradiction.
Qed.

Theorem C11_flush_keeps_other_interface : forall inc now (e : tentry),
  (i_type inc = 1 \/ i_type inc = 28) -> both_addr (c_id e) inc = true -> i_if (c_id e) <> i_if inc ->
  flush_entry inc now e = e.
Proof.
  intros inc now e Ht Hb Hi. apply flush_entry_unless. intros E. apply flushable_true_inv in E.
  destruct E as (_ & _ & _ & _ & E). apply Hi, E. auto.
Qed.

Theorem C11_flush_expires_in_one_second : forall inc now (e : tentry),
  i_flush inc = true -> flushable inc now e = true ->
  flush_entry inc now e = mkC (c_id e) (mkT (t_ttl (c_t e)) (t_created (c_t e)) (now + 1000) (t_refresh (c_t e))).
Proof. intros inc now e H1 H2. unfold flush_entry. rewrite H1, H2. reflexivity. Qed.

(* daemon level: the cache / refresh / evict layer over whole histories *)

(* For EVERY history of daemon loop iterations (received records, (re)transmissions, any times
   below 2^63, wire TTLs below 2^32): the model of the code (model_run: Model/LifeCache.v with
   the operations of Model/Life.v) and the property text with literal numbers (spec_run: the
   same cache layer over the abstract record state of Model/LifeSpec.v - marks 80/85/90/95 %,
   expiry T+1000*ttl, one-second flush rule) run without panic and make the same observations in
   every iteration: the same queries (question lists; answer sections are C10's subject), the
   same ServiceRemoved and AddressesRemoved reports.  The extracted spec_run is the monitor
   applied to the traces of the real daemon. *)
Theorem C11_daemon_level_refinement : forall cfg steps,
  Forall step_ok steps ->
  exists obs spec, model_run cfg steps = Ok obs /\ spec_run cfg steps = Ok spec /\ Forall2 io_eq obs spec.
Proof.
  intros cfg steps H. unfold model_run, spec_run.
  exact (LifeSimProofs.sim_run_rel trec astate trec_ops astate_ops R trec_astate_rel cfg steps [] [] (Forall2_nil _) H).
Qed.

(* refresh needs an open search: with no browse and no hostname resolver, no query is sent *)
Theorem C11_refresh_needs_open_search : forall c now nsb nsh recs c' o,
  sim_iter trec trec_ops (mkCfg None None) c now nsb nsh recs = Ok (c', o) -> io_queries o = [].
Proof.
  intros c now nsb nsh recs c' o H.
  apply (LifeMapProofs.no_browse_queries trec trec_ops (mkCfg None None)) in H; [apply H|]; reflexivity.
Qed.

(* a record received at 1 000 000 with TTL 120: a wake-up schedule that skips the 85 % mark
   (observations at 80 %, 92 %, 92 %, 92 %+1, 95 %, expiry) *)
Example C11_example_skipping_schedule :
  exists r, new_rec 1000000 120 = Ok r /\
  refresh_obs r [1096000; 1110400; 1110400; 1110401; 1114000; 1120000]
  = Ok [true; true; true; false; true; false].
Proof. eexists. split; [vm_compute; reflexivity | vm_compute; reflexivity]. Qed.

(* an address Vec: an old record on interface 2, a record of the same burst, a record learned on
   interface 3; a new address arrives on interface 2 with the cache-flush bit *)
Example C11_example_flush :
  let a (o : N) (ifx : N) := mkId [104;49;46] 1 1 true (RAddr [10;0;0;o]) ifx in
  let b := [ mkC (a 1 2) (mkT 120 1000000 1120000 1096000);
             mkC (a 2 2) (mkT 120 1004500 1124500 1100500);
             mkC (a 3 3) (mkT 120 1000000 1120000 1096000) ] in
  add_or_update trec trec_ops b (a 9 2) 120 1005000 true
  = Ok (Some ([ mkC (a 9 2) (mkT 120 1005000 1125000 1101000);
                mkC (a 1 2) (mkT 120 1000000 1006000 1096000);
                mkC (a 2 2) (mkT 120 1004500 1124500 1100500);
                mkC (a 3 3) (mkT 120 1000000 1120000 1096000) ], [1006000], true)).
Proof. vm_compute. reflexivity. Qed.

(* a browse of "t." and a resolver for "h.": a PTR (TTL 10) and two addresses arrive, the second
   address with the cache-flush bit 2 s after the first; iterations at the interesting times *)
Example C11_example_history :
  let ptr := (mkId [116;46] TY_PTR 1 false (RPtr [105;46]) 2, 10) in
  let a1 := (mkId [104;46] TY_A 1 true (RAddr [10;0;0;1]) 2, 10) in
  let a2 := (mkId [104;46] TY_A 1 true (RAddr [10;0;0;2]) 2, 10) in
  let st t recs := mkStep t O O recs in
  model_run (mkCfg (Some [116;46]) (Some [104;46]))
    [ st 1000000 [ptr; a1]; st 1002000 [a2]; st 1003000 []; st 1008000 []; st 1008500 [];
      st 1009000 []; st 1009500 []; st 1010000 []; st 1012000 [] ]
  = Ok [ mkIO [] [] [];
         mkIO [] [] [];
         mkIO [] [] [fst a1];                                              (* flushed: +1 s *)
         mkIO [mkQD [([116;46], TY_PTR)] []] [] [];                         (* PTR 80 % *)
         mkIO [mkQD [([116;46], TY_PTR)] []] [] [];                         (* 85 % *)
         mkIO [mkQD [([116;46], TY_PTR)] []] [] [];                         (* 90 % *)
         mkIO [mkQD [([116;46], TY_PTR)] []] [] [];                         (* 95 % *)
         mkIO [mkQD [([104;46], TY_A)] []] [[105;46]] [];                   (* PTR expires; a2 at 80 % *)
         mkIO [] [] [fst a2] ].
Proof. vm_compute. reflexivity. Qed.

Print Assumptions C11_lifetime.
Print Assumptions C11_daemon_level_refinement.
Print Assumptions C11_refresh_needs_open_search.
Print Assumptions C11_lifetime_wire.
Print Assumptions C11_lifetime_frame.
Print Assumptions C11_refresh_marks.
Print Assumptions C11_refresh_once_per_mark.
Print Assumptions C11_refresh_never_after_expiry.
Print Assumptions C11_refresh_not_before_mark.
Print Assumptions C11_refresh_mark_not_skipped.
Print Assumptions C11_refresh_timer_exact.
Print Assumptions C11_reset_restarts.
Print Assumptions C11_reset_ttl_one.
Print Assumptions C11_hostname_refresh_once.
Print Assumptions C11_record_history.
Print Assumptions C11_no_overflow.
Print Assumptions C11_no_overflow_marks.
Print Assumptions C11_remaining_ttl_panics_iff.
Print Assumptions C11_cache_flush_spec.
Print Assumptions C11_cache_flush_shape.
Print Assumptions C11_flush_needs_bit.
Print Assumptions C11_flush_keeps_same_burst.
Print Assumptions C11_flush_keeps_expiring.
Print Assumptions C11_flush_keeps_other_class_type.
Print Assumptions C11_flush_keeps_other_interface.
Print Assumptions C11_flush_expires_in_one_second.
