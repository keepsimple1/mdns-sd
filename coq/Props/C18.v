(* C18  Each interface is its own link; nothing leaks or outlives its removal.
   Statements; a proof here is `exact <lemma>`, a two-line argument, or the evaluation of a
   concrete example of Proofs/C18Witness.v (lemmas: Proofs/IntfProofs.v, IntfCacheProofs.v,
   IntfDaemonProofs.v, IntfHistoryProofs.v, IntfRemovalProofs.v, IntfCheckerProofs.v, ResponderProofs.v).

   Models: Model/Intf.v (IfKind::matches, resolve_addr_to_index, selected_intfs,
   valid_ip_on_intf, get_addrs_on_my_intf_v4/v6), Model/IntfCache.v (remove_records_on_intf,
   remove_addrs_on_disabled_intf over a list-based cache), Model/IntfDaemon.v (the daemon
   restricted to what C18 observes; validated against the Rust on every run),
   Model/C18Spec.v (chk_C18, the checker run on every trace). *)
From Coq Require Import List NArith Bool.
From Mdns Require Import Bytes Rec Intf IntfCache Responder ResponderSpec IntfDaemon C18Spec
     IntfProofs IntfCacheProofs IntfDaemonProofs ResponderProofs IntfHistoryProofs IntfRemovalProofs
     IntfCheckerProofs ResponderWitness C18Witness.
Import ListNotations.
Open Scope N_scope.

(* ---- enable / disable selections: the last match wins --------------------------------------------- *)

(* for ALL lists of selections (every IfKind constructor except Predicate) and ALL interface
   tables: the selected entries are those whose last matching selection enables them; an entry no
   selection matches is enabled *)
Theorem C18_selection_last_match_wins : forall sels tbl,
  selected_intfs sels tbl = filter (last_match sels) tbl.
Proof. intros sels tbl. unfold selected_intfs. rewrite selection_marks_spec. apply pick_marked_filter. Qed.

(* apply_intf_selections computes the same marks *)
Theorem C18_apply_marks_last_match : forall sels tbl,
  selection_marks ParamsResponder.apply_selection_default sels tbl = map (last_match sels) tbl.
Proof. exact apply_marks_last_match. Qed.

(* call order: a later enable / disable overrides the earlier ones exactly on the entries it matches *)
Theorem C18_later_call_overrides : forall sels k en i,
  last_match (sels ++ [(k, en)]) i = if kind_matches k i then en else last_match sels i.
Proof. intros sels k en i. unfold last_match. rewrite rev_app_distr. simpl. destruct (kind_matches k i); reflexivity. Qed.

(* Addr(ip) is resolved when the call is made: to "that interface, that IP family" if the
   address is on an interface at that moment, and stays an address match otherwise *)
Theorem C18_addr_resolved_at_call_time : forall a tbl i,
  find (fun i => ip_eqb (i_ip i) a) tbl = Some i ->
  resolve_addr_to_index (KAddr a) tbl = if is_v4 a then KIndexV4 (i_index i) else KIndexV6 (i_index i).
Proof. intros a tbl i H. simpl. rewrite H. reflexivity. Qed.

Theorem C18_addr_unresolved_stays : forall a tbl,
  find (fun i => ip_eqb (i_ip i) a) tbl = None -> resolve_addr_to_index (KAddr a) tbl = KAddr a.
Proof. intros a tbl H. simpl. rewrite H. reflexivity. Qed.

(* the interface table: after apply_intf_selections an (interface, address) pair named by the
   table is held iff its last matching selection enables it; other pairs are untouched *)
Theorem C18_interface_table_after_apply : forall now d tbl idx a,
  let d' := fst (apply_intf_selections now d tbl) in
  held (d_intfs d') idx a =
  match find (fun e => key_is e idx a) (rev tbl) with
  | Some e => last_match (d_sels d) e
  | None => held (d_intfs d) idx a
  end
  /\ d_sels d' = d_sels d.
Proof. exact interface_table_after_apply. Qed.

(* ... and after every IP check the daemon holds EXACTLY the pairs of the OS table whose last
   matching selection enables them, whatever it held before and whenever the selections were
   made: selections also govern interfaces that show up later, and what disappeared is dropped *)
Theorem C18_interface_table_after_check : forall now d idx a,
  let d' := fst (check_ip_changes now d) in
  held (d_intfs d') idx a =
  match find (fun e => key_is e idx a) (rev (d_os d)) with
  | Some e => last_match (d_sels d) e
  | None => false
  end
  /\ d_sels d' = d_sels d /\ d_os d' = d_os d.
Proof. exact interface_table_after_check. Qed.

(* ---- subnets ----------------------------------------------------------------------------------------- *)

(* valid_ip_on_intf = equality under the netmask, for all addresses and all masks, IPv4 (32 bit)
   and IPv6 (128 bit): same family and agreement on every bit the mask selects *)
Theorem C18_valid_ip_is_equality_under_mask : forall a x,
  valid_ip_on_intf a x = true <->
  same_family a (ia_ip x) /\
  (forall n, N.testbit (ia_mask x) n = true -> N.testbit (ip_num a) n = N.testbit (ip_num (ia_ip x)) n).
Proof. exact valid_ip_on_intf_spec. Qed.

Theorem C18_valid_ip_prefix_v4 : forall a i p, p <= 32 -> a < 2 ^ 32 -> i < 2 ^ 32 ->
  valid_ip_on_intf (V4 a) (mkIfAddr (V4 i) (N.shiftl (N.ones p) (32 - p))) = true
  <-> N.shiftr a (32 - p) = N.shiftr i (32 - p).
Proof. intros a i p. exact (land_prefix_eqb 32 p a i). Qed.

Theorem C18_valid_ip_prefix_v6 : forall a i p, p <= 128 -> a < 2 ^ 128 -> i < 2 ^ 128 ->
  valid_ip_on_intf (V6 a) (mkIfAddr (V6 i) (N.shiftl (N.ones p) (128 - p))) = true
  <-> N.shiftr a (128 - p) = N.shiftr i (128 - p).
Proof. intros a i p. exact (land_prefix_eqb 128 p a i). Qed.

(* get_addrs_on_my_intf_v4 / _v6 return exactly the service's addresses
   of that family that lie in a subnet of an address of the interface *)
Theorem C18_addrs_on_intf_v4 : forall addrs intf a,
  In a (addrs_on_intf_v4 addrs intf) <->
  In a addrs /\ is_v4 a = true /\ exists x, In x (mi_addrs intf) /\ valid_ip_on_intf a x = true.
Proof. exact addrs_on_intf_v4_spec. Qed.

Theorem C18_addrs_on_intf_v6 : forall addrs intf a,
  In a (addrs_on_intf_v6 addrs intf) <->
  In a addrs /\ is_v4 a = false /\ exists x, In x (mi_addrs intf) /\ valid_ip_on_intf a x = true.
Proof. exact addrs_on_intf_v6_spec. Qed.

(* announcements (also the repeated ones and those for a new address of a service with
   automatic addresses) leave on an interface only if the service has an address of the socket's
   family in one of its subnets, and carry only such addresses *)
Theorem C18_announcement_only_link_addresses : forall s intf v4 p,
  announce_on s intf v4 = Some p ->
  intf_addrs_of v4 s intf <> [] /\
  forall r o, In r (p_answers p) -> r_data r = RAddr o ->
    exists a x, In a (s_addrs s) /\ o = ip_octets a /\ is_v4 a = v4 /\
                In x (mi_addrs intf) /\ valid_ip_on_intf a x = true.
Proof. exact announcement_carries_link_addresses. Qed.

(* goodbyes likewise (they are sent only on interfaces where the service is Announced: the
   model's do_unregister, bd59ecc) *)
Theorem C18_goodbye_only_link_addresses : forall s intf v4 p,
  goodbye_on s intf v4 = Some p ->
  forall r o, In r (p_answers p) -> r_data r = RAddr o ->
    exists a x, In a (s_addrs s) /\ o = ip_octets a /\ is_v4 a = v4 /\
                In x (mi_addrs intf) /\ valid_ip_on_intf a x = true.
Proof. exact goodbye_carries_link_addresses. Qed.

(* and every address record of a response to a query (answers and additionals, all question
   types) is an address of a registered service inside a subnet of the receiving interface *)
Theorem C18_response_only_link_addresses : forall inp p,
  wf_input inp = true -> handle_query inp = Some p ->
  Forall (addr_rec_on_link inp) (p_answers p ++ p_additionals p).
Proof. exact response_carries_link_addresses. Qed.

(* ---- an interface disappears: remove_records_on_intf ------------------------------------------------ *)

(* an instance is reported removed under a type iff it had a PTR of that type learned on the
       interface and none learned elsewhere *)
Theorem C18_intf_removal_reports_removed : forall c id ty inst,
  (exists l, In (ty, l) (rm_removed (remove_records_on_intf c id)) /\ In inst l) <->
  exists records, In (ty, records) (c_ptr c) /\
    (exists r, In r records /\ on_intf id r = true /\ alias_of r = Some inst) /\
    (forall r, In r records -> alias_of r = Some inst -> on_intf id r = true).
Proof. exact removal_reports_removed. Qed.

(* everything learned on the interface is gone; nothing else is, except the SRV / TXT records
       of the instances reported removed; no empty entries stay behind *)
Theorem C18_intf_removal_cache_contents : forall c id,
  let c' := rm_cache (remove_records_on_intf c id) in
  (forall k r, In_table (c_ptr c') k r <-> In_table (c_ptr c) k r /\ on_intf id r = false) /\
  (forall k r, In_table (c_srv c') k r <->
               In_table (c_srv c) k r /\ on_intf id r = false /\ mem k (removed_set c id) = false) /\
  (forall k r, In_table (c_txt c') k r <->
               In_table (c_txt c) k r /\ on_intf id r = false /\ mem k (removed_set c id) = false) /\
  (forall k r, In_table (c_addr c') k r <-> In_table (c_addr c) k r /\ on_intf id r = false) /\
  (forall k r, In_table (c_nsec c') k r <-> In_table (c_nsec c) k r /\ on_intf id r = false) /\
  (forall k v, In (k, v) (c_ptr c') \/ In (k, v) (c_srv c') \/ In (k, v) (c_txt c') \/
               In (k, v) (c_addr c') \/ In (k, v) (c_nsec c') -> v <> []).
Proof. exact removal_cache_contents. Qed.

(* an instance is reported modified (resolved again with what is left) iff it is not
       reported removed and lost an SRV or TXT record learned on the interface, or a remaining SRV
       record of it points to a host that lost an address record learned on the interface *)
Theorem C18_intf_removal_reports_modified : forall c id inst,
  let rmv := remove_records_on_intf c id in
  In inst (rm_modified rmv) <->
  (mem inst (removed_set c id) = false /\
   exists v, (In (inst, v) (c_srv c) \/ In (inst, v) (c_txt c)) /\ existsb (on_intf id) v = true)
  \/ (exists v r h, In (inst, v) (c_srv (rm_cache rmv)) /\ In r v /\ srv_host_of r = Some h /\
                    exists w, In (lower h, w) (c_addr c) /\ existsb (on_intf id) w = true).
Proof. exact removal_reports_modified. Qed.

(* an interface or one of its IP families is disabled: exactly the address records of that
   family learned on it are dropped, nothing else changes *)
Theorem C18_disabled_family_addresses_dropped : forall c idx t,
  let c' := remove_addrs_on_disabled_intf c idx t in
  c_ptr c' = c_ptr c /\ c_srv c' = c_srv c /\ c_txt c' = c_txt c /\ c_nsec c' = c_nsec c /\
  map fst (c_addr c') = map fst (c_addr c) /\
  forall k r, In_table (c_addr c') k r <->
              In_table (c_addr c) k r /\
              ((ii_index (c_src r) =? idx) && type_in t (r_type (c_rr r))) = false.
Proof. exact disabled_family_addresses_dropped. Qed.

(* the attribution these statements are relative to: a PTR / SRV / TXT record heard again on
   another interface stays attributed to the interface it was first learned on *)
Theorem C18_record_keeps_first_interface : forall r src records a,
  In a records -> crec_matches a r src = true -> insert_rec r src records = records.
Proof.
  intros r src records a Hin Hm. unfold insert_rec.
  rewrite (proj2 (existsb_exists _ _) (ex_intro _ a (conj Hin Hm))). reflexivity.
Qed.

(* ---- whole histories (theorems over ALL histories of Model/IntfDaemon.v, by induction over the
        list of steps; definitions in Proofs/IntfHistoryProofs.v) ----------------------------------------

   A history is an initial OS table and a list of steps (each: optional new OS table, datagrams,
   calls enable / disable / register / unregister / set_ip_check_interval / browse, the time; the
   model adds the due retransmissions and the IP check).  Hypotheses:
     uniq_keys / wf_steps : the OS reports an (interface, address) pair at most once per table;
     known_class = false  : at no step does the OS report again a pair the daemon still holds and
                            the selections made meanwhile disable (finding C18-selection-while-absent).
   Inv seen d (the invariant): the OS table has unique keys; my_intfs has one entry per index;
   every held pair that the OS reports is enabled by its last matching selection; the OS table and
   every held pair are among the pairs reported so far (`seen`); every goodbye waiting for its
   repetition was built for its interface (family, and address records at home there).
   pkt_just seen os sels p (why a packet may leave): there are an interface entry `intf` and an
   address a of it with the family of the packet such that: if the OS table `os` reports
   (intf, a), its last matching selection in `sels` enables it; the packet leaves on `intf`
   (egress_if); every address record of the packet is `ip_octets x` for an address x lying in the
   subnet of an address the OS has reported for that interface (seen_rec); every address of
   `intf` is one the OS has reported for that interface.
   run_just: in every iteration every packet satisfies pkt_just with the OS table of that
   iteration and one of the selection lists in force during it (before / between / after its
   enable and disable calls). *)

(* the invariant holds initially and in every reachable state *)
Theorem C18_invariant_initial : forall t0 os0, uniq_keys os0 -> Inv os0 (initial_state t0 os0).
Proof. exact Inv_initial. Qed.

Theorem C18_invariant_reachable : forall steps seen d,
  Inv seen d -> wf_steps steps -> known_class d steps = false ->
  Inv (seen_after seen d steps) (state_after d steps).
Proof. intros steps seen d H1 H2 H3. apply steps_ok; assumption. Qed.

(* one step preserves it and emits only justified packets *)
Theorem C18_step_preserves_invariant : forall seen d s, Inv seen d ->
  (forall tbl, st_os s = Some tbl -> uniq_keys tbl /\ hazard d tbl = false) ->
  let cur := match st_os s with Some tbl => tbl | None => d_os d end in
  let seen' := add_seen seen cur in
  Inv seen' (fst (iterate d s)) /\
  Forall (obs_just seen' cur (sel_states (d_sels d) cur (st_calls s))) (snd (iterate d s)).
Proof. exact iterate_ok. Qed.

(* (1) every packet emitted in any history outside the known class satisfies pkt_just (above): it
       leaves through an interface entry all of whose addresses the OS has reported, of a family
       that entry has, enabled by the last matching selection if the OS still reports it, and
       carries only addresses of that link *)
Theorem C18_every_packet_justified : forall t0 os0 steps,
  uniq_keys os0 -> wf_steps steps -> known_class (initial_state t0 os0) steps = false ->
  run_just os0 (initial_state t0 os0) steps.
Proof. intros t0 os0 steps H1 H2 H3. apply steps_ok; [apply Inv_initial; exact H1|exact H2|exact H3]. Qed.

(* the known class is not empty, and there the checker rejects the model's own trace *)
Theorem C18_known_class_witness :
  uniq_keysb os_w2 = true /\ wf_stepsb h_absent = true /\ known_class (initial_state t0 os_w2) h_absent = true.
Proof. vm_compute. repeat split. Qed.

Theorem C18_history_refuted_selection_while_absent :
  chk_C18 os_w2 (model_history t0 os_w2 h_absent) = false.
Proof. vm_compute. reflexivity. Qed.

(* non-vacuity of (1): a history with three kinds of selections, automatic and fixed addresses, an
   interface that disappears and one that shows up later, and an unregistration meets the
   hypotheses (and emits packets and IpAdd / IpDel events: C18_history_example) *)
Example C18_history_hypotheses_example :
  uniq_keysb os_ok = true /\ wf_stepsb h_ok = true /\ known_class (initial_state t0 os_ok) h_ok = false.
Proof. vm_compute. repeat split. Qed.

(* the repeated goodbye (120 ms after unregister) leaves through the interface it was built for
   (/repo 694086c): the witness history meets the hypotheses, is accepted by the
   checker, and its two repetitions leave on interfaces 2 and 3 *)
Example C18_goodbye_repeat_on_its_interface :
  (uniq_keysb os_w1 = true /\ wf_stepsb h_goodbye = true /\ known_class (initial_state t0 os_w1) h_goodbye = false) /\
  chk_C18 os_w1 (model_history t0 os_w1 h_goodbye) = true /\
  last_ifs (run (initial_state t0 os_w1) h_goodbye) = [2; 3].
Proof.
  set (r := run (initial_state t0 os_w1) h_goodbye). change (model_history t0 os_w1 h_goodbye) with (combine h_goodbye r).
  vm_compute. repeat split.
Qed.

(* (2) nothing outlives its removal: after an IP check, in ANY state (hence in every history), no
       record of the cache (PTR, SRV, TXT, address, NSEC) is attributed to an interface the check
       removed (held, none of its addresses reported any more) *)
Theorem C18_check_forgets_removed_interfaces : forall now d m, gone d m ->
  no_src (d_cache (fst (check_ip_changes now d))) (mkIntfId (mi_name m) (mi_index m)).
Proof. exact check_forgets_removed_interfaces. Qed.

(* non-vacuity of (2): three records learned on eth1; eth1 disappears; the check empties the cache
   and reports IpDel and ServiceRemoved *)
Example C18_removal_example :
  gone d_before_removal m_eth1 /\ cache_size (d_cache d_before_removal) = 3%nat /\
  cache_size (d_cache (fst (check_ip_changes (t0 + 1000) d_before_removal))) = 0%nat /\
  snd (check_ip_changes (t0 + 1000) d_before_removal)
  = [OIpDel (ip4 10 2 0 10); ORemoved (r_name ptr_peer) (r_name srv_peer)].
Proof. exact removal_example. Qed.

(* (3) the executable checker accepts every run of the model.  Hypotheses, all decidable:
       unique (interface, address) pairs per OS table (uniq_keys / wf_steps); hist_wf = every netmask
       fits its family (< 2^32 / < 2^128: the subnet test on the 4 / 16 octets of an address record
       equals the test on the address itself) and no IPv4 address is reported on two interfaces
       anywhere in the history (the IPv4 socket is told an ADDRESS, so the interface a packet is
       seen to leave on is the one the daemon means); the history is outside known_class
       (finding C18-selection-while-absent).  Covers every clause of chk_C18: packets (enabled
       interface and family, on-link address records), IpAdd / IpDel, the addresses of resolved
       instances (cache invariant: every cached address record belongs to an interface the daemon
       holds), the order of IpDel / IpAdd within an IP check, and the last word about an address. *)
Theorem C18_checker_accepts_every_run : forall t0 os0 steps,
  uniq_keys os0 -> wf_steps steps -> hist_wf os0 steps = true ->
  known_class (initial_state t0 os0) steps = false ->
  chk_C18 os0 (model_history t0 os0 steps) = true.
Proof. exact checker_accepts_every_run. Qed.

(* non-vacuity: the example histories satisfy hist_wf (the others are in C18_history_hypotheses_example
   and below), also the witness of the known class, which the checker rejects *)
Example C18_checker_hypotheses_example :
  hist_wf os_ok h_ok = true /\ hist_wf os_w1 h_goodbye = true /\ hist_wf os_mv h_moved = true /\
  hist_wf os_mv h_held = true /\ hist_wf os_x h_xfam = true /\ hist_wf os_w2 h_absent = true.
Proof. vm_compute. repeat split. Qed.
Example C18_checker_hypotheses_example2 :
  (uniq_keysb os_mv = true /\ wf_stepsb h_moved = true /\ known_class (initial_state t0 os_mv) h_moved = false) /\
  (wf_stepsb h_held = true /\ known_class (initial_state t0 os_mv) h_held = false) /\
  (uniq_keysb os_x = true /\ wf_stepsb h_xfam = true /\ known_class (initial_state t0 os_x) h_xfam = false).
Proof. vm_compute. repeat split. Qed.

(* the IPv4 hypothesis is needed: the same IPv4 address on eth0 and eth1, eth0 disabled by name, a
   service announced (on eth1): the packet is seen to leave on interface 2 - the first owner of
   the address given to IP_MULTICAST_IF - which is disabled, and the checker rejects the model's
   own trace.  (On a real host the kernel chooses among the interfaces owning the address.) *)
Example C18_same_ipv4_on_two_interfaces_example :
  hist_wf os_dup h_dup = false /\ uniq_keysb os_dup = true /\ known_class (initial_state t0 os_dup) h_dup = false /\
  last_ifs (run (initial_state t0 os_dup) h_dup) = [2] /\
  chk_C18 os_dup (model_history t0 os_dup h_dup) = false.
Proof.
  set (r := run (initial_state t0 os_dup) h_dup). change (model_history t0 os_dup h_dup) with (combine h_dup r).
  vm_compute. repeat split.
Qed.

(* Non-vacuity: the checker accepts the model's trace of the example history, packets are sent and
   IpAdd / IpDel events are reported. *)
Example C18_history_example :
  chk_C18 os_ok (model_history t0 os_ok h_ok) = true /\
  (0 <? N.of_nat (count_sent (run (initial_state t0 os_ok) h_ok))) = true /\
  (0 <? N.of_nat (count_ipev (run (initial_state t0 os_ok) h_ok))) = true.
Proof.
  (* the conjuncts share one evaluation of the run: r is a local definition, and model_history
     is combine of the steps with it *)
  set (r := run (initial_state t0 os_ok) h_ok). change (model_history t0 os_ok h_ok) with (combine h_ok r).
  vm_compute. repeat split.
Qed.

(* An address that moves to another interface between two IP checks: the check withdraws it and
   then adds it again (IpDel before IpAdd), the service with automatic addresses keeps it and is
   announced with it on the new interface; the checker accepts this trace and rejects the one
   with the two events in the other order (the services would have lost an address the host has) *)
Example C18_moved_address_withdrawn_then_added :
  chk_C18 os_mv (model_history t0 os_mv h_moved) = true /\
  ip_events w_v6 (List.nth 1 (run (initial_state t0 os_mv) h_moved) []) = [OIpDel w_v6; OIpAdd w_v6] /\
  existsb (carries w_v6) (List.nth 2 (run (initial_state t0 os_mv) h_moved) []) = true /\
  chk_C18 os_mv (swap_second (model_history t0 os_mv h_moved)) = false.
Proof.
  set (r := run (initial_state t0 os_mv) h_moved). change (model_history t0 os_mv h_moved) with (combine h_moved r).
  vm_compute. repeat split.
Qed.

(* An interface with IPv4 only hears an announcement carrying the peer's A and AAAA records: both
   are reported with this interface.  After disable_interface(its name) a fresh browse finds the
   instance but reports no address of either family; the checker rejects the trace in which the
   addresses learned on the dropped interface are reported again *)
Example C18_dropped_interface_addresses_of_both_families_not_reported :
  let r := run (initial_state t0 os_x) h_xfam in
  chk_C18 os_x (model_history t0 os_x h_xfam) = true /\
  resolved_addrs (List.nth 1 r []) = [[(V6 (n_of_octets [253; 153; 0; 2; 0; 0; 0; 0; 0; 0; 0; 0; 0; 0; 6; 0]), 2); (ip4 198 18 2 60, 2)]] /\
  founds (List.nth 3 r []) = 1%nat /\ resolved_addrs (List.nth 3 r []) = [] /\
  chk_C18 os_x (stale_report (model_history t0 os_x h_xfam)) = false.
Proof.
  intros r. change (model_history t0 os_x h_xfam) with (combine h_xfam r).
  vm_compute. repeat split.
Qed.

(* Finding C18-del-of-held-address (/repo 0f7c6ac): an address
   moves to another interface, an enable call takes it up there before the IP check that drops
   the old entry (IpAdd, announced with it on eth1, iteration 3); the check (iteration 4) reports
   no IpDel because the address is still held, and the repeated announcement (iteration 5)
   carries it.  The checker accepts the trace and rejects the one in which the
   check reports IpDel as the last word about an address the OS table has on an enabled interface. *)
Example C18_address_held_elsewhere_is_kept :
  let r := run (initial_state t0 os_mv) h_held in
  ip_events w_v6 (List.nth 3 r []) = [OIpAdd w_v6] /\ existsb (carries w_v6) (List.nth 3 r []) = true /\
  ip_events w_v6 (List.nth 4 r []) = [] /\
  existsb (carries w_v6) (List.nth 5 r []) = true /\
  chk_C18 os_mv (model_history t0 os_mv h_held) = true /\
  chk_C18 os_mv (with_del (model_history t0 os_mv h_held)) = false.
Proof.
  intros r. change (model_history t0 os_mv h_held) with (combine h_held r).
  vm_compute. repeat split.
Qed.

Print Assumptions C18_selection_last_match_wins.
Print Assumptions C18_apply_marks_last_match.
Print Assumptions C18_later_call_overrides.
Print Assumptions C18_addr_resolved_at_call_time.
Print Assumptions C18_addr_unresolved_stays.
Print Assumptions C18_interface_table_after_apply.
Print Assumptions C18_interface_table_after_check.
Print Assumptions C18_valid_ip_is_equality_under_mask.
Print Assumptions C18_valid_ip_prefix_v4.
Print Assumptions C18_valid_ip_prefix_v6.
Print Assumptions C18_addrs_on_intf_v4.
Print Assumptions C18_addrs_on_intf_v6.
Print Assumptions C18_announcement_only_link_addresses.
Print Assumptions C18_goodbye_only_link_addresses.
Print Assumptions C18_response_only_link_addresses.
Print Assumptions C18_intf_removal_reports_removed.
Print Assumptions C18_intf_removal_cache_contents.
Print Assumptions C18_intf_removal_reports_modified.
Print Assumptions C18_disabled_family_addresses_dropped.
Print Assumptions C18_record_keeps_first_interface.
Print Assumptions C18_invariant_initial.
Print Assumptions C18_invariant_reachable.
Print Assumptions C18_step_preserves_invariant.
Print Assumptions C18_every_packet_justified.
Print Assumptions C18_known_class_witness.
Print Assumptions C18_history_refuted_selection_while_absent.
Print Assumptions C18_history_hypotheses_example.
Print Assumptions C18_goodbye_repeat_on_its_interface.
Print Assumptions C18_check_forgets_removed_interfaces.
Print Assumptions C18_removal_example.
Print Assumptions C18_history_example.
Print Assumptions C18_moved_address_withdrawn_then_added.
Print Assumptions C18_dropped_interface_addresses_of_both_families_not_reported.
Print Assumptions C18_address_held_elsewhere_is_kept.
Print Assumptions C18_checker_accepts_every_run.
Print Assumptions C18_checker_hypotheses_example.
Print Assumptions C18_checker_hypotheses_example2.
Print Assumptions C18_same_ipv4_on_two_interfaces_example.
