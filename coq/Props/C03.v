(* C03  A resolved service only ever shows live data that was actually received.
   Statements; a proof of more than a few lines is in Proofs/ (BrowserProofs.v, CacheInvProofs.v,
   CacheProofs.v, C03LastProofs.v).

   run_history ifs h   = the model of the daemon's browser side (Model/Browser.v, Model/Cache.v)
                         run over the history h: per iteration the virtual time, the delivered
                         datagrams (decoded by the decoder model Model/Wire.v) and the API calls
                         (browse / stop_browse / verify / get_metrics); result: the outputs of
                         every iteration (channel events, query packets).
   chk_C03 ifs h tr    = the property text as an executable checker over (history, observed
                         events) - Model/C03Spec.v: every ServiceResolved has a non-empty host and
                         at least one address; host/port, every (address, interface) pair and the
                         TXT are those of delivered records that have more than 1000 ms of TTL left
                         (a goodbye, TTL 0 stored as 1, never has), are the LATEST delivery of
                         their record identity in the earlier iterations (or arrived in the same
                         iteration) and were not displaced by a cache-flush record more than one
                         second after them.  The same extracted chk_C03 is the monitor run on the
                         implementation's events.
   wf_history h        = virtual time does not run backwards.  Nothing else is assumed: any
                         datagram bytes, any interleaving, loss, duplication, delay, any TTLs. *)
From Coq Require Import List NArith Bool Lia.
From Mdns Require Import Rec Cache Browser C03Spec CacheProofs CacheInvProofs BrowserProofs BrowserExamples
  BrowserKnown AouCasesProofs C03LastProofs.
Import ListNotations.
Open Scope N_scope.

Theorem C03_resolved_is_live : forall ifs h,
  wf_history h = true -> chk_C03 ifs h (run_history ifs h) = true.
Proof. intros ifs h Hwf. apply (history_ok ifs h [] init_st 0); [apply Inv_empty|intros ? []|exact Hwf]. Qed.

(* Invariant cache_from_history: after any history every cached record was delivered (a TTL of 0
   arrives as 1; addresses are filed under the lower-cased name). *)
Theorem C03_cache_from_history : forall ifs h k key b e,
  wf_history h = true ->
  In (key, b) (get_map (s_cache (state_after ifs init_st h)) k) -> In e b ->
  exists d, In d (log_of ifs h) /\ dl_rr d = e_rr e /\ dl_t d = e_created e
    /\ (is_addr_type (e_type e) = true -> dl_if d = e_if e)
    /\ e_expires e <= e_created e + 1000 * e_ttl e
    /\ kind_of_type (e_type e) = Some k /\ key = key_of k (e_name e).
Proof.
  intros ifs h k key b e Hwf Hin He. destruct (cache_from_history ifs h Hwf k) as [_ H].
  apply entry_ok_delivered. now apply (H key b Hin).
Qed.

(* The full invariant (Inv, Proofs/CacheInvProofs.v): additionally d is the LAST delivery of
   e's record identity in the log, buckets hold no two records of the same identity, and e
   expires at most one second after any later cache-flush delivery that displaces it. *)
Theorem C03_cache_invariant : forall ifs h,
  wf_history h = true -> Inv (log_of ifs h) (s_cache (state_after ifs init_st h)).
Proof. exact cache_from_history. Qed.

(* add_or_update (DnsCache::add_or_update) extends the log by exactly the delivery it processes
   and keeps the invariant - whatever the record, the interface, the for-us flag. *)
Theorem C03_add_or_update_keeps_invariant : forall L c now ifx r fu,
  Inv L c -> Inv (L ++ [mkDlv now ifx r]) (fst (add_or_update c now ifx r fu)).
Proof. exact add_or_update_inv. Qed.

(* What resolve_service_from_cache builds from a cache satisfying the invariant is justified by
   the log (prev = earlier iterations, cp = the part of the current iteration read so far). *)
Theorem C03_resolve_from_cache_justified : forall prev cp now c ty inst,
  Inv (prev ++ cp) c -> (forall d, In d prev -> dl_t d <= now) ->
  is_valid (resolve_from_cache c now ty inst) = true ->
  resolved_ok prev cp now (resolve_from_cache c now ty inst) = true.
Proof. exact resolve_justified. Qed.

(* Goodbye: a record delivered with TTL 0 (decoded as 1) expires exactly 1000 ms after its
   delivery, new or already cached; a record with that expiry counts as expiring soon from then on,
   which is what resolve_service_from_cache skips. *)
Theorem C03_goodbye_new : forall r now ifx, r_ttl r = 1 -> e_expires (new_entry r now ifx) = now + 1000.
Proof. exact goodbye_new_expires. Qed.
Theorem C03_goodbye_cached : forall e r now, r_ttl r = 1 -> e_expires (reset_ttl e r now) = now + 1000.
Proof. exact goodbye_reset_expires. Qed.
Theorem C03_goodbye_never_used : forall e now t,
  e_expires e = now + 1000 -> now <= t -> expires_soon e t = true.
Proof.
  intros e now t H Ht. destruct (expires_soon e t) eqn:E; [reflexivity|].
  apply expires_soon_false in E. lia.
Qed.

(* Cache-flush (RFC 6762 10.2): a cached record of the same class and type (addresses: same
   interface) that is older than one second and has more than one second left is shortened to
   now + 1000; any other record is untouched. *)
Theorem C03_cache_flush_rule : forall r ifx now e,
  flush_one r ifx now e =
  if (r_class r =? r_class (e_rr e)) && (r_type r =? e_type e)
     && (e_created e + 1000 <? now) && (now + 1000 <? e_expires e)
     && (if is_addr_type (r_type r) then e_if e =? ifx else true)
  then set_expires e (now + 1000) else e.
Proof. exact flush_one_spec. Qed.

(* Clause "... as the network LAST advertised it".
   chk_C03_last (Model/C03Spec.v): host / port of a ServiceResolved are those of the SRV record of
   the instance received most recently among the current ones (live, not superseded, not
   displaced), the TXT properties those of the most recently received current TXT record; for some
   prefix of the current iteration's deliveries; records of not-for-us responses after the last
   for-us one are admissible too.  Full statement:
       forall ifs h, wf_history h = true -> chk_C03_last ifs h (run_history ifs h) = true
   It is FALSE of the faithful model and of the daemon (C03_known_reannounced_witness, finding
   C03-reannounced-record-keeps-position): a record that is announced again keeps its place in
   the Vec, a new one goes in front, and resolve_service_from_cache takes the first live one - so
   after the pattern A, B, A the daemon keeps reporting B.  Outside the class known_reannounced
   the statement is not a theorem here: the monitor checks it on model and implementation for
   every generated history.  What follows are the facts about the code the clause rests on, for
   all caches and records. *)
Theorem C03_resolve_uses_first_live_srv : forall c now ty inst sb,
  bm_get inst (c_srv c) = Some sb ->
  let r := resolve_from_cache c now ty inst in
  match find (fun e => negb (expires_soon e now)) sb with
  | Some e => rs_host r = srv_host e /\ rs_port r = srv_port e
  | None => rs_host r = [] /\ rs_port r = 0
  end.
Proof.
  intros c now ty inst sb H. unfold resolve_from_cache. cbn [rs_host rs_port]. rewrite H.
  destruct (find (fun e => negb (expires_soon e now)) sb); auto.
Qed.

Theorem C03_resolve_uses_first_live_txt : forall c now ty inst tb,
  bm_get inst (c_txt c) = Some tb ->
  rs_txt (resolve_from_cache c now ty inst)
  = match find (fun e => negb (expires_soon e now)) tb with Some e => txt_props (txt_text e) | None => [] end.
Proof. intros c now ty inst tb H. unfold resolve_from_cache. cbn [rs_txt]. now rewrite H. Qed.

Theorem C03_new_record_in_front : forall c now ifx r fu k e0 t0,
  kind_of_type (r_type r) = Some k ->
  bm_get (key_of k (r_name r)) (get_map c k) = Some (e0 :: t0) ->
  update_first (map (fl r ifx now) (e0 :: t0)) r ifx now = None ->
  bm_get (key_of k (r_name r)) (get_map (fst (add_or_update c now ifx r fu)) k)
  = Some (new_entry r now ifx :: map (fl r ifx now) (e0 :: t0))
  /\ snd (add_or_update c now ifx r fu) = Some (new_entry r now ifx, true).
Proof. exact new_record_in_front. Qed.

Theorem C03_reannounced_keeps_position : forall r ifx now b b2 z,
  update_first b r ifx now = Some (b2, z) ->
  length b2 = length b
  /\ forall n e, nth_error b n = Some e ->
       nth_error b2 n = Some e \/ (entry_matches e r ifx = true /\ nth_error b2 n = Some (reset_ttl e r now)).
Proof. exact reannounced_keeps_position. Qed.

(* witness of the class (model; the simulated daemon agrees, corpus case reannounced-older) and
   passing examples: the update 1.9 s after the announcement, the update 200 ms after it *)
Theorem C03_known_reannounced_witness :
  wf_history reann_hist = true
  /\ known_reannounced (log_of_history ex_ifs reann_hist) = true
  /\ chk_C03 ex_ifs reann_hist (run_history ex_ifs reann_hist) = true
  /\ chk_C03_last ex_ifs reann_hist (run_history ex_ifs reann_hist) = false.
Proof. rewrite (C03_resolved_is_live ex_ifs reann_hist) by (vm_compute; reflexivity). vm_compute. repeat split. Qed.

Example C03_last_advertised_example :
  chk_C03_last ex_ifs ex_hist (run_history ex_ifs ex_hist) = true
  /\ chk_C03_last ex_ifs quick_hist (run_history ex_ifs quick_hist) = true
  /\ map (fun o => existsb is_resolved_evt o) (run_history ex_ifs quick_hist) = [false; true; true; true; false]
  /\ known_reannounced (log_of_history ex_ifs quick_hist) = false.
Proof. rewrite ex_hist_run, quick_hist_run. vm_compute. repeat split. Qed.

(* Non-vacuity: browse, full announcement (ServiceFound + ServiceResolved), update of the port
   (ServiceResolved again), goodbye, ServiceRemoved exactly one second later; the history is
   well-formed and its trace passes the checker. *)
Example C03_example :
  wf_history ex_hist = true
  /\ map (fun o => (existsb is_found_evt o, existsb is_resolved_evt o, existsb is_removed_evt o))
         (run_history ex_ifs ex_hist)
     = [(false, false, false); (true, true, false); (false, true, false); (false, false, false);
        (false, false, true); (false, false, false)]
  /\ chk_C03 ex_ifs ex_hist (run_history ex_ifs ex_hist) = true.
Proof. rewrite (C03_resolved_is_live ex_ifs ex_hist) by (vm_compute; reflexivity). rewrite ex_hist_run. vm_compute. repeat split. Qed.

Print Assumptions C03_resolved_is_live.
Print Assumptions C03_cache_from_history.
Print Assumptions C03_cache_invariant.
Print Assumptions C03_add_or_update_keeps_invariant.
Print Assumptions C03_resolve_from_cache_justified.
Print Assumptions C03_goodbye_new.
Print Assumptions C03_goodbye_cached.
Print Assumptions C03_goodbye_never_used.
Print Assumptions C03_cache_flush_rule.
Print Assumptions C03_resolve_uses_first_live_srv.
Print Assumptions C03_resolve_uses_first_live_txt.
Print Assumptions C03_new_record_in_front.
Print Assumptions C03_reannounced_keeps_position.
Print Assumptions C03_known_reannounced_witness.
Print Assumptions C03_last_advertised_example.
Print Assumptions C03_example.
