(* C14  Shutdown is clean, final and safe under concurrent use.
   Statements; the lemmas are in Proofs/SafetyQueueProofs.v.

   Model: Model/SafetyQueue.v.
     run h          the observable trace of a history h (list of steps; a step = packets
                    received + the calls issued from any clone of the handle while the daemon
                    is between two loop iterations, followed by ONE iteration of the daemon)
     drain0 d q     the command loop of one iteration on queue content q from daemon state d
                    (listeners never full): state, channel outputs, goodbyes, "daemon ended"
     drain / iterate  the same with bounded(10) listeners and blocking sends
     chk_C14 h tr   the property text as an executable checker over (history, observed trace);
                    the same extracted function is the monitor on the real daemon
   Quantifiers: ALL histories (any length, any calls, any arguments), ALL queue contents and
   every position of Exit.  `wf_hist`: the type and instance name of register calls are valid
   UTF-8 (they are Rust `&str`).  `never_stuck`: no listener is sent more than 10 events within
   one iteration.  Granularity: whole iterations (see the _partial note at the end). *)
From Coq Require Import List NArith.
From Mdns Require Import Bytes ParamsSafety SafetyQueue SafetyQueueProofs.
Import ListNotations.
Open Scope N_scope.

(* The model's trace of every history that does not overflow a listener passes the checker
   (results of every call, every accepted call answered or closed within its step, clean-up
   at shutdown for exactly the state in front of Exit, silence afterwards). *)
Theorem C14_model_satisfies_chk : forall h,
  wf_hist h -> never_stuck (run h) = true -> chk_C14 h (run h) = true.
Proof. exact model_passes_monitor. Qed.

(* cleanup_once, part 1 - for every daemon state, every queue content and every position of
   Exit: the iteration executes exactly the commands in front of Exit, then SearchStopped on
   every browse / hostname listener, `closed` on the channels of the commands behind Exit, on
   every channel the daemon held (monitors included), Shutdown + `closed` on Exit's channel;
   goodbyes for the unregistered and for every still registered service that had been
   announced (bd59ecc; which services are announced is an environment input of the model,
   `in_announced` / `mark`, because probing and the registry are not part of it); the daemon
   ends. *)
Theorem C14_cleanup_at_exit : forall d pre x post,
  no_exit pre ->
  drain0 d (pre ++ QExit x :: post) =
  (fst (exec_seq d pre),
   snd (exec_seq d pre) ++ shutdown_outputs (fst (exec_seq d pre)) x post,
   exec_seq_gb d pre ++ cleanup_goodbyes (fst (exec_seq d pre)), true).
Proof. exact drain0_at_exit. Qed.

(* cleanup_once, part 2 - exactly once: in every reachable daemon state the registered
   services, the browsed types and the resolved host names are duplicate-free, and the
   clean-up says SearchStopped once per entry / sends one goodbye per service ... *)
Theorem C14_cleanup_exactly_once : forall d found q,
  dinv d ->
  let d1 := fst (exec_seq (fst (arrive d found)) q) in
  NoDup (cleanup_goodbyes d1)
  /\ cleanup_events d1 = map (fun e => (snd e, EStopped)) (d_queriers d1 ++ d_resolvers d1)
  /\ NoDup (map fst (d_queriers d1)) /\ NoDup (map fst (d_resolvers d1)).
Proof.
  intros d found q H. cbn zeta. destruct (exec_seq_dinv q _ (arrive_dinv found d H)) as (A & B & C).
  repeat split; try assumption; [apply NoDup_filter; exact A|].
  unfold cleanup_events. rewrite map_app. reflexivity.
Qed.

Theorem C14_reachable_states_duplicate_free : forall h, dinv (s_d (state_after sys_init h)).
Proof. intros h. apply state_after_dinv. repeat split; constructor. Qed.

(* ... and the daemon ends in at most one step of any history (no hypothesis at all). *)
Theorem C14_daemon_ends_at_most_once : forall h, (length (filter so_exited (run h)) <= 1)%nat.
Proof. intros h. apply exits_at_most_once_from. Qed.

(* no_command_after_exit_executes: the commands behind Exit contribute nothing but `closed`
   on their own reply channels; state, goodbyes and every other output are those of the
   commands in front of Exit. *)
Theorem C14_no_command_after_exit_executes : forall d pre x post,
  no_exit pre ->
  drain0 d (pre ++ QExit x :: post) =
  (fst (exec_seq d pre),
   snd (exec_seq d pre) ++ cleanup_events (fst (exec_seq d pre)) ++ dropped post
     ++ drop_all (fst (exec_seq d pre)) ++ [(x, EShutdown); (x, EClosed)],
   exec_seq_gb d pre ++ cleanup_goodbyes (fst (exec_seq d pre)), true)
  /\ Forall (fun p => snd p = EClosed) (dropped post).
Proof.
  intros d pre x post N. split; [|apply dropped_only_closed].
  rewrite (drain0_at_exit d pre x post N). reflexivity.
Qed.

(* after_shutdown_fails: once some client has read Shutdown (from shutdown()'s or status()'s
   channel) in step k, in every later step every call fails - Error::Msg for refused
   arguments, otherwise DaemonShutdown - except status(), which returns Ok; and the daemon
   does nothing any more (it does not end again, sends no goodbye, the only events are
   Shutdown and closed). *)
Theorem C14_after_shutdown_fails : forall h,
  wf_hist h -> never_stuck (run h) = true ->
  forall k o, nth_error (run h) k = Some o -> shutdown_seen o = true ->
  Forall2 quiet_step (skipn (S k) h) (skipn (S k) (run h)).
Proof.
  intros h W N k o Hk Hs.
  eapply chk_from_after; [apply (model_passes_monitor h W N)|exact Hk|exact Hs].
Qed.

(* ... and that status() call reads Shutdown from a channel that is then closed. *)
Theorem C14_status_after_shutdown : forall q ch,
  q_gone q = true -> do_call q CStatus ch = (q, ROk, [(ch, EShutdown); (ch, EClosed)]).
Proof. intros q ch G. unfold do_call. simpl. rewrite G. reflexivity. Qed.

(* every_call_resolves: in any state with an empty queue (every state between iterations of
   a history that has not got stuck, see the next theorem), for a step that does not get
   stuck: each call returns an error, or has no reply channel, or is a monitor subscription
   (closed at shutdown: C14_cleanup_at_exit, drop_all), or its channel has yielded a value
   or was closed by the end of the step. *)
Theorem C14_every_call_resolves : forall s i,
  Forall wf_call (in_calls i) -> s_stuck s = false -> q_items (s_chan s) = [] ->
  so_stuck (snd (step s i)) = false ->
  forall j c r, nth_error (in_calls i) j = Some c -> nth_error (so_results (snd (step s i))) j = Some r ->
    r <> ROk \/ call_has_chan c = false \/ c = CMonitor
    \/ evs_of (s_next s + N.of_nat j) (so_events (snd (step s i))) <> [].
Proof. exact every_call_resolves. Qed.

Theorem C14_queue_empty_between_iterations : forall h s,
  wf_hist h -> s_stuck s = false -> q_items (s_chan s) = [] -> never_stuck (run_from s h) = true ->
  s_stuck (state_after s h) = false /\ q_items (s_chan (state_after s h)) = [].
Proof. exact reachable_queue_empty. Qed.

(* an iteration that does not block on a listener is the capacity-free command loop *)
Theorem C14_unstuck_iteration_is_drain0 : forall q d c,
  it_stuck (drain d c q) = false ->
  drain0 d q = (it_d (drain d c q), it_out (drain d c q), it_goodbyes (drain d c q), it_exited (drain d c q))
  /\ it_rest (drain d c q) = [].
Proof. exact drain_unstuck. Qed.

(* every_call_resolves WITHOUT the no-overflow hypothesis is FALSE.  Full statement that
   fails: forall h, wf_hist h -> chk_C14 h (run h) = true.
   Witness: browse; then ten announced instances and shutdown() in one step; the clean-up's
   SearchStopped finds the listener full (bounded(10), blocking send) and the daemon thread
   blocks: shutdown(), status() and get_metrics() return Ok and nothing is ever read from
   their reply channels; the daemon never ends.  Confirmed on the real daemon (known finding
   C14-full-listener-blocks-daemon). *)
Theorem C14_every_call_resolves_refuted :
  wf_hist stuck_history
  /\ never_stuck (run stuck_history) = false
  /\ chk_C14 stuck_history (run stuck_history) = false
  /\ map so_results (run stuck_history) = [[ROk]; [ROk; ROk]; [ROk; ROk]]
  /\ Forall (fun o => so_exited o = false
                      /\ evs_of 1 (so_events o) = [] /\ evs_of 2 (so_events o) = []
                      /\ evs_of 3 (so_events o) = [] /\ evs_of 4 (so_events o) = []) (run stuck_history).
Proof.
  split; [repeat constructor|]. repeat apply conj; vm_compute; try reflexivity.
  repeat constructor.
Qed.

Theorem C14_params_pinned :
  cmd_queue_bound = 100 /\ browse_listener_bound = 10 /\ resolver_listener_bound = 10.
Proof. repeat split; reflexivity. Qed.

(* _partial: the statements above are at the granularity of whole loop iterations.  NOT
   covered: interleavings of client threads with the daemon INSIDE an iteration - in
   particular a try_send that succeeds after the daemon's last try_recv (the `while
   receiver.try_recv().is_ok() {}` of the Exit handling) and before the receiver is dropped.
   The stress runs (harness case kind stress_shutdown) do hit that window on the real code:
   known finding C14-command-stranded-after-final-drain. *)

(* Non-vacuity: a history with browse, cache-only browse, resolver, registration (one refused
   by the length limit), monitor, unregister, three announced instances, then shutdown in the
   middle of further calls, then calls after shutdown: well-formed, never stuck, passes the
   checker; the daemon ends in step 2 with one goodbye (both services had been announced in
   step 1, one was unregistered there), and status() afterwards reads Shutdown. *)
Definition ex_ty : bytes := [95;120;46;95;116;99;112;46;108;111;99;97;108;46].               (* _x._tcp.local. *)
Definition ex_ty2 : bytes := [95;121;46;95;117;100;112;46;108;111;99;97;108;46].              (* _y._udp.local. *)
Definition ex_long : bytes := [95;97;98;99;100;101;102;103;104;105;106;107;108;109;110;111;112;46;95;116;99;112;46;108;111;99;97;108;46].
Definition ex_host : bytes := [104;46;108;111;99;97;108;46].                                 (* h.local. *)
Definition ex_hist : list stepin :=
  [ mkIn [] [CBrowse ex_ty false; CBrowse ex_ty2 true; CResolve ex_host; CMonitor;
             CRegister ex_ty [105] ex_host; CRegister ex_ty [106] ex_host; CRegister ex_long [107] ex_host] [];
    mkIn [(ex_ty, 3)] [CStatus; CUnregister ([106;46] ++ ex_ty); CMetrics] [[105;46] ++ ex_ty; [106;46] ++ ex_ty];
    mkIn [] [CStatus; CShutdown; CStatus; CBrowse ex_ty false; CMonitor; CShutdown] [];
    mkIn [] [CStatus; CBrowse ex_ty false; CShutdown; CBrowse [120] false] [] ].
Example C14_example :
  wf_hist ex_hist /\ never_stuck (run ex_hist) = true /\ chk_C14 ex_hist (run ex_hist) = true
  /\ map so_exited (run ex_hist) = [false; false; true; false]
  /\ map so_goodbyes (run ex_hist) = [[]; []; [[105;46] ++ ex_ty]; []]
  /\ map so_results (run ex_hist) =
     [ [ROk; ROk; ROk; ROk; ROk; ROk; ROk]; [ROk; ROk; ROk]; [ROk; ROk; ROk; ROk; ROk; ROk];
       [ROk; RShutdown; RShutdown; RMsg] ].
Proof.
  split; [repeat constructor|]. repeat apply conj; vm_compute; reflexivity.
Qed.

Print Assumptions C14_model_satisfies_chk.
Print Assumptions C14_cleanup_at_exit.
Print Assumptions C14_cleanup_exactly_once.
Print Assumptions C14_reachable_states_duplicate_free.
Print Assumptions C14_daemon_ends_at_most_once.
Print Assumptions C14_no_command_after_exit_executes.
Print Assumptions C14_after_shutdown_fails.
Print Assumptions C14_status_after_shutdown.
Print Assumptions C14_every_call_resolves.
Print Assumptions C14_queue_empty_between_iterations.
Print Assumptions C14_unstuck_iteration_is_drain0.
Print Assumptions C14_every_call_resolves_refuted.
Print Assumptions C14_params_pinned.
