(* C04  Everything advertised for a browsed type is found and resolved.
   The statements of the property, each closed in a line or two from the lemmas of Proofs/ (one
   helper, ex_follow_after_first_try, serves two examples).

   The history-level statement is
       forall ifs h wakes, wf_history h = true ->
         chk_C04 ifs h wakes (map obs_of (run_history ifs h)) = true            (FALSE)
   with chk_C04 (Model/BrowserSpec.v) the property text as a checker: ServiceFound before
   ServiceResolved; an instance of a browsed type with live PTR + SRV + address is reported
   resolved by the end of the iteration that delivered a record of it; after a ServiceFound
   without ServiceResolved the first follow-up question is asked 500 ms later (wake-up
   requested), at most 3 times, for the name the PTR pointed to.
   It is FALSE of the faithful model: C04_found_and_resolved_refuted gives a witness, and the
   simulated daemon agrees with the model on it.  The classes of histories that violate it are
   known findings (known/C04.json), each with a witness below: dotted instance labels (the
   follow-up asks for another name), a record with TTL > 1 that is REFRESHED in its last second
   after the instance was reported removed (no new record, so no resolution), browse over an
   expiring PTR, a ServiceFound withdrawn in the same message, overlapping follow-up series.
   C04_example_restart and C04_example_mixed_case are histories that pass.  What is proved here
   are the steps the property rests on, for all states and inputs, and three of the checker's
   clauses over histories outside the classes (_partial: the whole history-level statement
   outside the classes is checked by the monitor on every generated history of model and
   implementation, not proved:
       forall ifs h wakes, wf_history h = true -> ~ Known_C04 h ->
         chk_C04 ifs h wakes (map obs_of (run_history ifs h)) = true ). *)
From Coq Require Import List NArith Bool.
From Mdns Require Import Bytes Rec Cache Browser C03Spec BrowserSpec BrowserKnown ParamsBrowserPinned CacheProofs
  BrowserLoopProofs CacheInvProofs BrowserStepProofs SpecTrackProofs BrowserProofs C05SafetyProofs C04StepProofs
  C04ScheduleProofs C04PendingProofs AouCasesProofs C04OrderProofs C05AgainProofs C05TimelyProofs C04CompleteProofs
  C04FollowupProofs C05HistoryProofs C04HistoryProofs BrowserExamples.
Import ListNotations.
Open Scope N_scope.

(* Resolution step: when resolve_updated_instances runs for a set containing the instance, the
   type is browsed on channel ch, some PTR of the type points to the instance with more than
   one second left and the cache resolves it (next theorem), ServiceResolved goes to ch. *)
Theorem C04_resolution_step_partial : forall s now updated ty ch ptrs p,
  In (ty, ptrs) (c_ptr (s_cache s)) -> q_get ty (s_q s) = Some ch ->
  In p ptrs -> expires_soon p now = false -> mem (alias_of (e_rr p)) updated = true ->
  is_valid (resolve_from_cache (s_cache s) now ty (alias_of (e_rr p))) = true ->
  In (OEvt ch (EResolved (resolve_from_cache (s_cache s) now ty (alias_of (e_rr p)))))
     (snd (resolve_updated s now updated)).
Proof. exact resolve_complete. Qed.

(* ... and the cache resolves it as soon as it holds an SRV of the instance with more than one
   second left naming a host and one address of that host (filed under the lower-cased name)
   with more than one second left - TXT is not needed, no subnet condition. *)
Theorem C04_complete_records_resolve : forall c now ty inst sb e ab a,
  ty <> [] -> inst <> [] ->
  bm_get inst (c_srv c) = Some sb -> find (fun e => negb (expires_soon e now)) sb = Some e ->
  srv_host e <> [] ->
  bm_get (lower (srv_host e)) (c_addr c) = Some ab -> In a ab -> expires_soon a now = false ->
  is_valid (resolve_from_cache c now ty inst) = true.
Proof. exact valid_when_complete. Qed.

(* Which records trigger the step: a NEW (or revived: cached with TTL <= 1, announced again with
   TTL > 1) PTR (TTL > 1) / SRV / TXT record of the instance ... *)
Theorem C04_new_record_triggers : forall c changes t inst,
  In (t, inst) changes -> (t = TY_PTR \/ t = TY_SRV \/ t = TY_TXT) -> In inst (updated_of c changes).
Proof.
  intros c changes t inst.
  intros Hin Ht. unfold updated_of. apply in_flat_map. exists (t, inst). split; [assumption|]. simpl.
  destruct Ht as [-> | [-> | ->]]; simpl; now left.
Qed.

(* ... and a NEW address record, for the instances whose first SRV names its owner (letter case
   ignored). *)
Theorem C04_new_address_triggers : forall c changes t owner inst,
  In (t, owner) changes -> is_addr_type t = true -> In inst (get_instances_on_host c owner) ->
  In inst (updated_of c changes).
Proof.
  intros c changes t owner inst.
  intros Hin Ht Hi. unfold updated_of. apply in_flat_map. exists (t, owner). split; [assumption|]. simpl.
  unfold is_addr_type in Ht. apply orb_true_iff in Ht as [Ht|Ht]; apply N.eqb_eq in Ht; subst; simpl; assumption.
Qed.

(* A new PTR with TTL > 1 of a browsed type is announced by ServiceFound (before the resolution
   step, which runs after all records of the message). *)
Theorem C04_new_ptr_found : forall c now ifx q r ch,
  r_type r = TY_PTR -> 1 < r_ttl r -> q_get (r_name r) q = Some ch ->
  snd (add_or_update c now ifx r true) = Some (new_entry r now ifx, true) ->
  snd (fst (hr_records c now ifx q true [r])) = [OEvt ch (EFound (r_name r) (alias_of r))].
Proof.
  intros c now ifx q r ch.
  intros Hty Httl Hq Hres. simpl. destruct (add_or_update c now ifx r true) as [c1 res]. simpl in Hres. subst res.
  unfold e_type, e_ttl, e_name. simpl. rewrite Hty. rewrite found_ttl_guard_pinned.
  apply N.ltb_lt in Httl. rewrite Httl. simpl. now rewrite Hq.
Qed.

(* Follow-up schedule.  First try 500 ms after the instance became pending ... *)
Theorem C04_followup_first : forall s now inst,
  mem inst (s_pending s) = false ->
  s_retrans (add_pending s now inst) = s_retrans s ++ [(now + 500, RResolve inst 1)]
  /\ s_pending (add_pending s now inst) = s_pending s ++ [inst].
Proof. intros s now inst. intros H. unfold add_pending. rewrite H. split; reflexivity. Qed.

(* ... each try asks (instance, ANY) while no SRV is cached; tries 1 and 2 schedule the next
   try 500 ms later, try 3 schedules nothing and takes the instance out of pending_resolves ... *)
Theorem C04_followup_step : forall s now inst n,
  has_ptr_to (s_cache s) inst = true ->
  valid_instance_name inst = true -> bm_get inst (c_srv (s_cache s)) = None ->
  exec_resolve s now inst n =
  (if n <? 3
   then mkSt (s_cache s) (s_q s) (s_pending s) (s_resolved s)
             (s_retrans s ++ [(now + 500, RResolve inst (n + 1))])
   else forget_pending s inst,
   [OQuery [(inst, TY_ANY)]]).
Proof. exact followup_step_any. Qed.

(* ... so, timer-exact, exactly three questions at +500, +1000, +1500 and no more ... *)
Theorem C04_followup_three_tries : forall s t inst,
  has_ptr_to (s_cache s) inst = true ->
  valid_instance_name inst = true -> bm_get inst (c_srv (s_cache s)) = None ->
  let s1 := fst (exec_resolve s (t + 500) inst 1) in
  let s2 := fst (exec_resolve s1 (t + 1000) inst 2) in
  let s3 := fst (exec_resolve s2 (t + 1500) inst 3) in
  s_retrans s1 = s_retrans s ++ [(t + 1000, RResolve inst 2)]
  /\ s_retrans s2 = s_retrans s1 ++ [(t + 1500, RResolve inst 3)]
  /\ s_retrans s3 = s_retrans s2
  /\ snd (exec_resolve s (t + 500) inst 1) = [OQuery [(inst, TY_ANY)]]
  /\ snd (exec_resolve s1 (t + 1000) inst 2) = [OQuery [(inst, TY_ANY)]]
  /\ snd (exec_resolve s2 (t + 1500) inst 3) = [OQuery [(inst, TY_ANY)]].
Proof. exact followup_three_tries. Qed.

(* ... once the SRV is cached the remaining tries ask (host, A), (host, AAAA) ... *)
Theorem C04_followup_after_srv : forall s now inst n recs e,
  has_ptr_to (s_cache s) inst = true ->
  valid_instance_name inst = true -> bm_get inst (c_srv (s_cache s)) = Some recs ->
  find (fun e => match get_addr (s_cache s) (srv_host e) with None => true | Some _ => false end) recs = Some e ->
  snd (exec_resolve s now inst n) = [OQuery [(srv_host e, TY_A); (srv_host e, TY_AAAA)]]
  /\ s_retrans (fst (exec_resolve s now inst n)) =
     if n <? 3 then s_retrans s ++ [(now + 500, RResolve inst (n + 1))] else s_retrans s.
Proof.
  intros s now inst n recs e.
  intros Hp Hv Hs Hf. unfold exec_resolve, query_unresolved. rewrite Hp, Hv, Hs, Hf. simpl.
  destruct (followup_pinned n) as (_ & _ & _ & _ & _ & Hg & _). rewrite Hg.
  destruct (n <? 3); split; reflexivity.
Qed.

(* ... and when nothing is missing the try asks nothing and the chain ends. *)
Theorem C04_followup_ends : forall s now inst n recs,
  bm_get inst (c_srv (s_cache s)) = Some recs ->
  find (fun e => match get_addr (s_cache s) (srv_host e) with None => true | Some _ => false end) recs = None ->
  exec_resolve s now inst n = (forget_pending s inst, []).
Proof.
  intros s now inst n recs.
  intros Hs Hf. unfold exec_resolve, query_unresolved, forget_pending.
  destruct (has_ptr_to (s_cache s) inst); [|reflexivity].
  destruct (negb (valid_instance_name inst)); [reflexivity|]. now rewrite Hs, Hf.
Qed.

(* fix 48ec5c0: a try asks only while some cached PTR record (any owner, expired or not) points to
   the instance; after stop_browse or the withdrawal / expiry of its PTR the try asks nothing, the
   chain ends and the instance is no longer pending (the hypothesis has_ptr_to of
   C04_followup_step, C04_followup_three_tries and C04_followup_after_srv) *)
Theorem C04_followup_stops_without_ptr : forall s now inst n,
  has_ptr_to (s_cache s) inst = false -> exec_resolve s now inst n = (forget_pending s inst, []).
Proof. intros s now inst n. intros H. unfold exec_resolve, forget_pending. now rewrite H. Qed.

(* While its chain runs an instance gets no second chain; when the chain is over (third try
   done, or nothing left to ask) the instance is no longer pending, so a later ServiceFound of
   it starts a new chain (C04_followup_first applies again). *)
Theorem C04_followup_not_doubled : forall s now inst,
  mem inst (s_pending s) = true -> add_pending s now inst = s.
Proof. intros s now inst. intros H. unfold add_pending. now rewrite H. Qed.

Theorem C04_followup_over_allows_new_round : forall s now inst n,
  (n <? 3) = false \/ has_ptr_to (s_cache s) inst = false \/ fst (query_unresolved (s_cache s) inst) = false ->
  mem inst (s_pending (fst (exec_resolve s now inst n))) = false.
Proof. exact followup_over_allows_new_round. Qed.

(* History level: the "spec cache" that chk_C04 replays from the history (cache component only)
   IS the model's cache after every history - same buckets, same records (name, type, class,
   cache-flush bit, TTL, rdata, created, expires, interface), same browsed types; only refresh
   marks may differ.  So what the checker calls live (alive_strong / alive_weak / death_time)
   is a statement about the model's state, for ALL histories (no well-formedness needed). *)
Theorem C04_spec_cache_is_model_cache : forall ifs h,
  tracks (model_after ifs init_st h) (spec_after ifs init_spec h).
Proof. exact spec_tracks_model. Qed.

(* One message, every reachable state.

   For every state whose cache satisfies the C03 invariant for a log L (every reachable state:
   C03_cache_invariant) and every response message whose records keep the log inside a log Lf
   free of the classes known_ptr_variant / known_srv_targets: if the type is browsed on ch and,
   after the records of the message are cached, some PTR ty -> instance has more than one second
   left, the message cached a new (or revived) record of the instance, and the instance is
   strongly alive (PTR, SRV, address of the SRV's host with more than one second left), then
   this handle_response emits ServiceResolved for it on ch - exactly one.
   _partial: this is the per-message core of chk_C04's completeness clause (lifted to the checker
   over histories in C04_complete_is_up_partial below); the whole statement
       forall ifs h wakes, wf_history h = true -> ~ Known_C04 h ->
         chk_C04 ifs h wakes (map obs_of (run_history ifs h)) = true
   stays monitor-checked on every generated history. *)
Theorem C04_completing_response_resolves_partial : forall Lf,
  known_ptr_variant Lf = false -> known_srv_targets Lf = false -> ptr_names_ok Lf = true ->
  forall L s now ifx m ty ch,
  Inv L (s_cache s) -> incl (L ++ map (mkDlv now ifx) (msg_records m)) Lf ->
  q_get ty (s_q s) = Some ch ->
  let '(c1, _, changes) := hr_records (s_cache s) now ifx (s_q s) (for_us (s_q s) (m_answers m)) (msg_records m) in
  forall ptrs p,
    In (ty, ptrs) (c_ptr c1) -> In p ptrs -> expires_soon p now = false ->
    In (alias_of (e_rr p)) (updated_of c1 changes) ->
    alive_strong c1 now ty (alias_of (e_rr p)) = true ->
    count_resolved ch ty (alias_of (e_rr p)) (snd (handle_response s now ifx m)) = 1%nat
    /\ In (OEvt ch (EResolved (resolve_from_cache c1 now ty (alias_of (e_rr p))))) (snd (handle_response s now ifx m)).
Proof. exact completing_response_resolves. Qed.

(* at most one ServiceResolved per (channel, type, instance) from one resolve_updated_instances,
   outside the class "PTR variants" *)
Theorem C04_at_most_one_resolved : forall Lf, known_ptr_variant Lf = false ->
  forall L s now updated ch ty inst,
  Inv L (s_cache s) -> incl L Lf ->
  (count_resolved ch ty inst (snd (resolve_updated s now updated)) <= 1)%nat.
Proof. exact resolve_updated_at_most_one. Qed.

(* non-vacuity: the announcement of ex_hist yields exactly one ServiceResolved in its iteration *)
Example C04_one_resolved_example :
  map (count_resolved 1 n_ty n_inst) (run_history ex_ifs ex_hist) = [0; 1; 1; 0; 0; 0]%nat.
Proof. rewrite ex_hist_run. vm_compute. reflexivity. Qed.

(* Follow-up schedule at history level (no class excluded): after every loop iteration of every
   history in which time does not run backwards, every follow-up retransmission the model holds
   is try 1, 2 or 3 and is due strictly after, and at most 500 ms after, the time of that
   iteration (last_now h).  With C04_followup_step: a chain asks at most three times, every try
   within 500 ms of the iteration that scheduled it - at +500, +1000, +1500 when timer-exact. *)
Theorem C04_followup_schedule_invariant : forall ifs h,
  wf_history h = true -> h <> [] ->
  Forall (fun x => match snd x with
                   | RResolve _ n => last_now h < fst x /\ fst x <= last_now h + 500 /\ 1 <= n /\ n <= 3
                   | RVerify _ _ => True
                   end) (s_retrans (model_after ifs init_st h)).
Proof. exact followup_schedule_invariant. Qed.

(* All histories (no hypothesis at all): an instance that is in pending_resolves has a
   follow-up (Resolve) retransmission queued.  add_pending_resolve starts a chain only for an
   instance that is NOT pending, so this is what guarantees that a found, unresolved instance
   keeps getting its follow-up questions; the seeded change C04-m6 (stop_browse cancels the queued
   Resolve commands and leaves the instances pending) breaks exactly this. *)
Theorem C04_pending_has_followup_queued : forall ifs h i,
  mem i (s_pending (model_after ifs init_st h)) = true ->
  exists t n, In (t, RResolve i n) (s_retrans (model_after ifs init_st h)).
Proof. exact pending_has_followup_queued. Qed.

(* ... and with the schedule invariant it is try 1..3, due within the next 500 ms *)
Theorem C04_pending_followup_within_500 : forall ifs h i,
  wf_history h = true -> h <> [] -> mem i (s_pending (model_after ifs init_st h)) = true ->
  exists t n, In (t, RResolve i n) (s_retrans (model_after ifs init_st h))
              /\ last_now h < t /\ t <= last_now h + 500 /\ 1 <= n /\ n <= 3.
Proof. exact pending_followup_within_500. Qed.

(* The bridge to the checker's follow-up clause: a try asks EXACTLY the question
   chk_C04 expects (expected_followup, judged on the same cache) - so with the two theorems above an
   instance that is pending is asked for, with the expected question, within 500 ms, at most
   three times.  _partial: what is still missing for "viol_C04 has no F04_followup / F04_many failure
   over histories" is the checker-side correspondence (obligation (inst, due, try n) <-> queued entry
   (due, RResolve inst n) for non-stale obligations; a queued entry due not later for stale ones;
   pending => open episode or up), see PARTIAL in tools/props/c04.py. *)
Theorem C04_try_asks_expected : forall s now inst n,
  snd (exec_resolve s now inst n)
  = match expected_followup (s_cache s) inst with
    | Some (nm, ty) => if ty =? TY_ANY then [OQuery [(nm, TY_ANY)]] else [OQuery [(nm, TY_A); (nm, TY_AAAA)]]
    | None => []
    end.
Proof. exact try_asks_expected. Qed.

Lemma ex_follow_after_first_try :
  let s := model_after ex_ifs init_st (firstn 3 ex_follow) in
  mem n_inst (s_pending s) = true /\ s_retrans s = [(T0 + 1100, RResolve n_inst 2)].
Proof. vm_compute. split; reflexivity. Qed.

Example C04_pending_example :
  mem n_inst (s_pending (model_after ex_ifs init_st (firstn 3 ex_follow))) = true
  /\ mem n_inst (s_pending (model_after ex_ifs init_st ex_follow)) = false.
Proof. split; [exact (proj1 ex_follow_after_first_try)|vm_compute; reflexivity]. Qed.

(* non-vacuity: PTR only; after the first try (iteration at +600) the second one is scheduled *)
Example C04_followup_schedule_example :
  s_retrans (model_after ex_ifs init_st (firstn 3 ex_follow)) = [(T0 + 1100, RResolve n_inst 2)]
  /\ last_now (firstn 3 ex_follow) = T0 + 600.
Proof. split; [exact (proj2 ex_follow_after_first_try)|vm_compute; reflexivity]. Qed.

(* witnesses of two known classes (those of the others stand next to the clauses they concern) *)
Theorem C04_known_dotted_witness :
  known_dotted ref4_hist = true /\ known_dotted ex_hist = false
  /\ chk_C04 ex_ifs ref4_hist (ex_wakes ref4_hist) (map obs_of (run_history ex_ifs ref4_hist)) = false.
Proof. exact dotted_witness. Qed.

Theorem C04_known_last_second_refresh_witness :
  wf_history lastsec_hist = true
  /\ safe_class ex_ifs lastsec_hist = true
  /\ existsb is_refresh_only (viol_C04 ex_ifs lastsec_hist (ex_wakes lastsec_hist) (map obs_of (run_history ex_ifs lastsec_hist))) = true.
Proof. exact last_second_refresh_witness. Qed.

(* The history-level statement is false of the faithful model: a PTR to an instance whose first
   label is "a.b"; the follow-up questions ask for the labels a, b, _http, ... which no PTR
   points to (finding C04-D20-dotted-label-followup). *)
Theorem C04_found_and_resolved_refuted :
  exists ifs h wakes, wf_history h = true /\ chk_C04 ifs h wakes (map obs_of (run_history ifs h)) = false.
Proof. exact chk_C04_refuted. Qed.

(* Clause F over histories.  Full statement:
       forall ifs h wakes, wf_history h = true ->
         forall f, In f (viol_C04 ifs h wakes (map obs_of (run_history ifs h))) -> is_order_fail f = false
   i.e. the checker never reports "ServiceResolved on a channel on which the instance was not
   reported found before".  It is FALSE of the faithful model and of the daemon
   (C04_known_browse_expiring_witness, finding C04-browse-over-expiring-ptr): when browse starts
   while a cached PTR record of the type (TTL > 1) is in its last second, the cached instance is
   not reported, and a refresh of that PTR record is not "new", so a later SRV + address gives
   ServiceResolved with no ServiceFound.  Proved outside exactly that class
   (known_browse_expiring, executable, Model/BrowserKnown.v): for every history in which time
   does not run backwards and whatever the wake-ups. *)
Theorem C04_resolved_only_after_found_partial : forall ifs h wakes,
  wf_history h = true -> known_browse_expiring ifs h = false ->
  forall f, In f (viol_C04 ifs h wakes (map obs_of (run_history ifs h))) -> is_order_fail f = false.
Proof. exact resolved_only_after_found. Qed.

(* The same for one iteration, from any state: F lists the (channel, instance) pairs reported
   found so far; FI says every cached PTR entry of a browsed type with TTL > 1 is in F under the
   type's channel.  Then every ServiceResolved of the iteration is preceded by its ServiceFound,
   and FI holds again. *)
Theorem C04_iteration_resolved_only_after_found : forall ifs prev s sp it F,
  Inv prev (s_cache s) -> times_le prev (i_now it) -> FI (s_cache s) (s_q s) F -> tracks s sp ->
  calls_browse_expiring (i_now it)
    (last (scan (spec_dgram ifs (i_now it)) sp (deliveries_in_order (i_dgrams it))) sp) (i_calls it) = false ->
  order_ok F (snd (iterate ifs s it))
  /\ FI (s_cache (fst (iterate ifs s it))) (s_q (fst (iterate ifs s it))) (F ++ founds (snd (iterate ifs s it))).
Proof. exact iterate_order. Qed.

(* Witness of the excluded class (the daemon agrees, corpus case browse-expiring-ptr). *)
Theorem C04_known_browse_expiring_witness :
  wf_history brexp_hist = true
  /\ known_browse_expiring ex_ifs brexp_hist = true
  /\ safe_class ex_ifs brexp_hist = true
  /\ existsb (existsb is_found_evt) (run_history ex_ifs brexp_hist) = false
  /\ map (fun o => existsb is_resolved_evt o) (run_history ex_ifs brexp_hist) = [false; false; false; true; false]
  /\ existsb is_order_fail (viol_C04 ex_ifs brexp_hist (ex_wakes brexp_hist) (map obs_of (run_history ex_ifs brexp_hist))) = true.
Proof. exact browse_expiring_witness. Qed.

Example C04_resolved_only_after_found_example :
  wf_history ex_hist = true /\ known_browse_expiring ex_ifs ex_hist = false
  /\ existsb (existsb is_resolved_evt) (run_history ex_ifs ex_hist) = true
  /\ known_browse_expiring ex_ifs lastsec_hist = false
  /\ known_browse_expiring ex_ifs srvtgt_hist = false
  /\ known_browse_expiring ex_ifs restart_hist = false.
Proof. exact order_example. Qed.

(* Completeness clause over histories.  Full statement:
       forall ifs h wakes, wf_history h = true ->
         forall f, In f (viol_C04 ifs h wakes (map obs_of (run_history ifs h))) -> is_complete_fail f = false
   i.e. the checker never reports F04_complete: at the end of an iteration an instance with PTR, SRV
   and address live (more than a second left) under a browsed name, a record of which was delivered
   in the iteration (or whose browse was started), is up on that name's channel.  FALSE of the
   faithful model and the daemon (C04_known_refresh_completes_witness, and the two-SRV-targets
   witness); proved outside complete_class = safe_class && fresh_channels && not
   known_refresh_completes, where known_refresh_completes (Model/BrowserKnown.v, evaluated along the
   model's run) is the class of BOTH C04-last-second-refresh-not-new and
   C04-browse-over-expiring-ptr's aftermath: some delivery that is NOT reported as a new record (a
   refresh of a cached record, a refused record, a PTR with TTL <= 1) turns an instance of a browsed
   name strongly alive - handle_response then has no reason to resolve it.
   Proved is more than the clause asks: the invariant AU "strongly alive under a browsed name =>
   up on its channel" holds at the end of EVERY iteration, whether or not a record was delivered.
   Liveness rises only in add_or_update (C05_liveness_decreases_with_cache, _with_time), a delivery that raises it
   concerns the instance (C05_other_deliveries_keep_dead); if it is reported as new the instance is in
   `updated` (hr_turned) and C04_completing_response_resolves_partial gives the ServiceResolved; browse
   reports every live instance; ServiceRemoved only hits instances that are not strongly alive (the C05
   safety lemmas); BI: the type recorded in an up entry is the type browsed on its channel, so
   ups_current keeps it. *)
Theorem C04_complete_is_up_partial : forall ifs h wakes,
  wf_history h = true -> complete_class ifs h = true ->
  forall f, In f (viol_C04 ifs h wakes (map obs_of (run_history ifs h))) -> is_complete_fail f = false.
Proof. exact complete_is_up. Qed.

(* one iteration from any state: goodC = cache invariant + AU + BI + channel bounds *)
Theorem C04_iteration_complete_is_up : forall Lf,
  known_ptr_variant Lf = false -> known_srv_targets Lf = false -> ptr_names_ok Lf = true ->
  forall now ifs prev s it ups m m',
  i_now it = now -> goodC Lf now prev s ups m -> incl (prev ++ iter_dlvs ifs it) Lf ->
  calls_fresh m (i_calls it) = Some m' ->
  reads_refresh_only ifs s now (deliveries_in_order (i_dgrams it)) = false ->
  goodC Lf now (prev ++ iter_dlvs ifs it) (fst (iterate ifs s it)) (upsf ups (snd (iterate ifs s it))) m'.
Proof. exact iterate_complete. Qed.

(* a message in which an instance of a browsed name becomes strongly alive, outside the class, has
   the instance in `updated` *)
Theorem C04_turned_alive_is_updated : forall Lf,
  known_srv_targets Lf = false ->
  forall now ifx q fu ty ch inst rs L c,
  Inv L c -> incl (L ++ map (mkDlv now ifx) rs) Lf ->
  records_refresh_only c now ifx q fu rs = false -> q_get ty q = Some ch ->
  alive_strong (fst (fst (hr_records c now ifx q fu rs))) now ty inst = true ->
  alive_strong c now ty inst = false ->
  In inst (updated_of (fst (fst (hr_records c now ifx q fu rs))) (snd (hr_records c now ifx q fu rs))).
Proof. exact hr_turned. Qed.

Theorem C04_known_refresh_completes_witness :
  wf_history lastsec_hist = true /\ safe_class ex_ifs lastsec_hist = true /\ fresh_channels lastsec_hist = true
  /\ known_refresh_completes ex_ifs lastsec_hist = true
  /\ existsb is_complete_fail (viol_C04 ex_ifs lastsec_hist (ex_wakes lastsec_hist) (map obs_of (run_history ex_ifs lastsec_hist))) = true.
Proof. exact refresh_completes_witness. Qed.

Example C04_complete_is_up_example :
  map (complete_class ex_ifs) [ex_hist; restart_hist; mixedcase_hist; quick_hist; brexp_hist; again_hist]
  = [true; true; true; true; true; true]
  /\ map (fun h => existsb (existsb is_resolved_evt) (run_history ex_ifs h))
         [ex_hist; restart_hist; mixedcase_hist; quick_hist; brexp_hist; again_hist]
     = [true; true; true; true; true; true]
  /\ map (complete_class ex_ifs) [lastsec_hist; srvtgt_hist] = [false; false].
Proof. exact complete_example. Qed.

(* The follow-up clause; what is and is not excluded by theorem.

   Failure kinds of chk_C04 (viol_C04) and their status over ALL histories of the model:
     F04_order     excluded by theorem outside known_browse_expiring      (C04_resolved_only_after_found_partial)
     F04_complete  excluded by theorem outside complete_class             (C04_complete_is_up_partial)
     F04_followup, F04_many
                   NOT excluded as statements about viol_C04.  Proved instead, over all histories, is the
                   clause in the property's own terms on the model's trace (C04_followups_as_specified_partial
                   and the three theorems after it): found and not resolved => a try runs in that iteration
                   or the instance is pending with try 1..3 queued, due within 500 ms; a queued try runs in
                   the first iteration at or after its due time; a try that runs asks exactly the question the
                   checker expects on the checker's own cache; tries 1 and 2 are followed by the next one
                   500 ms later, try 3 by none (C04_followup_step ...); the chain ends early without PTR.
                   What is missing for the viol_C04 statement is the correspondence with the checker's
                   bookkeeping: (i) non-stale obligation (inst, due, n) <-> queued (due, RResolve inst n),
                   (ii) stale obligation => a queued try due not later, (iii) pending => open episode or up
                   or obligation.  (iii) does not hold as it stands: an instance found on a second channel
                   while it is still up on the first (no obligation, not open) and invalid is made pending;
                   stop_browse of the first name then leaves it pending, neither up nor open - the checker
                   would open a non-stale obligation for the next ServiceFound while the model continues the
                   old series.  So (iii) needs a further class (stop_browse while an instance is up under
                   two names), and (iv) F04_many needs "no two found instances with the same lower-cased
                   labels".  Monitor-checked on every generated history; no such failure has been observed.
     F04_labels    not proved (needs the datagram hypothesis "decode agrees with the reference parser on PTR
                   targets", see PARTIAL in tools/props/c04.py)
     F04_wake      outside the model (no timers)
   New class found by this proof (the hypothesis "ServiceFound => the instance is in `updated` with a live
   PTR" could not be discharged; run on the daemon, which agrees): known_found_withdrawn, finding
   C04-found-withdrawn-in-same-message - a PTR record and its goodbye in ONE packet: ServiceFound is
   sent, resolve_updated_instances skips the (now expiring) PTR, no follow-up series starts. *)
Theorem C04_followups_as_specified_partial : forall ifs h it i,
  wf_history (h ++ [it]) = true ->
  let s := model_after ifs init_st h in
  reads_found_withdrawn ifs s (i_now it) (deliveries_in_order (i_dgrams it)) = false ->
  NR i (snd (iterate ifs s it)) -> FD i (snd (iterate ifs s it)) ->
  (exists n, In (i, n) (due_tries ifs s it))
  \/ (pend i (fst (iterate ifs s it))
      /\ exists t n, In (t, RResolve i n) (s_retrans (fst (iterate ifs s it)))
                     /\ i_now it < t /\ t <= i_now it + 500 /\ 1 <= n /\ n <= 3).
Proof. exact found_unresolved_gets_try. Qed.

(* from any state: found (or already pending) and not resolved => pending afterwards or tried *)
Theorem C04_iteration_found_unresolved : forall ifs s it i,
  reads_found_withdrawn ifs s (i_now it) (deliveries_in_order (i_dgrams it)) = false ->
  NR i (snd (iterate ifs s it)) -> (pend i s \/ FD i (snd (iterate ifs s it))) ->
  pend i (fst (iterate ifs s it)) \/ exists n, In (i, n) (due_tries ifs s it).
Proof. exact iterate_found_unresolved. Qed.

(* a queued try runs in the first iteration whose time is at or after its due time *)
Theorem C04_queued_due_is_tried : forall ifs s it t i n,
  In (t, RResolve i n) (s_retrans s) -> t <= i_now it -> In (i, n) (due_tries ifs s it).
Proof. exact queued_due_is_tried. Qed.

(* a try that runs asks the question chk_C04 expects, judged on the checker's spec cache after the
   commands of that iteration (the cache step04 passes to expected_followup) *)
Theorem C04_tried_asks_expected : forall ifs s sp it i n,
  tracks s sp -> In (i, n) (due_tries ifs s it) ->
  match expected_followup (sp_c (snd (fst (iter_snaps ifs sp it)))) i with
  | Some (nm, ty) => In (nm, ty) (questions_of (snd (iterate ifs s it)))
  | None => True
  end.
Proof. exact tried_asks_expected. Qed.

(* Finding C04-stale-resolve-overlaps-series (generator case life522, seed 7; model = daemon): the queued Resolve command of an instance is not
   cancelled when the instance is resolved (it only leaves pending_resolves).  When a new series for
   the same instance starts before the leftover runs (late schedule, or within 500 ms), the leftover
   takes the instance out of pending_resolves although the new series is running, or continues as a
   parallel series: more than three follow-up questions without new records (F04_many).  The class
   known_overlapping_series: two Resolve retransmissions of one instance are queued when a
   retransmission pass starts.  This is also the concrete shape of the obstacle named above for
   the viol_C04 statement of the follow-up kinds: series can overlap. *)
Theorem C04_known_overlapping_series_witness :
  wf_history overlap_hist = true /\ known_overlapping_series ex_ifs overlap_hist = true
  /\ map (fun o => length (questions_of o)) (run_history ex_ifs overlap_hist) = [0; 0; 0; 1; 2; 2; 1; 0]%nat
  /\ existsb is_many_fail (viol_C04 ex_ifs overlap_hist (ex_wakes overlap_hist) (map obs_of (run_history ex_ifs overlap_hist))) = true
  /\ known_overlapping_series ex_ifs ex_follow = false /\ known_overlapping_series ex_ifs ex_hist = false
  /\ known_overlapping_series ex_ifs restart_hist = false.
Proof. exact overlapping_series_witness. Qed.

Theorem C04_known_found_withdrawn_witness :
  wf_history withdrawn_hist = true /\ known_found_withdrawn ex_ifs withdrawn_hist = true
  /\ map (fun o => (existsb is_found_evt o, questions_of o)) (run_history ex_ifs withdrawn_hist)
     = [(false, []); (true, []); (false, []); (false, []); (false, [])]
  /\ existsb is_followup_fail (viol_C04 ex_ifs withdrawn_hist (ex_wakes withdrawn_hist) (map obs_of (run_history ex_ifs withdrawn_hist))) = true
  /\ known_found_withdrawn ex_ifs ex_follow = false /\ known_found_withdrawn ex_ifs ex_hist = false
  /\ known_found_withdrawn ex_ifs lastsec_hist = false.
Proof. exact found_withdrawn_witness. Qed.

(* Non-vacuity: histories that pass chk_C04 - PTR only: questions (instance, ANY) exactly in the
   iterations at +500, +1000, +1500; and the announce / update / goodbye history of C03. *)
Example C04_example_followup :
  map questions_of (run_history ex_ifs ex_follow)
  = [[]; []; [(n_inst, TY_ANY)]; [(n_inst, TY_ANY)]; [(n_inst, TY_ANY)]; []; []]
  /\ chk_C04 ex_ifs ex_follow (ex_wakes ex_follow) (map obs_of (run_history ex_ifs ex_follow)) = true.
Proof. exact ex_follow_facts. Qed.

Example C04_example_lifecycle :
  chk_C04 ex_ifs ex_hist (ex_wakes ex_hist) (map obs_of (run_history ex_ifs ex_hist)) = true
  /\ chk_C05 ex_ifs ex_hist (ex_wakes ex_hist) (map obs_of (run_history ex_ifs ex_hist)) = true.
Proof. exact ex_hist_chk45. Qed.

(* A history that passes: a service restarts (goodbye, full announcement 700 ms
   later) while a browser is running that does not know it - ServiceFound and ServiceResolved in
   the iteration of the announcement. *)
Example C04_example_restart :
  wf_history restart_hist = true
  /\ map (fun o => (existsb is_found_evt o, existsb is_resolved_evt o)) (run_history ex_ifs restart_hist)
     = [(false, false); (false, false); (true, true); (false, false)]
  /\ chk_C04 ex_ifs restart_hist (ex_wakes restart_hist) (map obs_of (run_history ex_ifs restart_hist)) = true.
Proof. exact restart_facts. Qed.

(* A history that passes: SRV target Host1.local., the address arrives later, alone,
   for host1.local. (TTL 3 s): resolved when it arrives, removed when it runs out. *)
Example C04_example_mixed_case :
  map (fun o => (existsb is_resolved_evt o, existsb is_removed_evt o)) (run_history ex_ifs mixedcase_hist)
  = [(false, false); (false, false); (true, false); (false, false); (false, true); (false, false)]
  /\ chk_C04 ex_ifs mixedcase_hist (ex_wakes mixedcase_hist) (map obs_of (run_history ex_ifs mixedcase_hist)) = true
  /\ chk_C05 ex_ifs mixedcase_hist (ex_wakes mixedcase_hist) (map obs_of (run_history ex_ifs mixedcase_hist)) = true.
Proof. exact mixedcase_facts. Qed.

Print Assumptions C04_resolution_step_partial.
Print Assumptions C04_complete_records_resolve.
Print Assumptions C04_new_record_triggers.
Print Assumptions C04_new_address_triggers.
Print Assumptions C04_new_ptr_found.
Print Assumptions C04_followup_first.
Print Assumptions C04_followup_step.
Print Assumptions C04_followup_three_tries.
Print Assumptions C04_followup_after_srv.
Print Assumptions C04_followup_ends.
Print Assumptions C04_followup_stops_without_ptr.
Print Assumptions C04_followup_not_doubled.
Print Assumptions C04_followup_over_allows_new_round.
Print Assumptions C04_spec_cache_is_model_cache.
Print Assumptions C04_completing_response_resolves_partial.
Print Assumptions C04_at_most_one_resolved.
Print Assumptions C04_one_resolved_example.
Print Assumptions C04_followup_schedule_invariant.
Print Assumptions C04_followup_schedule_example.
Print Assumptions C04_pending_has_followup_queued.
Print Assumptions C04_pending_followup_within_500.
Print Assumptions C04_try_asks_expected.
Print Assumptions C04_pending_example.
Print Assumptions C04_resolved_only_after_found_partial.
Print Assumptions C04_iteration_resolved_only_after_found.
Print Assumptions C04_known_browse_expiring_witness.
Print Assumptions C04_resolved_only_after_found_example.
Print Assumptions C04_complete_is_up_partial.
Print Assumptions C04_iteration_complete_is_up.
Print Assumptions C04_turned_alive_is_updated.
Print Assumptions C04_known_refresh_completes_witness.
Print Assumptions C04_complete_is_up_example.
Print Assumptions C04_followups_as_specified_partial.
Print Assumptions C04_iteration_found_unresolved.
Print Assumptions C04_queued_due_is_tried.
Print Assumptions C04_tried_asks_expected.
Print Assumptions C04_known_overlapping_series_witness.
Print Assumptions C04_known_found_withdrawn_witness.
Print Assumptions C04_known_dotted_witness.
Print Assumptions C04_known_last_second_refresh_witness.
Print Assumptions C04_found_and_resolved_refuted.
Print Assumptions C04_example_followup.
Print Assumptions C04_example_lifecycle.
Print Assumptions C04_example_restart.
Print Assumptions C04_example_mixed_case.
