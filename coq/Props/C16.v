(* C16  TXT properties survive the trip unchanged.
   Statements; each is a lemma of Proofs/TxtProofs.v or follows from one in a line or two. *)
From Coq Require Import List NArith.
From Mdns Require Import Res Bytes Txt TxtProofs.
Import ListNotations.
Open Scope N_scope.

(* Any property list accepted at creation encodes without panic, and what a browser decodes
   from the published RDATA is the same list - same key bytes (case preserved), same value
   bytes, same order, None vs Some [] kept - with only the first of case-insensitively equal
   keys retained. *)
Theorem C16_txt_roundtrip : forall ps,
  accepted ps = true ->
  exists b, encode_txt ps = Ok b /\ decode_txt_unique b = Ok (dedup_ci ps).
Proof.
  intros ps Ha. destruct (txt_roundtrip_decode ps Ha) as [b [H1 H2]].
  exists b. split; [exact H1|]. unfold decode_txt_unique. rewrite H2. reflexivity.
Qed.

(* Before the duplicates are dropped nothing at all is lost: decode_txt is the exact inverse. *)
Theorem C16_txt_roundtrip_exact : forall ps,
  accepted ps = true ->
  exists b, encode_txt ps = Ok b /\ decode_txt b = Ok ps.
Proof. exact txt_roundtrip_decode. Qed.

(* Case-insensitive lookup sees the same property before and after the trip. *)
Theorem C16_lookup_preserved : forall ps key,
  txt_get (dedup_ci ps) key = txt_get ps key.
Proof. intros ps key. apply find_dedup_aux. reflexivity. Qed.

(* Every encoded string is at most 255 bytes and is exactly the length-prefixed property. *)
Theorem C16_encoded_strings_le_255 : forall ps b,
  encode_txt ps = Ok b ->
  Forall (fun p => (length (prop_bytes p) <= 255)%nat) ps /\
  b = match concat (map encode_one ps) with [] => [0] | x => x end.
Proof. exact encode_txt_shape. Qed.

(* Exactly the unrepresentable property lists are refused at creation. *)
Theorem C16_refused_iff : forall ps,
  accepted ps = false <->
  exists p, In p ps /\
    (is_ascii (fst p) = false \/ contains eq_sign (fst p) = true \/
     (fst p = [] /\ snd p = None) \/ (255 < prop_len p)%nat).
Proof. exact refused_iff. Qed.

(* Decoding arbitrary bytes never panics and never runs out of fuel ... *)
Theorem C16_decode_total : forall txt, exists r, decode_txt_unique txt = Ok r.
Proof.
  intros txt. unfold decode_txt_unique. destruct (decode_txt_total txt) as [r ->]. cbn [bind]. eauto.
Qed.

(* ... and every key and value the decoding loop returns, whatever its fuel, is a contiguous
   piece of the input (decode_txt is the loop with fuel length + 1; decode_txt_unique keeps
   some of its properties). *)
Theorem C16_decode_reads_inside : forall fuel txt r,
  decode_txt_fuel fuel txt = Ok r -> Forall (prop_inside txt) r.
Proof. exact decode_txt_fuel_inside. Qed.

(* Non-vacuity: a concrete accepted list with a boolean key, an empty value, a binary value
   containing '=' and NUL, and a case-variant duplicate. *)
Example C16_accepted_example :
  accepted [ ([107;49], Some [118;61;0;255]); ([75;49], Some []); ([98], None); ([101], Some []) ] = true
  /\ dedup_ci [ ([107;49], Some [118;61;0;255]); ([75;49], Some []); ([98], None); ([101], Some []) ]
     = [ ([107;49], Some [118;61;0;255]); ([98], None); ([101], Some []) ].
Proof. vm_compute. split; reflexivity. Qed.

Print Assumptions C16_txt_roundtrip.
Print Assumptions C16_txt_roundtrip_exact.
Print Assumptions C16_lookup_preserved.
Print Assumptions C16_encoded_strings_le_255.
Print Assumptions C16_refused_iff.
Print Assumptions C16_decode_total.
Print Assumptions C16_decode_reads_inside.
