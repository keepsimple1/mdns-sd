(* C19 - Repeated queries back off: 1 s, 2 s, 4 s ... capped at one hour.

   Model: Model/Sched.v (the scheduling core of src/service_daemon.rs as it is; slice: no
   incoming datagrams, so the cache is empty and neither refresh queries, follow-up queries,
   new-interface queries nor verify requests occur).  Checker: SchedSpec.chk_C19 - in every
   iteration the number of queries for a question is exactly one per (re)start call plus one
   if the running search's next query is due, with gaps 1 s, 2 s, 4 s ... 3600 s; nothing
   else is ever sent.

   FULL STATEMENT, proved (C19_monitor_holds):
       forall t0 h, wf_hist t0 h = true -> chk_C19 t0 h (model_run t0 h) = true
   - all API call sequences, all iteration times (early, on time, late).  The history of finding
   C13-timeout-late-rerun (a resolver deadline noticed late) is kept below as an example.
   Also: the closed form of the ladder for EVERY k on the timer-exact silent schedule
   (backoff_sequence); one chain per search (rebrowse_single_chain). *)
From Coq Require Import List NArith.
From Mdns Require Import Sched SchedSpec SchedParamsProofs SchedProofs SchedSpecProofs.
Import ListNotations.
Open Scope N_scope.

Theorem C19_monitor_holds :
  forall t0 h, wf_hist t0 h = true -> chk_C19 t0 h (model_run t0 h) = true.
Proof. exact chk_C19_model. Qed.

(* backoff_sequence: a browse (host = false) or hostname resolution without timeout
   (host = true) started at t1 - after ANY well-formed history h, whatever else is going on -
   sends its first query at t1 and then, on the timer-exact silent schedule, the k-th further
   query exactly at t1 + ladder k, for every k (no bound on the horizon). *)
Theorem backoff_sequence :
  forall t0 h host nm ch t1 (k : nat),
  let it := mkIter t1 [CStart host nm false None ch] in
  wf_hist t0 (h ++ [it]) = true ->
  st_alive (final (init t0) h) = true ->
  let s1 := final (init t0) (h ++ [it]) in
  ktimes (host, nm) (run (final (init t0) h) [it]) = [t1]
  /\ exists n, ktimes (host, nm) (run s1 (silent_hist s1 n)) = map (fun i => t1 + ladder i) (seq 1 k).
Proof. exact backoff_sequence_model. Qed.

(* the ladder: ladder (k+1) = ladder k + dly k * 1000 ms with dly k = min(2^k, 3600) s,
   i.e. gaps 1, 2, 4, ..., 2048, 3600, 3600, ... seconds *)
Theorem backoff_delays : forall k : nat, dly k = N.min (2 ^ N.of_nat k) 3600.
Proof. exact dly_closed. Qed.

(* on any schedule: a scheduled query is sent only when at least the scheduled gap has passed
   since the previous query of that search, and the gap then doubles up to the cap (this is
   the only way chk_C19 admits a query that is not the immediate answer to a start call) *)
Theorem backoff_gap_respected :
  forall now c st', k_rerun now (Some c) = (st', 1%nat) ->
  c_last c + c_delay c * 1000 <= now
  /\ st' = Some (mkChain now (N.min (2 * c_delay c) 3600) (c_deadline c)).
Proof. exact k_rerun_gap. Qed.

(* browsing a type (resolving a host name, in any letter case) again replaces the earlier
   search: in every reachable state there is at most one retransmission per search key *)
Theorem rebrowse_single_chain :
  forall t0 h, wf_hist t0 h = true -> st_alive (final (init t0) h) = true ->
  NoDup (map rkey (st_retrans (final (init t0) h))).
Proof. intros t0 h W A. apply inv_one, good_inv, reachable_good; assumption. Qed.

(* the numbers of the text are the numbers of the code *)
Theorem backoff_constants :
  (forall host now d, next_time host now d = now + d * 1000)
  /\ (forall host d, next_delay host d = N.min (2 * d) 3600)
  /\ (forall host cache, first_delay host cache = 1).
Proof. exact (conj next_time_spec (conj next_delay_spec first_delay_spec)). Qed.

(* finding C13-timeout-late-rerun: the deadline 1003001 and the retransmission of 1003000 are both
   noticed at 1003005.  The retransmission is dropped: one query at 1000000 and at 1001000, none
   afterwards *)
Definition host_w : name := [77; 121; 46; 108; 111; 99; 97; 108; 46].      (* "My.local." *)
Definition late_timeout_history : list iter :=
  [ mkIter 1000000 [ResolveHostname host_w (Some 3001) 1];
    mkIter 1001000 [];
    mkIter 1003005 [];
    mkIter 1007005 [];
    mkIter 1015005 [] ].

Example late_timeout_now_silent :
  wf_hist 1000000 late_timeout_history = true
  /\ chk_C19 1000000 late_timeout_history (model_run 1000000 late_timeout_history) = true
  /\ map (fun o => length (o_sent o)) (model_run 1000000 late_timeout_history) = [0; 1; 1; 0; 0; 0]%nat.
Proof. vm_compute. repeat split; reflexivity. Qed.

(* non-vacuity: a well-formed history with two searches, a re-browse, a stop and late iterations;
   and the ladder up to the cap *)
Definition ty_w : name := [95; 104; 46; 95; 116; 99; 112; 46; 108; 111; 99; 97; 108; 46].  (* "_h._tcp.local." *)
Definition sample_history : list iter :=
  [ mkIter 1000000 [Browse ty_w 1; ResolveHostname host_w (Some 10000) 2];
    mkIter 1001000 [];
    mkIter 1001500 [Browse ty_w 3];
    mkIter 1002500 [];
    mkIter 1003000 [StopResolveHostname host_w];
    mkIter 1004500 [];
    mkIter 1005000 [StopBrowse ty_w] ].

Example C19_nonvacuous :
  wf_hist 1000000 sample_history = true
  /\ chk_C19 1000000 sample_history (model_run 1000000 sample_history) = true
  /\ map (fun o => length (o_sent o)) (model_run 1000000 sample_history) = [0; 2; 2; 1; 1; 0; 1; 0]%nat
  /\ map dly [0; 1; 2; 10; 11; 12; 13; 40]%nat = [1; 2; 4; 1024; 2048; 3600; 3600; 3600].
Proof. vm_compute. repeat split; reflexivity. Qed.

Print Assumptions C19_monitor_holds.
Print Assumptions backoff_sequence.
Print Assumptions backoff_delays.
Print Assumptions backoff_gap_respected.
Print Assumptions rebrowse_single_chain.
Print Assumptions backoff_constants.
Print Assumptions late_timeout_now_silent.
Print Assumptions C19_nonvacuous.
