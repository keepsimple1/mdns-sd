(* C10  Known answers suppress exactly what they should, on both sides.
   The statements, each closed in a few lines from the lemmas of Proofs/LifeProofs.v,
   Proofs/LifeCacheProofs.v, Proofs/LifeRespProofs.v, Proofs/LifeKaHistProofs.v.  Model: Model/Life.v (matches,
   suppressed_by_answer, add_answer, add_answer_with_additionals), Model/LifeCache.v
   (known_answers = get_known_answers + update_ttl), Model/LifeResp.v (answer assembly of
   handle_query); property text with literal numbers: Model/LifeSpec.v (same_record,
   suppress_spec), Model/LifeCacheSpec.v (ka_spec), Model/LifeResp.v (resp_spec). *)
From Coq Require Import List NArith Bool Lia.
From Mdns Require Import Res Rec Life LifeSpec LifeCache LifeCacheSpec LifeResp LifeProofs LifeCacheProofs
  LifeRespProofs LifeKaHistProofs.
Import ListNotations.
Open Scope N_scope.

(* "that same record (owner, type, class, RDATA)" = same_record (Model/LifeSpec.v): the
   cache-flush bit is not part of it; addresses are tied to their interface.
   suppressed_by_answer is EXACTLY the property text: same record and 2 * ttl(theirs) > ttl(mine);
   the code's `other.ttl > self.ttl / 2` (u32 integer division) is that, for odd TTLs too. *)
Theorem C10_suppress_iff : forall mine tm theirs tt,
  suppressed_by_answer mine tm theirs tt = true <-> same_record mine theirs = true /\ tm < 2 * tt.
Proof. exact suppress_iff. Qed.

Theorem C10_suppress_is_text : forall mine tm theirs tt,
  suppressed_by_answer mine tm theirs tt = suppress_spec mine tm theirs tt.
Proof. exact suppress_eq_spec. Qed.

(* above half suppresses; exactly half and below never do (e.g. mine = 5: 3 suppresses, 2 not) *)
Theorem C10_suppress_boundary : forall mine tm theirs tt,
  same_record mine theirs = true ->
  (2 * tt > tm -> suppressed_by_answer mine tm theirs tt = true) /\
  (2 * tt <= tm -> suppressed_by_answer mine tm theirs tt = false).
Proof.
  intros mine tm theirs tt Hm. rewrite !suppress_eq_spec. unfold suppress_spec. rewrite Hm. simpl.
  split; intros H; [apply N.ltb_lt | apply N.ltb_ge]; lia.
Qed.

(* what same_record compares: owner name byte for byte, type, class, record kind and RDATA, and
   for addresses the interface - never when the record differs *)
Theorem C10_same_record_iff : forall a b,
  same_record a b = true <->
  i_data a = i_data b /\ i_name a = i_name b /\ i_type a = i_type b /\ i_class a = i_class b /\
  (is_addr_data (i_data a) = true -> i_if a = i_if b).
Proof. exact same_record_iff. Qed.

(* `matches` (the cache's identity test) is same_record plus the cache-flush bit *)
Theorem C10_matches_vs_same_record : forall a b,
  matches a b = same_record a b && Bool.eqb (i_flush a) (i_flush b).
Proof. exact matches_same_record. Qed.

(* monitor theorem (record level), for all pairs of records *)
Theorem C10_rel_monitor : forall mine tm theirs tt,
  chk_C10_rel mine tm theirs tt (matches mine theirs) (rrdata_match mine theirs)
    (suppressed_by_answer mine tm theirs tt) = true.
Proof.
  intros mine tm theirs tt. unfold chk_C10_rel. rewrite suppress_eq_spec, Bool.eqb_reflx. simpl.
  destruct (matches mine theirs) eqn:E; [|reflexivity]. rewrite (matches_rrdata _ _ E). reflexivity.
Qed.

(* add_answer drops the answer iff some known answer of the query suppresses it *)
Theorem C10_add_answer_dropped_iff : forall kas out a,
  snd (add_answer kas out a) = false <->
  exists k, In k kas /\ same_record (o_id a) (fst k) = true /\ o_ttl a < 2 * snd k.
Proof.
  intros kas out a. rewrite <- suppressed_by_iff. unfold add_answer.
  destruct (suppressed_by _ _ _); simpl; split; auto; discriminate.
Qed.

(* a suppressed PTR takes ALL its additionals with it; an unsuppressed one brings all of them *)
Theorem C10_ptr_and_additionals_together : forall kas out ptr adds,
  add_answer_with_additionals kas out true ptr adds =
  if suppressed_by (o_id ptr) (o_ttl ptr) kas
  then mkOut (out_answers out) (out_additionals out) (out_suppressed out + 1)
  else mkOut (out_answers out ++ [ptr]) (out_additionals out ++ adds) (out_suppressed out).
Proof.
  intros kas out ptr adds. unfold add_answer_with_additionals, add_answer. simpl.
  destruct (suppressed_by _ _ _); reflexivity.
Qed.

(* the whole response to a query, for every set of services (with or without subtype), every
   question list and every known-answer list: exactly what the property prescribes - every
   unsuppressed candidate answer with the additionals it brings, nothing of a suppressed one
   (resp_spec: step_spec), silence if no answer is left *)
Theorem C10_response_is_text : forall svcs qs kas,
  resp_predict svcs qs kas = resp_spec svcs qs kas.
Proof.
  intros svcs qs kas. unfold resp_predict, resp_spec. f_equal. apply fold_left_ext_in.
  eapply Forall_impl; [|apply cands_wf]. intros c Hc a. apply step_code_eq. exact Hc.
Qed.

Theorem C10_suppressed_brings_nothing : forall kas out c,
  suppressed_spec (cd_answer c) kas = true ->
  out_answers (step_spec kas out c) = out_answers out /\
  out_additionals (step_spec kas out c) = out_additionals out.
Proof.
  intros kas out c H. unfold step_spec. destruct (negb (cd_has_addrs c)); [split; reflexivity|].
  rewrite H. split; reflexivity.
Qed.

Theorem C10_unsuppressed_brings_all : forall kas out c,
  cd_has_addrs c = true -> suppressed_spec (cd_answer c) kas = false ->
  out_answers (step_spec kas out c) = out_answers out ++ [cd_answer c] /\
  out_additionals (step_spec kas out c) = out_additionals out ++ cd_adds c.
Proof. intros kas out c Ha H. unfold step_spec. rewrite Ha, H. split; reflexivity. Qed.

(* the known-answer list built for a question from the cache Vec: exactly the shared records
   that have not passed half of their life, each with TTL ttl - (now - created)/1000; the u32
   subtraction of update_ttl cannot underflow there (no Panic) *)
Theorem C10_known_answers_spec : forall (b : tbucket) now,
  Forall entry_ok b -> known_answers trec trec_ops b now = Ok (ka_spec b now).
Proof. exact known_answers_spec. Qed.

Theorem C10_known_answer_listed_only_if : forall (b : tbucket) now id ttl,
  In (id, ttl) (ka_spec b now) ->
  exists e, In e b /\ id = c_id e /\ i_flush id = false /\
            now <= t_created (c_t e) + 500 * t_ttl (c_t e) /\
            ttl = t_ttl (c_t e) - (now - t_created (c_t e)) / 1000 /\
            t_ttl (c_t e) - t_ttl (c_t e) / 2 <= ttl.
Proof. exact ka_spec_in. Qed.

Theorem C10_known_answer_listed_if : forall (b : tbucket) now e,
  In e b -> i_flush (c_id e) = false -> now <= t_created (c_t e) + 500 * t_ttl (c_t e) ->
  In (c_id e, t_ttl (c_t e) - (now - t_created (c_t e)) / 1000) (ka_spec b now).
Proof.
  intros b now e He Hf Hl. unfold ka_spec. rewrite in_flat_map. exists e. split; [exact He|].
  rewrite Hf. apply N.leb_le in Hl. rewrite Hl. simpl. left. reflexivity.
Qed.

(* The same over HISTORIES of the daemon-level model (the model C11_daemon_level_refinement is
   about): in every run, from every reachable cache, every query the model sends in an
   iteration - retransmitted browse / resolve queries and refresh queries alike - lists as known
   answers exactly ka_of_spec of the cache as it is once that iteration's records have been
   taken in: for each question the shared records cached under the question's key that have
   not passed half of their (possibly renewed) lifetime, each with its remaining TTL. *)
Theorem C10_history_known_answers : forall cfg steps obs,
  Forall step_ok steps -> model_run cfg steps = Ok obs ->
  Forall2 (fun s o => exists c c0, reach cfg c /\ ingest trec trec_ops c (ss_now s) (ss_recs s) = Ok c0 /\
             Forall (fun q => qd_answers q = ka_of_spec c0 (qd_questions q) (ss_now s)) (io_queries o)) steps obs.
Proof. intros cfg steps obs Hs H. eapply sim_run_good; eauto. constructor. Qed.

Theorem C10_reachable_queries_known_answers : forall cfg c s c' o,
  reach cfg c -> step_ok s ->
  sim_iter trec trec_ops cfg c (ss_now s) (ss_nsb s) (ss_nsh s) (ss_recs s) = Ok (c', o) ->
  exists c0, ingest trec trec_ops c (ss_now s) (ss_recs s) = Ok c0 /\
             Forall (fun q => qd_answers q = ka_of_spec c0 (qd_questions q) (ss_now s)) (io_queries o).
Proof. exact reach_queries_good. Qed.

(* Full statement "never one with less than half of its lifetime left" is FALSE of the code
   (known finding C10-ka-shortened-record): a shared record flushed to expire in one second is
   still listed with the TTL computed from created/ttl (here: 1 s left of 10, listed with TTL 8). *)
Theorem C10_known_answers_shortened_refuted :
  exists (b : tbucket) now e ttl,
    In e b /\ In (c_id e, ttl) (ka_spec b now) /\
    t_expires (c_t e) < now + 500 * t_ttl (c_t e) /\ ttl = 8 /\ t_expires (c_t e) - now = 1000.
Proof.
  exists [mkC (mkId [104;46] 1 1 false (RAddr [10;0;0;1]) 2) (mkT 10 1000000 1003300 1008000)], 1002300,
         (mkC (mkId [104;46] 1 1 false (RAddr [10;0;0;1]) 2) (mkT 10 1000000 1003300 1008000)), 8.
  repeat split; vm_compute; auto.
Qed.

(* update_ttl in general: panics exactly when more whole seconds have elapsed than the TTL *)
Theorem C10_update_ttl_panics_iff : forall r now,
  update_ttl r now = Panic <->
  t_created r < now /\ t_ttl r < ((now - t_created r) / 1000) mod U32.
Proof. exact update_ttl_panic_iff. Qed.

Theorem C10_update_ttl_safe_under_halflife : forall r now,
  t_ttl r < U32 -> now <= t_created r + 500 * t_ttl r ->
  update_ttl r now = Ok (set_ttl r (ka_ttl_spec (t_ttl r) (t_created r) now))
  /\ (now - t_created r) / 1000 <= t_ttl r / 2.
Proof. exact update_ttl_under_halflife. Qed.

Example C10_example_boundary :
  let p := mkId [116;46] TY_PTR 1 false (RPtr [105;46]) 0 in
  suppressed_by_answer p 5 p 3 = true /\ suppressed_by_answer p 5 p 2 = false /\
  suppressed_by_answer p 4500 p 2251 = true /\ suppressed_by_answer p 4500 p 2250 = false.
Proof. vm_compute. repeat split. Qed.

Example C10_example_ptr_suppressed :
  resp_predict [ex_svc] [(ex_ty, TY_PTR); (ex_name, TY_TXT)] [(o_id (sv_ptr ex_svc), 2251)]
  = Some ([sv_txt ex_svc], []) /\
  resp_predict [ex_svc] [(ex_ty, TY_PTR)] [(o_id (sv_ptr ex_svc), 2251)] = None /\
  resp_predict [ex_svc] [(ex_ty, TY_PTR)] [(o_id (sv_ptr ex_svc), 2250)]
  = Some ([sv_ptr ex_svc], sub_list ex_svc ++ [sv_srv ex_svc; sv_txt ex_svc] ++ sv_addrs ex_svc).
Proof. vm_compute. repeat split. Qed.

Example C10_example_srv_without_flush_bit :
  resp_predict [ex_svc] [(ex_name, TY_SRV); (ex_name, TY_TXT)]
    [(mkId ex_name TY_SRV 1 false (RSrv 0 0 80 ex_host) 2, 100)] = Some ([sv_txt ex_svc], []).
Proof. vm_compute. reflexivity. Qed.

(* a browse of "t.": two shared PTR records (TTL 10 and 30) arrive; the browse query retransmitted
   3.9 s later lists both with their remaining TTLs, the one 5.9 s later only the second *)
Example C10_example_history :
  let p (k ttl : N) := (mkId [116;46] TY_PTR 1 false (RPtr [105; k; 46]) 2, ttl) in
  model_run (mkCfg (Some [116;46]) None)
    [ mkStep 1000000 1 0 [p 1 10; p 2 30]; mkStep 1003900 1 0 []; mkStep 1005900 1 0 [] ]
  = Ok [ mkIO [mkQD [([116;46], TY_PTR)] [(fst (p 2 0), 30); (fst (p 1 0), 10)]] [] [];
         mkIO [mkQD [([116;46], TY_PTR)] [(fst (p 2 0), 27); (fst (p 1 0), 7)]] [] [];
         mkIO [mkQD [([116;46], TY_PTR)] [(fst (p 2 0), 25)]] [] [] ].
Proof. vm_compute. reflexivity. Qed.

Example C10_example_known_answers :
  let p (k : N) fl := mkId [116;46] TY_PTR 1 fl (RPtr [105; k; 46]) 0 in
  known_answers trec trec_ops
    [ mkC (p 1 false) (mkT 10 1000000 1010000 1008000);     (* 3.9 s old: listed with TTL 7 *)
      mkC (p 2 true)  (mkT 10 1000000 1010000 1008000);     (* unique: never listed *)
      mkC (p 3 false) (mkT 10 998000 1008000 1006000) ]     (* 5.9 s old of 10: past half life *)
    1003900
  = Ok [ (p 1 false, 7) ].
Proof. vm_compute. reflexivity. Qed.

Print Assumptions C10_suppress_iff.
Print Assumptions C10_suppress_is_text.
Print Assumptions C10_suppress_boundary.
Print Assumptions C10_same_record_iff.
Print Assumptions C10_matches_vs_same_record.
Print Assumptions C10_rel_monitor.
Print Assumptions C10_add_answer_dropped_iff.
Print Assumptions C10_ptr_and_additionals_together.
Print Assumptions C10_response_is_text.
Print Assumptions C10_suppressed_brings_nothing.
Print Assumptions C10_unsuppressed_brings_all.
Print Assumptions C10_known_answers_spec.
Print Assumptions C10_known_answer_listed_only_if.
Print Assumptions C10_known_answer_listed_if.
Print Assumptions C10_history_known_answers.
Print Assumptions C10_reachable_queries_known_answers.
Print Assumptions C10_known_answers_shortened_refuted.
Print Assumptions C10_update_ttl_panics_iff.
Print Assumptions C10_update_ttl_safe_under_halflife.
