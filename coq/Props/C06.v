(* C06  Queries get exactly the registered records, right values, right link.
   Statements; the proofs about handle_query are in Proofs/ResponderProofs.v and the files it
   imports, those about the daemon model in Proofs/ResponderHistoryProofs.v and
   Proofs/ResponderLogProofs.v (example: Proofs/C18Witness.v); the examples on the inputs of
   Proofs/ResponderWitness.v are closed by evaluation.

   handle_query  : the model of Zeroconf::handle_query (Model/Responder.v), a function of the
                   services with their status on the receiving interface, the rename map of that
                   interface's registry, the interface, the decoded query, the source address/port.
   spec k        : the specification written from the property text (Model/ResponderSpec.v);
                   `text_quirks` = the text itself, `code_quirks` = the text with the two deviations
                   of the code (subtype answer, transport family) switched on.
   reaction_equiv: same destination, interface, id, flags, echoed questions; answer and
                   additional sections equal as multisets (Permutation) - so "nothing else" is
                   part of every statement.
   chk_C06       : the executable checker (also the monitor on the implementation's packets). *)
From Coq Require Import List NArith String.
From Mdns Require Import Rec Intf Responder ResponderSpec IntfDaemon ResponderProofs
     ResponderAddrProofs ResponderJustProofs ResponderHistoryProofs ResponderWitness IntfHistoryProofs
     ResponderLogProofs C18Witness.
Import ListNotations.
Open Scope N_scope.

(* What the code does on every well-formed input: the response (or silence) is the one the text prescribes
   with the two named deviations applied - every question list, known-answer list, service table
   (any iteration order), rename map, interface, source address and port.
   Hypothesis wf_input: services as the public API creates them (TTL 120/4500, priority = weight
   = 0), no two services holding (after renames, case-insensitively) the same instance name. *)
Theorem C06_model_is_spec_with_deviations : forall inp,
  wf_input inp = true -> reaction_equiv (handle_query inp) (spec code_quirks inp).
Proof. exact model_is_spec_code. Qed.

(* Outside the deviation classes (`clean`: no PTR question for the subtype of an announced
   service, on-link addresses of announced services only of the transport's family) the
   specification with deviations IS the text. *)
Theorem C06_deviations_vanish_when_clean : forall inp,
  clean inp = true -> spec code_quirks inp = spec text_quirks inp.
Proof. exact spec_code_is_text_when_clean. Qed.

(* There the reaction is exactly what the text says - records of announced
   services with an address on the link matching a question (type / subtype / meta PTR; SRV, TXT,
   ANY on the instance name; A, AAAA, ANY on the host name; names case-insensitive), TTL 120 /
   4500, cache-flush on SRV/TXT/address, only on-link addresses, PTR answers with SRV/TXT/address
   additionals, the SRV answer to an SRV question with its address additionals, known answers
   with TTL > half suppressed (the cache-flush bit is not compared), a type listed once under
   the meta query however many services have it, names as held after conflict renames, and
   nothing else. *)
Theorem C06_response_characterised : forall inp,
  wf_input inp = true -> clean inp = true ->
  reaction_equiv (handle_query inp) (spec text_quirks inp).
Proof.
  intros inp Hwf Hc. rewrite <- (spec_code_is_text_when_clean inp Hc). exact (model_is_spec_code inp Hwf).
Qed.

(* The same through the executable checker that monitors the implementation. *)
Theorem C06_checker_accepts_model : forall inp,
  wf_input inp = true -> clean inp = true -> chk_C06 inp (handle_query inp) = true.
Proof. intros inp Hwf Hc. apply reaction_equiv_eqb, C06_response_characterised; assumption. Qed.

(* On every well-formed input, the monitor's classification "text + all listed deviations" accepts
   the model. *)
Theorem C06_checker_explains_model : forall inp,
  wf_input inp = true -> explained_by code_quirks inp (handle_query inp) = true.
Proof. intros inp Hwf. apply reaction_equiv_eqb, model_is_spec_code, Hwf. Qed.

(* A query from a port other than 5353 is answered (if at all) by ONE packet sent
   by unicast to the sender, with the query id and the questions echoed and every cache-flush bit
   cleared. *)
Theorem C06_legacy_unicast : forall inp p,
  wf_input inp = true -> handle_query inp = Some p -> h_src_port inp <> 5353 ->
  p_dest p = DUnicast (h_src_ip inp) (h_src_port inp) /\
  p_questions p = map (fun q => (q_name q, q_type q)) (m_questions (h_msg inp)) /\
  Forall (fun r => r_flush r = false) (p_answers p ++ p_additionals p) /\
  p_id p = m_id (h_msg inp).
Proof. exact legacy_unicast. Qed.

Theorem C06_multicast_reply : forall inp p,
  wf_input inp = true -> handle_query inp = Some p -> h_src_port inp = 5353 ->
  p_dest p = DMulticast (is_v4 (h_src_ip inp)) /\ p_questions p = [] /\ p_id p = 0.
Proof. exact multicast_reply. Qed.

(* Never registered / unregistered (not in the table) / still probing
   (status other than Announced): no packet, whatever is asked. *)
Theorem C06_silent_for_unknown : forall inp,
  (forall e, In e (h_services inp) -> is_announced (e_status e) = false) ->
  handle_query inp = None.
Proof.
  intros inp Hna. apply handle_query_silent. intros og q _. apply question_step_silent.
  intros e He Ha. rewrite (Hna e He) in Ha. discriminate.
Qed.

(* no address of the service inside a subnet of the receiving interface: no packet (the meta
   query is answered from the announced status alone and is excluded here). *)
Theorem C06_silent_without_address : forall inp,
  (forall e, In e (h_services inp) -> is_announced (e_status e) = true ->
             no_address_on_link (h_intf inp) (e_svc e)) ->
  (forall q, In q (m_questions (h_msg inp)) -> q_type q = 12 -> q_name q <> META_QUERY) ->
  handle_query inp = None.
Proof.
  intros inp Hno Hmeta. apply handle_query_silent. intros og q Hq. apply question_step_silent.
  intros e He Ha. split; [apply Hno; assumption|apply Hmeta; exact Hq].
Qed.

(* "Nothing else", without any hypothesis: for EVERY input of the responder model (any services, statuses, rename
   map, interface, query, source) every record of the response - answer or additional - is a
   record of a listed service that is Announced on the receiving interface (svc_rec: its type /
   subtype / meta PTR, its SRV or TXT under a name case-insensitively equal to its current
   instance name, or one of its addresses lying in a subnet of the interface, under its current
   host name; the cache-flush bit aside). *)
Theorem C06_every_answer_justified : forall inp p, handle_query inp = Some p ->
  Forall (just_rec (h_services inp) (h_name_changes inp) (h_intf inp)) (p_answers p ++ p_additionals p).
Proof. exact response_records_justified. Qed.

(* ... and on the daemon model (Model/IntfDaemon.v: registrations, unregistrations, interface
   events, selections, traffic), in EVERY state - hence after every history -: every record of
   every response to a datagram is a record of a service that is in my_services at that moment
   and whose status on the receiving interface is Announced. *)
Theorem C06_daemon_answers_justified : forall d g o, In o (snd (handle_dgram d g)) ->
  match o with
  | OSent p => exists intf p0,
      intf_get (dg_if g) (d_intfs d) = Some intf /\ p = reroute (d_os d) intf p0 /\
      Forall (registered_announced_rec d (dg_if g) intf) (p_answers p0 ++ p_additionals p0)
  | _ => True
  end.
Proof. exact daemon_answers_justified. Qed.

(* the destination, interface and family of every response, for every input *)
Theorem C06_response_shape_all_inputs : forall inp p, handle_query inp = Some p ->
  Forall (link_rec (map e_svc (h_services inp)) (h_intf inp)) (p_answers p ++ p_additionals p) /\
  p_if p = mi_index (h_intf inp) /\
  (exists a, In a (mi_addrs (h_intf inp)) /\ is_v4 (ia_ip a) = dest_v4 (p_dest p)) /\
  dest_v4 (p_dest p) = is_v4 (h_src_ip inp).
Proof. exact handle_query_packet. Qed.

(* Over ALL histories of the daemon model (Model/IntfDaemon.v), with a ghost log of everything
   emitted (log_of = the observations of all iterations in order): the invariant AInv (a service is
   Announced on an interface only if an announcement of it, built by announce_on for that
   interface, is in the log; keys are the lower-cased full names) holds initially and is preserved
   by every operation (register, unregister, enable / disable, interface events, IP checks,
   datagrams, retransmissions).  Hence in the state reached by ANY history every record of every
   response to a datagram belongs to a registered service that is Announced on the receiving
   interface AND whose announcement went out for that interface earlier in that history.
   (The daemon model registers a service without probing, so "after its probes" says nothing
   here; C10/C11 cover probing.  It has no renames either, hence svc_rec [] below.) *)
Theorem C06_ghost_invariant_step : forall L d s, AInv L d -> AInv (L ++ snd (iterate d s)) (fst (iterate d s)).
Proof. exact iterate_A. Qed.

Theorem C06_ghost_invariant_history : forall steps L d, AInv L d -> AInv (L ++ log_of d steps) (state_after d steps).
Proof. exact history_A. Qed.

Theorem C06_answers_after_announcement : forall t0 os0 steps g o,
  let d := state_after (initial_state t0 os0) steps in
  In o (snd (handle_dgram d g)) ->
  match o with
  | OSent p => exists intf p0,
      intf_get (dg_if g) (d_intfs d) = Some intf /\ p = reroute (d_os d) intf p0 /\
      Forall (fun r => exists k ds, In (k, ds) (d_svcs d) /\ status_get (dg_if g) (ds_status ds) = Announced /\
                                    svc_rec [] intf (ds_svc ds) r /\
                                    announced_in (log_of (initial_state t0 os0) steps) k (dg_if g))
             (p_answers p0 ++ p_additionals p0)
  | _ => True
  end.
Proof. exact answers_after_announcement. Qed.

(* non-vacuity: after one registration on two interfaces the service is Announced on both, two
   packets are in the log, and the invariant finds the announcements *)
Example C06_ghost_log_example :
  let d := state_after (initial_state t0 os_w1) h_reg in
  (exists ds, In (key_svc0, ds) (d_svcs d) /\ status_get 2 (ds_status ds) = Announced /\ status_get 3 (ds_status ds) = Announced) /\
  List.length (log_of (initial_state t0 os_w1) h_reg) = 2%nat /\
  announced_in (log_of (initial_state t0 os_w1) h_reg) key_svc0 2 /\
  announced_in (log_of (initial_state t0 os_w1) h_reg) key_svc0 3.
Proof. exact log_example. Qed.

(* "forall inp, wf_input inp = true -> chk_C06 inp (handle_query inp) = true" is FALSE of the
   faithful model; one witness per deviation (refutes n w: w is well-formed, the checker rejects
   the model's reaction, and the reaction is the text with deviation n only).
   Findings: known/C06.json; replays: corpus/C06.cases. *)

Theorem C06_subtype_answer_refuted : refutes 1 w_sub_answer = true.
Proof. vm_compute. reflexivity. Qed.

Theorem C06_transport_family_additionals_refuted : refutes 2 w_family = true.
Proof. vm_compute. reflexivity. Qed.

Theorem C06_transport_family_silence_refuted :
  refutes 2 w_family_silent = true /\ handle_query w_family_silent = None.
Proof. vm_compute. repeat split. Qed.

(* Inputs on which code and text agree where that is easy to get wrong (passes w: w is
   well-formed and the checker accepts the model's reaction). *)

(* two services of one type, meta query: the type is listed once *)
Example C06_meta_query_lists_type_once : passes w_meta_dup = true /\
  match handle_query w_meta_dup with Some p => List.length (p_answers p) = 1%nat | None => False end.
Proof. vm_compute. repeat split. Qed.

(* host renamed by a conflict: the direct SRV answer points to the new host name *)
Example C06_srv_target_after_rename : passes w_srv_old_host = true /\
  match handle_query w_srv_old_host with
  | Some p => map r_data (p_answers p) = [RSrv 0 0 8080 (b "MyHost-2.local."%string)]
  | None => False end.
Proof. vm_compute. repeat split. Qed.

(* mixed-case instance renamed by a conflict: the new name is answered, the lost one is not *)
Example C06_renamed_mixed_case_instance_answered :
  passes w_lookup_lower = true /\ handle_query w_lookup_lower <> None.
Proof. vm_compute. split; [reflexivity|discriminate]. Qed.

Example C06_lost_name_not_answered :
  passes w_lookup_lower_old = true /\ handle_query w_lookup_lower_old = None.
Proof. vm_compute. repeat split. Qed.

(* legacy unicast: the id 0x1234 of the query comes back *)
Example C06_legacy_id_echoed : passes w_legacy_id = true /\
  match handle_query w_legacy_id with Some p => p_id p = 4660 | None => False end.
Proof. vm_compute. repeat split. Qed.

(* Non-vacuity: a well-formed input outside every deviation class that is answered with six
   answer and three additional records. *)
Example C06_clean_example :
  wf_input w_clean = true /\ clean w_clean = true /\
  match handle_query w_clean with
  | Some p => (List.length (p_answers p), List.length (p_additionals p)) = (6%nat, 3%nat)
  | None => False
  end.
Proof. vm_compute. repeat split. Qed.

Print Assumptions C06_model_is_spec_with_deviations.
Print Assumptions C06_deviations_vanish_when_clean.
Print Assumptions C06_response_characterised.
Print Assumptions C06_checker_accepts_model.
Print Assumptions C06_checker_explains_model.
Print Assumptions C06_legacy_unicast.
Print Assumptions C06_multicast_reply.
Print Assumptions C06_silent_for_unknown.
Print Assumptions C06_silent_without_address.
Print Assumptions C06_every_answer_justified.
Print Assumptions C06_daemon_answers_justified.
Print Assumptions C06_response_shape_all_inputs.
Print Assumptions C06_subtype_answer_refuted.
Print Assumptions C06_transport_family_additionals_refuted.
Print Assumptions C06_transport_family_silence_refuted.
Print Assumptions C06_meta_query_lists_type_once.
Print Assumptions C06_srv_target_after_rename.
Print Assumptions C06_renamed_mixed_case_instance_answered.
Print Assumptions C06_lost_name_not_answered.
Print Assumptions C06_legacy_id_echoed.
Print Assumptions C06_clean_example.
Print Assumptions C06_ghost_invariant_step.
Print Assumptions C06_ghost_invariant_history.
Print Assumptions C06_answers_after_announcement.
Print Assumptions C06_ghost_log_example.
