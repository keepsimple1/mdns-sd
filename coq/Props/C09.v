(* C09  Unregistering says goodbye for exactly what was announced, then goes quiet.
   Statements; each proof is `exact <lemma>` or a few lines from the lemmas of Proofs/.

   Model: Model/RegistryDaemon.v (unregister = exec_command_unregister after the caller lower-cased
   the name, goodbye_msg / goodbyes_of = unregister_service over all interfaces and both
   families, unregister_resend, cleanup, register_resend).  Specification of the goodbye the
   property asks for: Model/RegistrySpec.v, spec_goodbyes st resolved announced_only s
   (resolved = under the names most recently announced, announced_only = only where announced). *)
From Coq Require Import List NArith.
From Mdns Require Import Bytes ParamsRegistry Registry RegistryDaemon RegistrySpec RegistryTrace RegistryParamsPinned
     RegistryProofs RegistryDaemonProofs RegistryLiftProofs RegistryHistoryProofs RegistrySilenceProofs
     RegistryWitnesses RegistryWitnessProofs.
Import ListNotations.
Open Scope N_scope.

(* regenerated from the Rust on every run: the repeat comes 120 ms later (both families), TTLs *)
Theorem C09_constants :
  goodbye_repeat_v4 = 120 /\ goodbye_repeat_v6 = 120 /\ dns_host_ttl = 120 /\ dns_other_ttl = 4500 /\ class_in = 1.
Proof. exact c09_constants. Qed.

(* Status: OK exactly when the (lower-cased) full name is a key of the registered services -
   every state, every name - and exactly one reply is given. *)
Theorem C09_unregister_status : forall st k ch now,
  In (OReply ch true) (snd (unregister st k ch now)) <-> aget k (d_svcs st) <> None.
Proof. exact unregister_status. Qed.

Theorem C09_unregister_replies_once : forall st k ch now,
  replies_of (snd (unregister st k ch now))
  = [(ch, match aget k (d_svcs st) with Some _ => true | None => false end)].
Proof. exact unregister_reply_once. Qed.

(* Frame: every other service and the interface table are untouched; the service itself is gone; the
   registries are untouched on NotFound and forget the service's own names on OK (
   C09_unregister_forgets_the_service_names / C09_unregister_keeps_other_names). *)
Theorem C09_unregister_frame : forall st k ch now,
  let st' := fst (unregister st k ch now) in
  (forall k', k' <> k -> aget k' (d_svcs st') = aget k' (d_svcs st)) /\
  d_regs st' = match aget k (d_svcs st) with Some s => forget_regs (s_full s) (d_regs st) | None => d_regs st end /\
  d_intfs st' = d_intfs st /\
  (NoDup (keys (d_svcs st)) -> aget k (d_svcs st') = None).
Proof. exact unregister_frame. Qed.

(* Goodbye content.  What is sent on OK: the goodbyes of the service, then the reply; the same
   packets are queued once for now + 120. *)
Theorem C09_goodbye_packets : forall st k ch now s,
  aget k (d_svcs st) = Some s ->
  unregister st k ch now =
  (mkD (d_intfs st) (forget_regs (s_full s) (d_regs st)) (adel k (d_svcs st))
       (d_retrans st ++ map (resend_of now) (goodbyes_of st s)) (d_mon st) (d_dead st) (d_os st) (d_sel st),
   map send_of (goodbyes_of st s) ++ [OReply ch true]).
Proof. exact unregister_found. Qed.

(* ... and these ARE the goodbyes the property asks for: per
   interface where the service is ANNOUNCED and per family with an address of the service in the
   subnet, one response with PTR, subtype PTR, SRV, TXT and those addresses under the names MOST
   RECENTLY ANNOUNCED there (spec_goodbyes st resolved:=true announced_only:=true). *)
Theorem C09_goodbye_is_the_specified_one : forall st s,
  map (fun g : N * bool * omsg => let '(i, v4, m) := g in (i, v4, Mcast, m)) (goodbyes_of st s)
  = spec_goodbyes st true true s.
Proof. exact goodbyes_are_spec. Qed.

Theorem C09_goodbye_only_where_announced : forall st s i v4 m,
  In (i, v4, m) (goodbyes_of st s) -> announced_on i s = true /\ exists itf, In itf (d_intfs st) /\ if_index itf = i.
Proof. exact goodbye_only_where_announced. Qed.

(* ... every record of it with TTL 0. *)
Theorem C09_goodbye_ttl_zero : forall rg s addrs, is_goodbye (goodbye_msg rg s addrs) = true.
Proof. exact goodbye_all_ttl0. Qed.

(* The repeat: the identical message is queued once for now + 120 and sent again unchanged on
   the interface and family it was first sent on. *)
Theorem C09_goodbye_repeat_scheduled : forall st k ch now s,
  aget k (d_svcs st) = Some s ->
  d_retrans (fst (unregister st k ch now))
  = d_retrans st ++ map (fun g : N * bool * omsg => let '(i, v4, m) := g in (now + 120, UnregisterResend m i v4))
                        (goodbyes_of st s).
Proof. exact unregister_schedules_repeat. Qed.

(* ... and the daemon has work due by then: the earliest time the model wants to be woken after
   the unregister (due_work, what chk_C09 / chk_C07 hold the requested wake-up against) is at most
   now + 120 whenever a goodbye was sent - for either family. *)
Theorem C09_goodbye_repeat_is_due : forall st k ch now s i v4 m,
  aget k (d_svcs st) = Some s -> In (i, v4, m) (goodbyes_of st s) ->
  exists d, due_work (fst (unregister st k ch now)) = Some d /\ d <= now + 120.
Proof.
  intros st k ch now s i v4 m. intros G I. apply (due_work_covers_retrans _ _ (UnregisterResend m i v4)).
  rewrite (unregister_schedules_repeat _ _ _ _ _ G). apply in_or_app. right.
  apply in_map_iff. exists (i, v4, m). split; [reflexivity|exact I].
Qed.

Theorem C09_goodbye_repeat_same_packet_same_interface : forall st m i v4,
  unregister_resend st m i v4 = [] \/ unregister_resend st m i v4 = [OSend i v4 Mcast m].
Proof. intros st m i v4. unfold unregister_resend. destruct (find_intf st i); [|auto]. destruct (intf_has_family i0 v4); auto. Qed.

(* Shutdown: goodbyes once for every registered service, nothing left to repeat, the thread ends. *)
Theorem C09_shutdown_goodbyes_once : forall st,
  let (st', os) := cleanup st in
  d_svcs st' = [] /\ d_retrans st' = [] /\ d_dead st' = true /\
  os = flat_map (fun ks => map send_of (goodbyes_of st (snd ks))) (d_svcs st) ++ [OExit].
Proof. intros st. unfold cleanup. auto. Qed.

(* Quiet afterwards: the pending second announcement of an unregistered service finds nothing,
   and a query on an interface where no remaining service is announced is not answered. *)
Theorem C09_no_reannouncement : forall st full i now js,
  aget (lower full) (d_svcs st) = None -> register_resend st full i now js = (st, [], js).
Proof. intros st full i now js. intros H. unfold register_resend. rewrite H. reflexivity. Qed.

Theorem C09_no_answer_without_announced_service : forall st g now,
  none_announced st (g_if g) -> snd (handle_query st g now) = [].
Proof. exact handle_query_silent. Qed.

(* chk_C09 accepts the model's runs of the witness histories: goodbye after a rename, unregister
   before the first probe, two IPv4 interfaces. *)
Theorem C09_former_witnesses_accepted :
  self9 w_renamed_ifs w_renamed_its = [] /\ self9 w_probing_goodbye_ifs w_probing_goodbye_its = [] /\
  self9 w_resend_if_ifs w_resend_if_its = [].
Proof. vm_compute. repeat split. Qed.

(* Over all histories of the daemon model.
   run_state st its = the state after the iterations its; any interface table and OS table, any
   datagrams (queries and responses), any calls (register, unregister, monitor, shutdown,
   enable/disable_interface), any jitter values, any iteration times. *)

(* Invariant: whatever is queued as the repeat of a goodbye IS a goodbye - a response with a
   non-empty answer section in which every record has TTL 0 - in every reachable state. *)
Theorem C09_saved_repeats_are_goodbyes_all_histories : forall ifs os its,
  saved_goodbyes (run_state (d_init_os ifs os) its).
Proof. exact saved_goodbyes_all_histories. Qed.

(* On every interface/family the service is announced on: the goodbye goes out at the unregister and
   the same message is queued for now + 120 (every state). *)
Theorem C09_goodbye_everywhere_announced : forall st k ch now s itf v4,
  aget k (d_svcs st) = Some s -> In itf (d_intfs st) -> announced_on (if_index itf) s = true ->
  addrs_on_intf s itf v4 <> [] ->
  let m := goodbye_msg (get_reg st (if_index itf)) s (addrs_on_intf s itf v4) in
  In (OSend (if_index itf) v4 Mcast m) (snd (unregister st k ch now)) /\
  In (now + 120, UnregisterResend m (if_index itf) v4) (d_retrans (fst (unregister st k ch now))).
Proof. exact goodbye_everywhere_announced. Qed.

(* One repeat: when the queued entry is due it is sent unchanged (if the interface still has that
   family) and leaves the queue; and no iteration leaves a due entry behind
   (C07_no_overdue_queue_entry = iterate_queue_future), so it is run in the first iteration at or
   after now + 120. *)
Theorem C09_repeat_run_once : forall st now js t m i v4,
  In (t, UnregisterResend m i v4) (d_retrans st) -> t <= now ->
  incl (unregister_resend st m i v4) (snd (fst (retransmit st now js))) /\
  ~ In (t, UnregisterResend m i v4) (d_retrans (fst (fst (retransmit st now js)))).
Proof. exact repeat_run_once. Qed.

Theorem C09_no_overdue_repeat : forall st it st' os js,
  iterate st it = (st', os, Running, js) -> Forall (fun e => it_now it < fst e) (d_retrans st').
Proof. exact iterate_queue_future. Qed.

(* what an iteration can add to the queue: RegisterResend entries for now + 1000 and goodbye repeats
   for now + 120, nothing else; everything else was there before *)
Theorem C09_queue_growth : forall st it,
  Forall (fun e => In e (d_retrans st) \/ new_entry (it_now it) e) (d_retrans (fst (fst (fst (iterate st it))))).
Proof. exact iterate_retrans. Qed.

(* non-vacuity on the unregister witness: repeat of the announcement queued for +1895, goodbye repeat
   queued for +2620 and gone afterwards, no service left *)
Example C09_queue_example :
  queue_times (state_after w_unregister_ifs w_unregister_its 5) = [1001895] /\
  queue_times (state_after w_unregister_ifs w_unregister_its 7) = [1002620] /\
  has_goodbye_repeat (state_after w_unregister_ifs w_unregister_its 7) = true /\
  queue_times (state_after w_unregister_ifs w_unregister_its 8) = [] /\
  d_svcs (state_after w_unregister_ifs w_unregister_its 8) = [].
Proof. exact w_unregister_queue. Qed.

(* After the unregister no registry holds anything under the service's own names - every state, hence all histories: on OK each interface registry becomes
   forget_service (s_full s) rg, in which there is no probing, active or name_changes entry under the
   registered full name or under the name the service had there at that moment ... *)
Theorem C09_unregister_forgets_the_service_names : forall st k ch now s i rg,
  aget k (d_svcs st) = Some s -> nget i (d_regs st) = Some rg ->
  nget i (d_regs (fst (unregister st k ch now))) = Some (forget_service (s_full s) rg) /\
  forall n, n = s_full s \/ n = resolve_name rg (s_full s) ->
    aget n (rg_probing (forget_service (s_full s) rg)) = None /\ aget n (rg_active (forget_service (s_full s) rg)) = None /\
    aget n (rg_changes (forget_service (s_full s) rg)) = None.
Proof.
  intros st k ch now s i rg. intros G R. rewrite (unregister_found _ _ _ _ _ G). cbn [fst d_regs]. rewrite nget_forget_regs, R. split; [reflexivity|].
  intros n Hn. exact (forget_service_none _ _ _ Hn).
Qed.

(* ... and WHAT STAYS is everything under any other name, exactly as it was: the host-name entries
   (the address records, probing or active, and a name change of the host name) and whatever other
   services own.  The type and subtype PTR records are never registry entries (prepare_announce
   probes SRV, TXT and address records only).
   Can a stale host entry make the daemon say anything?  No live response: every record of every
   response is built from a service in the service map (C09_responses_only_for_registered_services_
   all_histories).  What it still does: a host-name probe in flight runs to its end (probe queries,
   then activation; its waiting list still names the service, and the wake-up finds none), a conflict
   on the host name is still handled, and a later service with the same host name finds the address
   records active and does not probe them again. *)
Theorem C09_unregister_keeps_other_names : forall full rg n,
  n <> full -> n <> resolve_name rg full ->
  aget n (rg_probing (forget_service full rg)) = aget n (rg_probing rg) /\
  aget n (rg_active (forget_service full rg)) = aget n (rg_active rg) /\
  aget n (rg_changes (forget_service full rg)) = aget n (rg_changes rg).
Proof.
  intros full rg n. intros H1 H2. unfold forget_service, forget_name. cbn [rg_probing rg_active rg_changes].
  repeat split; rewrite !aget_filter_other by assumption; reflexivity.
Qed.

(* on the witness w_unreg_probing: unregister after the second
   probe, the registry keeps the host-name probe only, third probe query for the host name only; the
   re-registration 2.6 s later is probed three times anew and announced twice *)
Example C09_unregister_while_probing_example :
  reg_shape (state_after w_unreg_probing_ifs w_unreg_probing_its 3) = [([n_inst; n_host], [], [])] /\
  d_svcs (state_after w_unreg_probing_ifs w_unreg_probing_its 4) = [] /\
  reg_shape (state_after w_unreg_probing_ifs w_unreg_probing_its 4) = [([n_host], [], [])] /\
  reg_shape (state_after w_unreg_probing_ifs w_unreg_probing_its 6) = [([], [n_host], [])] /\
  wire_probe_times 2 n_inst (d_init w_unreg_probing_ifs) w_unreg_probing_its
  = [1000145; 1000395; 1003079; 1003329; 1003579] /\
  wire_probe_times 2 n_host (d_init w_unreg_probing_ifs) w_unreg_probing_its = [1000145; 1000395; 1000645] /\
  busy (timeline w_unreg_probing_ifs w_unreg_probing_its) =
  [ (1000145, true, false, false); (1000395, true, false, false); (1000645, true, false, false);
    (1003079, true, false, false); (1003329, true, false, false); (1003579, true, false, false);
    (1003829, false, true, false); (1004829, false, true, false) ] /\
  self9 w_unreg_probing_ifs w_unreg_probing_its = [] /\ self7 w_unreg_probing_ifs w_unreg_probing_its = [].
Proof. vm_compute. repeat split. Qed.

(* Silence over all histories.
   Vocabulary (Model/RegistryTrace.v): iter_states st it = the states after the micro-steps of the
   iteration (one datagram, one call - one row of the interface table for enable/disable_interface -,
   one due retransmission, the probing pass over one interface), in order; chg mid i = the name
   changes of interface i's registry in state mid; rec_of ch s r = r is a record the daemon may say
   for service s under those names: PTR type/subtype -> current instance name, the meta PTR for its
   type, SRV (port, current host name) or TXT under the current instance name (letter case aside), an
   address record of one of its addresses under the current host name.

   EVERY response the daemon model sends, in every history (any tables, datagrams incl. responses,
   calls incl. enable/disable_interface, jitter, times), is a goodbye (all TTL 0) or consists of
   records of services that are in the service map when the micro-step that sends it ends, whose key
   was in the map before the iteration or is registered by one of its calls. *)
Theorem C09_responses_only_for_registered_services_all_histories : forall ifs os its it i v4 d m,
  let st := run_state (d_init_os ifs os) its in
  In (OSend i v4 d m) (snd (fst (fst (iterate st it)))) -> o_resp m = true ->
  is_goodbye m = true \/
  forall r, In r (o_an m ++ o_ar m) ->
  exists mid k s, In mid (iter_states st it) /\ In (k, s) (d_svcs mid) /\ rec_of (chg mid i) s r /\
                  (In k (keys (d_svcs st)) \/ In k (registered_keys (it_calls it))).
Proof. exact responses_only_for_registered_services. Qed.

(* After the unregister (or for a service that never was registered): as long as the key is not in
   the map and not registered again, no live record of any response - answer, additional,
   announcement - is built ONLY from a service stored under that key: each record is a record of some
   service under another key (it may also fit the one that left, see the reading below).  What the
   daemon still does for the service (probe queries, activation of its names) is in
   C09_unregister_keeps_other_names. *)
Theorem C09_no_live_record_of_unregistered_service_all_histories : forall ifs os its it k0 i v4 d m,
  let st := run_state (d_init_os ifs os) its in
  aget k0 (d_svcs st) = None -> ~ In k0 (registered_keys (it_calls it)) ->
  In (OSend i v4 d m) (snd (fst (fst (iterate st it)))) -> o_resp m = true -> is_goodbye m = false ->
  forall r, In r (o_an m ++ o_ar m) ->
  exists mid k s, In mid (iter_states st it) /\ In (k, s) (d_svcs mid) /\ rec_of (chg mid i) s r /\ k <> k0.
Proof. exact no_live_record_of_unregistered. Qed.

(* the keys of the service map at every micro-step of an iteration *)
Theorem C09_service_keys_during_iteration : forall st it mid k s,
  In mid (iter_states st it) -> In (k, s) (d_svcs mid) ->
  In k (keys (d_svcs st)) \/ In k (registered_keys (it_calls it)).
Proof. exact iter_states_keys. Qed.

(* non-vacuity on the unregister witness: a live response (the announcement at +895 ms) while the
   service is registered; after the unregister at +2500 ms the map is empty, the iteration of the
   repeat sends something (the goodbye) but no live response, the PTR question at +3000 ms gets none *)
Example C09_silence_example :
  existsb live_resp (outs_of w_unregister_ifs w_unregister_its 4) = true /\
  length (d_svcs (state_after w_unregister_ifs w_unregister_its 4)) = 1%nat /\
  d_svcs (state_after w_unregister_ifs w_unregister_its 7) = [] /\
  existsb live_resp (outs_of w_unregister_ifs w_unregister_its 7) = false /\
  existsb live_resp (outs_of w_unregister_ifs w_unregister_its 8) = false /\
  outs_of w_unregister_ifs w_unregister_its 7 <> [].
Proof. vm_compute. repeat split. discriminate. Qed.

(* Reading: a record "of service s" is identified by what it is built from (rec_of), not by its owner
   name alone - two services may share a host name or a type, and then the address / type PTR records
   of the one that stays are also records of the one that left. *)

(* History level, full statement (validated on every generated history by running chk_C09 on the
   model's own observation, NOT proved as a theorem):
     forall ifs its, no VFail in chk_C09 (d_init ifs) its (model_obs (d_init ifs) its).
   Proved for all histories: the silence clause in the form of
   C09_responses_only_for_registered_services_all_histories and
   C09_no_live_record_of_unregistered_service_all_histories, and that queued repeats are goodbyes;
   the other clauses (reply, goodbye content, the one repeat) for every state as single steps. *)

(* Non-vacuity: register, two announcements, unregister under a differently-cased name (OK,
   goodbye, repeat 120 ms later), a second unregister (NotFound) and a PTR question (no answer):
   chk_C09 accepts the model's run. *)
Example C09_unregister_run :
  self9 w_unregister_ifs w_unregister_its = [] /\ self7 w_unregister_ifs w_unregister_its = [] /\
  busy (timeline w_unregister_ifs w_unregister_its) =
  [ (1000145, true, false, false); (1000395, true, false, false); (1000645, true, false, false);
    (1000895, false, true, false); (1001895, false, true, false);
    (1002500, false, false, true); (1002620, false, false, true) ].
Proof. vm_compute. repeat split. Qed.

Print Assumptions C09_constants.
Print Assumptions C09_unregister_status.
Print Assumptions C09_unregister_replies_once.
Print Assumptions C09_unregister_frame.
Print Assumptions C09_goodbye_packets.
Print Assumptions C09_goodbye_is_the_specified_one.
Print Assumptions C09_goodbye_only_where_announced.
Print Assumptions C09_goodbye_ttl_zero.
Print Assumptions C09_goodbye_repeat_scheduled.
Print Assumptions C09_goodbye_repeat_is_due.
Print Assumptions C09_goodbye_repeat_same_packet_same_interface.
Print Assumptions C09_shutdown_goodbyes_once.
Print Assumptions C09_no_reannouncement.
Print Assumptions C09_no_answer_without_announced_service.
Print Assumptions C09_former_witnesses_accepted.
Print Assumptions C09_saved_repeats_are_goodbyes_all_histories.
Print Assumptions C09_goodbye_everywhere_announced.
Print Assumptions C09_repeat_run_once.
Print Assumptions C09_no_overdue_repeat.
Print Assumptions C09_queue_growth.
Print Assumptions C09_queue_example.
Print Assumptions C09_unregister_forgets_the_service_names.
Print Assumptions C09_unregister_keeps_other_names.
Print Assumptions C09_unregister_while_probing_example.
Print Assumptions C09_responses_only_for_registered_services_all_histories.
Print Assumptions C09_no_live_record_of_unregistered_service_all_histories.
Print Assumptions C09_service_keys_during_iteration.
Print Assumptions C09_silence_example.
Print Assumptions C09_unregister_run.
