(* C12 for the cache layer: every piece of time-driven work on cached records has a timer.
   The statements, each closed in a few lines from the lemmas of Proofs/LifeTimerProofs.v.
   Model: Model/LifeTimers.v = the daemon-level model of C11 (Model/LifeCache.v, the same Gallina
   text) instantiated with record operations that also keep, per cached record, the wake-up
   times the daemon pushes into its timer heap for it (handle_response: expiry and refresh time
   of every new or renewed record, now+1000 for every flushed one; refresh_active_services: the
   new refresh time of every record it refreshed; pop_timers_till(now) drops entries <= now).
   A history is any list of loop iterations: any clock values (non-decreasing, below 2^63), any
   received records (renewals, goodbyes = TTL 0 stored as 1, cache-flush), searches started
   and stopped at will (ts_cfg: the browse / resolver open after the iteration's commands;
   ts_stop: a browse stopped in it, with DnsCache::remove_service_type). *)
From Coq Require Import List NArith Lia.
From Mdns Require Import Res Rec Life LifeCache LifeTimers LifeTimerProofs.
Import ListNotations.
Open Scope N_scope.

(* due_work cfg c n (Model/LifeTimers.v): the expiry time of every record in a Vec eviction
   works on (its ServiceRemoved / AddressesRemoved, also the one-second expiry after a
   cache-flush or goodbye), and the pending refresh mark (80/85/90/95 %) of every record the
   refresh step works on - a mark already past means "at once".
   In EVERY reachable state (treach: induction over the history), whenever time-driven work is
   due at time t, the timer set holds an entry <= t (in fact t itself). *)
Theorem C12_cache_timers_cover_due_work : forall c n cfg t,
  treach c n cfg -> In t (due_work cfg c n) -> exists tau, In tau (timers c) /\ tau <= t.
Proof. intros c n cfg t Hr Ht. exists t. split; [eapply due_work_has_timer; eauto | lia]. Qed.

Theorem C12_cache_due_work_has_exact_timer : forall c n cfg t,
  treach c n cfg -> In t (due_work cfg c n) -> In t (timers c).
Proof. exact due_work_has_timer. Qed.

(* Granted the wake-up it asks for (the next iteration is not later than any timer), the daemon
   iterates no later than any due time.  (That the iteration then sends the query or reports the
   removal is not part of this statement.) *)
Theorem C12_cache_work_done_at_due_time : forall c n cfg s c' o t,
  treach c n cfg -> t_iter s c = Ok (c', o) ->
  (forall tau, In tau (timers c) -> ts_now s <= tau) ->
  In t (due_work cfg c n) -> ts_now s <= t.
Proof. intros c n cfg s c' o t Hr _ Hw Ht. apply Hw. eapply due_work_has_timer; eauto. Qed.

(* after every iteration nothing eviction works on is overdue *)
Theorem C12_cache_no_expired_record_left : forall c n cfg k b e,
  treach c n cfg -> In (k, b) c -> acted cfg k = true -> In e b -> n < l_expires e.
Proof. exact no_expired_left. Qed.

(* the timed model is the C11 model: on every history of the C11 model it evaluates exactly when
   that model does, with the same queries and removal events *)
Theorem C12_cache_timed_model_is_C11_model : forall cfg steps,
  Forall step_ok steps ->
  exists os oe, t_run [] (map (tstep_of cfg) steps) = Ok os /\ model_run cfg steps = Ok oe /\ Forall2 io_eq os oe.
Proof. intros cfg steps H. apply (t_run_erases cfg steps [] []); [constructor | exact H]. Qed.

(* ---- non-vacuity: browse "t." and resolver "h."; a PTR and an address (TTL 10) arrive, two
   seconds later a second address with the cache-flush bit; then a LATE wake-up at 93 % ---- *)
Definition ex_ptr := (mkId [116;46] TY_PTR 1 false (RPtr [105;46]) 2, 10).
Definition ex_a1 := (mkId [104;46] TY_A 1 true (RAddr [10;0;0;1]) 2, 10).
Definition ex_a2 := (mkId [104;46] TY_A 1 true (RAddr [10;0;0;2]) 2, 10).
Definition ex_cfg := mkCfg (Some [116;46]) (Some [104;46]).
Definition ex_s1 := mkTStep 1000000 1 1 [ex_ptr; ex_a1] ex_cfg None.
Definition ex_s2 := mkTStep 1002000 0 0 [ex_a2] ex_cfg None.
Definition ex_s3 := mkTStep 1009300 0 0 [] ex_cfg None.

Definition ex_c1 : lcache := Eval vm_compute in match t_iter ex_s1 [] with Ok (c, _) => c | _ => [] end.
Definition ex_c2 : lcache := Eval vm_compute in match t_iter ex_s2 ex_c1 with Ok (c, _) => c | _ => [] end.
Definition ex_c3 : lcache := Eval vm_compute in match t_iter ex_s3 ex_c2 with Ok (c, _) => c | _ => [] end.

Example C12_cache_example :
  treach ex_c2 1002000 ex_cfg /\ treach ex_c3 1009300 ex_cfg /\
  (* expiries of PTR, second address, flushed first address; 80 % marks of PTR and second address *)
  due_work ex_cfg ex_c2 1002000 = [1010000; 1012000; 1003000; 1008000; 1010000] /\
  timers ex_c2 = [1010000; 1008000; 1012000; 1010000; 1010000; 1008000; 1003000] /\
  (* after the late wake-up the PTR has taken one rung: its 85 % mark is overdue and has a timer *)
  due_work ex_cfg ex_c3 1009300 = [1010000; 1012000; 1008500; 1010000] /\
  timers ex_c3 = [1010000; 1008500; 1012000; 1010000].
Proof.
  assert (R1 : treach ex_c1 1000000 ex_cfg).
  { apply (treach_step_eval [] 0 ex_cfg ex_s1 ex_c1 (treach_init _)); [reflexivity | vm_compute; eauto]. }
  assert (R2 : treach ex_c2 1002000 ex_cfg).
  { apply (treach_step_eval _ _ _ ex_s2 ex_c2 R1); [reflexivity | vm_compute; eauto]. }
  assert (R3 : treach ex_c3 1009300 ex_cfg).
  { apply (treach_step_eval _ _ _ ex_s3 ex_c3 R2); [reflexivity | vm_compute; eauto]. }
  split; [exact R2|]. split; [exact R3|]. vm_compute. repeat split.
Qed.

Print Assumptions C12_cache_timers_cover_due_work.
Print Assumptions C12_cache_due_work_has_exact_timer.
Print Assumptions C12_cache_work_done_at_due_time.
Print Assumptions C12_cache_no_expired_record_left.
Print Assumptions C12_cache_timed_model_is_C11_model.
