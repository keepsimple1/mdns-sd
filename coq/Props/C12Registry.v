(* C12, registry layer: no time-driven work of the probing / announcing / goodbye layer is left
   overdue by an iteration, and everything pending is covered by the model's due work.
   Only statements here; every proof is `exact <lemma>` (Proofs/RegistryHistoryProofs.v,
   RegistryDaemonProofs.v), the example a conjunction of lemmas of RegistryWitnessProofs.v.

   Model: Model/RegistryDaemon.v.  The model has no timer heap of its own: its wake-up request is
   due_work st = the minimum over the retransmission queue (announcement repeats = RegisterResend,
   goodbye repeats = UnregisterResend) and the next_send of every probe in every registry.  The
   wake-up the REAL daemon requests is held against due_work on every iteration of every generated
   history (chk_C07 code 34, chk_C09 code 4: requested wake-up <= due work).  What is proved here, for
   ALL histories of the model (any interface and OS tables, datagrams incl. responses, calls incl.
   enable/disable_interface, jitter values, iteration times):
     (a) coverage: a probe step / announcement repeat / goodbye repeat pending at time t implies
         due_work <= t  (every state);
     (b) no overdue work: after every iteration that leaves the daemon running, every queue entry is
         due after `now` and every probe of every interface the daemon has is due at `now` or later -
         each action is performed in the first iteration at or after its due time;
   so a daemon that is woken no later than due_work (the monitored clause) performs every action of
   this layer when due.  NOT modelled here: the timer heap itself (pushes and pops), the interface
   check, the spin clause (next wake-up in the future when nothing is due). *)
From Coq Require Import List NArith.
From Mdns Require Import Registry RegistryDaemon RegistryParamsPinned RegistryProofs RegistryDaemonProofs
     RegistryLiftProofs RegistryHistoryProofs RegistryWitnesses RegistryWitnessProofs.
Import ListNotations.
Open Scope N_scope.

(* (a) coverage, queue entries: announcement repeats and goodbye repeats *)
Theorem C12R_due_work_covers_queue : forall st t c,
  In (t, c) (d_retrans st) -> exists d, due_work st = Some d /\ d <= t.
Proof. exact due_work_covers_retrans. Qed.

(* (a) coverage, probe steps (incl. the retry after a lost tie-break: it is the probe's next_send) *)
Theorem C12R_due_work_covers_probe : forall st k rg n p,
  nget k (d_regs st) = Some rg -> In (n, p) (rg_probing rg) -> exists d, due_work st = Some d /\ d <= pb_next p.
Proof. exact due_work_covers_probe. Qed.

(* (b) no overdue queue entry after an iteration (every state, hence every history) *)
Theorem C12R_no_overdue_queue_entry : forall st it st' os js,
  iterate st it = (st', os, Running, js) -> Forall (fun e => it_now it < fst e) (d_retrans st').
Proof. exact iterate_queue_future. Qed.

(* (b) no overdue probe step after an iteration, ALL HISTORIES (invariant behind it: in every
   registry of every reachable state the probing names are pairwise different) *)
Theorem C12R_no_overdue_probe_all_histories : forall ifs os its it st' outs js,
  iterate (run_state (d_init_os ifs os) its) it = (st', outs, Running, js) ->
  forall itf rg, In itf (d_intfs st') -> nget (if_index itf) (d_regs st') = Some rg -> probes_ge (it_now it) rg.
Proof. exact no_overdue_probe_all_histories. Qed.

Theorem C12R_probing_names_distinct_all_histories : forall ifs os its, regs_nodup (run_state (d_init_os ifs os) its).
Proof. exact regs_nodup_all_histories. Qed.

(* non-vacuity: on the unregister witness, after the iteration at +145 ms both probes are due at +395,
   after the announcement at +895 its repeat is queued for +1895, after the unregister at +2500 the
   goodbye repeat is queued for +2620 *)
Example C12R_example :
  next_sends (state_after w_unregister_ifs w_unregister_its 2) = [[1000395; 1000395]] /\
  next_sends (state_after w_unregister_ifs w_unregister_its 5) = [[]] /\
  queue_times (state_after w_unregister_ifs w_unregister_its 5) = [1001895] /\
  queue_times (state_after w_unregister_ifs w_unregister_its 7) = [1002620].
Proof.
  exact (conj (proj1 w_unregister_next_sends) (conj (proj2 w_unregister_next_sends)
        (conj (proj1 w_unregister_queue) (proj1 (proj2 w_unregister_queue))))).
Qed.

Print Assumptions C12R_due_work_covers_queue.
Print Assumptions C12R_due_work_covers_probe.
Print Assumptions C12R_no_overdue_queue_entry.
Print Assumptions C12R_no_overdue_probe_all_histories.
Print Assumptions C12R_probing_names_distinct_all_histories.
Print Assumptions C12R_example.
