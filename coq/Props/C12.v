(* C12 - The daemon wakes itself for all time-driven work and never spins.

   Model: Model/Sched.v.  Time-driven work of the slice (no datagrams, registrations, verify):
   query retransmissions, hostname-resolution deadlines, the interface check (`due_work`);
   probe steps, announcement repeats, record refresh / expiry and verify deadlines need the
   cache / registry layers and are not covered here.

   wake_covers_work and no_spin are proved over ALL well-formed histories - arbitrary API call
   sequences and iteration times, early or late, no hypothesis on the schedule - including the
   interface-check interval at its default, very large, changed at run time and zero.
   The monitor chk_C12 compares the requested wake-up with due times computed from the
   HISTORY by the per-question specification of SchedSpec.v; its theorem, too, holds for all
   well-formed histories. *)
From Coq Require Import List NArith.
From Mdns Require Import ParamsSched Sched SchedSpec SchedParamsProofs SchedProofs SchedSpecProofs.
Import ListNotations.
Open Scope N_scope.

(* wake_covers_work: in every reachable live state every pending retransmission, every
   resolver deadline and the next interface check (if the interval is not 0) has a timer AT
   its due time; hence the requested wake-up - the earliest timer - exists and is no later *)
Theorem wake_covers_work :
  forall t0 h, wf_hist t0 h = true -> st_alive (final (init t0) h) = true ->
  forall d, In d (due_work (final (init t0) h)) ->
  In d (st_timers (final (init t0) h))
  /\ exists w, min_list (st_timers (final (init t0) h)) = Some w /\ w <= d.
Proof. intros t0 h W A. apply due_work_covered, good_inv, reachable_good; assumption. Qed.

(* no_spin: after ANY iteration (any commands, at any time `now`) from a reachable state the
   requested wake-up is strictly later than `now`; the only exception is wake-up = now right
   after a resolve_hostname call with timeout 0 in this very iteration (its deadline is due
   at once; the next iteration removes it), for every value of the interface-check interval (it
   is part of the reachable state). *)
Theorem no_spin :
  forall t0 h it, wf_hist t0 (h ++ [it]) = true -> st_alive (final (init t0) h) = true ->
  forall w, o_wake (snd (iterate (final (init t0) h) it)) = Some w ->
  i_now it < w \/ (zero_timeout (i_cmds it) = true /\ w = i_now it).
Proof.
  intros t0 h it W A. destruct (reachable_snoc t0 h it W A) as [G [Rt _]].
  apply iterate_wake; [apply G | right; exact Rt].
Qed.

(* ... so an iteration in which nothing was called (i_cmds = [], whether or not something was due)
   is followed by a wake-up strictly in the future: the daemon cannot spin *)
Theorem no_spin_idle_iteration :
  forall t0 h now, wf_hist t0 (h ++ [mkIter now []]) = true -> st_alive (final (init t0) h) = true ->
  forall w, o_wake (snd (iterate (final (init t0) h) (mkIter now []))) = Some w -> now < w.
Proof.
  intros t0 h now W A w Hw. destruct (no_spin t0 h (mkIter now []) W A w Hw) as [H|[H _]]; [exact H | discriminate].
Qed.

(* the invariant behind both: preserved by every iteration that leaves the daemon alive *)
Theorem scheduler_invariant :
  forall s it, Inv s -> (i_cmds it = [] \/ i_now it < u64_max) ->
  st_alive (fst (iterate s it)) = true -> Inv (fst (iterate s it)).
Proof. intros s it I Hnow A. apply (iterate_step s it I Hnow (alive_no_exit s it A)). Qed.

(* no retransmission is left behind overdue: in a state that satisfies Inv - the states between
   iterations - every queued retransmission lies strictly after the clock of the last iteration,
   has a timer, and its delay is at least one second *)
Theorem no_overdue_retransmission :
  forall s, Inv s -> forall r, In r (st_retrans s) ->
  1 <= r_delay r /\ st_clock s < r_time r /\ In (r_time r) (st_timers s).
Proof. exact inv_ret. Qed.

Theorem chk_C12_monitor_holds :
  forall t0 h, wf_hist t0 h = true -> chk_C12 t0 h (model_run t0 h) = true.
Proof. exact chk_C12_model. Qed.

(* the comparisons of the wake-up machinery in the words of the text: seconds to ms, the default
   5 s, interval 0 disables the interface check, a check or deadline is due when its time has
   come (<=), a timer is kept while it lies strictly in the future *)
Theorem ip_check_constants :
  (forall secs, ip_check_interval_of_secs secs = secs * 1000)
  /\ ip_check_interval_initial = 5000
  /\ (forall iv, ip_check_disabled iv = (iv =? 0))
  /\ (forall now nx, ip_check_due now nx = (nx <=? now))
  /\ (forall v now, timer_kept v now = (now <? v))
  /\ (forall now t, resolver_expired now t = (t <=? now)).
Proof.
  exact (conj ip_check_interval_of_secs_pinned (conj ip_check_interval_initial_pinned
        (conj ip_check_disabled_pinned (conj ip_check_due_pinned (conj timer_kept_pinned resolver_expired_pinned))))).
Qed.

(* non-vacuity: interval changed to 0, to 1 s, to the maximum, searches with deadlines (one with
   timeout 0), late iterations *)
Definition ty_w : name := [95; 104; 46; 95; 116; 99; 112; 46; 108; 111; 99; 97; 108; 46].
Definition host_w : name := [77; 121; 46; 108; 111; 99; 97; 108; 46].
Definition sample_history : list iter :=
  [ mkIter 1000000 [Browse ty_w 1; SetIpCheckInterval 0];
    mkIter 1000500 [ResolveHostname host_w (Some 0) 2];
    mkIter 1000500 [];
    mkIter 1001000 [SetIpCheckInterval 1];
    mkIter 1002000 [ResolveHostname host_w (Some 2500) 3];
    mkIter 1003000 [];
    mkIter 1009000 [SetIpCheckInterval 4294967];
    mkIter 1011000 [] ].

Example C12_nonvacuous :
  wf_hist 1000000 sample_history = true
  /\ chk_C12 1000000 sample_history (model_run 1000000 sample_history) = true
  /\ map o_wake (model_run 1000000 sample_history)
     = [Some 1005000; Some 1001000; Some 1000500; Some 1001000; Some 1002000; Some 1003000;
        Some 1004000; Some 1017000; Some 1017000]
  /\ due_work (final (init 1000000) sample_history) = [1017000; 4295976000].
Proof. vm_compute. repeat split; reflexivity. Qed.

Print Assumptions wake_covers_work.
Print Assumptions no_spin.
Print Assumptions no_spin_idle_iteration.
Print Assumptions scheduler_invariant.
Print Assumptions no_overdue_retransmission.
Print Assumptions chk_C12_monitor_holds.
Print Assumptions ip_check_constants.
Print Assumptions C12_nonvacuous.
