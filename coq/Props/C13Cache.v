(* C13 for the cache layer: after stop_browse the records cached for the stopped browse are
   forgotten.  The statements, each closed in a few lines from the lemmas of
   Proofs/LifeRemoveProofs.v, Proofs/LifeStopProofs.v.
   Model: Model/LifeTimers.v, the daemon-level cache model of C11 / C12Cache with per-record
   timer logs; `ts_stop s = Some ty` = a browse of `ty` is stopped in iteration s (after the
   iteration's records have been taken in, as in Zeroconf::run), which executes
   DnsCache::remove_service_type (remove_service_type).  All statements are over ALL histories
   (treach / truns: any records, clock values, searches started and stopped at will). *)
From Coq Require Import List NArith.
From Mdns Require Import Res Bytes Rec Life LifeCache LifeTimers LifeMapProofs LifeRemoveProofs LifeTimerProofs
  LifeStopProofs.
Import ListNotations.
Open Scope N_scope.

(* (a) After an iteration that stops the browse of ty, the cache holds no PTR record under ty,
   no SRV and no TXT record of an instance those PTR records named (stop_instances, read off the
   cache as it was when the stop was executed), and no address record of a host their SRV
   records named - unless an SRV record that is left still names that host. *)
Theorem C13_cache_stop_removes : forall c n cfg s c' o ty,
  treach c n cfg -> tstep_ok n s -> ts_stop s = Some ty -> t_iter s c = Ok (c', o) ->
  exists c0, after_ingest s c = Ok c0 /\
    get_bucket lrec c' (0, ty) = [] /\
    (forall i, In i (stop_instances ty c0) ->
       get_bucket lrec c' (1, i) = [] /\ get_bucket lrec c' (2, i) = []) /\
    (forall h, In h (stop_hosts ty c0) -> names_host lrec h (stop_core ty c0) = false ->
       get_bucket lrec c' (3, h) = []).
Proof. exact stop_removes. Qed.

(* exactly what remove_service_type removes (removed_key) and that it leaves every other Vec
   as it was: PTR Vecs under other names (also the `_sub` names of the same type), SRV / TXT Vecs
   of instances no PTR under ty names at that moment, address Vecs of other hosts and of hosts
   a remaining SRV record names *)
Theorem C13_cache_remove_exact : forall ty (c : lcache) k,
  wf lrec c ->
  wf lrec (remove_service_type lrec ty c) /\
  get_bucket lrec (remove_service_type lrec ty c) k = if removed_key ty c k then [] else get_bucket lrec c k.
Proof. exact remove_service_type_look. Qed.

Theorem C13_cache_shared_host_kept : forall ty (c : lcache) h,
  names_host lrec h (stop_core ty c) = true -> removed_key ty c (3, h) = false.
Proof.
  intros ty c h Hn. destruct (removed_key ty c (3, h)) eqn:E; [|reflexivity].
  apply removed_key_iff in E as [E | [(i & _ & [E | E]) | (h' & _ & E & Hf)]]; try discriminate E.
  inversion E; subst. congruence.
Qed.

(* (b) While no browse is open no PTR, SRV or TXT query is sent in any iteration, whatever is
   cached (only address queries for a resolved host name; none at all without a resolver), and
   the refresh step has nothing of a browse to work on: with C12_cache_timers_cover_due_work the
   only refresh work that can be due is that of the resolved host. *)
Theorem C13_cache_no_service_query_without_browse : forall s c c' o,
  sc_browse (ts_cfg s) = None -> t_iter s c = Ok (c', o) ->
  Forall (fun q => Forall addr_question (qd_questions q)) (io_queries o) /\
  (sc_host (ts_cfg s) = None -> io_queries o = []).
Proof.
  intros s c c' o Hb H. unfold t_iter in H. apply bind_ok_inv in H as (c0 & _ & H).
  exact (no_browse_queries lrec log_ops _ _ _ _ _ _ _ _ Hb H).
Qed.

Theorem C13_cache_nothing_to_refresh_without_browse : forall cfg (c : lcache) n,
  sc_browse cfg = None ->
  subject cfg c n = match sc_host cfg with Some h => get_bucket lrec c (3, lower h) | None => [] end.
Proof. intros cfg c n H. unfold subject. rewrite H. reflexivity. Qed.

(* (c) Nothing comes back from nowhere: whatever a Vec that was empty holds after any further
   iterations (a later browse of the same type included) arrived in one of those iterations
   under that very key.  So a new browse of ty starts from what was received after the stop. *)
Theorem C13_cache_fresh_browse_from_received : forall c n cfg steps c' n' k e',
  treach c n cfg -> truns c n steps c' n' -> get_bucket lrec c k = [] -> In e' (get_bucket lrec c' k) ->
  exists s r, In s steps /\ In r (ts_recs s) /\ key_of (fst r) = Some k /\ fst r = c_id e'.
Proof.
  intros c n cfg steps c' n' k e' Hr Hrun Hk Hin. destruct (treach_iter_inv c n cfg Hr) as (Hw & HP & _).
  destruct (truns_from c n steps c' n' Hrun Hw HP k e' Hin) as [(e & He & _) | H]; [|exact H].
  rewrite Hk in He. contradiction.
Qed.

(* one iteration: every cached record was cached before or arrived in it; the removed keys are empty *)
Theorem C13_cache_iteration_provenance : forall s c n0 c' o,
  wf lrec c -> AP n0 c -> tstep_ok n0 s -> t_iter s c = Ok (c', o) ->
  exists c0, after_ingest s c = Ok c0 /\
  (forall k e', In e' (get_bucket lrec c' k) ->
     (exists e, In e (get_bucket lrec c k) /\ c_id e = c_id e') \/
     (exists r, In r (ts_recs s) /\ key_of (fst r) = Some k /\ fst r = c_id e')) /\
  (forall ty k, ts_stop s = Some ty -> removed_key ty c0 k = true -> get_bucket lrec c' k = []).
Proof. exact t_iter_from. Qed.

(* ---- non-vacuity: a browse of "t." has cached PTR, SRV, TXT of instance "i." and the address of
   host "h."; stopping it empties the cache.  If an SRV record of another instance "j." (not listed
   under "t.") names the same host, that SRV record and the address stay. ---- *)
Definition e_ty := [116;46]. Definition e_i := [105;46]. Definition e_j := [106;46]. Definition e_h := [104;46].
Definition e_ptr := (mkId e_ty TY_PTR 1 false (RPtr e_i) 2, 120).
Definition e_srv := (mkId e_i TY_SRV 1 true (RSrv 0 0 80 e_h) 2, 120).
Definition e_txt := (mkId e_i TY_TXT 1 true (RTxt [0]) 2, 120).
Definition e_srv2 := (mkId e_j TY_SRV 1 true (RSrv 0 0 81 e_h) 2, 120).
Definition e_a := (mkId e_h TY_A 1 true (RAddr [10;0;0;1]) 2, 120).
Definition e_s1 (x : list (ident * N)) := mkTStep 1000000 1 0 x (mkCfg (Some e_ty) None) None.
Definition e_s2 := mkTStep 1002000 0 0 [] (mkCfg None None) (Some e_ty).
Definition e_keys (x : list (ident * N)) : res (list ckey * list ckey * list qdesc) :=
  let? (c1, _) := t_iter (e_s1 x) [] in let? (c2, o) := t_iter e_s2 c1 in Ok (map fst c1, map fst c2, io_queries o).

Example C13_cache_example :
  e_keys [e_ptr; e_srv; e_txt; e_a] = Ok ([(0, e_ty); (1, e_i); (2, e_i); (3, e_h)], [], []) /\
  e_keys [e_ptr; e_srv; e_txt; e_srv2; e_a]
  = Ok ([(0, e_ty); (1, e_i); (2, e_i); (1, e_j); (3, e_h)], [(1, e_j); (3, e_h)], []).
Proof. split; vm_compute; reflexivity. Qed.

Print Assumptions C13_cache_stop_removes.
Print Assumptions C13_cache_remove_exact.
Print Assumptions C13_cache_shared_host_kept.
Print Assumptions C13_cache_no_service_query_without_browse.
Print Assumptions C13_cache_nothing_to_refresh_without_browse.
Print Assumptions C13_cache_fresh_browse_from_received.
Print Assumptions C13_cache_iteration_provenance.
