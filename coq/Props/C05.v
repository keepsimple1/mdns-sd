(* C05  Departed services are reported removed, on time and only when true.
   The statements of the property, each closed in a line or two from the lemmas of Proofs/.

   The history-level statement is
       forall ifs h wakes, wf_history h = true ->
         chk_C05 ifs h wakes (map obs_of (run_history ifs h)) = true            (FALSE)
   with chk_C05 (Model/BrowserSpec.v): a ServiceRemoved only in an iteration in which the
   instance does not have PTR + SRV + address with more than one second left; at the end of
   every iteration every instance reported resolved has PTR, SRV and address unexpired (so the
   event comes in the first iteration at or after a goodbye's second / TTL / verify timeout ran
   out) and the requested wake-up is not later than that instant; no ServiceResolved after
   ServiceRemoved without new records.
   It is FALSE of the faithful model (C05_removed_on_time_refuted; the simulated daemon agrees).
   The known findings (known/C05.json), each with a witness below: PTR variants differing in the
   cache-flush bit, expiry during the PTR's goodbye second (known_removal_hidden), a second SRV
   record naming another host, stop_browse of a second name dropping shared records.  No
   hash-order dependent behaviour is left in the histories generated; C05_example_two_names and
   C05_example_two_names_address are histories that pass.  Proved here, for all caches and times:
   what the evictions do exactly, when an instance is reported and under which names, where every
   ServiceRemoved comes from, the goodbye second, verify; and three of the checker's clauses over
   histories outside the classes (_partial: the whole history-level statement outside the
   classes is checked by the monitor on every generated history:
       forall ifs h wakes, wf_history h = true -> ~ Known_C05 h ->
         chk_C05 ifs h wakes (map obs_of (run_history ifs h)) = true ). *)
From Coq Require Import List NArith Lia.
From Mdns Require Import Bytes Rec Cache Browser C03Spec BrowserSpec BrowserKnown ParamsBrowserPinned CacheProofs
  BrowserLoopProofs CacheInvProofs BrowserProofs BrowserStepProofs SpecTrackProofs C05SafetyProofs AouCasesProofs
  C04OrderProofs C05AgainProofs C05TimelyProofs C05HistoryProofs BrowserExamples.
Import ListNotations.
Open Scope N_scope.

(* evict_expired_services leaves exactly the unexpired PTR / SRV / TXT / NSEC
   records (now < expires), in order, drops emptied SRV/TXT/NSEC buckets, touches nothing else. *)
Theorem C05_evict_services_exact : forall c now,
  fst (evict_services c now) =
  mkCache (map (fun kb => (fst kb, live_only now (snd kb))) (c_ptr c))
          (sweep now (c_srv c)) (sweep now (c_txt c)) (c_addr c) (sweep now (c_nsec c)) (c_sub c).
Proof. exact evict_services_cache. Qed.

Theorem C05_evict_addr_exact : forall c now,
  fst (evict_addr c now) =
  mkCache (c_ptr c) (c_srv c) (c_txt c) (sweep now (c_addr c)) (c_nsec c) (c_sub c).
Proof. reflexivity. Qed.

(* "unexpired" is  not (expires <= now),  and a swept map keeps exactly the non-empty remainders *)
Theorem C05_live_only_is : forall now b,
  live_only now b = filter (fun e => negb (e_expires e <=? now)) b.
Proof. reflexivity. Qed.

Theorem C05_sweep_is : forall now m k b',
  In (k, b') (sweep now m) <-> exists b, In (k, b) m /\ b' = live_only now b /\ b' <> [].
Proof. exact sweep_In. Qed.

(* PTR expiry is reported, under its ty_domain, in the iteration that evicts it ... *)
Theorem C05_expired_ptr_reported : forall c now ty ptrs p,
  In (ty, ptrs) (c_ptr c) -> In p ptrs -> is_expired p now = true ->
  In (ty, alias_of (e_rr p)) (snd (evict_services c now)).
Proof. exact evict_services_reports_expired_ptr. Qed.

(* ... so is the expiry of the last SRV record of an instance, under EVERY ty_domain (type and
   subtype) that has a PTR to it ... *)
Theorem C05_srv_expiry_reported_under_every_name : forall c now ty ptrs p sb,
  In (ty, ptrs) (c_ptr c) -> In p ptrs ->
  In (alias_of (e_rr p), sb) (c_srv c) -> live_only now sb = [] ->
  In (ty, alias_of (e_rr p)) (snd (evict_services c now)).
Proof. exact evict_services_reports_srv_expiry. Qed.

(* ... and removed_only_when_true, eviction path: (ty, instance) is reported only if a PTR
   record ty -> instance exists and that PTR expired, or the instance has an SRV bucket in which
   no record is unexpired. *)
Theorem C05_evict_reports_only_when_true : forall c now t i,
  In (t, i) (snd (evict_services c now)) ->
  exists ptrs p, In (t, ptrs) (c_ptr c) /\ In p ptrs /\ alias_of (e_rr p) = i
    /\ (is_expired p now = true \/ exists sb, In (i, sb) (c_srv c) /\ live_only now sb = []).
Proof. exact evict_reports_only_when_true. Qed.

(* removed_only_when_true, resolve_updated_instances path: a ServiceRemoved it emits is for an
   instance that cannot be resolved from records with more than one second left. *)
Theorem C05_removed_when_invalid_partial : forall s now updated ch t i,
  In (OEvt ch (ERemoved t i)) (snd (resolve_updated s now updated)) ->
  is_valid (resolve_from_cache (s_cache s) now t i) = false.
Proof.
  intros s now updated ch t i.
  intros H. apply resolve_updated_out in H as [(ty & c0 & p & _ & _ & E)|(ty & c0 & j & _ & Hr & E)]; [discriminate|].
  inversion E; subst c0 ty j. destruct Hr as (c1 & p & _ & Hv & _ & <-). exact Hv.
Qed.

(* ... and under EVERY browsed name: each browsed ty_domain with a PTR (more than one second left)
   to an updated instance that was reported resolved and cannot be resolved any more gets
   ServiceRemoved (f108398). *)
Theorem C05_invalid_reported_under_every_name : forall s now updated ty ch ptrs p,
  In (ty, ptrs) (c_ptr (s_cache s)) -> q_get ty (s_q s) = Some ch ->
  In p ptrs -> expires_soon p now = false -> mem (alias_of (e_rr p)) updated = true ->
  is_valid (resolve_from_cache (s_cache s) now ty (alias_of (e_rr p))) = false ->
  mem (alias_of (e_rr p)) (s_resolved s) = true ->
  In (OEvt ch (ERemoved ty (alias_of (e_rr p)))) (snd (resolve_updated s now updated)).
Proof. exact invalid_reported_under_every_name. Qed.

(* A record delivered with TTL 0 expires exactly 1000 ms after its
   delivery; eviction removes it in the first iteration with now >= that instant. *)
Theorem C05_goodbye_new : forall r now ifx, r_ttl r = 1 -> e_expires (new_entry r now ifx) = now + 1000.
Proof. exact goodbye_new_expires. Qed.
Theorem C05_goodbye_cached : forall e r now, r_ttl r = 1 -> e_expires (reset_ttl e r now) = now + 1000.
Proof. exact goodbye_reset_expires. Qed.
Theorem C05_unexpired_iff : forall e now, is_expired e now = false <-> now < e_expires e.
Proof. intros e now. unfold is_expired. rewrite is_expired_pinned. rewrite N.leb_gt. tauto. Qed.

(* verify: every SRV record of the instance (and the addresses filed under the
   lower-cased SRV target) gets expires := min(now + timeout, expires); the
   questions are (instance, SRV) and (host, A), (host, AAAA) per SRV; an answer (a matching
   record) restores created + 1000 * ttl. *)
Theorem C05_verify_shortens : forall c inst x sb,
  bm_get inst (c_srv c) = Some sb ->
  bm_get inst (c_srv (fst (service_verify_queries c inst (Some x)))) = Some (map (fun e => expire_sooner e x) sb).
Proof. intros c inst x sb. intros H. unfold service_verify_queries. rewrite H. simpl. apply bm_set_get_same. Qed.
Theorem C05_verify_min : forall e x, e_expires (expire_sooner e x) = N.min x (e_expires e).
Proof.
  intros e x.
  unfold expire_sooner. rewrite expire_sooner_pinned. destruct (x <? e_expires e) eqn:E; simpl.
  - apply N.ltb_lt in E. lia.
  - apply N.ltb_ge in E. lia.
Qed.
Theorem C05_verify_questions : forall c inst at_ sb,
  bm_get inst (c_srv c) = Some sb ->
  snd (service_verify_queries c inst at_) =
  (inst, TY_SRV) :: flat_map (fun s => [(srv_host s, TY_A); (srv_host s, TY_AAAA)]) sb.
Proof. intros c inst at_ sb. intros H. unfold service_verify_queries. now rewrite H. Qed.
Theorem C05_answer_restores : forall e r now, e_expires (reset_ttl e r now) = now + 1000 * r_ttl r.
Proof. exact reset_ttl_expires. Qed.

(* History level: the "spec cache" that chk_C05 replays from the history (cache component only)
   IS the model's cache after every history - same buckets, same records (name, type, class,
   cache-flush bit, TTL, rdata, created, expires, interface), same browsed types; only refresh
   marks may differ.  So what the checker calls live (alive_strong / alive_weak / death_time)
   is a statement about the model's state, for ALL histories (no well-formedness needed). *)
Theorem C05_spec_cache_is_model_cache : forall ifs h,
  tracks (model_after ifs init_st h) (spec_after ifs init_spec h).
Proof. exact spec_tracks_model. Qed.

(* History level.

   The standard shape for known findings,
       forall ifs h wakes, wf_history h = true -> ~ KnownClass h ->
         viol_C05 ifs h wakes (map obs_of (run_history ifs h)) = []                       (full)
   is proved for the SAFETY part of the checker: of the five kinds of failure viol_C05 can report
   (F_len, F05_alive, F05_again, F05_dead, F05_wake) the kind F05_alive - "ServiceRemoved while the
   instance has a PTR under that type, an SRV and an address of the SRV's host with more than one
   second left at every snapshot of the iteration" - never occurs on the model's own trace, for
   every well-formed history outside the executable classes known_ptr_variant (finding
   C05-ptr-variant-expiry) and known_srv_targets (finding C05-second-srv-target, found by this
   proof) whose PTR records have non-root owner and target (safe_class, Model/BrowserKnown.v).
   The proof carries the C03 cache invariant and `tracks` (spec cache = model cache) through
   every step of the loop iteration and shows at each of the three emission sites that the cache
   of that moment - one of the checker's snapshots - is not strongly alive for the instance.
   _partial: of the checker's failure kinds only F05_wake is NOT proved at history level (the
   model does not compute timers; the wake-ups are an input of the checker; the cache-layer timer
   theorem is Props/C12Cache.v).  F05_again is C05_no_resolved_again_partial below, F05_dead (timeliness)
   C05_removed_on_time_partial. *)
Theorem C05_removed_only_when_true_partial : forall ifs h wakes,
  wf_history h = true -> safe_class ifs h = true ->
  forall f, In f (viol_C05 ifs h wakes (map obs_of (run_history ifs h))) -> is_alive_fail f = false.
Proof. exact removed_only_when_true. Qed.

(* the same fact for one loop iteration from ANY state whose cache satisfies the C03 invariant
   for a log inside a class-free log Lf: every ServiceRemoved of the iteration comes with a
   snapshot (after a datagram / after the commands / after the eviction) that is not strongly
   alive *)
Theorem C05_iteration_removed_only_when_true : forall Lf,
  known_ptr_variant Lf = false -> known_srv_targets Lf = false -> ptr_names_ok Lf = true ->
  forall ifs prev s sp it,
  Inv prev (s_cache s) -> times_le prev (i_now it) -> tracks s sp ->
  incl (prev ++ iter_dlvs ifs it) Lf ->
  let '(ds, sp2, sp3) := iter_snaps ifs sp it in
  Forall (rmok (ds ++ [sp2; sp3]) (i_now it)) (snd (iterate ifs s it)).
Proof. exact iterate_rmok. Qed.

(* non-vacuity: a well-formed history in the safe class whose trace contains a ServiceRemoved *)
Example C05_safe_class_example :
  wf_history ex_hist = true /\ safe_class ex_ifs ex_hist = true
  /\ existsb (existsb is_removed_evt) (run_history ex_ifs ex_hist) = true.
Proof. exact safe_example. Qed.

(* C05, safety, second half.  Full statement:
       forall ifs h wakes, wf_history h = true ->
         forall f, In f (viol_C05 ifs h wakes (map obs_of (run_history ifs h))) -> is_again_fail f = false
   i.e. the checker never reports F05_again: "ServiceResolved of an instance on a channel after
   ServiceRemoved of that instance on that channel (iteration j), with no delivery in iterations
   j.. of a record that concerns the instance (PTR pointing to it, its SRV / TXT, an address
   record of the host it is resolved to)".  Proved for the histories of safe_class (outside the
   classes known_ptr_variant and known_srv_targets - inside known_srv_targets it is FALSE, see
   C05_no_resolved_again_refuted_in_srv_targets; inside known_ptr_variant it is open) and with the
   well-formedness condition fresh_channels: every browse call uses a channel number greater
   than all used before (a channel number names ONE browse call; the history builders number
   them 1, 2, 3, ...; the driver rejects a history that violates it).
   The invariant (DI, Proofs/C05AgainProofs.v): for every entry (channel, instance, j) of the
   checker's dead list and the type browsed on that channel, either a relevant delivery with
   index >= j is in the log or the instance is not strongly alive in the model's cache.  It is
   kept by: the cache only shrinking (C05_liveness_decreases_with_cache), time going by
   (C05_liveness_decreases_with_time), deliveries that do not concern the instance
   (C05_other_deliveries_keep_dead); what is reported resolved is strongly alive
   (C05_resolved_is_strongly_alive); what is reported removed is not
   (C05_removed_only_when_true_partial). *)
Theorem C05_no_resolved_again_partial : forall ifs h wakes,
  wf_history h = true -> safe_class ifs h = true -> fresh_channels h = true ->
  forall f, In f (viol_C05 ifs h wakes (map obs_of (run_history ifs h))) -> is_again_fail f = false.
Proof. exact no_resolved_again. Qed.

(* the same for one iteration from any state: good5 = cache invariant + DI + channel bounds for
   the dead list D; step5 = no ServiceResolved of the iteration trips the check (again_ok) and
   good5 holds again for the dead list after the iteration's events *)
Theorem C05_iteration_no_resolved_again : forall Lf,
  known_ptr_variant Lf = false -> known_srv_targets Lf = false -> ptr_names_ok Lf = true ->
  forall k log now cur, (forall x, In x cur -> In (k, x) log) ->
  forall ifs prev s it D m m',
  i_now it = now -> iter_dlvs ifs it = cur -> incl cur Lf ->
  good5 Lf k log now prev s D m -> calls_fresh m (i_calls it) = Some m' ->
  step5 Lf k log now D (snd (iterate ifs s it)) (prev ++ cur) (fst (iterate ifs s it)) m'.
Proof. exact iterate_again. Qed.

(* liveness only decreases without a delivery of a record of the instance *)
Theorem C05_liveness_decreases_with_cache : forall L c c' now ty inst,
  Inv L c -> shrinks_to c c' -> alive_strong c' now ty inst = true -> alive_strong c now ty inst = true.
Proof. exact alive_shrinks. Qed.

Theorem C05_liveness_decreases_with_time : forall c now now' ty inst,
  now <= now' -> alive_strong c now' ty inst = true -> alive_strong c now ty inst = true.
Proof. exact alive_later. Qed.

Theorem C05_other_deliveries_keep_dead : forall Lf L c now ifx r fu now' ty inst,
  Inv L c -> incl L Lf -> relevantL Lf inst (mkDlv now ifx r) = false ->
  alive_strong (fst (add_or_update c now ifx r fu)) now' ty inst = true ->
  alive_strong c now' ty inst = true.
Proof. exact aou_frame. Qed.

(* what resolve_service_from_cache finds valid for a PTR record with more than a second left is
   strongly alive, and its host is the host of a cached SRV record of the instance *)
Theorem C05_resolved_is_strongly_alive : forall c now ty inst pb p,
  bm_get ty (c_ptr c) = Some pb -> In p pb -> alias_of (e_rr p) = inst -> expires_soon p now = false ->
  is_valid (resolve_from_cache c now ty inst) = true ->
  alive_strong c now ty inst = true
  /\ exists sb e, bm_get inst (c_srv c) = Some sb /\ In e sb
                  /\ srv_host e = rs_host (resolve_from_cache c now ty inst)
                  /\ rs_host (resolve_from_cache c now ty inst) <> [].
Proof. exact valid_alive. Qed.

(* non-vacuity: announcement, goodbye, announcement again - ServiceRemoved, then ServiceResolved
   again on the same channel (a relevant delivery in between); stop and browse on a new channel *)
Example C05_no_resolved_again_example :
  wf_history again_hist = true /\ safe_class ex_ifs again_hist = true /\ fresh_channels again_hist = true
  /\ map (fun o => (existsb is_resolved_evt o, existsb is_removed_evt o)) (run_history ex_ifs again_hist)
     = [(false, false); (true, false); (false, false); (false, true); (true, false); (false, false); (false, false)]
  /\ chk_C05 ex_ifs again_hist (ex_wakes again_hist) (map obs_of (run_history ex_ifs again_hist)) = true
  /\ fresh_channels ex_hist = true /\ fresh_channels brexp_hist = true /\ fresh_channels ptrlast_hist = true.
Proof. exact again_example. Qed.

(* Inside known_srv_targets the F05_again statement is FALSE (model and daemon): after
   the ServiceRemoved of finding C05-second-srv-target a new address record of the OTHER host makes
   the daemon resolve the instance again through the first SRV target - no record of the instance
   or of the host it is resolved to was delivered in between.  Inside known_ptr_variant the
   statement stays open (neither proved nor refuted). *)
Theorem C05_no_resolved_again_refuted_in_srv_targets :
  wf_history again_tgt_hist = true /\ fresh_channels again_tgt_hist = true
  /\ known_srv_targets (log_of_history ex_ifs again_tgt_hist) = true
  /\ map (fun o => (existsb is_resolved_evt o, existsb is_removed_evt o)) (run_history ex_ifs again_tgt_hist)
     = [(false, false); (true, false); (true, false); (false, true); (true, false); (false, false)]
  /\ existsb is_again_fail (viol_C05 ex_ifs again_tgt_hist (ex_wakes again_tgt_hist)
                                     (map obs_of (run_history ex_ifs again_tgt_hist))) = true.
Proof. exact again_srv_targets_witness. Qed.

(* C05, timeliness.  Full statement:
       forall ifs h wakes, wf_history h = true ->
         forall f, In f (viol_C05 ifs h wakes (map obs_of (run_history ifs h))) -> is_dead_fail f = false
   i.e. the checker never reports F05_dead: at the end of EVERY iteration every instance that is
   "up" on the current channel of its type (ServiceResolved seen, no ServiceRemoved since) has a
   PTR, an SRV and an address of that SRV's host unexpired.  So in the first iteration whose `now`
   is at or after the instant a goodbye's second, the TTL of the PTR / last SRV / last address or a
   verify deadline runs out, the ServiceRemoved is emitted - on every schedule; whether the daemon
   is woken at that instant is C12's matter (Props/C12Cache.v), the browser model has no timers.
   FALSE of the faithful model and the daemon in two classes (witnesses below), proved outside
   them: timely_class = safe_class (no PTR variants, one SRV target, no root names)
   && fresh_channels && not known_stop_second_name (C05-stop-browse-drops-shared-records)
   && not known_removal_hidden (C05-expiry-hidden-by-expiring-ptr, as a class of histories: at some
   call of resolve_updated_instances an updated instance that is in `resolved` cannot be resolved
   any more while a PTR record of a browsed name pointing to it is in its last second - that
   name's browser is not told; evaluated along the model's run).
   The invariant (UI, Proofs/C05TimelyProofs.v): every up entry whose type is still browsed on
   its channel has PTR, SRV and an address record PRESENT in the model's cache (expired or not) and
   its instance is in the model's `resolved` set.  Records leave the cache only in the evictions
   and in stop_browse (add_or_update, verify and refresh keep every record: C05_update_keeps_records
   ...); the evictions report what they take - expired PTR, last SRV (C05_expired_ptr_reported,
   C05_srv_expiry_reported_under_every_name), last
   address through resolve_updated_instances, which needs `resolved` membership: an instance leaves
   `resolved` only when it is reported under every browsed name (C05_resolved_set_left_only_when_reported)
   or the class is hit; after the evictions every record is unexpired, so present = weakly alive. *)
Theorem C05_removed_on_time_partial : forall ifs h wakes,
  wf_history h = true -> timely_class ifs h = true ->
  forall f, In f (viol_C05 ifs h wakes (map obs_of (run_history ifs h))) -> is_dead_fail f = false.
Proof. exact removed_on_time. Qed.

(* one iteration from any state: goodT = cache invariant + UI + channel bounds; afterwards goodT
   holds for the up list after the iteration's events, and no record of the cache is expired *)
Theorem C05_iteration_removed_on_time : forall Lf,
  known_srv_targets Lf = false -> ptr_names_ok Lf = true ->
  forall now ifs prev s it ups m m',
  i_now it = now -> goodT Lf prev s ups m -> incl (prev ++ iter_dlvs ifs it) Lf ->
  calls_fresh m (i_calls it) = Some m' -> (forall cl, In cl (i_calls it) -> call_ok Lf cl) ->
  iter_hidden ifs s it = false ->
  goodT Lf (prev ++ iter_dlvs ifs it) (fst (iterate ifs s it)) (upsf ups (snd (iterate ifs s it))) m'
  /\ all_live (s_cache (fst (iterate ifs s it))) now.
Proof. exact iterate_timely. Qed.

(* records are never lost by a delivery or by verify *)
Theorem C05_update_keeps_records : forall c now ifx r fu, keeps c (fst (add_or_update c now ifx r fu)).
Proof. exact aou_keeps. Qed.

Theorem C05_verify_keeps_records : forall c inst at_, keeps c (fst (service_verify_queries c inst at_)).
Proof. exact verify_keeps. Qed.

(* stop_browse of another name leaves an instance's records alone unless that name points to it *)
Theorem C05_stop_keeps_other_instances : forall c ty2 ty inst,
  ty <> ty2 ->
  (forall pb2 p2, bm_get ty2 (c_ptr c) = Some pb2 -> In p2 pb2 -> alias_of (e_rr p2) <> inst) ->
  present c ty inst -> present (remove_service_type c ty2) ty inst.
Proof. exact rst_present. Qed.

(* after the two evictions no PTR / SRV / address record of the cache is expired *)
Theorem C05_evictions_leave_live_records : forall c now,
  all_live (fst (evict_addr (fst (evict_services c now)) now)) now.
Proof. exact evict_all_live. Qed.

(* an instance leaves `resolved` in resolve_updated_instances only when it was updated and is
   invalid under a browsed name that has a PTR record to it *)
Theorem C05_resolved_set_left_only_when_reported : forall s now updated i,
  mem i (s_resolved s) = true -> mem i (s_resolved (fst (resolve_updated s now updated))) = false ->
  mem i updated = true
  /\ exists t ptrs p, In (t, ptrs) (c_ptr (s_cache s)) /\ In p ptrs /\ alias_of (e_rr p) = i
                      /\ is_valid (resolve_from_cache (s_cache s) now t i) = false.
Proof. exact resolve_updated_leaves. Qed.

(* witness of the class known_removal_hidden (finding C05-expiry-hidden-by-expiring-ptr) *)
Theorem C05_known_removal_hidden_witness :
  wf_history ptrlast_hist = true /\ safe_class ex_ifs ptrlast_hist = true /\ fresh_channels ptrlast_hist = true
  /\ known_stop_second_name ex_ifs ptrlast_hist = false
  /\ known_removal_hidden ex_ifs ptrlast_hist = true
  /\ existsb is_dead_fail (viol_C05 ex_ifs ptrlast_hist (ex_wakes ptrlast_hist) (map obs_of (run_history ex_ifs ptrlast_hist))) = true.
Proof. exact removal_hidden_witness. Qed.

(* non-vacuity: histories in timely_class whose traces have ServiceRemoved (goodbye, SRV expiry
   and address expiry under two names, mixed-case host, ...); the witnesses of the known classes
   are outside it *)
Example C05_removed_on_time_example :
  map (timely_class ex_ifs) [ex_hist; twonames_hist; twonames_addr_hist; mixedcase_hist; again_hist; lastsec_hist]
  = [true; true; true; true; true; true]
  /\ map (fun h => existsb (existsb is_removed_evt) (run_history ex_ifs h))
         [ex_hist; twonames_hist; twonames_addr_hist; mixedcase_hist; again_hist; lastsec_hist]
     = [true; true; true; true; true; true]
  /\ map (timely_class ex_ifs) [ptrlast_hist; stopname_hist; ref5_hist; srvtgt_hist] = [false; false; false; false].
Proof. exact timely_example. Qed.

(* witnesses of the known classes: the class predicate holds and the checker fails *)
Theorem C05_known_ptr_variant_witness :
  known_ptr_variant (log_of_history ex_ifs ref5_hist) = true
  /\ existsb is_alive_fail (viol_C05 ex_ifs ref5_hist (ex_wakes ref5_hist) (map obs_of (run_history ex_ifs ref5_hist))) = true.
Proof. exact ptr_variant_witness. Qed.

Theorem C05_known_srv_targets_witness :
  wf_history srvtgt_hist = true
  /\ known_srv_targets (log_of_history ex_ifs srvtgt_hist) = true
  /\ known_ptr_variant (log_of_history ex_ifs srvtgt_hist) = false
  /\ existsb is_alive_fail (viol_C05 ex_ifs srvtgt_hist (ex_wakes srvtgt_hist) (map obs_of (run_history ex_ifs srvtgt_hist))) = true
  /\ chk_C04 ex_ifs srvtgt_hist (ex_wakes srvtgt_hist) (map obs_of (run_history ex_ifs srvtgt_hist)) = false.
Proof. exact srv_targets_witness. Qed.

(* C05-expiry-hidden-by-expiring-ptr: inside the safe class, the timeliness part fails with the
   flag "every PTR of the instance is in its last second" *)
Theorem C05_known_ptr_last_second_witness :
  wf_history ptrlast_hist = true
  /\ safe_class ex_ifs ptrlast_hist = true
  /\ map (fun o => existsb is_removed_evt o) (run_history ex_ifs ptrlast_hist) = [false; false; false; false; true]
  /\ existsb is_dead_last_second (viol_C05 ex_ifs ptrlast_hist (ex_wakes ptrlast_hist) (map obs_of (run_history ex_ifs ptrlast_hist))) = true.
Proof. exact ptr_last_second_witness. Qed.


(* Finding C05-stop-browse-drops-shared-records (the daemon agrees): stop_browse of the subtype drops the SRV / TXT / address records of an
   instance that is still browsed under its type; no ServiceRemoved on that channel, and a silent
   departure is then reported only when the PTR runs out (4500 s instead of 120 s) *)
Theorem C05_known_stop_second_name_witness :
  wf_history stopname_hist = true /\ safe_class ex_ifs stopname_hist = true /\ fresh_channels stopname_hist = true
  /\ known_stop_second_name ex_ifs stopname_hist = true
  /\ existsb (existsb is_removed_evt) (run_history ex_ifs stopname_hist) = false
  /\ existsb is_dead_no_srv (viol_C05 ex_ifs stopname_hist (ex_wakes stopname_hist)
                                      (map obs_of (run_history ex_ifs stopname_hist))) = true
  /\ known_stop_second_name ex_ifs twonames_hist = false /\ known_stop_second_name ex_ifs again_hist = false.
Proof. exact stop_second_name_witness. Qed.

(* The history-level statement is false of the faithful model: the PTR is delivered a second
   time with the cache-flush bit and TTL 2 s; ServiceRemoved at +2 s although the first PTR, the
   SRV and the address are live (finding C05-ptr-variant-expiry). *)
Theorem C05_removed_on_time_refuted :
  exists ifs h wakes, wf_history h = true /\ chk_C05 ifs h wakes (map obs_of (run_history ifs h)) = false.
Proof. exact chk_C05_refuted. Qed.

(* Non-vacuity: announcement, update, goodbye at +5000, ServiceRemoved in the iteration at
   +6000 (not in the one at +5000); the trace passes chk_C05 (and chk_C04). *)
Example C05_example :
  map (fun o => existsb is_removed_evt o) (run_history ex_ifs ex_hist) = [false; false; false; false; true; false]
  /\ chk_C05 ex_ifs ex_hist (ex_wakes ex_hist) (map obs_of (run_history ex_ifs ex_hist)) = true.
Proof. split; [rewrite ex_hist_run; vm_compute; reflexivity|exact (proj2 ex_hist_chk45)]. Qed.

(* A history that passes: instance under type and subtype PTR, both browsed, the SRV
   (TTL 3 s) runs out: both channels get ServiceRemoved in the iteration at +3 s. *)
Example C05_example_two_names :
  wf_history twonames_hist = true
  /\ map (fun o => length (filter is_removed_evt o)) (run_history ex_ifs twonames_hist) = [0; 0; 2; 0]%nat
  /\ chk_C05 ex_ifs twonames_hist (ex_wakes twonames_hist) (map obs_of (run_history ex_ifs twonames_hist)) = true.
Proof. exact twonames_facts. Qed.

Example C05_example_two_names_address :
  map (fun o => length (filter is_removed_evt o)) (run_history ex_ifs twonames_addr_hist) = [0; 0; 2; 0]%nat
  /\ chk_C05 ex_ifs twonames_addr_hist (ex_wakes twonames_addr_hist)
             (map obs_of (run_history ex_ifs twonames_addr_hist)) = true.
Proof. exact twonames_addr_facts. Qed.

Print Assumptions C05_evict_services_exact.
Print Assumptions C05_evict_addr_exact.
Print Assumptions C05_live_only_is.
Print Assumptions C05_sweep_is.
Print Assumptions C05_expired_ptr_reported.
Print Assumptions C05_srv_expiry_reported_under_every_name.
Print Assumptions C05_evict_reports_only_when_true.
Print Assumptions C05_removed_when_invalid_partial.
Print Assumptions C05_invalid_reported_under_every_name.
Print Assumptions C05_example_two_names_address.
Print Assumptions C05_goodbye_new.
Print Assumptions C05_goodbye_cached.
Print Assumptions C05_unexpired_iff.
Print Assumptions C05_verify_shortens.
Print Assumptions C05_verify_min.
Print Assumptions C05_verify_questions.
Print Assumptions C05_answer_restores.
Print Assumptions C05_spec_cache_is_model_cache.
Print Assumptions C05_removed_only_when_true_partial.
Print Assumptions C05_iteration_removed_only_when_true.
Print Assumptions C05_safe_class_example.
Print Assumptions C05_no_resolved_again_partial.
Print Assumptions C05_iteration_no_resolved_again.
Print Assumptions C05_liveness_decreases_with_cache.
Print Assumptions C05_liveness_decreases_with_time.
Print Assumptions C05_other_deliveries_keep_dead.
Print Assumptions C05_resolved_is_strongly_alive.
Print Assumptions C05_no_resolved_again_example.
Print Assumptions C05_no_resolved_again_refuted_in_srv_targets.
Print Assumptions C05_removed_on_time_partial.
Print Assumptions C05_iteration_removed_on_time.
Print Assumptions C05_update_keeps_records.
Print Assumptions C05_verify_keeps_records.
Print Assumptions C05_stop_keeps_other_instances.
Print Assumptions C05_evictions_leave_live_records.
Print Assumptions C05_resolved_set_left_only_when_reported.
Print Assumptions C05_known_removal_hidden_witness.
Print Assumptions C05_removed_on_time_example.
Print Assumptions C05_known_ptr_variant_witness.
Print Assumptions C05_known_srv_targets_witness.
Print Assumptions C05_known_ptr_last_second_witness.
Print Assumptions C05_known_stop_second_name_witness.
Print Assumptions C05_removed_on_time_refuted.
Print Assumptions C05_example.
Print Assumptions C05_example_two_names.
