(* C13 - Stopping a search really stops it, and each channel follows its protocol.

   Model: Model/Sched.v (slice without incoming datagrams: no ServiceFound / ServiceResolved /
   AddressesFound events and no cached records occur, so the clauses "ServiceFound precedes
   ServiceResolved" and "forgets the cached records" are not exercised here).
   Checker: SchedSpec.chk_C13 -
     per channel (c_check): the events are exactly those the history demands - SearchStarted at
       the browse / resolve_hostname call; SearchStopped exactly when that search is stopped by
       stop_browse / stop_resolve_hostname (host name in any letter case), by its timeout
       (SearchTimeout immediately before), or by shutdown - once, and nothing afterwards; a
       repeated SearchStarted only as last event of an iteration while the search is current;
       a cache-only browse gets SearchStarted + SearchStopped at once and one more SearchStopped
       when it is stopped (exempt from finality, as the text says); a channel whose search was
       replaced by a newer browse / resolve of the same key gets nothing any more;
     per question (k_silent): once the search for a question is over, no query for it leaves
       in any later iteration (only a start call can bring it back), for every continuation.

   FULL STATEMENT, proved (C13_monitor_holds):
       forall t0 h, wf_hist t0 h = true -> chk_C13 t0 h (model_run t0 h) = true
   - all API call sequences, all iteration times (early, on time, late).  The history of finding
   C13-timeout-late-rerun (a resolver deadline noticed late, together with the retransmission
   that precedes it) is kept below as an example. *)
From Coq Require Import List NArith.
From Mdns Require Import Bytes Sched SchedSpec SchedParamsProofs SchedProofs SchedSpecProofs.
Import ListNotations.
Open Scope N_scope.

Theorem C13_monitor_holds :
  forall t0 h, wf_hist t0 h = true -> chk_C13 t0 h (model_run t0 h) = true.
Proof. exact chk_C13_model. Qed.

(* in every reachable live state every queued retransmission belongs to a search that is still
   current: same channel, and its time lies before the search's deadline.  So a search that was
   stopped, timed out or replaced has no retransmission left between iterations. *)
Theorem no_retransmission_without_search :
  forall t0 h, wf_hist t0 h = true -> st_alive (final (init t0) h) = true ->
  forall r, In r (st_retrans (final (init t0) h)) ->
  exists o, lookup (rkey r) (st_owners (final (init t0) h)) = Some o /\ ow_ch o = r_ch r
            /\ (forall d, ow_deadline o = Some d -> r_time r < d).
Proof. intros t0 h W A. apply good_invh, reachable_good; assumption. Qed.

(* stopped_means_silent on states: after the stop command no retransmission and no listener
   for that search remain (InvH holds in every reachable state, see above) ... *)
Theorem stopped_means_silent_state :
  forall s host nm, InvH s ->
  let s' := fst (fst (exec_stop host nm s)) in
  lookup (okey_of host nm) (st_owners s') = None
  /\ forall r, In r (st_retrans s') -> rkey r <> okey_of host nm.
Proof. exact stop_clears. Qed.

(* ... whatever letter case the host name is given in ... *)
Theorem stop_host_any_case :
  forall h1 h2, lower h1 = lower h2 -> okey_of true h1 = okey_of true h2.
Proof. intros h1 h2 E. unfold okey_of. rewrite E. reflexivity. Qed.

(* ... on the deadline path: a retransmission whose resolver is gone is not among those the re-run
   executes (the early return of exec_command_resolve_hostname; that a timed-out search leaves
   such a retransmission, and that nothing more comes from it, is in chk_C13) ... *)
Theorem timeout_means_silent_state :
  forall now s r, rerun_live (st_owners s) r = false ->
  ~ In r (filter (rerun_live (st_owners s)) (filter (due now) (st_retrans s))).
Proof. intros now s r HL Hin. apply filter_In in Hin as [_ Hin]. congruence. Qed.

(* ... and at shutdown: everything is cleared, every search gets SearchStopped *)
Theorem shutdown_means_silent_state :
  forall s, st_retrans (fst (fst (exec_shutdown s))) = [] /\ st_owners (fst (fst (exec_shutdown s))) = []
  /\ snd (exec_shutdown s) = map (fun e => (ow_ch (snd e), EStopped (snd (fst e)))) (st_owners s).
Proof. intros s. unfold exec_shutdown. simpl. auto. Qed.

(* a cache-only browse never sends a query and never queues one *)
Theorem cache_only_browse_sends_nothing :
  forall now ty ch s,
  snd (fst (exec_start now false ty true None ch s)) = []
  /\ forall r, In r (st_retrans (fst (fst (exec_start now false ty true None ch s)))) -> In r (st_retrans s).
Proof.
  intros now ty ch s. rewrite exec_start_eq. split; [reflexivity|]. intros r Hr.
  apply in_retrans_rekey in Hr as [[Hr _]|[]]. exact Hr.
Qed.

(* finding C13-timeout-late-rerun: the deadline 1003001 and the retransmission of 1003000 are both
   noticed at 1003005 *)
Definition host_w : name := [77; 121; 46; 108; 111; 99; 97; 108; 46].      (* "My.local." *)
Definition late_timeout_history : list iter :=
  [ mkIter 1000000 [ResolveHostname host_w (Some 3001) 1];
    mkIter 1001000 [];
    mkIter 1003005 [];
    mkIter 1007005 [] ].

(* in the iteration at 1003005 channel 1 receives SearchTimeout, SearchStopped and nothing more;
   no query leaves there or later *)
Example late_timeout_now_stops :
  wf_hist 1000000 late_timeout_history = true
  /\ chk_C13 1000000 late_timeout_history (model_run 1000000 late_timeout_history) = true
  /\ map (fun o => events_on 1 (o_events o)) (model_run 1000000 late_timeout_history)
     = [ []; [EStarted host_w]; [EStarted host_w]; [ETimeout (lower host_w); EStopped (lower host_w)]; [] ]
  /\ map (fun o => length (o_sent o)) (model_run 1000000 late_timeout_history) = [0; 1; 1; 0; 0]%nat.
Proof. vm_compute. repeat split; reflexivity. Qed.

(* non-vacuity: browse, re-browse on a new channel, cache-only browse, mixed-case stop, timeout
   on time, shutdown *)
Definition ty_w : name := [95; 104; 46; 95; 116; 99; 112; 46; 108; 111; 99; 97; 108; 46].  (* "_h._tcp.local." *)
Definition host_up : name := [77; 89; 46; 108; 111; 99; 97; 108; 46].       (* "MY.local." *)
Definition sample_history : list iter :=
  [ mkIter 1000000 [Browse ty_w 1; ResolveHostname host_w (Some 10000) 2; ResolveHostname host_up (Some 1000) 3];
    mkIter 1001000 [BrowseCache [95; 99] 4];
    mkIter 1001500 [Browse ty_w 5];
    mkIter 1002500 [];
    mkIter 1003000 [StopResolveHostname host_w; ResolveHostname host_w None 6];
    mkIter 1004000 [StopBrowse ty_w; StopBrowse ty_w];
    mkIter 1009000 [Shutdown; Browse ty_w 7] ].

Example C13_nonvacuous :
  wf_hist 1000000 sample_history = true
  /\ chk_C13 1000000 sample_history (model_run 1000000 sample_history) = true
  /\ map (fun o => events_on 3 (o_events o)) (model_run 1000000 sample_history)
     = [ []; [EStarted host_up]; [ETimeout (lower host_up); EStopped (lower host_up)]; []; []; []; []; [] ]
  /\ map (fun o => events_on 5 (o_events o)) (model_run 1000000 sample_history)
     = [ []; []; []; [EStarted ty_w]; [EStarted ty_w]; []; [EStopped ty_w]; [] ].
Proof. vm_compute. repeat split; reflexivity. Qed.

Print Assumptions C13_monitor_holds.
Print Assumptions no_retransmission_without_search.
Print Assumptions stopped_means_silent_state.
Print Assumptions stop_host_any_case.
Print Assumptions timeout_means_silent_state.
Print Assumptions shutdown_means_silent_state.
Print Assumptions cache_only_browse_sends_nothing.
Print Assumptions late_timeout_now_stops.
Print Assumptions C13_nonvacuous.
