(* C08  Name conflicts resolve to one winner and a consistent new name for the loser.
   Only statements here, each closed in a line or two.

   Models: DnsRecordExt::compare / compare_rdata (Registry.compare_rr), Probe::tiebreaking
   (Registry.tb_cmp, tiebreak), name_change / hostname_change (Model/Names.v), the use of names in
   announcements (RegistryDaemon.prepare_announce).  Records are Rec.rr: class (without the
   cache-flush bit), type, rdata; `well_typed` = the rdata struct is the one the decoder and the
   daemon use for that type (A/AAAA address, PTR/CNAME pointer, SRV, TXT, HINFO, NSEC). *)
From Coq Require Import List NArith.
From Mdns Require Import Bytes Rec ParamsRegistry Names Registry RegistryDaemon RegistrySpec RegistryParamsPinned
     NamesProofs RegistryCmpProofs RegistryProofs RegistryDaemonProofs RegistryLiftProofs RegistryHistoryProofs
     RegistryDeferralProofs RegistryWitnesses RegistryWitnessProofs.
Import ListNotations.
Open Scope N_scope.

(* regenerated from the Rust on every run: tie-break only after the probe started
   (`start_time >= now` returns), the loser restarts at now + 1000, new probes after a conflict
   start at now + 0..250, the numeric suffix is increased by checked_add(1) *)
Theorem C08_constants :
  (forall start now, tiebreak_not_started start now = (now <=? start)) /\
  (forall now, tiebreak_defer_start now = now + 1000 /\ tiebreak_defer_next now = now + 1000) /\
  jitter_bound_conflict = 250 /\ name_suffix_step = 1 /\ host_suffix_step = 1.
Proof. exact c08_constants. Qed.

(* Equal exactly on equal class, type and rdata (owner name and TTL do not take part) - all records. *)
Theorem C08_compare_refl_iff : forall a b,
  compare_rr a b = Eq <-> r_class a = r_class b /\ r_type a = r_type b /\ r_data a = r_data b.
Proof. exact compare_rr_eq. Qed.

(* Both sides reach opposite verdicts - all well-typed records. *)
Theorem C08_compare_antisym : forall a b,
  well_typed a = true -> well_typed b = true -> compare_rr a b = CompOpp (compare_rr b a).
Proof. exact compare_rr_antisym. Qed.

Theorem C08_compare_trans : forall a b c,
  well_typed a = true -> well_typed b = true -> well_typed c = true ->
  compare_rr a b = Lt -> compare_rr b c = Lt -> compare_rr a c = Lt.
Proof.
  intros a b c Ha Hb Hc. unfold compare_rr. apply (lex_trans _ N_cmp_ok). intros _ _.
  apply (lex_trans _ N_cmp_ok). intros E1 E2. apply compare_rdata_trans; apply well_typed_kind; auto.
Qed.

(* The typing hypothesis is needed: compare_rdata answers Greater when the other record is a
   different Rust struct, so two ill-typed records of equal class and type are each "later". *)
Theorem C08_compare_antisym_without_typing_refuted :
  exists a b, r_class a = r_class b /\ r_type a = r_type b /\ compare_rr a b = Gt /\ compare_rr b a = Gt.
Proof.
  exists (mkRR [97] 1 1 true 120 (RAddr [1;2;3;4])), (mkRR [97] 1 1 true 120 (RPtr [97])). repeat split; reflexivity.
Qed.

(* Simultaneous probes: the record lists are compared pairwise up to the shorter length, then by length. *)
Theorem C08_tiebreak_opposite : forall mine theirs,
  all_typed mine -> all_typed theirs ->
  (tb_cmp mine theirs = Lt <-> tb_cmp theirs mine = Gt) /\
  (tb_cmp mine theirs = Gt <-> tb_cmp theirs mine = Lt) /\
  (tb_cmp mine theirs = Eq <-> tb_cmp theirs mine = Eq).
Proof.
  intros mine theirs Hm Ht. rewrite (tb_cmp_antisym mine theirs Hm Ht).
  destruct (tb_cmp theirs mine); simpl; repeat split; intros H; try discriminate; reflexivity.
Qed.

(* a draw only for the same data (class, type, rdata of every record, same number of records) *)
Theorem C08_tiebreak_equal_iff_same_data : forall mine theirs,
  tb_cmp mine theirs = Eq <-> map rr_key mine = map rr_key theirs.
Proof. exact tb_cmp_eq. Qed.

(* the loser - and only a prober whose probe has started - restarts one second later *)
Theorem C08_lost_defers_1s : forall p incoming now,
  pb_start p < now -> tb_cmp (map p_rr (pb_records p)) incoming = Lt ->
  tiebreak p incoming now = mkProbe (pb_records p) (pb_waiting p) (now + 1000) (now + 1000).
Proof. intros p incoming now H L. rewrite tiebreak_spec, L. apply N.leb_gt in H. rewrite H. reflexivity. Qed.

Theorem C08_winner_unaffected : forall p incoming now,
  tb_cmp (map p_rr (pb_records p)) incoming <> Lt -> tiebreak p incoming now = p.
Proof. intros p incoming now L. rewrite tiebreak_spec. destruct (tb_cmp _ _); congruence. Qed.

Theorem C08_no_tiebreak_before_start : forall p incoming now,
  now <= pb_start p -> tiebreak p incoming now = p.
Proof.
  intros p incoming now H. rewrite tiebreak_spec. apply N.leb_le in H. rewrite H. destruct (tb_cmp _ _); reflexivity.
Qed.

(* Renaming, on all byte strings (vocabulary of Proofs/NamesProofs.v).
   plain x: no '.' and no '\' in x; starts_dot_or_empty r: r is "" or begins with '.';
   no_byte b x: b does not occur in x; all_digits ds: ASCII digits; digits_val: their decimal value;
   dec n: n printed in decimal; SUFFIX2 = " (2)". *)

(* 'x.<rest>' -> 'x (2).<rest>' when x has no " (" *)
Theorem C08_name_change_fresh : forall x rest,
  plain x -> starts_dot_or_empty rest -> rsplit2 C_SP C_LP x = None -> (length x + 4 <= 63)%nat ->
  name_change (x ++ rest) = x ++ SUFFIX2 ++ rest.
Proof. exact name_change_fresh. Qed.

(* 'x (n).<rest>' -> 'x (n+1).<rest>' for every digit string n below u32::MAX and every plain x of at most 20 bytes *)
Theorem C08_name_change_increment : forall x ds rest,
  plain x -> starts_dot_or_empty rest ->
  ds <> [] -> all_digits ds -> digits_val ds < 4294967295 -> (length x <= 20)%nat ->
  name_change (x ++ [C_SP; C_LP] ++ ds ++ [C_RP] ++ rest)
  = x ++ [C_SP; C_LP] ++ dec (digits_val ds + 1) ++ [C_RP] ++ rest.
Proof. exact name_change_increment. Qed.

(* at 4294967295 the number cannot grow: ' (2)' is appended instead (no overflow) *)
Theorem C08_name_change_at_u32_max : forall x ds rest,
  plain x -> starts_dot_or_empty rest ->
  ds <> [] -> all_digits ds -> digits_val ds = 4294967295 -> (length x + length ds + 7 <= 63)%nat ->
  name_change (x ++ [C_SP; C_LP] ++ ds ++ [C_RP] ++ rest)
  = x ++ [C_SP; C_LP] ++ ds ++ [C_RP] ++ SUFFIX2 ++ rest.
Proof. exact name_change_at_max. Qed.

(* 'x' -> 'x (2)' -> 'x (3)' *)
Theorem C08_name_change_twice : forall x rest,
  plain x -> starts_dot_or_empty rest -> rsplit2 C_SP C_LP x = None -> (length x <= 20)%nat ->
  name_change (name_change (x ++ rest)) = x ++ [C_SP; C_LP; 51; C_RP] ++ rest.
Proof. exact name_change_twice. Qed.

(* 'h.<rest>' -> 'h-2.<rest>' -> 'h-3.<rest>', 'h-n' -> 'h-(n+1)' *)
Theorem C08_hostname_change_fresh : forall x rest,
  plain x -> starts_dot_or_empty rest -> no_byte C_HY x -> (length x + 2 <= 63)%nat ->
  hostname_change (x ++ rest) = x ++ [C_HY; 50] ++ rest.
Proof. exact hostname_change_fresh. Qed.

Theorem C08_hostname_change_increment : forall x ds rest,
  plain x -> starts_dot_or_empty rest ->
  ds <> [] -> all_digits ds -> digits_val ds < 4294967295 -> (length x <= 20)%nat ->
  hostname_change (x ++ [C_HY] ++ ds ++ rest) = x ++ [C_HY] ++ dec (digits_val ds + 1) ++ rest.
Proof. exact hostname_change_increment. Qed.

Theorem C08_hostname_change_at_u32_max : forall x ds rest,
  plain x -> starts_dot_or_empty rest ->
  ds <> [] -> all_digits ds -> digits_val ds = 4294967295 -> (length x + length ds + 3 <= 63)%nat ->
  hostname_change (x ++ [C_HY] ++ ds ++ rest) = x ++ [C_HY] ++ ds ++ [C_HY; 50] ++ rest.
Proof. exact hostname_change_at_max. Qed.

Theorem C08_hostname_change_twice : forall x rest,
  plain x -> starts_dot_or_empty rest -> no_byte C_HY x -> (length x <= 20)%nat ->
  hostname_change (hostname_change (x ++ rest)) = x ++ [C_HY; 51] ++ rest.
Proof. exact hostname_change_twice. Qed.

(* the printed number reads back as itself (so counting continues from what was written) *)
Theorem C08_suffix_roundtrip : forall n, n <= 4294967295 -> parse_u32 (dec n) = Some n.
Proof.
  intros n Hn. destruct (dec_spec n (N.le_le_succ_r _ _ Hn)) as (ds & -> & Hd & Hne & Hv).
  rewrite parse_u32_digits; auto; rewrite Hv; auto.
Qed.

(* STILL ENCODABLE, for EVERY input: after either rename everything from the
   first UNESCAPED dot on is what it was (rename_keeps_rest) and the new first label - the text up to
   the first unescaped dot of the RESULT - is at most 63 bytes on the wire (first_label_encodable):
   label_with_suffix shortens the base, and the suffix closes any escape the cut left open. *)
Theorem C08_still_encodable : forall s,
  rename_keeps_rest s (name_change s) = true /\ first_label_encodable (name_change s) = true /\
  rename_keeps_rest s (hostname_change s) = true /\ first_label_encodable (hostname_change s) = true.
Proof. intros s. destruct (name_change_encodable s), (hostname_change_encodable s). auto. Qed.

(* ... in terms of the text: what is put in front of the old rest is at most 63 bytes long *)
Theorem C08_renamed_label_text_63 : forall s,
  (exists nf, name_change s = nf ++ snd (split_first_label s) /\ (length nf <= 63)%nat) /\
  (exists nf, hostname_change s = nf ++ snd (split_first_label s) /\ (length nf <= 63)%nat).
Proof. split; apply renamed_with_fits; [apply name_change_renamed|apply hostname_change_renamed]. Qed.

(* inputs at the limits: a 60-byte instance label, a 62-byte host label, an escaped dot *)
Theorem C08_former_rename_witnesses :
  first_label_encodable (name_change (repeat 110 60 ++ [46; 95; 116; 46; 108; 111; 99; 97; 108; 46])) = true /\
  rename_keeps_rest (repeat 110 60 ++ [46; 95; 116; 46; 108; 111; 99; 97; 108; 46])
                    (name_change (repeat 110 60 ++ [46; 95; 116; 46; 108; 111; 99; 97; 108; 46])) = true /\
  first_label_encodable (hostname_change (repeat 104 62 ++ [46; 108; 111; 99; 97; 108; 46])) = true /\
  name_change [77;121;92;46;83;118;99;46;95;116;46;95;116;99;112;46;108;111;99;97;108;46]
  = [77;121;92;46;83;118;99;32;40;50;41;46;95;116;46;95;116;99;112;46;108;111;99;97;108;46].
Proof.
  split; [apply name_change_encodable|]. split; [apply name_change_encodable|].
  split; [apply hostname_change_encodable|]. vm_compute. reflexivity.
Qed.

(* Announcements use the current names: owner of SRV/TXT = resolved full name, owner of the
   address records = resolved host name (PTR target and SRV target likewise, by the shape of the
   packet in C07_announce_requires_active). *)
Theorem C08_announcement_names_resolved : forall rg s i v4,
  Forall (fun r => p_name r = resolve_name rg (s_full s) \/ p_name r = resolve_name rg (s_host s))
         (announce_records rg s i v4).
Proof. exact announce_names_resolved. Qed.

(* Goodbyes use the current names: the goodbye packet IS the specification's
   packet with resolved = true - PTR target, SRV/TXT owner, SRV target, address owner resolved
   through the interface's registry. *)
Theorem C08_goodbye_names_resolved : forall rg s addrs, goodbye_msg rg s addrs = spec_goodbye_msg rg true s addrs.
Proof. reflexivity. Qed.

(* Direct answers use the current names: an instance question is answered
   only by the service whose CURRENT full name it names (letter case aside) ... *)
Theorem C08_direct_answer_current_name : forall st g itf rg qn qt,
  answer_instance_question st g itf rg qn qt <> ([], []) ->
  exists ks, In ks (d_svcs st) /\ lower (resolve_name rg (s_full (snd ks))) = lower qn.
Proof. exact instance_answer_current_name. Qed.

(* ... and the SRV target and the owner of the additional address records are the host name that
   service currently holds. *)
Theorem C08_direct_answer_current_host : forall st g itf rg qn qt an ar,
  answer_instance_question st g itf rg qn qt = (an, ar) ->
  exists host, (forall r, In r ar -> r_name r = host) /\
               (forall r p w o h, In r an -> r_data r = RSrv p w o h -> h = host) /\
               (an = [] /\ ar = [] \/ exists ks, In ks (d_svcs st) /\ host = resolve_name rg (s_host (snd ks))).
Proof. exact instance_answer_current_host. Qed.

(* chk_C08 accepts the model's runs of the witness histories: renamed instance + goodbye, renamed
   host + SRV question, 62-byte label + conflict, mixed-case instance + question for the old name *)
Theorem C08_former_witnesses_accepted :
  self8 w_renamed_ifs w_renamed_its = [] /\ self8 w_hostrenamed_ifs w_hostrenamed_its = [] /\
  self8 w_longlabel_ifs w_longlabel_its = [] /\ self8 w_mixedcase_ifs w_mixedcase_its = [].
Proof. vm_compute. repeat split. Qed.

(* The length rule of the tie-break on the daemon model: a competing probe whose record list
   extends the daemon's own (equal on the common prefix) wins; the daemon's next probe query for the
   name comes one second later. *)
Theorem C08_prefix_loses_and_defers :
  self8 w_prefix_lost_ifs w_prefix_lost_its = [] /\
  wire_probe_times 2 n_inst (d_init w_prefix_lost_ifs) w_prefix_lost_its = [1000145; 1001300; 1001550; 1001800].
Proof. split; vm_compute; reflexivity. Qed.

(* "after a lost comparison it waits one second" is FALSE when a host-name conflict follows within
   that second: update_hostname restarts the instance name's probe at now + 0..250
   (chk_C08 code 30; witness run on the real daemon: tie-break lost at +471 ms, instance name probed
   again at +696 ms). *)
Theorem C08_restart_cancels_deferral_refuted : only_known 30 (self8 w_skipreprobe_ifs w_skipreprobe_its).
Proof. eapply only_known_of; [vm_compute; reflexivity|discriminate|reflexivity]. Qed.

(* Clause 29 of chk_C08 over histories.
   deferred n D rg = the probing names of rg are pairwise different and the probe for n exists with
   next_send >= D.  A lost tie-break at `now` leaves the probe deferred to now + 1000 ... *)
Theorem C08_lost_tiebreak_leaves_probe_deferred : forall rg qn incoming now pb,
  NoDup (keys (rg_probing rg)) -> aget qn (rg_probing rg) = Some pb ->
  tiebreak_not_started (pb_start pb) now = false -> tb_cmp (map p_rr (pb_records pb)) incoming = Lt ->
  deferred qn (now + 1000) (apply_tiebreak rg qn incoming now).
Proof. exact lost_tiebreak_defers. Qed.

(* ... and AFTER ANY HISTORY of the daemon model (responses, interface toggles, unregister - anything
   before), once the probe for n on interface k is deferred to D: through every sequence of
   iterations at times in [D - 1000, D) that bring only queries (competing probes, further lost
   tie-breaks included) and register / monitor / shutdown calls, NO probe query for n goes out on
   interface k.
   `_partial`: the iterations of that second are restricted to plain ones - no response datagram at
   all (not only the host-name conflict of the known class C08-host-rename-cancels-tiebreak-deferral,
   C08_restart_cancels_deferral_refuted), no enable/disable_interface, no unregister (a forgotten
   and re-registered name, or a re-created interface, legitimately starts a new probe at once). *)
Theorem C08_deferral_respected_partial : forall ifs os pre k n D its,
  NoDup (map if_index ifs) ->
  let st := run_state (d_init_os ifs os) pre in
  (exists p, aget n (rg_probing (get_reg st k)) = Some p /\ D <= pb_next p) ->
  Forall plain_iter its -> Forall (fun it => it_now it < D /\ D <= it_now it + 1000) its ->
  wire_probe_times k n st its = [].
Proof. exact deferral_respected_after_any_history. Qed.

(* a side condition used above holds in every reachable state: interface indexes pairwise different
   (the other one, probing names pairwise different, is C12R_probing_names_distinct_all_histories) *)
Theorem C08_interface_indexes_distinct_all_histories : forall ifs os, NoDup (map if_index ifs) ->
  forall its, NoDup (map if_index (d_intfs (run_state (d_init_os ifs os) its))).
Proof. exact intfs_nodup_all_histories. Qed.

(* non-vacuity on w_prefix_lost: after the lost tie-break at +300 ms the probe is due at +1300 ms;
   iterations at +500, +1000, +1299 ms send no probe query for the name, the one at +1300 ms does *)
Example C08_deferral_example :
  option_map pb_next (aget n_inst (rg_probing (get_reg (state_after w_prefix_lost_ifs w_prefix_lost_its 3) 2))) = Some 1001300 /\
  wire_probe_times 2 n_inst (state_after w_prefix_lost_ifs w_prefix_lost_its 3) [idle 1000500; idle 1001000; idle 1001299] = [] /\
  wire_probe_times 2 n_inst (state_after w_prefix_lost_ifs w_prefix_lost_its 3) [idle 1000500; idle 1001300] = [1001300].
Proof. vm_compute. repeat split. Qed.

(* A conflict or a lost tie-break never makes probe queries of one series come closer than 250 ms:
   that is C07_probe_spacing_all_schedules, whose operation sequences include OConflict and OTiebreak.

   NOT proved (validated by simulation, monitor c08_final): "two daemons claiming the same name
   over a loss-free link always end with exactly one of them holding the original name and both
   announced"; it stays FALSE for instance names with an escaped dot (known finding
   C08-escaped-dot-conflict-undetected).  Also not proved as a theorem over all histories: that
   chk_C08 accepts every run of the daemon model (the monitor is run on the model's own output for
   every generated history). *)

(* Non-vacuity: well-typed records that compare Less / Greater / Equal; a tie-break that is lost. *)
Example C08_compare_example :
  let a := mkRR [97] TY_SRV 1 true 120 (RSrv 0 0 80 [104]) in
  let b := mkRR [97] TY_SRV 1 true 120 (RSrv 0 0 81 [104]) in
  let t := mkRR [97] TY_TXT 1 true 4500 (RTxt [0]) in
  well_typed a = true /\ well_typed b = true /\ well_typed t = true /\
  compare_rr a b = Lt /\ compare_rr b a = Gt /\ compare_rr t a = Lt /\
  tb_cmp [t; a] [t; b] = Lt /\ tb_cmp [t; b] [t; a] = Gt /\ tb_cmp [t] [t; a] = Lt /\
  tiebreak (mkProbe [mkP t None 0; mkP a None 0] [] 1000 1250) [t; b] 1100
  = mkProbe [mkP t None 0; mkP a None 0] [] 2100 2100.
Proof. vm_compute. repeat split; reflexivity. Qed.

Print Assumptions C08_constants.
Print Assumptions C08_compare_refl_iff.
Print Assumptions C08_compare_antisym.
Print Assumptions C08_compare_trans.
Print Assumptions C08_compare_antisym_without_typing_refuted.
Print Assumptions C08_tiebreak_opposite.
Print Assumptions C08_tiebreak_equal_iff_same_data.
Print Assumptions C08_lost_defers_1s.
Print Assumptions C08_winner_unaffected.
Print Assumptions C08_no_tiebreak_before_start.
Print Assumptions C08_name_change_fresh.
Print Assumptions C08_name_change_increment.
Print Assumptions C08_name_change_at_u32_max.
Print Assumptions C08_name_change_twice.
Print Assumptions C08_hostname_change_fresh.
Print Assumptions C08_hostname_change_increment.
Print Assumptions C08_hostname_change_at_u32_max.
Print Assumptions C08_hostname_change_twice.
Print Assumptions C08_suffix_roundtrip.
Print Assumptions C08_still_encodable.
Print Assumptions C08_renamed_label_text_63.
Print Assumptions C08_former_rename_witnesses.
Print Assumptions C08_announcement_names_resolved.
Print Assumptions C08_goodbye_names_resolved.
Print Assumptions C08_direct_answer_current_name.
Print Assumptions C08_direct_answer_current_host.
Print Assumptions C08_former_witnesses_accepted.
Print Assumptions C08_prefix_loses_and_defers.
Print Assumptions C08_restart_cancels_deferral_refuted.
Print Assumptions C08_lost_tiebreak_leaves_probe_deferred.
Print Assumptions C08_deferral_respected_partial.
Print Assumptions C08_interface_indexes_distinct_all_histories.
Print Assumptions C08_deferral_example.
Print Assumptions C08_compare_example.
